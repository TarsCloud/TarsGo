(* The independent reference decoder maps the wire tree of every well-typed value back to the value (its normal form). *)
From Coq Require Import List NArith ZArith Lia Bool Arith.
From Coq Require Import ZifyN ZifyNat ZifyBool.
From TarsV Require Import Gen.Consts Base.Hex Codec.Wire Codec.WireProofs Codec.Skip Codec.SkipProofs Codec.Prim
  Codec.PrimProofs Codec.GenCodec Codec.Corr Codec.GenProofs Codec.RoundTrip Codec.RoundTripProofs Codec.WireSpec
  Codec.WireSpecProofs Codec.PrefixGenProofs Codec.PrefixProofs Codec.EvolveProofs Codec.CanonProofs.
From TarsV Require Import Codec.RefDecoder.
Import ListNotations.
Open Scope N_scope.

(* the inner loops of [unwire], which are local fixpoints there *)
Fixpoint unwire_elems (f : nat) (e : env) (x : ty) (l : list (N * wf)) : option (list val) :=
  match l with
  | [] => Some []
  | p :: r => match unwire f e x (snd p), unwire_elems f e x r with Some v, Some vs => Some (v :: vs) | _, _ => None end
  end.
Fixpoint unwire_entries (f : nat) (e : env) (kt vt : ty) (m : list ((N * wf) * (N * wf))) : option (list (val * val)) :=
  match m with
  | [] => Some []
  | p :: r => match unwire f e kt (snd (fst p)), unwire f e vt (snd (snd p)), unwire_entries f e kt vt r with
              | Some k, Some v, Some kvs => Some ((k, v) :: kvs) | _, _, _ => None end
  end.
Fixpoint unwire_fields (f : nat) (e : env) (fds : schema) (fs : list (N * wf)) : option (list val) :=
  match fds with
  | [] => match fs with [] => Some [] | _ => None end
  | fd :: fds' =>
      match fs with
      | (tg, x) :: fs' =>
          if tg =? ftag fd then
            match unwire f e (fty fd) x, unwire_fields f e fds' fs' with Some v, Some vs => Some (v :: vs) | _, _ => None end
          else if freq fd then None
          else match unwire_fields f e fds' fs with Some vs => Some (ref_default e fd :: vs) | None => None end
      | [] => if freq fd then None
              else match unwire_fields f e fds' [] with Some vs => Some (ref_default e fd :: vs) | None => None end
      end
  end.

Lemma unwire_vec f e x l : unwire (S f) e (TVec x) (WList l) =
  match unwire_elems f e x l with Some vs => Some (list_val x vs) | None => None end.
Proof.
  cbn [unwire]. match goal with |- match ?a with _ => _ end = match ?b with _ => _ end => assert (E : a = b) end.
  { induction l as [|p r IH]; cbn [unwire_elems]; [reflexivity|]. now rewrite IH. }
  now rewrite E.
Qed.
Lemma unwire_arr f e n x l : unwire (S f) e (TArr n x) (WList l) =
  match unwire_elems f e x l with Some vs => if (length vs =? n)%nat then Some (VList vs) else None | None => None end.
Proof.
  cbn [unwire]. match goal with |- match ?a with _ => _ end = match ?b with _ => _ end => assert (E : a = b) end.
  { induction l as [|p r IH]; cbn [unwire_elems]; [reflexivity|]. now rewrite IH. }
  now rewrite E.
Qed.
Lemma unwire_map f e kt vt m : unwire (S f) e (TMap kt vt) (WMap m) =
  match unwire_entries f e kt vt m with Some kvs => Some (VMap kvs) | None => None end.
Proof.
  cbn [unwire]. match goal with |- match ?a with _ => _ end = match ?b with _ => _ end => assert (E : a = b) end.
  { induction m as [|p r IH]; cbn [unwire_entries]; [reflexivity|]. now rewrite IH. }
  now rewrite E.
Qed.
Lemma unwire_struct f e sid fs : unwire (S f) e (TStruct sid) (WStruct fs) =
  match unwire_fields f e (fields_of e sid) fs with Some vs => Some (VStruct vs) | None => None end.
Proof.
  cbn [unwire]. match goal with |- match ?a with _ => _ end = match ?b with _ => _ end => assert (E : a = b) end.
  { generalize (fields_of e sid). intros fds. revert fs. induction fds as [|fd fds IH]; intros fs; cbn [unwire_fields]; [reflexivity|].
    destruct fs as [|[tg x] fs']; rewrite ?IH; reflexivity. }
  now rewrite E.
Qed.

Lemma unint_wint z : fits 64 z = true -> unint (wint z) = Some z.
Proof.
  intros H. unfold wint. destruct (z =? 0)%Z eqn:E0; [cbn; f_equal; lia|].
  destruct (fits 8 z) eqn:F8; [cbn [unint]; now rewrite (sext_wrapu 8) by (reflexivity || assumption)|].
  destruct (fits 16 z) eqn:F16; [cbn [unint]; now rewrite (sext_wrapu 16) by (reflexivity || assumption)|].
  destruct (fits 32 z) eqn:F32; [cbn [unint]; now rewrite (sext_wrapu 32) by (reflexivity || assumption)|].
  cbn [unint]. now rewrite (sext_wrapu 64) by (reflexivity || assumption).
Qed.

Lemma unwire_scalar f e t v : scalar_ty t = true -> sc_typed t v -> unwire (S f) e t (wire_of e t v) = Some v.
Proof.
  intros Hs Hty. destruct t; try discriminate; destruct v; cbn [sc_typed] in Hty; try contradiction; cbn [unwire wire_of];
    try (rewrite unint_wint by first [eapply fits_wider; [|eassumption]; lia | unfold fits; lia]; reflexivity); try reflexivity.
  - rewrite unint_wint by (destruct b; reflexivity). destruct b; reflexivity.
  - unfold wstr. destruct (_ <=? 255); reflexivity.
Qed.

Definition ref_default' (t : ty) (d : option val) : val :=
  match d with Some dv => dv | None => match t with
    | TBool => VBool false | TF32 | TF64 => VFlt 0 | TStr => VStr [] | TVec TI8 => VBytes [] | TVec _ => VList [] | TMap _ _ => VMap []
    | _ => VInt 0 end end.
Lemma ref_default_eq e fd : ref_default e fd = ref_default' (fty fd) (fdef fd).
Proof. reflexivity. Qed.
Lemma left_out_default e t req d x : has_type e t x -> (d <> None -> scalar_ty t = true) -> left_out t req d x = true ->
  norm e t req d x = ref_default' t d.
Proof.
  intros Hty Hd Hl.
  (* only scalar members have declared defaults *)
  assert (Hdn : scalar_ty t = false -> d = None) by (intros Hs; destruct d; [rewrite Hd in Hs by discriminate; discriminate|reflexivity]).
  inversion Hty; subst; try rewrite (Hdn eq_refl) in *.
  - rewrite left_out_scalar in Hl by assumption. rewrite norm_scalar by assumption. rewrite Hl. unfold ref_default'.
    destruct d; [reflexivity|]. destruct t; try discriminate; reflexivity.
  - cbn [left_out] in Hl. apply andb_true_iff in Hl. destruct Hl as [_ Hl]. destruct s; [reflexivity|discriminate].
  - cbn [left_out] in Hl. apply andb_true_iff in Hl. destruct Hl as [_ Hl]. destruct xs; [|discriminate].
    rewrite norm_vec. cbn [norm_elems ref_default']. destruct x0; try reflexivity. congruence.
  - cbn [left_out] in Hl. apply andb_true_iff in Hl. destruct Hl as [_ Hl]. destruct xs; [cbn [length] in *; lia|discriminate].
  - cbn [left_out] in Hl. apply andb_true_iff in Hl. destruct Hl as [_ Hl]. destruct kvs; [|discriminate].
    rewrite norm_map. reflexivity.
  - discriminate.
Qed.

Section Ref.
Variable e : env.
Variable k : nat.
Hypothesis Hwf : wf_schema k e.

Definition R_var (n : nat) : Prop := forall t v, has_type e t v -> (need v <= n)%nat ->
  unwire n e t (wire_of e t v) = Some (norm e t true None v).
Definition R_elems (n : nat) : Prop := forall x xs, Forall (has_type e x) xs -> (need_list xs <= n)%nat ->
  unwire_elems n e x (wire_elems e x xs) = Some (norm_elems e x xs).
Definition R_entries (n : nat) : Prop := forall kt vt kvs,
  Forall (fun p => has_type e kt (fst p) /\ has_type e vt (snd p)) kvs -> (need_entries kvs <= n)%nat ->
  unwire_entries n e kt vt (wire_entries e kt vt kvs) = Some (norm_entries e kt vt kvs).
Definition R_fields (n : nat) : Prop := forall fds vs lo, Forall2 (fun fd x => has_type e (fty fd) x) fds vs ->
  asc_opt lo fds -> (forall fd, In fd fds -> fdef fd <> None -> scalar_ty (fty fd) = true) -> (need_list vs <= n)%nat ->
  unwire_fields n e fds (wire_fields e vs fds) = Some (norm_fields e vs fds).

Lemma norm_scalar_id t v : scalar_ty t = true -> sc_typed t v -> norm e t true None v = v.
Proof. intros Hs Hty. rewrite norm_scalar by assumption. unfold omit. destruct t; reflexivity. Qed.

Lemma tags_above_head lo fds vs : asc_opt lo fds -> forall fd, (match lo with Some l => ftag fd <= l | None => False end) ->
  match wire_fields e vs fds with (tg, _) :: _ => (tg =? ftag fd) = false | [] => True end.
Proof.
  intros Hasc fd Hle. pose proof (wire_fields_tags e fds vs) as Ht. destruct (wire_fields e vs fds) as [|[tg w] r]; [exact I|].
  inversion Ht as [|? ? (fd0 & Hin & E) _]; subst. cbn [fst] in E. destruct lo as [l|]; [|contradiction].
  destruct (asc_opt_all (Some l) fds Hasc fd0 Hin) as [A _]. cbn [above] in A. apply N.eqb_neq. lia.
Qed.

Lemma norm_true_d t d v : has_type e t v -> norm e t true d v = norm e t true None v.
Proof.
  intros Hty. inversion Hty; subst.
  - rewrite !norm_scalar by assumption. assert (Ho : forall d', omit t true d' v = false) by (intros; unfold omit; destruct t; reflexivity). now rewrite !Ho.
  - reflexivity.
  - now rewrite !norm_vec.
  - now rewrite !norm_arr.
  - now rewrite !norm_map.
  - now rewrite !norm_str.
Qed.

Lemma ref_all : forall n, R_var n /\ R_elems n /\ R_entries n /\ R_fields n.
Proof.
  induction n as [|n (HV & HE & HM & HF)].
  { repeat split.
    - intros t v _ Hn. pose proof (need_ge v). lia.
    - intros x xs _ Hn. pose proof (need_list_ge xs). lia.
    - intros kt vt kvs _ Hn. pose proof (need_entries_ge kvs). lia.
    - intros fds vs lo _ _ _ Hn. pose proof (need_list_ge vs). lia. }
  assert (HV' : R_var (S n)).
  { intros t v Hty Hn. inversion Hty; subst.
    - rewrite norm_scalar_id by assumption. now apply unwire_scalar.
    - reflexivity.
    - rewrite wire_of_vec, norm_vec, unwire_vec. rewrite need_VList in Hn. rewrite (HE x xs) by (try assumption; lia).
      destruct x; try reflexivity. congruence.
    - rewrite wire_of_arr, norm_arr, unwire_arr. rewrite need_VList in Hn. rewrite (HE x xs) by (try assumption; lia).
      rewrite norm_elems_length, Nat.eqb_refl. reflexivity.
    - rewrite wire_of_map, norm_map, unwire_map. rewrite need_VMap in Hn. rewrite (HM kt vt kvs) by (try assumption; lia). reflexivity.
    - rewrite wire_of_struct, norm_str, unwire_struct. rewrite need_VStruct in Hn.
      rewrite (HF (fields_of e sid) vs None); try assumption; try lia; [reflexivity|apply (wf_asc k e Hwf)|apply (wf_def k e Hwf)]. }
  split; [exact HV'|]. split; [|split].
  - intros x xs Hty. induction Hty as [|y r Hy Hr IH]; intros Hn; [reflexivity|]. cbn [wire_elems unwire_elems norm_elems need_list snd] in *.
    rewrite (HV' x y) by (try assumption; lia). rewrite IH by lia. reflexivity.
  - intros kt vt kvs Hty. induction Hty as [|[ky y] r [Hk Hy] Hr IH]; intros Hn; [reflexivity|]. cbn [fst snd] in Hk, Hy.
    cbn [wire_entries unwire_entries norm_entries need_entries fst snd] in *.
    rewrite (HV' kt ky) by (try assumption; lia). rewrite (HV' vt y) by (try assumption; lia). rewrite IH by lia. reflexivity.
  - intros fds vs lo Hty. revert lo. induction Hty as [|fd x fds vs Hx Hvs IH]; intros lo Hasc Hd Hn; [reflexivity|].
    cbn [wire_fields norm_fields need_list] in *.
    destruct (asc_opt_cons _ _ _ Hasc) as [H256 Hasc']. change (asc_opt (Some (ftag fd)) fds) in Hasc'.
    assert (Hd' : forall fd0, In fd0 fds -> fdef fd0 <> None -> scalar_ty (fty fd0) = true) by (intros; apply Hd; [now right|assumption]).
    specialize (IH (Some (ftag fd)) Hasc' Hd' ltac:(lia)).
    destruct (left_out (fty fd) (freq fd) (fdef fd) x) eqn:El.
    + (* left out: the next wire field, if any, has a larger tag *)
      assert (Hr : freq fd = false) by (destruct (freq fd) eqn:Er; [now rewrite left_out_req in El|reflexivity]).
      rewrite (left_out_default e (fty fd) (freq fd) (fdef fd) x Hx (Hd fd (or_introl eq_refl)) El), <- (ref_default_eq e fd).
      cbn [unwire_fields]. pose proof (tags_above_head (Some (ftag fd)) fds vs Hasc' fd ltac:(cbn; lia)) as Hh.
      destruct (wire_fields e vs fds) as [|[tg w] r] eqn:Ew.
      * rewrite Hr. cbn [unwire_fields] in IH. rewrite IH. reflexivity.
      * rewrite Hh, Hr. rewrite IH. reflexivity.
    + cbn [unwire_fields]. rewrite N.eqb_refl. rewrite (HV' (fty fd) x) by (try assumption; lia). rewrite IH.
      destruct (written_req_true e (ftag fd) (fty fd) (freq fd) (fdef fd) x Hx El) as [_ En]. rewrite En. now rewrite (norm_true_d (fty fd) (fdef fd) x Hx).
Qed.

(* the reference decoder inverts the encoder's wire tree: struct level *)
Theorem ref_decodes sid vs : has_type e (TStruct sid) (VStruct vs) ->
  unwire (need (VStruct vs)) e (TStruct sid) (WStruct (wire_fields e vs (fields_of e sid))) = Some (norm_struct e sid (VStruct vs)).
Proof.
  intros Hty. destruct (ref_all (need (VStruct vs))) as (HV & _). specialize (HV (TStruct sid) (VStruct vs) Hty (le_n _)).
  rewrite wire_of_struct in HV. exact HV.
Qed.
End Ref.

(* C03, second clause as the property words it: the bytes are the serialisation of a wire tree that an independent
   schema-directed reference decoder maps back to the same value (its normal form) *)
Theorem reference_decoder e k sid vs : wf_schema k e -> has_type e (TStruct sid) (VStruct vs) ->
  let fs := wire_fields e vs (fields_of e sid) in
  encode e sid (VStruct vs) = ser_fields fs /\
  unwire (need (VStruct vs)) e (TStruct sid) (WStruct fs) = Some (norm_struct e sid (VStruct vs)).
Proof. intros Hwf Hty fs. split; [now apply encode_wire|now apply (ref_decodes e k)]. Qed.
Print Assumptions reference_decoder.
(* the reference decoder is not the identity on trees: it refuses a tree whose member sits under an undeclared tag, a
   missing required member, an integer field where a string is declared *)
Example reference_decoder_refuses :
  let e := [[ {| ftag := 0; freq := true; fty := TI32; fdef := None |}; {| ftag := 2; freq := false; fty := TStr; fdef := None |} ]] in
  unwire 5 e (TStruct 0) (WStruct [(0, WByte 5); (2, WStr1 [97])]) = Some (VStruct [VInt 5; VStr [97]]) /\
  unwire 5 e (TStruct 0) (WStruct [(0, WByte 5)]) = Some (VStruct [VInt 5; VStr []]) /\
  unwire 5 e (TStruct 0) (WStruct [(2, WStr1 [97])]) = None /\
  unwire 5 e (TStruct 0) (WStruct [(0, WByte 5); (1, WByte 1)]) = None /\
  unwire 5 e (TStruct 0) (WStruct [(0, WByte 5); (2, WByte 1)]) = None.
Proof. vm_compute. repeat split; reflexivity. Qed.
