From Coq Require Import List NArith ZArith Lia Bool Arith.
From Coq Require Import ZifyN ZifyNat ZifyBool.
From TarsV Require Import Gen.Consts Codec.Wire.
Import ListNotations.
Ltac Zify.zify_post_hook ::= Z.div_mod_to_equations.
Open Scope N_scope.

Lemma read_head2_head ty tag rest : ty < 16 -> tag < 256 ->
  read_head2 (head ty tag ++ rest) = Some (ty, tag, rest, negb (tag <? 15)).
Proof.
  intros Hty Htag. unfold head, read_head2.
  destruct (tag <? 15) eqn:E; cbn [app negb].
  - assert ((tag * 16 + ty) mod 16 = ty) as -> by lia.
    assert ((tag * 16 + ty) / 16 = tag) as -> by lia.
    destruct (tag =? 15) eqn:E2; [lia|reflexivity].
  - assert ((240 + ty) mod 16 = ty) as -> by lia.
    assert ((240 + ty) / 16 = 15) as -> by lia.
    reflexivity.
Qed.

Lemma read_head_head ty tag rest : ty < 16 -> tag < 256 ->
  read_head (head ty tag ++ rest) = Some (ty, tag, rest).
Proof. intros. unfold read_head. now rewrite read_head2_head. Qed.

Lemma head_length ty tag : (1 <= length (head ty tag) <= 2)%nat.
Proof. unfold head; destruct (tag <? 15); cbn; lia. Qed.

Lemma be_length n : forall v, length (be n v) = n.
Proof. induction n; cbn; intros; [reflexivity|]. rewrite app_length, IHn. cbn. lia. Qed.

Lemma cut_shorter {A} (s u q : list A) : s = u ++ q -> q <> [] -> (length u < length s)%nat.
Proof. intros -> Hq. rewrite app_length. destruct q; [congruence|cbn [length]; lia]. Qed.
Lemma be_prefix_short n x r q : be n x = r ++ q -> q <> [] -> (length r < n)%nat.
Proof. intros E Hq. rewrite <- (be_length n x). now apply (cut_shorter _ r q). Qed.

Lemma be_val_app l : forall acc x, be_val acc (l ++ [x]) = be_val acc l * 256 + x.
Proof. induction l as [|a l IH]; intros acc x; cbn; [reflexivity|]. apply IH. Qed.

Lemma be_val_be n : forall v acc, v < 256 ^ N.of_nat n -> be_val acc (be n v) = acc * 256 ^ N.of_nat n + v.
Proof.
  induction n; intros v acc Hv.
  - cbn in *. lia.
  - cbn [be]. rewrite be_val_app.
    assert (Hhi : v / 256 < 256 ^ N.of_nat n).
    { rewrite Nnat.Nat2N.inj_succ, N.pow_succ_r' in Hv. apply N.div_lt_upper_bound; lia. }
    rewrite IHn by assumption. rewrite Nnat.Nat2N.inj_succ, N.pow_succ_r'.
    pose proof (N.div_mod v 256 ltac:(lia)). lia.
Qed.

Lemma bread_be n v rest : v < 256 ^ N.of_nat n -> bread n (be n v ++ rest) = Some (v, rest).
Proof.
  intros Hv. unfold bread. rewrite app_length, be_length.
  destruct (n <=? n + length rest)%nat eqn:E; [|apply Nat.leb_gt in E; lia].
  rewrite firstn_app, skipn_app, be_length, Nat.sub_diag. cbn [firstn skipn].
  rewrite <- (be_length n v) at 1 3. rewrite firstn_all, skipn_all, app_nil_r. cbn [app].
  rewrite be_val_be by assumption. reflexivity.
Qed.

Lemma bread_short n bs : (length bs < n)%nat -> bread n bs = None.
Proof. intros H. unfold bread. destruct (n <=? length bs)%nat eqn:E; [apply Nat.leb_le in E; lia|reflexivity]. Qed.

Lemma be_bytes n : forall v, Forall (fun b => b < 256) (be n v).
Proof. induction n; intros v; cbn; [constructor|]. apply Forall_app; split; [apply IHn|]. constructor; [lia|constructor]. Qed.
