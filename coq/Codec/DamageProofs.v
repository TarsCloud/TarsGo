(* C06: an encoding damaged at any depth (Damage.v) is rejected. *)
From Coq Require Import List NArith ZArith Lia Bool Arith.
From Coq Require Import ZifyN ZifyNat ZifyBool.
From TarsV Require Import Gen.Consts Base.Hex Codec.Wire Codec.WireProofs Codec.Skip Codec.SkipProofs Codec.Prim
  Codec.PrimProofs Codec.GenCodec Codec.Corr Codec.GenProofs Codec.RoundTrip Codec.RoundTripProofs Codec.PrefixProofs
  Codec.WireSpec Codec.WireSpecProofs Codec.PrefixGenProofs Codec.Damage.
Import ListNotations.
Open Scope N_scope.

Lemma spot_rejected e tag t bs : spot e tag t bs -> tag < 256 -> forall f req prior, (2 * length bs + 3 <= f)%nat ->
  dec_var (S f) e tag req t prior bs = DErr.
Proof.
  intros Hs Htag f req prior Hf. destruct Hs.
  - apply (inadmissible_member e f tag req t prior None [] ty r); try assumption. apply junk_nil.
  - apply (inflated_string_member e f tag req prior None [] four l r); try assumption. apply junk_nil.
  - apply (inflated_bytes_member e f tag req x prior None [] n r); try assumption. apply junk_nil.
  - apply (inflated_list_member e f tag req x prior None [] n r); try assumption. apply junk_nil.
  - apply (inflated_map_member e f tag req kt vt prior None [] n r); try assumption. apply junk_nil.
  - apply (array_count_member e f tag req len x prior None [] n r); try assumption. apply junk_nil.
Qed.

Lemma spot_headed e tag t bs : spot e tag t bs -> headed tag bs.
Proof.
  intros Hs. destruct Hs; try (apply headed_app; first [assumption | reflexivity]).
  destruct four; rewrite <- app_assoc; apply headed_app; reflexivity.
Qed.
Lemma dmg_headed e tag t bs : dmg e tag t bs -> headed tag bs.
Proof. intros H. destruct H; try (apply headed_app; reflexivity). now apply (spot_headed e tag t). Qed.

(* the fuel the container readers need, step by step: T is what the element type needs, a the bytes of the element in front, b the rest *)
Lemma fuel_pos a b f : (a + 4 * b + 3 <= f)%nat -> exists f', f = S f'.
Proof. destruct f; [lia|eauto]. Qed.

Lemma fuel_pos2 a b f : (a + 4 * b + 3 <= f)%nat -> exists f', f = S (S f').
Proof. destruct f as [|[|f]]; [lia|lia|eauto]. Qed.

(* from a container member to its body: h the head, w the count *)
Lemma fuel_body T k (h w body : list N) f : (3 + T + k + 4 * length (h ++ w ++ body) + 3 <= S (S f))%nat ->
  (T + 1 + k + 4 * length body + 3 <= S f)%nat.
Proof. rewrite !app_length. lia. Qed.

Lemma fuel_last T k b f : (T + 1 + k + 4 * b + 3 <= S f)%nat -> (k <= f)%nat /\ (T + k + 4 * b + 3 <= f)%nat.
Proof. lia. Qed.

Lemma fuel_elem T' T k a b f : (T' <= T)%nat -> (1 <= a)%nat -> (T + 1 + k + 4 * (a + b) + 3 <= S f)%nat ->
  (k <= f)%nat /\ (T' + k + 4 * a + 2 * b + 3 <= f)%nat /\ (T + 1 + k + 4 * b + 3 <= f)%nat.
Proof. lia. Qed.

Lemma fuel_max A B k b f : (Nat.max A B + k + 4 * b + 3 <= f)%nat -> (A + k + 4 * b + 3 <= f)%nat /\ (B + k + 4 * b + 3 <= f)%nat.
Proof. lia. Qed.

Lemma fuel_app T k a b f : (T + k + 4 * (a + b) + 3 <= f)%nat -> (T + k + 4 * a + 2 * b + 3 <= f)%nat /\ (T + k + 4 * b + 3 <= f)%nat.
Proof. lia. Qed.

Lemma count_pos n : (0 < n)%nat -> (Z.of_nat n <=? 0)%Z = false /\ (Z.of_nat n - 1)%Z = Z.of_nat (Nat.pred n).
Proof. lia. Qed.

Section Damage.
Variable e : env.
Variable k : nat.
Hypothesis Hwf : wf_schema k e.

(* what the theorem says of one member *)
Definition G (tag : N) (t : ty) (bs : list N) : Prop := forall m f req d prior,
  tfin m e t = true -> ty_nest k e t = true -> tag < 256 -> (d <> None -> scalar_ty t = true) -> prior_ok e t d prior ->
  (tneed m e t + k + 4 * length bs + 3 <= f)%nat -> dec_var f e tag req t prior bs = DErr.

Lemma elems_err x bs' : G 0 x bs' -> forall xs m f n, tfin m e x = true -> ty_nest k e x = true ->
  Forall (has_type e x) xs -> (length xs < n)%nat ->
  (tneed m e x + 1 + k + 4 * length (enc_elems e x xs ++ bs') + 3 <= f)%nat ->
  dec_elems f e x (Z.of_nat n) (enc_elems e x xs ++ bs') = DErr.
Proof.
  intros HG. induction xs as [|y r IH]; intros m f n Hfin Hn Hty Hlen Hf; destruct (fuel_pos _ _ _ Hf) as [f' ->];
    destruct (count_pos n (Nat.lt_lt_0 _ _ Hlen)) as [C1 C2]; rewrite dec_elems_S, C1, C2; cbn [enc_elems app length] in *.
  - destruct (fuel_last _ _ _ _ Hf) as [F1 F2].
    rewrite (HG m f' true None _ Hfin Hn eq_refl (no_default x) (zero_prior e k x f' Hn F1) F2). reflexivity.
  - apply Forall_cons_iff in Hty. destruct Hty as [Hy Hr].
    rewrite <- app_assoc. rewrite <- app_assoc, app_length in Hf.
    destruct (fuel_elem _ _ _ _ _ _ (Nat.le_refl _) (enc_var_req_length e 0 x None y Hy) Hf) as (F1 & F2 & F3).
    rewrite (elem_complete e k Hwf f' m 0 x y _ _ Hy Hn Hfin eq_refl (zero_prior e k x f' Hn F1) F2).
    rewrite (IH m f' (Nat.pred n) Hfin Hn Hr (proj1 (Nat.lt_succ_lt_pred _ _) Hlen) F3). reflexivity.
Qed.

Lemma arr_err x bs' : G 0 x bs' -> forall xs m f n len dn todo, tfin m e x = true -> ty_nest k e x = true ->
  Forall (has_type e x) xs -> (length xs < n)%nat -> (length dn + n <= len)%nat -> length (dn ++ todo) = len ->
  Forall (zlike e x) todo ->
  (tneed m e x + 1 + k + 4 * length (enc_elems e x xs ++ bs') + 3 <= f)%nat ->
  dec_arr f e x len (length dn) (Z.of_nat n) (dn ++ todo) (enc_elems e x xs ++ bs') = DErr.
Proof.
  intros HG. induction xs as [|y r IH]; intros m f n len dn todo Hfin Hn Hty Hlen Hsum Hl Hz Hf; destruct (fuel_pos _ _ _ Hf) as [f' ->];
    destruct (count_pos n (Nat.lt_lt_0 _ _ Hlen)) as [C1 C2]; rewrite dec_arr_S, C1, C2;
    assert (Hd : (length dn < len)%nat) by lia; rewrite (proj2 (Nat.leb_gt _ _) Hd);
    (destruct Hz as [|z todo Hz1 Hz2]; [rewrite app_nil_r in Hl; rewrite Hl in Hd; destruct (Nat.lt_irrefl _ Hd)|]);
    rewrite nth_app_here; cbn [enc_elems app length] in *.
  - destruct (fuel_last _ _ _ _ Hf) as [_ F2]. rewrite (HG m f' true None z Hfin Hn eq_refl (no_default x) Hz1 F2). reflexivity.
  - apply Forall_cons_iff in Hty. destruct Hty as [Hy Hr].
    rewrite <- app_assoc. rewrite <- app_assoc, app_length in Hf.
    destruct (fuel_elem _ _ _ _ _ _ (Nat.le_refl _) (enc_var_req_length e 0 x None y Hy) Hf) as (_ & F2 & F3).
    rewrite (elem_complete e k Hwf f' m 0 x y z _ Hy Hn Hfin eq_refl Hz1 F2).
    (* the slot just filled joins the part of the array that is done *)
    rewrite replace_nth_app. change (dn ++ ?v :: todo) with (dn ++ [v] ++ todo). rewrite app_assoc, <- (last_length dn (norm e x true None y)).
    apply (IH m f' (Nat.pred n) len _ todo Hfin Hn Hr (proj1 (Nat.lt_succ_lt_pred _ _) Hlen)); [rewrite last_length; lia| |exact Hz2|exact F3].
    rewrite <- app_assoc, app_length. rewrite app_length in Hl. exact Hl.
Qed.

(* the map reader, for whatever refuses the next entry: a damaged key, or a complete key and a damaged value *)
Lemma entries_err kt vt tl :
  (forall m f, tfin m e kt = true -> tfin m e vt = true -> (k <= f)%nat ->
     (tneed m e kt + k + 4 * length tl + 3 <= f)%nat -> (tneed m e vt + k + 4 * length tl + 3 <= f)%nat ->
     match dec_var f e 0 true kt (zero_of f e kt) tl with
     | DOk _ r => dec_var f e 1 true vt (zero_of f e vt) r = DErr
     | o => o = DErr
     end) ->
  forall kvs m f n, tfin m e kt = true -> tfin m e vt = true -> ty_nest k e kt = true -> ty_nest k e vt = true ->
  Forall (fun p => has_type e kt (fst p) /\ has_type e vt (snd p)) kvs -> (length kvs < n)%nat ->
  (Nat.max (tneed m e kt) (tneed m e vt) + 1 + k + 4 * length (enc_entries e kt vt kvs ++ tl) + 3 <= f)%nat ->
  dec_entries f e kt vt (Z.of_nat n) (enc_entries e kt vt kvs ++ tl) = DErr.
Proof.
  intros HT. induction kvs as [|[ky y] r IH]; intros m f n Hfk Hfv Hnk Hnv Hty Hlen Hf; destruct (fuel_pos _ _ _ Hf) as [f' ->];
    destruct (count_pos n (Nat.lt_lt_0 _ _ Hlen)) as [C1 C2]; rewrite dec_entries_S, C1, C2; cbn [enc_entries app length] in *.
  - destruct (fuel_last _ _ _ _ Hf) as [F1 F2]. destruct (fuel_max _ _ _ _ _ F2) as [F3 F4]. specialize (HT m f' Hfk Hfv F1 F3 F4).
    destruct (dec_var f' e 0 true kt (zero_of f' e kt) tl); try discriminate; [|reflexivity]. rewrite HT. reflexivity.
  - apply Forall_cons_iff in Hty. destruct Hty as [[Hk Hy] Hr]. cbn [fst snd] in Hk, Hy.
    rewrite <- !app_assoc. rewrite <- !app_assoc, app_length in Hf.
    destruct (fuel_elem _ _ _ _ _ _ (Nat.le_max_l _ _) (enc_var_req_length e 0 kt None ky Hk) Hf) as (F1 & F2 & F3).
    rewrite (elem_complete e k Hwf f' m 0 kt ky _ _ Hk Hnk Hfk eq_refl (zero_prior e k kt f' Hnk F1) F2).
    rewrite app_length in F3.
    destruct (fuel_elem _ _ _ _ _ _ (Nat.le_max_r _ _) (enc_var_req_length e 1 vt None y Hy) (Nat.le_le_succ_r _ _ F3)) as (_ & F4 & F5).
    rewrite (elem_complete e k Hwf f' m 1 vt y _ _ Hy Hnv Hfv eq_refl (zero_prior e k vt f' Hnv F1) F4).
    rewrite (IH m f' (Nat.pred n) Hfk Hfv Hnk Hnv Hr (proj1 (Nat.lt_succ_lt_pred _ _) Hlen) F5). reflexivity.
Qed.

(* what is damaged still starts with the head of its member: for the members in front it is a field with a larger tag *)
Lemma headed_follows fds1 fd fds2 bs : schema_ascending (fds1 ++ fd :: fds2) -> headed (ftag fd) bs ->
  forall fd1, In fd1 fds1 -> follows (ftag fd1) bs.
Proof.
  intros Hasc (ty & r & Hty & ->) fd1 Hin1. right. exists ty, (ftag fd), r. repeat split; try assumption.
  - apply (schema_ascending_lt256 _ Hasc). apply in_or_app. right. now left.
  - right. exact (schema_ascending_before_lt fds1 fd fds2 fd1 Hasc Hin1).
Qed.

(* a map member whose entries the map reader refuses *)
Lemma map_member_err tag kt vt n body : N.of_nat n < 2147483648 ->
  (forall m f, tfin m e kt = true -> tfin m e vt = true -> ty_nest k e kt = true -> ty_nest k e vt = true ->
     (Nat.max (tneed m e kt) (tneed m e vt) + 1 + k + 4 * length body + 3 <= f)%nat ->
     dec_entries f e kt vt (Z.of_nat n) body = DErr) ->
  G tag (TMap kt vt) (head tMAP tag ++ w_int32 (Z.of_nat n) 0 ++ body).
Proof.
  intros Hn HE m f req d prior Hfin Hnest Htag _ _ Hf.
  destruct m as [|m']; [discriminate|]. cbn [tfin tneed] in Hfin, Hf. apply andb_true_iff in Hfin. destruct Hfin as [Hfk Hfv].
  apply (ty_nest_map e k) in Hnest. destruct Hnest as [Hnk Hnv]. destruct (fuel_pos2 _ _ _ Hf) as [f' ->].
  rewrite dec_var_map. unfold skip_to. rewrite seek_first by (first [reflexivity | assumption]). change (tMAP =? tMAP) with true. cbv iota.
  rewrite read_count_len by assumption.
  destruct ((Z.of_nat n <? 0)%Z || _)%bool; [reflexivity|].
  rewrite (HE m' (S f') Hfk Hfv Hnk Hnv (fuel_body _ _ _ _ _ _ Hf)). reflexivity.
Qed.

Theorem dmg_rejected : forall tag t bs, dmg e tag t bs -> G tag t bs.
Proof.
  intros tag t bs Hd. induction Hd as
    [tag t bs Hs
    |tag x xs n bs' Hxs Hlen Hn Hd IH
    |tag len x xs n bs' Hxs Hlen Hn Hd IH
    |tag kt vt kvs n bs' Hkvs Hlen Hn Hd IH
    |tag kt vt kvs k0 n bs' Hkvs Hlen Hn Hk0 Hd IH
    |tag sid fds1 fd fds2 vs1 bs' Hsid Hvs Hd IH];
    intros m f req d prior Hfin Hnest Htag Hdd Hp Hf.
  - destruct (fuel_pos _ _ _ Hf) as [f' ->]. apply (spot_rejected e tag t bs Hs Htag). pose proof (TotalProofs.tneed_ge e m _ Hfin). lia.
  - destruct m as [|m']; [discriminate|]. cbn [tfin tneed] in Hfin, Hf. destruct (fuel_pos2 _ _ _ Hf) as [f' ->].
    rewrite dec_var_vec, seek_first by (first [reflexivity | assumption]). change (tLIST =? tLIST) with true. cbv iota.
    rewrite read_count_len by assumption.
    destruct (Z.of_nat n <? 0)%Z; [reflexivity|]. destruct (_ <? Z.of_nat n)%Z; [reflexivity|].
    rewrite (elems_err x bs' IH xs m' (S f') n Hfin (ty_nest_vec e k x Hnest) Hxs Hlen (fuel_body _ _ _ _ _ _ Hf)). reflexivity.
  - destruct m as [|m']; [discriminate|]. cbn [tfin tneed] in Hfin, Hf. destruct (fuel_pos2 _ _ _ Hf) as [f' ->].
    rewrite dec_var_arr, seek_first by (first [reflexivity | assumption]). change (tLIST =? tLIST) with true. cbv iota.
    rewrite read_count_len by assumption.
    destruct ((Z.of_nat n <? 0)%Z || (Z.of_nat len <? Z.of_nat n)%Z) eqn:Ec; [reflexivity|].
    (* an array has no default: the prior is an array value of the right length *)
    assert (d = None) by (destruct d; [specialize (Hdd ltac:(discriminate)); discriminate|reflexivity]). subst d.
    unfold prior_ok in Hp. inversion Hp as [? Hb|? ? l Hll Hz|]; subst; [discriminate|].
    apply (ty_nest_arr e k) in Hnest.
    pose proof (arr_err x bs' IH xs m' (S f') n (length l) [] l Hfin Hnest Hxs Hlen ltac:(cbn [length]; lia) eq_refl Hz (fuel_body _ _ _ _ _ _ Hf)) as H1.
    cbn [length app] in H1. rewrite H1. reflexivity.
  - refine (map_member_err tag kt vt n _ Hn _ m f req d prior Hfin Hnest Htag Hdd Hp Hf). intros m0 f0 Hfk Hfv Hnk Hnv.
    apply entries_err; try assumption. intros m' f' Hfk' _ Hk' Hf' _.
    rewrite (IH m' f' true None _ Hfk' Hnk eq_refl (no_default kt) (zero_prior e k kt f' Hnk Hk') Hf'). reflexivity.
  - refine (map_member_err tag kt vt n _ Hn _ m f req d prior Hfin Hnest Htag Hdd Hp Hf). intros m0 f0 Hfk Hfv Hnk Hnv.
    apply entries_err; try assumption. intros m' f' Hfk' Hfv' Hk' Hf1 Hf2. rewrite app_length in Hf1, Hf2.
    rewrite (elem_complete e k Hwf f' m' 0 kt k0 _ bs' Hk0 Hnk Hfk' eq_refl (zero_prior e k kt f' Hnk Hk') (proj1 (fuel_app _ _ _ _ _ Hf1))).
    exact (IH m' f' true None _ Hfv' Hnv eq_refl (no_default vt) (zero_prior e k vt f' Hnv Hk') (proj2 (fuel_app _ _ _ _ _ Hf2))).
  - destruct m as [|m']; [discriminate|]. cbn [tfin tneed] in Hfin, Hf. rewrite forallb_forall in Hfin.
    destruct (fuel_pos2 _ _ _ Hf) as [f' ->].
    rewrite dec_var_struct. cbv zeta. unfold skip_to. rewrite seek_first by (first [reflexivity | assumption]).
    change (tSB =? tSB) with true. cbv iota.
    destruct (struct_priors e k f' sid prior Hwf ltac:(lia)) as (ps & -> & Hps).
    pose proof (members_ok e k Hwf sid) as Hmem. pose proof (wf_asc k e Hwf sid) as Hasc. rewrite Hsid in *.
    assert (Hin : In fd (fds1 ++ fd :: fds2)) by (apply in_or_app; right; now left).
    destruct (proj1 (Forall_forall _ _) Hmem fd Hin) as [Hm1 Hm2].
    rewrite (fields_member_rejects e k fds1 fd fds2 vs1 ps None m' (S f') bs' Hwf); try assumption; [reflexivity| | |].
    + intros f0 p. exact (IH m' f0 (freq fd) (fdef fd) p (Hfin fd Hin) Hm1 (schema_ascending_lt256 _ Hasc fd Hin) Hm2).
    + exact (headed_follows fds1 fd fds2 bs' Hasc (dmg_headed e _ _ _ Hd)).
    + rewrite (app_length (head tSB tag)) in Hf. lia.
Qed.
End Damage.

(* C06, damage at any depth: the members in front of member fd encoded normally, then a member fd damaged at any
   depth (a field of a wire type its reader does not accept, or an embedded length / count announcing more than is
   left - in the member itself, in a vector or array element, in a map key or value, in a member of a nested
   struct, recursively - everything in front of the spot encoded normally, anything behind it): rejected *)
Theorem damage_rejected e k n sid fds1 fd fds2 vs1 bs' :
  wf_schema k e -> (S k <= 64)%nat -> fields_of e sid = fds1 ++ fd :: fds2 ->
  Forall2 (fun fd x => has_type e (fty fd) x) fds1 vs1 -> dmg e (ftag fd) (fty fd) bs' ->
  tfin n e (TStruct sid) = true -> (tneed n e (TStruct sid) + k <= 64)%nat ->
  decode e sid (enc_fields e vs1 fds1 ++ bs') = DErr.
Proof.
  intros Hwf Hk Hsid Hvs Hd Hfin Hn. apply (struct_member_rejects e k n sid fds1 fd fds2 vs1 bs'); try assumption.
  - intros m f' p. exact (dmg_rejected e k Hwf _ _ _ Hd m f' (freq fd) (fdef fd) p).
  - pose proof (wf_asc k e Hwf sid) as Hasc. rewrite Hsid in Hasc. exact (headed_follows fds1 fd fds2 bs' Hasc (dmg_headed e _ _ _ Hd)).
Qed.
Print Assumptions damage_rejected.

(* non-vacuity: a struct with a vector of structs; the second element's string member is sent as a LIST (wire-type
   substitution two levels down), and - second witness - the map value of a nested struct announces a string longer
   than what is left; the theorem's hypotheses hold and the model agrees by evaluation *)
Definition d_schema : env :=
  [ [ {| ftag := 0; freq := true; fty := TI32; fdef := None |};
      {| ftag := 2; freq := true; fty := TVec (TStruct 1); fdef := None |};
      {| ftag := 3; freq := false; fty := TStr; fdef := None |} ];
    [ {| ftag := 1; freq := true; fty := TI32; fdef := None |};
      {| ftag := 4; freq := true; fty := TMap TI32 TStr; fdef := None |} ] ].
Definition d_elem0 : val := VStruct [VInt 7; VMap [(VInt 1, VStr [97])]].
Definition d_bytes1 : list N :=   (* vector of 2 structs; in the second one member 4 (a map) arrives as STRING1 *)
  head tLIST 2 ++ w_int32 2 0 ++ enc_elems d_schema (TStruct 1) [d_elem0] ++
  (head tSB 0 ++ enc_fields d_schema [VInt 9] [ {| ftag := 1; freq := true; fty := TI32; fdef := None |} ] ++
   (head tSTR1 4 ++ [1; 98; 11; 54; 1; 120])).
Definition d_bytes2 : list N :=   (* in the first struct, the map's first value announces 200 bytes *)
  head tLIST 2 ++ w_int32 1 0 ++ enc_elems d_schema (TStruct 1) [] ++
  (head tSB 0 ++ enc_fields d_schema [VInt 9] [ {| ftag := 1; freq := true; fty := TI32; fdef := None |} ] ++
   (head tMAP 4 ++ w_int32 1 0 ++ enc_entries d_schema TI32 TStr [] ++ enc_var d_schema 0 true TI32 None (VInt 5) ++
    ((head tSTR1 1 ++ [200]) ++ [97; 98; 11]))).
Example d_damaged1 : dmg d_schema 2 (TVec (TStruct 1)) d_bytes1.
Proof.
  apply (DM_vec d_schema 2 (TStruct 1) [d_elem0] 2).
  - constructor; [|constructor]. apply (has_type_b_sound d_schema 8). vm_compute. reflexivity.
  - cbn. lia.
  - cbn. lia.
  - apply (DM_struct d_schema 0 1 [ {| ftag := 1; freq := true; fty := TI32; fdef := None |} ]
             {| ftag := 4; freq := true; fty := TMap TI32 TStr; fdef := None |} [] [VInt 9]).
    + reflexivity.
    + constructor; [|constructor]. apply (has_type_b_sound d_schema 8). vm_compute. reflexivity.
    + apply DM_spot. apply (SP_mistyped d_schema 4 (TMap TI32 TStr) tSTR1); reflexivity.
Qed.
Example d_damaged2 : dmg d_schema 2 (TVec (TStruct 1)) d_bytes2.
Proof.
  apply (DM_vec d_schema 2 (TStruct 1) [] 1).
  - constructor.
  - cbn. lia.
  - cbn. lia.
  - apply (DM_struct d_schema 0 1 [ {| ftag := 1; freq := true; fty := TI32; fdef := None |} ]
             {| ftag := 4; freq := true; fty := TMap TI32 TStr; fdef := None |} [] [VInt 9]).
    + reflexivity.
    + constructor; [|constructor]. apply (has_type_b_sound d_schema 8). vm_compute. reflexivity.
    + apply (DM_map_val d_schema 4 TI32 TStr [] (VInt 5) 1).
      * constructor.
      * cbn. lia.
      * cbn. lia.
      * apply (has_type_b_sound d_schema 8). vm_compute. reflexivity.
      * apply DM_spot. apply (SP_strlen d_schema 1 false 200 [97; 98; 11]); [cbn; lia|lia].
Qed.
Example d_rejected :
  decode d_schema 0 (enc_fields d_schema [VInt 1] [ {| ftag := 0; freq := true; fty := TI32; fdef := None |} ] ++ d_bytes1) = DErr
  /\ decode d_schema 0 (enc_fields d_schema [VInt 1] [ {| ftag := 0; freq := true; fty := TI32; fdef := None |} ] ++ d_bytes2) = DErr.
Proof.
  assert (Hwf : wf_schema 2 d_schema) by (apply wf_schema_b_sound; vm_compute; reflexivity).
  assert (H : forall bs, dmg d_schema 2 (TVec (TStruct 1)) bs ->
    decode d_schema 0 (enc_fields d_schema [VInt 1] [ {| ftag := 0; freq := true; fty := TI32; fdef := None |} ] ++ bs) = DErr).
  { intros bs Hd.
    apply (damage_rejected d_schema 2 6 0 [ {| ftag := 0; freq := true; fty := TI32; fdef := None |} ]
             {| ftag := 2; freq := true; fty := TVec (TStruct 1); fdef := None |}
             [ {| ftag := 3; freq := false; fty := TStr; fdef := None |} ] [VInt 1] bs Hwf); [lia|reflexivity| |exact Hd|reflexivity|vm_compute; lia].
    constructor; [|constructor]. apply (has_type_b_sound d_schema 8). vm_compute. reflexivity. }
  split; apply H; [apply d_damaged1 | apply d_damaged2].
Qed.
Example d_rejected_eval :
  decode d_schema 0 (enc_fields d_schema [VInt 1] [ {| ftag := 0; freq := true; fty := TI32; fdef := None |} ] ++ d_bytes1) = DErr.
Proof. vm_compute. reflexivity. Qed.

(* adm (RoundTrip.v) is written by hand; here it is characterised by the decoder model itself: for every non-struct IDL
   type shape and every one of the 16 wire type codes, a field of that wire type under the member's tag followed by
   eight zero bytes (enough for every fixed-width body; a zero length / count for strings, lists, maps, SimpleLists) is
   refused if and only if adm says the wire type is not admissible. Together with inadmissible_member (adm false =>
   refused whatever follows) the table cannot drift from the readers of the model - which are tied to the Go readers by
   the translated-code equivalences (Xlate/ReaderEquiv.v) and the correspondence. *)
Definition adm_probe (t : ty) (wt : N) : bool :=
  match dec_var 6 [] 5 true t (VInt 0) (head wt 5 ++ [0; 0; 0; 0; 0; 0; 0; 0]) with DErr => false | _ => true end.
Definition adm_types : list ty :=
  [TBool; TI8; TU8; TI16; TU16; TI32; TU32; TI64; TF32; TF64; TStr; TEnum;
   TVec TI8; TVec TU8; TVec TI32; TVec TStr; TMap TStr TI32; TArr 2 TI32].
Example adm_is_acceptance :
  forallb (fun t => forallb (fun wt => Bool.eqb (adm_probe t wt) (adm t wt && negb (wt =? tSE))) (map N.of_nat (seq 0 16))) adm_types = true.
Proof. vm_compute. reflexivity. Qed.
