(* C03, second clause at every depth: the wire tree of a well-typed value conforms to its IDL type recursively - every
   struct level carries its members under their declared tags, in schema order, required ones present; every vector /
   array element sits under tag 0, every map key under tag 0 and value under tag 1; every leaf has a wire type its
   reader accepts; vector<byte> is a SimpleList. *)
From Coq Require Import List NArith ZArith Lia Bool Arith.
From Coq Require Import ZifyN ZifyNat ZifyBool.
From TarsV Require Import Gen.Consts Base.Hex Codec.Wire Codec.Skip Codec.SkipProofs Codec.Prim Codec.PrimProofs
  Codec.GenCodec Codec.Corr Codec.GenProofs Codec.RoundTrip Codec.RoundTripProofs Codec.WireSpec Codec.WireSpecProofs.
Import ListNotations.
Open Scope N_scope.

Inductive tconf (e : env) : ty -> wf -> Prop :=
| TC_scalar t w : scalar_ty t = true -> adm t (ty_of w) = true -> wdepth w = 0 -> tconf e t w
| TC_bytes s : tconf e (TVec TI8) (WSimple s)
| TC_vec x l : x <> TI8 -> Forall (fun p => fst p = 0 /\ tconf e x (snd p)) l -> tconf e (TVec x) (WList l)
| TC_arr n x l : length l = n -> Forall (fun p => fst p = 0 /\ tconf e x (snd p)) l -> tconf e (TArr n x) (WList l)
| TC_map kt vt m :
    Forall (fun p => fst (fst p) = 0 /\ fst (snd p) = 1 /\ tconf e kt (snd (fst p)) /\ tconf e vt (snd (snd p))) m ->
    tconf e (TMap kt vt) (WMap m)
| TC_struct sid fs : sconf e (fields_of e sid) fs -> tconf e (TStruct sid) (WStruct fs)
with sconf (e : env) : schema -> list (N * wf) -> Prop :=
| SC_nil : sconf e [] []
| SC_skip fd fds fs : freq fd = false -> sconf e fds fs -> sconf e (fd :: fds) fs
| SC_take fd fds w fs : tconf e (fty fd) w -> sconf e fds fs -> sconf e (fd :: fds) ((ftag fd, w) :: fs).

Section Deep.
Variable e : env.

Lemma wire_elems_tconf x xs : Forall (fun y => tconf e x (wire_of e x y)) xs ->
  Forall (fun p => fst p = 0 /\ tconf e x (snd p)) (wire_elems e x xs).
Proof. induction 1; cbn [wire_elems]; constructor; [split; [reflexivity|assumption]|assumption]. Qed.
Lemma wire_entries_tconf kt vt kvs : Forall (fun p => tconf e kt (wire_of e kt (fst p)) /\ tconf e vt (wire_of e vt (snd p))) kvs ->
  Forall (fun p => fst (fst p) = 0 /\ fst (snd p) = 1 /\ tconf e kt (snd (fst p)) /\ tconf e vt (snd (snd p))) (wire_entries e kt vt kvs).
Proof. induction 1 as [|[ky y] r [Hk Hy] _ IH]; cbn [wire_entries]; constructor; [now repeat split|assumption]. Qed.
Lemma wire_fields_sconf_of fds vs : Forall2 (fun fd x => tconf e (fty fd) (wire_of e (fty fd) x)) fds vs ->
  sconf e fds (wire_fields e vs fds).
Proof.
  induction 1 as [|fd x fds vs Hx _ IH]; cbn [wire_fields]; [constructor|].
  destruct (left_out (fty fd) (freq fd) (fdef fd) x) eqn:El; [|now apply SC_take].
  apply SC_skip; [|assumption]. destruct (freq fd) eqn:Er; [|reflexivity]. now rewrite left_out_req in El.
Qed.

Theorem wire_tconf : forall t v, has_type e t v -> tconf e t (wire_of e t v).
Proof.
  apply (has_type_nested e (fun t v => tconf e t (wire_of e t v))).
  - intros t v Hs Hty. apply TC_scalar; [assumption|apply adm_wire; now apply HT_scalar|now apply scalar_wire_flat].
  - intros s _. apply TC_bytes.
  - intros x xs Hx _ _ IH. rewrite wire_of_vec. apply TC_vec; [assumption|now apply wire_elems_tconf].
  - intros n x xs Hl _ _ _ IH. rewrite wire_of_arr. apply TC_arr; [now rewrite wire_elems_length|now apply wire_elems_tconf].
  - intros kt vt kvs _ _ IH. rewrite wire_of_map. apply TC_map. now apply wire_entries_tconf.
  - intros sid vs _ IH. rewrite wire_of_struct. apply TC_struct. now apply wire_fields_sconf_of.
Qed.
Theorem wire_fields_sconf sid vs : has_type e (TStruct sid) (VStruct vs) -> sconf e (fields_of e sid) (wire_fields e vs (fields_of e sid)).
Proof.
  intros H. inversion H as [| | | | |? ? Hvs]; subst; [discriminate|]. apply wire_fields_sconf_of.
  clear H. induction Hvs; constructor; [now apply wire_tconf|assumption].
Qed.
End Deep.
Print Assumptions wire_tconf.
Print Assumptions wire_fields_sconf.
