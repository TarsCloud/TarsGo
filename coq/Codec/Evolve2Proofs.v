(* C04: an absent optional member of ANY type at struct level. The new version of a struct type is the old one with
   optional members of any type added (fixed arrays and nested structs included); the bytes an old writer produces
   decode with the new schema to the old members' values and, for every added member, an admissible reset value of
   the member's type: the declared default, else the Go zero value (prior_ok). *)
From Coq Require Import List NArith ZArith Lia Bool Arith.
From Coq Require Import ZifyN ZifyNat ZifyBool.
From TarsV Require Import Gen.Consts Base.Hex Codec.Wire Codec.WireProofs Codec.Skip Codec.SkipProofs Codec.Prim
  Codec.PrimProofs Codec.GenCodec Codec.Corr Codec.GenProofs Codec.RoundTrip Codec.RoundTripProofs Codec.PrefixProofs
  Codec.WireSpec Codec.WireSpecProofs Codec.PrefixGenProofs.
Import ListNotations.
Open Scope N_scope.

Inductive grows : schema -> schema -> Prop :=
| GR_nil : grows [] []
| GR_same fd fn fo : grows fn fo -> grows (fd :: fn) (fd :: fo)
| GR_new fd fn fo : freq fd = false -> grows fn fo -> grows (fd :: fn) fo.

(* the decoded members: the writer's values (normal forms) at the old positions, admissible reset values at the new ones *)
Inductive merged (e : env) : schema -> schema -> list val -> list val -> Prop :=
| MG_nil : merged e [] [] [] []
| MG_same fd fn fo x vo vs : merged e fn fo vo vs ->
    merged e (fd :: fn) (fd :: fo) (x :: vo) (norm e (fty fd) (freq fd) (fdef fd) x :: vs)
| MG_new fd fn fo vo y vs : prior_ok e (fty fd) (fdef fd) y -> merged e fn fo vo vs -> merged e (fd :: fn) fo vo (y :: vs).

Lemma grows_ascending fn fo : grows fn fo -> forall p, ascending p fn -> ascending p fo.
Proof.
  induction 1 as [|fd fn fo _ IH|fd fn fo _ _ IH]; intros p H; [exact I| |].
  - cbn [ascending] in *. destruct H as (A & B & C). repeat split; try assumption. now apply IH.
  - cbn [ascending] in H. destruct H as (A & B & C). specialize (IH _ C).
    clear - IH A. revert IH A. generalize (ftag fd). intros q IH A. destruct fo as [|y fo]; [exact I|].
    cbn [ascending] in *. destruct IH as (A' & B' & C'). repeat split; try assumption. lia.
Qed.

Section Grow.
Variable e : env.
Variable k : nat.
Hypothesis Hwf : wf_schema k e.

Lemma grow_fields : forall fn fo, grows fn fo -> forall vo ps lo m f tail,
  Forall2 (fun fd x => has_type e (fty fd) x) fo vo -> Forall (member_ok e k) fn -> asc_opt lo fn ->
  Forall2 (fun fd p => prior_ok e (fty fd) (fdef fd) p) fn ps ->
  (forall fd, In fd fn -> tfin m e (fty fd) = true) -> (forall fd, In fd fn -> follows (ftag fd) tail) ->
  (length fn + tmax (tneed m e) fn + 1 + k + 4 * length (enc_fields e vo fo ++ tail) + 3 <= f)%nat ->
  exists vs, dec_fields f e fn ps (enc_fields e vo fo ++ tail) = DOk vs tail /\ merged e fn fo vo vs.
Proof.
  induction 1 as [|fd fn fo Hg IH|fd fn fo Hr Hg IH]; intros vo ps lo m f tail Hvo Hmem Hasc Hps Hfin Htail Hf.
  - inversion Hvo; subst. destruct f as [|f]; [lia|]. exists []. split; [reflexivity|constructor].
  - inversion Hvo as [|? x ? vo' Hx Hvo']; subst. inversion Hps as [|? p ? ps' Hp Hps']; subst.
    inversion Hmem as [|? ? [Hm1 Hm2] Hmem']; subst.
    destruct (asc_opt_cons _ _ _ Hasc) as [H256 Hasc'].
    cbn [enc_fields length tmax fold_right] in *. fold (tmax (tneed m e) fn) in Hf. rewrite <- app_assoc in *. rewrite !app_length in Hf.
    destruct f as [|f]; [lia|]. rewrite dec_fields_S. cbv zeta. cbn [tl].
    assert (Hfo : follows (ftag fd) (enc_fields e vo' fo ++ tail)).
    { apply enc_fields_follows_tail; [now apply (grows_ascending fn fo)|assumption|apply Htail; now left]. }
    rewrite (member_decodes e k f m _ _ _ _ x p _ Hwf Hx Hm1 H256 Hm2 Hp (Hfin fd (or_introl eq_refl)) (or_intror Hfo))
      by (rewrite app_length; lia).
    destruct (IH vo' ps' (Some (ftag fd)) m f tail Hvo' Hmem' Hasc' Hps') as (vs & -> & Hm); try assumption.
    + intros fd' Hin. apply Hfin. now right.
    + intros fd' Hin. apply Htail. now right.
    + rewrite !app_length. lia.
    + eexists. split; [reflexivity|]. now constructor.
  - inversion Hps as [|? p ? ps' Hp Hps']; subst. inversion Hmem as [|? ? [Hm1 Hm2] Hmem']; subst.
    destruct (asc_opt_cons _ _ _ Hasc) as [H256 Hasc'].
    cbn [length tmax fold_right] in *. fold (tmax (tneed m e) fn) in Hf.
    destruct f as [|[|[|f]]]; [lia|lia|lia|]. rewrite dec_fields_S. cbv zeta. cbn [tl]. rewrite Hr.
    assert (Hfo : follows (ftag fd) (enc_fields e vo fo ++ tail)).
    { apply enc_fields_follows_tail; [now apply (grows_ascending fn fo)|assumption|apply Htail; now left]. }
    rewrite (dec_var_notfound e (S f) (ftag fd) (fty fd) p _ _ (seek_stop f (ftag fd) _ Hfo)).
    destruct (IH vo ps' (Some (ftag fd)) m (S (S f)) tail Hvo Hmem' Hasc' Hps') as (vs & -> & Hm); try assumption.
    + intros fd' Hin. apply Hfin. now right.
    + intros fd' Hin. apply Htail. now right.
    + lia.
    + eexists. split; [reflexivity|]. constructor; [|assumption].
      apply (absent_prior_ok e k (S f)); try assumption. intros sid0 Hs. split; [now apply (ty_nest_nest e k)|lia].
Qed.

(* old writer -> new reader, added optional members of any type *)
Theorem old_writer_new_reader_any n so sn vo :
  (S k <= 64)%nat -> tfin n e (TStruct sn) = true -> (tneed n e (TStruct sn) + k <= 64)%nat ->
  grows (fields_of e sn) (fields_of e so) -> has_type e (TStruct so) (VStruct vo) ->
  exists vs, decode e sn (encode e so (VStruct vo)) = DOk (VStruct vs) [] /\ merged e (fields_of e sn) (fields_of e so) vo vs.
Proof.
  intros Hk Hfin Hn Hg Hty. unfold decode, decode_into. rewrite encode_fields.
  set (bs := enc_fields e vo (fields_of e so)).
  replace (4 * length bs + 64)%nat with (S (4 * length bs + 63)) by lia.
  destruct (struct_priors1 e k (4 * length bs + 63) sn (zero_struct e sn) Hwf ltac:(lia)) as (ps & -> & Hps).
  pose proof (has_type_struct _ _ _ Hty) as Hvo.
  destruct n as [|n']; [discriminate|]. cbn [tfin tneed] in Hfin, Hn. rewrite forallb_forall in Hfin.
  destruct (grow_fields _ _ Hg vo ps None n' (S (4 * length bs + 63)) [] Hvo (members_ok e k Hwf sn) (wf_asc k e Hwf sn) Hps Hfin) as (vs & E & Hm).
  - intros fd _. now left.
  - fold bs. rewrite app_nil_r. lia.
  - rewrite app_nil_r in E. fold bs in E. rewrite E. exists vs. split; [reflexivity|assumption].
Qed.
End Grow.
Print Assumptions old_writer_new_reader_any.

(* non-vacuity: the new version adds an optional fixed array, an optional nested struct and an optional int with a
   default; an old writer's bytes give the zero array, the reset struct and the default *)
Definition gr_schema : env :=
  [ [ {| ftag := 0; freq := true; fty := TI32; fdef := None |} ];
    [ {| ftag := 0; freq := true; fty := TI32; fdef := None |};
      {| ftag := 1; freq := false; fty := TArr 2 TI32; fdef := None |};
      {| ftag := 2; freq := false; fty := TStruct 0; fdef := None |};
      {| ftag := 3; freq := false; fty := TI32; fdef := Some (VInt 9) |} ] ].
Example gr_example :
  grows (fields_of gr_schema 1) (fields_of gr_schema 0) /\
  decode gr_schema 1 (encode gr_schema 0 (VStruct [VInt 7])) = DOk (VStruct [VInt 7; VList [VInt 0; VInt 0]; VStruct [VInt 0]; VInt 9]) [].
Proof.
  split; [|vm_compute; reflexivity].
  change (fields_of gr_schema 1) with (nth 1 gr_schema []). change (fields_of gr_schema 0) with (nth 0 gr_schema []). cbn [nth gr_schema].
  apply GR_same. apply GR_new; [reflexivity|]. apply GR_new; [reflexivity|]. apply GR_new; [reflexivity|]. apply GR_nil.
Qed.
