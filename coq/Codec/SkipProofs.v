(* skip_exact: skipping the body of any well-formed wire tree (any nesting within the depth limit)
   consumes exactly that field. And on arbitrary bytes: what the head, count and skip readers leave is never longer
   than their input, and fuel linear in the input suffices (read_head_len .. seek_fuel). *)
From Coq Require Import List NArith ZArith Lia Bool Arith.
From Coq Require Import ZifyN ZifyNat ZifyBool.
From TarsV Require Import Gen.Consts Codec.Wire Codec.WireProofs Codec.Skip.
Import ListNotations.
Ltac Zify.zify_post_hook ::= Z.div_mod_to_equations.
Open Scope N_scope.

Section wf_ind2.
  Variable P : wf -> Prop.
  Hypothesis H0 : P WZero.
  Hypothesis H1 : forall b, P (WByte b).
  Hypothesis H2 : forall v, P (WShort v).
  Hypothesis H3 : forall v, P (WInt v).
  Hypothesis H4 : forall v, P (WLong v).
  Hypothesis H5 : forall v, P (WFloat v).
  Hypothesis H6 : forall v, P (WDouble v).
  Hypothesis H7 : forall s, P (WStr1 s).
  Hypothesis H8 : forall s, P (WStr4 s).
  Hypothesis H9 : forall s, P (WSimple s).
  Hypothesis HL : forall xs, Forall (fun p => P (snd p)) xs -> P (WList xs).
  Hypothesis HM : forall kvs, Forall (fun p => P (snd (fst p)) /\ P (snd (snd p))) kvs -> P (WMap kvs).
  Hypothesis HS : forall fs, Forall (fun p => P (snd p)) fs -> P (WStruct fs).
  Fixpoint wf_ind2 (w : wf) : P w :=
    match w with
    | WZero => H0 | WByte b => H1 b | WShort v => H2 v | WInt v => H3 v | WLong v => H4 v
    | WFloat v => H5 v | WDouble v => H6 v | WStr1 s => H7 s | WStr4 s => H8 s | WSimple s => H9 s
    | WList xs => HL xs ((fix go l : Forall (fun p => P (snd p)) l :=
                            match l with [] => Forall_nil _ | (t, x) :: r => Forall_cons (t, x) (wf_ind2 x) (go r) end) xs)
    | WMap kvs => HM kvs ((fix go l : Forall (fun p => P (snd (fst p)) /\ P (snd (snd p))) l :=
                            match l with [] => Forall_nil _
                            | ((tk, k), (tv, v)) :: r => Forall_cons ((tk, k), (tv, v)) (conj (wf_ind2 k) (wf_ind2 v)) (go r) end) kvs)
    | WStruct fs => HS fs ((fix go l : Forall (fun p => P (snd p)) l :=
                            match l with [] => Forall_nil _ | (t, x) :: r => Forall_cons (t, x) (wf_ind2 x) (go r) end) fs)
    end.
End wf_ind2.

Lemma ser_list_go xs :
  (fix go l := match l with [] => [] | (t, x) :: r => head (ty_of x) t ++ ser_body x ++ go r end) xs = ser_fields xs.
Proof. induction xs as [|[t x] r IH]; cbn; [reflexivity|]. unfold ser_field; cbn. now rewrite IH, app_assoc. Qed.

Definition fields_ok (fs : list (N * wf)) : Prop := Forall (fun p => fst p < 256 /\ wf_ok (snd p)) fs.
Lemma wf_ok_fields fs :
  (fix all l := match l with [] => True | (t, x) :: r => t < 256 /\ wf_ok x /\ all r end) fs <-> fields_ok fs.
Proof.
  induction fs as [|[t x] r IH]; cbn.
  - split; [constructor|auto].
  - rewrite IH. split.
    + intros (A & B & C). constructor; auto.
    + intros H. inversion H; subst. cbn in *. tauto.
Qed.

Lemma ty_of_lt w : ty_of w < 16.
Proof. destruct w; reflexivity. Qed.
Lemma ty_of_not_se w : (ty_of w =? tSE) = false.
Proof. destruct w; reflexivity. Qed.

Lemma drop_app n (l r : list N) : N.to_nat n = length l -> drop n (l ++ r) = r.
Proof.
  intros H. unfold drop. rewrite app_length. destruct (N.of_nat (length l + length r) <=? n) eqn:E.
  - assert (length r = 0%nat) by lia. destruct r; [reflexivity|discriminate].
  - rewrite H. rewrite skipn_app, skipn_all, Nat.sub_diag. reflexivity.
Qed.

(* the side conditions of read_head_head / read_head2_head: a type code below 16, a tag below 256 *)
Ltac hd := first [reflexivity | apply ty_of_lt | assumption | lia].

Lemma read_count_w_len n rest : n < 2 ^ 31 -> read_count (w_len n ++ rest) = COk (Z.of_N n) rest.
Proof.
  intros Hn. unfold w_len, read_count.
  destruct (n =? 0) eqn:E0.
  - rewrite read_head_head by hd. cbn. f_equal. lia.
  - destruct (n <? 128) eqn:E1.
    + rewrite <- app_assoc, read_head_head by hd. cbn. unfold sext.
      destruct (Z.of_N n <? 2 ^ (8 - 1))%Z eqn:E; [reflexivity|]. lia.
    + destruct (n <? 32768) eqn:E2.
      * rewrite <- app_assoc, read_head_head by hd. cbn -[be bread].
        rewrite bread_be by (cbn; lia). unfold sext.
        destruct (Z.of_N n <? 2 ^ (16 - 1))%Z eqn:E; [reflexivity|]. lia.
      * rewrite <- app_assoc, read_head_head by hd. cbn -[be bread].
        rewrite bread_be by (cbn; lia). unfold sext.
        destruct (Z.of_N n <? 2 ^ (32 - 1))%Z eqn:E; [reflexivity|]. lia.
Qed.

Lemma w_len_length n : (1 <= length (w_len n))%nat.
Proof. unfold w_len. destruct (n =? 0); [apply head_length|].
  destruct (n <? 128); [|destruct (n <? 32768)]; rewrite app_length; pose proof (head_length tBYTE 0);
  pose proof (head_length tSHORT 0); pose proof (head_length tINT 0); lia. Qed.

Definition mxd (fs : list (N * wf)) : N :=
  (fix mx l := match l with [] => 0 | (_, x) :: r => N.max (wdepth x) (mx r) end) fs.
Lemma mxd_le fs : Forall (fun p => wdepth (snd p) <= mxd fs) fs.
Proof.
  induction fs as [|[t x] r IH]; [constructor|].
  change (mxd ((t, x) :: r)) with (N.max (wdepth x) (mxd r)).
  constructor; [cbn [snd]; apply N.le_max_l|].
  eapply Forall_impl; [|exact IH]. intros [t' x'] H. cbn [snd] in *.
  etransitivity; [exact H|apply N.le_max_r].
Qed.

(* The statement for one field body, and the two list statements, proved together by nested induction *)
Definition P_field (w : wf) : Prop :=
  wf_ok w -> forall d fuel rest, d + wdepth w <= maxd -> (2 * length (ser_body w ++ rest) + 2 <= fuel)%nat ->
  skip_field fuel d (ty_of w) (ser_body w ++ rest) = (SOk, rest).

Lemma skip_n_fields fs : Forall (fun p => P_field (snd p)) fs -> fields_ok fs ->
  forall d fuel rest, Forall (fun p => d + wdepth (snd p) <= maxd) fs ->
  (2 * length (ser_fields fs ++ rest) + 1 <= fuel)%nat ->
  skip_n fuel d (Z.of_nat (length fs)) (ser_fields fs ++ rest) = (SOk, rest).
Proof.
  induction fs as [|[t x] r IH]; intros HP Hok d fuel rest Hd Hf.
  - destruct fuel; [lia|]. reflexivity.
  - inversion HP as [|? ? Hx HPr]; subst. inversion Hok as [|? ? [Ht Hwx] Hokr]; subst.
    inversion Hd as [|? ? Hdx Hdr]; subst. cbn in Ht, Hwx, Hx, Hdx.
    destruct fuel as [|f]; [lia|].
    cbn [skip_n length]. destruct (Z.of_nat (S (length r)) <=? 0)%Z eqn:E; [lia|].
    cbn [ser_fields]. unfold ser_field. cbn [fst snd]. rewrite <- !app_assoc.
    rewrite read_head_head by hd.
    assert (Hlen : (2 * length (ser_body x ++ ser_fields r ++ rest) + 2 <= f)%nat).
    { cbn [ser_fields] in Hf. unfold ser_field in Hf. cbn [fst snd] in Hf.
      rewrite <- !app_assoc, !app_length in Hf. pose proof (head_length (ty_of x) t).
      rewrite !app_length. lia. }
    rewrite (Hx Hwx d f (ser_fields r ++ rest) Hdx Hlen).
    replace (Z.of_nat (S (length r)) - 1)%Z with (Z.of_nat (length r)) by lia.
    apply IH; auto. rewrite !app_length in *. lia.
Qed.

Lemma skip_to_end_fields fs : Forall (fun p => P_field (snd p)) fs -> fields_ok fs ->
  forall d fuel rest, Forall (fun p => d + wdepth (snd p) <= maxd) fs ->
  (2 * length (ser_fields fs ++ head tSE 0 ++ rest) + 1 <= fuel)%nat ->
  skip_to_end fuel d (ser_fields fs ++ head tSE 0 ++ rest) = (SOk, rest).
Proof.
  induction fs as [|[t x] r IH]; intros HP Hok d fuel rest Hd Hf.
  - destruct fuel as [|f]; [lia|]. cbn [ser_fields app skip_to_end].
    rewrite read_head_head by hd.
    destruct f as [|f']; [cbn in Hf; lia|]. reflexivity.
  - inversion HP as [|? ? Hx HPr]; subst. inversion Hok as [|? ? [Ht Hwx] Hokr]; subst.
    inversion Hd as [|? ? Hdx Hdr]; subst. cbn in Ht, Hwx, Hx, Hdx.
    destruct fuel as [|f]; [lia|].
    cbn [skip_to_end ser_fields]. unfold ser_field. cbn [fst snd]. rewrite <- !app_assoc.
    rewrite read_head_head by hd.
    assert (Hlen : (2 * length (ser_body x ++ ser_fields r ++ head tSE 0 ++ rest) + 2 <= f)%nat).
    { cbn [ser_fields] in Hf. unfold ser_field in Hf. cbn [fst snd] in Hf.
      rewrite <- !app_assoc, !app_length in Hf. pose proof (head_length (ty_of x) t).
      rewrite !app_length. lia. }
    rewrite (Hx Hwx d f _ Hdx Hlen). rewrite ty_of_not_se.
    apply IH; auto. rewrite !app_length in *. lia.
Qed.

Definition flat (kvs : list ((N * wf) * (N * wf))) : list (N * wf) :=
  flat_map (fun p => [fst p; snd p]) kvs.
Lemma ser_map_go kvs :
  (fix go l := match l with [] => []
     | ((tk, k), (tv, v)) :: r => head (ty_of k) tk ++ ser_body k ++ head (ty_of v) tv ++ ser_body v ++ go r end) kvs
  = ser_fields (flat kvs).
Proof.
  induction kvs as [|[[tk k] [tv v]] r IH]; cbn; [reflexivity|].
  unfold ser_field; cbn. rewrite IH. now rewrite <- !app_assoc.
Qed.
Lemma flat_length kvs : length (flat kvs) = (2 * length kvs)%nat.
Proof. unfold flat. induction kvs; cbn [flat_map length app] in *; lia. Qed.
Lemma wf_ok_map kvs :
  (fix all l := match l with [] => True
     | ((tk, k), (tv, v)) :: r => tk < 256 /\ tv < 256 /\ wf_ok k /\ wf_ok v /\ all r end) kvs -> fields_ok (flat kvs).
Proof.
  induction kvs as [|[[tk k] [tv v]] r IH]; cbn; intros H; [constructor|].
  destruct H as (A & B & C & D & E). repeat constructor; cbn; auto. apply IH; auto.
Qed.
Lemma mxd_flat kvs :
  (fix mx l := match l with [] => 0
     | ((_, k), (_, v)) :: r => N.max (N.max (wdepth k) (wdepth v)) (mx r) end) kvs = mxd (flat kvs).
Proof.
  induction kvs as [|[[tk k] [tv v]] r IH]; [reflexivity|].
  change (mxd (flat (((tk, k), (tv, v)) :: r))) with (N.max (wdepth k) (N.max (wdepth v) (mxd (flat r)))).
  rewrite <- IH. now rewrite N.max_assoc.
Qed.

Lemma depth_children d fs : d + (1 + mxd fs) <= maxd -> Forall (fun p => (d + 1) + wdepth (snd p) <= maxd) fs.
Proof. intros H. eapply Forall_impl; [|apply mxd_le]. intros p Hp. cbv beta in Hp. lia. Qed.

Theorem skip_exact : forall w, P_field w.
Proof.
  induction w using wf_ind2; unfold P_field; intros Hok d fuel rest Hd Hf;
    (destruct fuel as [|f]; [lia|]); cbn [ty_of ser_body] in *.
  - reflexivity.
  - cbn -[drop]. change (b :: rest) with ([b] ++ rest). now rewrite drop_app by reflexivity.
  - cbn -[be drop]. now rewrite drop_app by (rewrite be_length; reflexivity).
  - cbn -[be drop]. now rewrite drop_app by (rewrite be_length; reflexivity).
  - cbn -[be drop]. now rewrite drop_app by (rewrite be_length; reflexivity).
  - cbn -[be drop]. now rewrite drop_app by (rewrite be_length; reflexivity).
  - cbn -[be drop]. now rewrite drop_app by (rewrite be_length; reflexivity).
  - (* STRING1 *) cbn -[drop]. rewrite drop_app by lia. reflexivity.
  - (* STRING4 *) cbn -[be drop bread]. rewrite <- app_assoc.
    cbn in Hok. rewrite bread_be by (cbn; lia). rewrite drop_app by lia. reflexivity.
  - (* SimpleList *) cbn -[drop w_len head]. rewrite <- !app_assoc.
    rewrite read_head_head by hd. cbn -[drop w_len head].
    cbn in Hok. rewrite read_count_w_len by assumption.
    destruct (0 <? Z.of_N (N.of_nat (length s)))%Z eqn:E.
    + rewrite drop_app by lia. reflexivity.
    + destruct s; [reflexivity|cbn in E; lia].
  - (* LIST *) cbn -[w_len maxd N.add] in *. destruct Hok as [Hn Hall]. rewrite ser_list_go in *. apply wf_ok_fields in Hall.
    fold (mxd xs) in Hd.
    destruct (maxd <=? d) eqn:Ed; [lia|].
    rewrite <- app_assoc. rewrite read_count_w_len by lia.
    replace (Z.of_N (N.of_nat (length xs))) with (Z.of_nat (length xs)) by lia.
    apply skip_n_fields; auto.
    + apply depth_children. lia.
    + rewrite <- app_assoc, app_length in Hf. pose proof (w_len_length (N.of_nat (length xs))). lia.
  - (* MAP: flatten key/value pairs into a field list of twice the length *)
    cbn -[w_len maxd N.add] in *. destruct Hok as [Hn Hall]. rewrite ser_map_go in *. apply wf_ok_map in Hall.
    rewrite mxd_flat in Hd.
    destruct (maxd <=? d) eqn:Ed; [lia|].
    rewrite <- app_assoc. rewrite read_count_w_len by lia.
    assert (Hw : wrap32 (Z.of_N (N.of_nat (length kvs)) * 2) = Z.of_nat (length (flat kvs))).
    { rewrite flat_length. unfold wrap32.
      assert (E : ((Z.of_N (N.of_nat (length kvs)) * 2) mod 2 ^ 32 = Z.of_nat (2 * length kvs))%Z).
      { rewrite Z.mod_small; lia. }
      rewrite E. destruct (Z.of_nat (2 * length kvs) <? 2 ^ 31)%Z eqn:E2; lia. }
    rewrite Hw. apply skip_n_fields; auto.
    + clear - H. induction H as [|[[tk k] [tv v]] r [A B] _ IH]; cbn; [constructor|]. repeat constructor; auto.
    + apply depth_children. lia.
    + rewrite <- app_assoc, app_length in Hf. pose proof (w_len_length (N.of_nat (length kvs))). lia.
  - (* STRUCT *) cbn -[maxd N.add] in *. rewrite ser_list_go in *. apply wf_ok_fields in Hok.
    fold (mxd fs) in Hd.
    destruct (maxd <=? d) eqn:Ed; [lia|].
    rewrite <- app_assoc. apply skip_to_end_fields; auto.
    + apply depth_children. lia.
    + rewrite <- app_assoc in Hf. rewrite !app_length in *. change (length (head tSE 0)) with 1%nat. cbn [length] in Hf. lia.
Qed.
Print Assumptions skip_exact.

Lemma read_head2_len bs ty tg r two : read_head2 bs = Some (ty, tg, r, two) -> (length r < length bs)%nat.
Proof.
  unfold read_head2. destruct bs as [|b r0]; [discriminate|].
  destruct (b / 16 =? 15); [destruct r0; [discriminate|]|]; intros H; inversion H; subst; cbn [length]; lia.
Qed.
Lemma read_head_len bs ty tg r : read_head bs = Some (ty, tg, r) -> (length r < length bs)%nat.
Proof.
  unfold read_head. destruct (read_head2 bs) as [[[[a b] c] d]|] eqn:E; [|discriminate].
  intros H; inversion H; subst. eapply read_head2_len; eauto.
Qed.
Lemma drop_len n bs : (length (drop n bs) <= length bs)%nat.
Proof. unfold drop. destruct (_ <=? _); [cbn; lia|]. rewrite skipn_length. lia. Qed.
Lemma bread_len n bs v r : bread n bs = Some (v, r) -> (length r <= length bs)%nat.
Proof. unfold bread. destruct (n <=? length bs)%nat; [|discriminate]. intros H; inversion H. rewrite skipn_length. lia. Qed.
Lemma read_count_len_ok bs :
  match read_count bs with COk _ r => (length r < length bs)%nat | CErr r => (length r <= length bs)%nat end.
Proof.
  unfold read_count. destruct (read_head bs) as [[[ty tg] r]|] eqn:E; [|cbn; lia].
  apply read_head_len in E.
  destruct (negb (tg =? 0) || (ty =? tSE)); [lia|].
  destruct (ty =? tZERO); [lia|].
  destruct (ty =? tBYTE). { destruct r; cbn [length] in *; lia. }
  destruct (ty =? tSHORT). { destruct (bread 2 r) as [[v r']|] eqn:B; [apply bread_len in B; lia|cbn; lia]. }
  destruct (ty =? tINT). { destruct (bread 4 r) as [[v r']|] eqn:B; [apply bread_len in B; lia|cbn; lia]. }
  lia.
Qed.

(* a skip that did not run out of fuel and left no more than it was given *)
Definition skip_good (bs : list N) (res : st * list N) : Prop :=
  fst res <> SFuel /\ (length (snd res) <= length bs)%nat.
Lemma skip_good_le bs bs' res : skip_good bs' res -> (length bs' <= length bs)%nat -> skip_good bs res.
Proof. intros [A B] H. split; [assumption|lia]. Qed.

Lemma skip_fuel : forall fuel,
  (forall d ty bs, (2 * length bs + 2 <= fuel)%nat -> skip_good bs (skip_field fuel d ty bs)) /\
  (forall d n bs, (2 * length bs + 1 <= fuel)%nat -> skip_good bs (skip_n fuel d n bs)) /\
  (forall d bs, (2 * length bs + 1 <= fuel)%nat -> skip_good bs (skip_to_end fuel d bs)).
Proof.
  induction fuel as [|f (IHf & IHn & IHe)]; [repeat split; intros; lia|].
  assert (Hd : forall n bs, skip_good bs (SOk, drop n bs)) by (intros; split; [discriminate|apply drop_len]).
  assert (Hsame : forall s bs, s <> SFuel -> skip_good bs (s, bs)) by (intros; split; [assumption|cbn; lia]).
  split; [|split].
  - intros d ty bs Hf. cbn [skip_field].
    destruct (ty =? tBYTE); [apply Hd|]. destruct (ty =? tSHORT); [apply Hd|].
    destruct (ty =? tINT); [apply Hd|]. destruct (ty =? tLONG); [apply Hd|].
    destruct (ty =? tFLOAT); [apply Hd|]. destruct (ty =? tDOUBLE); [apply Hd|].
    destruct (ty =? tSTR1).
    { destruct bs as [|l r]; [split; [discriminate|cbn; lia]|]. apply (skip_good_le _ r); [apply Hd|cbn; lia]. }
    destruct (ty =? tSTR4).
    { destruct (bread 4 bs) as [[l r]|] eqn:B; [|split; [discriminate|cbn; lia]].
      apply bread_len in B. apply (skip_good_le _ r); [apply Hd|lia]. }
    destruct (ty =? tMAP).
    { destruct (maxd <=? d); [apply Hsame; discriminate|]. pose proof (read_count_len_ok bs) as Hc.
      destruct (read_count bs) as [n r|r]; [|split; [discriminate|cbn; lia]].
      apply (skip_good_le _ r); [apply IHn; lia|lia]. }
    destruct (ty =? tLIST).
    { destruct (maxd <=? d); [apply Hsame; discriminate|]. pose proof (read_count_len_ok bs) as Hc.
      destruct (read_count bs) as [n r|r]; [|split; [discriminate|cbn; lia]].
      apply (skip_good_le _ r); [apply IHn; lia|lia]. }
    destruct (ty =? tSIMPLE).
    { destruct (read_head bs) as [[[t tg] r]|] eqn:E; [|split; [discriminate|cbn; lia]]. apply read_head_len in E.
      destruct (negb (t =? tBYTE)); [split; [discriminate|cbn; lia]|].
      pose proof (read_count_len_ok r) as Hc. destruct (read_count r) as [n r'|r']; [|split; [discriminate|cbn; lia]].
      split; [discriminate|]. cbn [snd]. destruct (0 <? n)%Z; [pose proof (drop_len (Z.to_N n) r')|]; lia. }
    destruct (ty =? tSB). { destruct (maxd <=? d); [apply Hsame; discriminate|]. apply IHe. lia. }
    destruct ((ty =? tSE) || (ty =? tZERO)); apply Hsame; discriminate.
  - intros d n bs Hf. cbn [skip_n]. destruct (n <=? 0)%Z; [apply Hsame; discriminate|].
    destruct (read_head bs) as [[[ty tg] r]|] eqn:E; [|split; [discriminate|cbn; lia]]. apply read_head_len in E.
    destruct (skip_field f d ty r) as [s r'] eqn:Es.
    destruct (IHf d ty r ltac:(lia)) as [_ Hl]. rewrite Es in Hl. cbn [snd] in Hl.
    apply (skip_good_le _ r'); [apply IHn; lia|lia].
  - intros d bs Hf. cbn [skip_to_end].
    destruct (read_head bs) as [[[ty tg] r]|] eqn:E; [|split; [discriminate|cbn; lia]]. apply read_head_len in E.
    destruct (skip_field f d ty r) as [s r'] eqn:Es.
    destruct (IHf d ty r ltac:(lia)) as [Hne Hl]. rewrite Es in Hne, Hl. cbn [fst snd] in Hne, Hl.
    destruct s; [|split; [discriminate|cbn [snd]; lia]|congruence].
    destruct (ty =? tSE); [split; [discriminate|cbn [snd]; lia]|].
    apply (skip_good_le _ r'); [apply IHe; lia|lia].
Qed.

Definition seek_good (req : bool) (bs : list N) (s : seek) : Prop :=
  match s with
  | SeekFuel => False
  | Found _ r => (length r < length bs)%nat
  | NotFound r => (length r <= length bs)%nat /\ req = false
  | SeekErr => True
  end.
Lemma seek_fuel : forall fuel tag req bs, (2 * length bs + 3 <= fuel)%nat -> seek_good req bs (skip_to_no_check fuel tag req bs).
Proof.
  induction fuel as [|f IH]; intros tag req bs Hf; [lia|]. cbn [skip_to_no_check].
  destruct (read_head2 bs) as [[[[ty tg] r] two]|] eqn:E.
  - apply read_head2_len in E. destruct ((ty =? tSE) || (tag <? tg)).
    + destruct req; cbn [seek_good]; [exact I|]. split; [|reflexivity]. unfold unread.
      destruct (two && (tg <? 15)); [destruct bs; cbn [tl length]; lia|lia].
    + destruct (tg =? tag); [cbn [seek_good]; lia|]. destruct (skip_field f 0 ty r) as [s r'] eqn:Es.
      destruct (skip_fuel f) as (IHf & _). destruct (IHf 0 ty r ltac:(lia)) as [Hne Hl]. rewrite Es in Hne, Hl. cbn [fst snd] in Hne, Hl.
      destruct s; [|exact I|congruence]. specialize (IH tag req r' ltac:(lia)).
      destruct (skip_to_no_check f tag req r'); cbn [seek_good] in *; try tauto; try lia.
      destruct IH. split; [lia|assumption].
  - destruct req; cbn [seek_good]; [exact I|]. split; [cbn; lia|reflexivity].
Qed.
Lemma skip_to_fuel fuel ty tag req bs : (2 * length bs + 3 <= fuel)%nat -> seek_good req bs (skip_to fuel ty tag req bs).
Proof.
  intros Hf. unfold skip_to. pose proof (seek_fuel fuel tag req bs Hf) as H.
  destruct (skip_to_no_check fuel tag req bs); try exact H. destruct (ty0 =? ty); [exact H|exact I].
Qed.
