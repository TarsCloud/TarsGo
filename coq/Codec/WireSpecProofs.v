(* C03, second clause: the encoder emits exactly the serialisation of the wire tree prescribed by the schema. *)
From Coq Require Import List NArith ZArith Lia Bool Arith Sorted.
From Coq Require Import ZifyN ZifyNat ZifyBool.
From TarsV Require Import Gen.Consts Base.Hex Codec.Wire Codec.WireProofs Codec.Skip Codec.SkipProofs Codec.Prim
  Codec.PrimProofs Codec.GenCodec Codec.Corr Codec.GenProofs Codec.RoundTrip Codec.RoundTripProofs Codec.WireSpec.
Import ListNotations.
Ltac Zify.zify_post_hook ::= Z.div_mod_to_equations.
Open Scope N_scope.

Lemma wire_elems_go e x xs :
  (fix go l := match l with [] => [] | y :: r => (0, wire_of e x y) :: go r end) xs = wire_elems e x xs.
Proof. induction xs as [|y r IH]; cbn [wire_elems]; [reflexivity|]. now rewrite IH. Qed.
Lemma wire_entries_go e kt vt kvs :
  (fix go l := match l with [] => []
     | (k, x) :: r => ((0, wire_of e kt k), (1, wire_of e vt x)) :: go r end) kvs = wire_entries e kt vt kvs.
Proof. induction kvs as [|[k x] r IH]; cbn [wire_entries]; [reflexivity|]. now rewrite IH. Qed.
Lemma wire_fields_go e vs : forall fds,
  (fix go l (fds : schema) := match l, fds with
     | x :: l', fd :: fds' =>
         if left_out (fty fd) (freq fd) (fdef fd) x then go l' fds'
         else (ftag fd, wire_of e (fty fd) x) :: go l' fds'
     | _, _ => [] end) vs fds = wire_fields e vs fds.
Proof.
  induction vs as [|x r IH]; intros [|fd fds]; cbn [wire_fields]; try reflexivity. rewrite IH. reflexivity.
Qed.
Lemma wire_of_vec e x xs : wire_of e (TVec x) (VList xs) = WList (wire_elems e x xs).
Proof. cbn [wire_of]. now rewrite wire_elems_go. Qed.
Lemma wire_of_arr e n x xs : wire_of e (TArr n x) (VList xs) = WList (wire_elems e x xs).
Proof. cbn [wire_of]. now rewrite wire_elems_go. Qed.
Lemma wire_of_map e kt vt kvs : wire_of e (TMap kt vt) (VMap kvs) = WMap (wire_entries e kt vt kvs).
Proof. cbn [wire_of]. now rewrite wire_entries_go. Qed.
Lemma wire_of_struct e sid vs : wire_of e (TStruct sid) (VStruct vs) = WStruct (wire_fields e vs (fields_of e sid)).
Proof. cbn [wire_of]. now rewrite wire_fields_go. Qed.

Lemma w_int64_wint z tag : fits 64 z = true -> w_int64 z tag = ser_field (tag, wint z).
Proof.
  intros H64. rewrite wire_int64 by assumption. unfold spec_int, wint, ser_field. cbn [fst snd].
  destruct (z =? 0)%Z; [cbn [ty_of ser_body]; now rewrite app_nil_r|].
  destruct (fits 8 z) eqn:F8.
  { cbn [ty_of ser_body be app]. f_equal. f_equal. apply N.mod_small. apply (wrapu_lt 8). lia. }
  destruct (fits 16 z); [reflexivity|]. destruct (fits 32 z); reflexivity.
Qed.

Lemma w_scalar_wire e t v tag : scalar_ty t = true -> sc_typed t v -> w_scalar t v tag = ser_field (tag, wire_of e t v).
Proof.
  intros Hsc Hty.
  destruct t; try discriminate; destruct v; cbn [sc_typed] in Hty; try contradiction; cbn [w_scalar wire_of];
    unfold w_bool, w_uint8, w_uint16, w_uint32.
  - rewrite w_int8_64 by (destruct b; reflexivity). apply w_int64_wint. destruct b; reflexivity.
  - rewrite w_int8_64 by assumption. apply w_int64_wint. now apply (fits_mono 8).
  - rewrite w_int16_64 by (apply (fits_range 16 z 256); [assumption|lia]). apply w_int64_wint. apply (fits_range 64 z 256); [assumption|lia].
  - rewrite w_int16_64 by assumption. apply w_int64_wint. now apply (fits_mono 16).
  - rewrite w_int32_64 by (apply (fits_range 32 z 65536); [assumption|lia]). apply w_int64_wint. apply (fits_range 64 z 65536); [assumption|lia].
  - rewrite w_int32_64 by assumption. apply w_int64_wint. now apply (fits_mono 32).
  - apply w_int64_wint. apply (fits_range 64 z 4294967296); [assumption|lia].
  - now apply w_int64_wint.
  - reflexivity.
  - reflexivity.
  - unfold w_string, wstr, ser_field. cbv zeta. cbn [fst snd].
    destruct (255 <? N.of_nat (length s)) eqn:E; destruct (N.of_nat (length s) <=? 255) eqn:E2; try lia.
    + cbn [ty_of ser_body]. now rewrite N.mod_small by assumption.
    + reflexivity.
  - rewrite w_int32_64 by assumption. apply w_int64_wint. now apply (fits_mono 32).
Qed.

Lemma wint_flat z : wdepth (wint z) = 0.
Proof.
  unfold wint. destruct (z =? 0)%Z; [reflexivity|]. destruct (fits 8 z); [reflexivity|].
  destruct (fits 16 z); [reflexivity|]. destruct (fits 32 z); reflexivity.
Qed.
Lemma scalar_wire_flat e t v : scalar_ty t = true -> sc_typed t v -> wdepth (wire_of e t v) = 0.
Proof.
  intros Hs Hty. destruct v; cbn [wire_of]; try (destruct t; contradiction);
    [apply wint_flat|apply wint_flat|now destruct t|unfold wstr; now destruct (_ <=? _)].
Qed.
Lemma left_out_req t d v : left_out t true d v = false.
Proof. destruct v; try reflexivity; destruct t; reflexivity. Qed.
Lemma left_out_scalar t req d v : scalar_ty t = true -> sc_typed t v -> left_out t req d v = omit t req d v.
Proof. destruct t; try discriminate; destruct v; cbn [sc_typed]; intros _ H; try contradiction; reflexivity. Qed.
Lemma wire_elems_length e x xs : length (wire_elems e x xs) = length xs.
Proof. induction xs; cbn [wire_elems length]; congruence. Qed.
Lemma wire_entries_length e kt vt kvs : length (wire_entries e kt vt kvs) = length kvs.
Proof. induction kvs as [|[k x] r IH]; cbn [wire_entries length]; congruence. Qed.
Lemma w_int32_count n : N.of_nat n < 2147483648 -> w_int32 (Z.of_nat n) 0 = w_len (N.of_nat n).
Proof. intros H. replace (Z.of_nat n) with (Z.of_N (N.of_nat n)) by lia. now apply w_int32_len. Qed.

Lemma ser_list_field tag n ws : length ws = n -> N.of_nat n < 2147483648 ->
  head tLIST tag ++ w_int32 (Z.of_nat n) 0 ++ ser_fields ws = ser_field (tag, WList ws).
Proof. intros <- H. unfold ser_field. cbn [fst snd ty_of ser_body]. now rewrite ser_list_go, w_int32_count. Qed.

Section Wire.
Variable e : env.

(* the bytes of a member are the serialisation of its wire tree (nothing, when it is left out) *)
Definition wire_member (t : ty) (v : val) : Prop := forall tag req d,
  enc_var e tag req t d v = if left_out t req d v then [] else ser_field (tag, wire_of e t v).

Lemma enc_elems_wire x xs : Forall (wire_member x) xs -> enc_elems e x xs = ser_fields (wire_elems e x xs).
Proof. induction 1 as [|y r Hy _ IH]; cbn [enc_elems wire_elems ser_fields]; [reflexivity|]. now rewrite Hy, left_out_req, IH. Qed.
Lemma enc_entries_wire kt vt kvs : Forall (fun p => wire_member kt (fst p) /\ wire_member vt (snd p)) kvs ->
  enc_entries e kt vt kvs = ser_fields (flat (wire_entries e kt vt kvs)).
Proof.
  induction 1 as [|[ky y] r [Hk Hy] _ IH]; [reflexivity|]. cbn [fst snd] in Hk, Hy. cbn [enc_entries wire_entries].
  unfold flat. cbn [flat_map fst snd app ser_fields]. fold (flat (wire_entries e kt vt r)). now rewrite Hk, Hy, !left_out_req, IH.
Qed.
Lemma enc_fields_wire_of fds vs : Forall2 (fun fd x => wire_member (fty fd) x) fds vs ->
  enc_fields e vs fds = ser_fields (wire_fields e vs fds).
Proof.
  induction 1 as [|fd x fds vs Hx _ IH]; [reflexivity|]. cbn [enc_fields wire_fields]. rewrite Hx, IH.
  destruct (left_out (fty fd) (freq fd) (fdef fd) x); reflexivity.
Qed.

Theorem enc_var_wire : forall t v, has_type e t v -> wire_member t v.
Proof.
  apply (has_type_nested e wire_member); unfold wire_member.
  - intros t v Hs Hty tag req d. rewrite enc_var_scalar, left_out_scalar by assumption.
    destruct (omit t req d v); [reflexivity|]. now apply w_scalar_wire.
  - intros s Hs tag req d. cbn [enc_var left_out]. destruct (negb req && _)%bool; [reflexivity|].
    unfold ser_field. cbn [fst snd wire_of ty_of ser_body]. now rewrite w_int32_count by assumption.
  - intros x xs _ Hl _ IH tag req d. rewrite enc_var_list, wire_of_vec, (enc_elems_wire x xs IH). cbn [left_out].
    destruct (negb req && _)%bool; [reflexivity|]. apply ser_list_field; [apply wire_elems_length|assumption].
  - intros n x xs <- _ Hl _ IH tag req d. rewrite enc_var_arr, wire_of_arr, (enc_elems_wire x xs IH). cbn [left_out].
    destruct (negb req && _)%bool; [reflexivity|]. apply ser_list_field; [apply wire_elems_length|assumption].
  - intros kt vt kvs Hl _ IH tag req d. rewrite enc_var_map, wire_of_map, (enc_entries_wire kt vt kvs IH). cbn [left_out].
    destruct (negb req && _)%bool; [reflexivity|]. unfold ser_field. cbn [fst snd ty_of ser_body].
    now rewrite ser_map_go, wire_entries_length, w_int32_count by assumption.
  - intros sid vs _ IH tag req d. rewrite enc_var_struct, wire_of_struct, (enc_fields_wire_of _ vs IH). cbn [left_out].
    unfold ser_field. cbn [fst snd ty_of ser_body]. now rewrite ser_list_go.
Qed.
Lemma enc_fields_wire fds vs : Forall2 (fun fd x => has_type e (fty fd) x) fds vs ->
  enc_fields e vs fds = ser_fields (wire_fields e vs fds).
Proof. intros H. apply enc_fields_wire_of. induction H; constructor; [now apply enc_var_wire|assumption]. Qed.

(* the bytes WriteTo produces are the serialisation of the wire fields the schema prescribes *)
Theorem encode_wire sid vs : has_type e (TStruct sid) (VStruct vs) ->
  encode e sid (VStruct vs) = ser_fields (wire_fields e vs (fields_of e sid)).
Proof.
  intros Hty. rewrite encode_fields. pose proof (has_type_struct _ _ _ Hty) as Hvs. now apply enc_fields_wire.
Qed.
End Wire.
Print Assumptions encode_wire.

(* the wire tree has the shape the schema prescribes *)
Lemma wint_adm bits z : is_width bits -> fits bits z = true -> adm_int bits (ty_of (wint z)) = true.
Proof.
  intros Hb Hf. unfold wint. destruct (z =? 0)%Z; [reflexivity|].
  destruct (fits 8 z) eqn:F8; [reflexivity|].
  destruct (fits 16 z) eqn:F16.
  { destruct Hb as [-> | [-> | [-> | ->]]]; [congruence|reflexivity|reflexivity|reflexivity]. }
  destruct (fits 32 z) eqn:F32.
  { destruct Hb as [-> | [-> | [-> | ->]]]; [congruence|congruence|reflexivity|reflexivity]. }
  destruct Hb as [-> | [-> | [-> | ->]]]; [congruence|congruence|congruence|reflexivity].
Qed.

Lemma adm_wire e t v : has_type e t v -> adm t (ty_of (wire_of e t v)) = true.
Proof.
  intros Hty. inversion Hty; subst.
  - destruct t; try discriminate; destruct v; cbn [sc_typed] in *; try contradiction; cbn [adm wire_of].
    + apply wint_adm; [widths|destruct b; reflexivity].
    + apply wint_adm; [widths|assumption].
    + apply wint_adm; [widths|apply (fits_range 16 z 256); [assumption|lia]].
    + apply wint_adm; [widths|assumption].
    + apply wint_adm; [widths|apply (fits_range 32 z 65536); [assumption|lia]].
    + apply wint_adm; [widths|assumption].
    + apply wint_adm; [widths|apply (fits_range 64 z 4294967296); [assumption|lia]].
    + apply wint_adm; [widths|assumption].
    + reflexivity.
    + reflexivity.
    + unfold wstr. destruct (_ <=? 255); reflexivity.
    + apply wint_adm; [widths|assumption].
  - reflexivity.
  - rewrite wire_of_vec. reflexivity.
  - rewrite wire_of_arr. reflexivity.
  - rewrite wire_of_map. reflexivity.
  - rewrite wire_of_struct. reflexivity.
Qed.

Theorem wire_fields_conform e : forall fds vs, Forall2 (fun fd x => has_type e (fty fd) x) fds vs ->
  conforms fds (wire_fields e vs fds).
Proof.
  induction 1 as [|fd x fds vs Hx _ IH]; cbn [wire_fields]; [constructor|].
  destruct (left_out (fty fd) (freq fd) (fdef fd) x) eqn:El.
  - apply cf_skip; [|assumption]. destruct (freq fd) eqn:Er; [|reflexivity]. now rewrite left_out_req in El.
  - apply cf_take; [|assumption]. now apply adm_wire.
Qed.

(* conforming to a schema with strictly ascending tags: tags strictly ascending (hence at most once) *)
Lemma conforms_tags_gt : forall fds fs p, ascending p fds -> conforms fds fs -> Forall (fun f => p < fst f /\ fst f < 256) fs.
Proof.
  induction fds as [|fd fds IH]; intros fs p Hasc Hc.
  - inversion Hc; subst. apply Forall_nil.
  - cbn [ascending] in Hasc. destruct Hasc as (H1 & H2 & H3). inversion Hc as [|? ? ? Hr Hc'|? ? w ? Ha Hc']; subst.
    + eapply Forall_impl; [|apply (IH _ _ H3 Hc')]. intros f [A B]. split; [lia|assumption].
    + apply Forall_cons; [cbn [fst]; split; assumption|].
      eapply Forall_impl; [|apply (IH _ _ H3 Hc')]. intros f [A B]. split; [lia|assumption].
Qed.
Lemma conforms_sorted_opt : forall fds fs lo, asc_opt lo fds -> conforms fds fs -> StronglySorted N.lt (map fst fs).
Proof.
  induction fds as [|fd fds IH]; intros fs lo Hasc Hc.
  - inversion Hc; subst. apply SSorted_nil.
  - destruct (asc_opt_cons _ _ _ Hasc) as [_ H3].
    inversion Hc as [|? ? ? Hr Hc'|? ? w ? Ha Hc']; subst.
    + now apply (IH _ (Some (ftag fd))).
    + cbn [map fst]. apply SSorted_cons; [now apply (IH _ (Some (ftag fd)))|].
      apply Forall_map. eapply Forall_impl; [|apply (conforms_tags_gt _ _ _ H3 Hc')]. intros f [A _]. exact A.
Qed.
Theorem conforms_sorted : forall fds fs, schema_ascending fds -> conforms fds fs -> StronglySorted N.lt (map fst fs).
Proof. intros fds fs. apply (conforms_sorted_opt fds fs None). Qed.
Print Assumptions wire_fields_conform.
Print Assumptions conforms_sorted.

(* the wire tree is well formed: byte ranges, tags, lengths within the format's fields *)
Notation lim := 1073741824 (only parsing).   (* 2^30: any encoding shorter than 1 GiB (packets are limited to 10 MiB) *)

Lemma sc_typed_fits64 t z : sc_typed t (VInt z) -> fits 64 z = true.
Proof.
  destruct t; cbn [sc_typed]; intros H; try contradiction.
  - now apply (fits_mono 8).
  - apply (fits_range 64 z 256); [assumption|lia].
  - now apply (fits_mono 16).
  - apply (fits_range 64 z 65536); [assumption|lia].
  - now apply (fits_mono 32).
  - apply (fits_range 64 z 4294967296); [assumption|lia].
  - exact H.
  - now apply (fits_mono 32).
Qed.
Lemma wint_ok z : fits 64 z = true -> wf_ok (wint z).
Proof.
  intros H. unfold wint. destruct (z =? 0)%Z; [exact I|].
  destruct (fits 8 z); [cbn [wf_ok]; apply (wrapu_lt 8); lia|].
  destruct (fits 16 z); [cbn [wf_ok]; apply (wrapu_lt 16); lia|].
  destruct (fits 32 z); [cbn [wf_ok]; apply (wrapu_lt 32); lia|].
  cbn [wf_ok]. apply (wrapu_lt 64). lia.
Qed.
Lemma entries_ok_build (l : list ((N * wf) * (N * wf))) :
  Forall (fun p => fst (fst p) < 256 /\ fst (snd p) < 256 /\ wf_ok (snd (fst p)) /\ wf_ok (snd (snd p))) l ->
  (fix all l := match l with [] => True
     | ((tk, k), (tv, v)) :: r => tk < 256 /\ tv < 256 /\ wf_ok k /\ wf_ok v /\ all r end) l.
Proof. induction 1 as [|[[tk k] [tv v]] r (A & B & C & D) _ IH]; [exact I|]. cbn [fst snd] in *. tauto. Qed.
Lemma ser_body_le_field f : (length (ser_body (snd f)) <= length (ser_field f))%nat.
Proof. unfold ser_field. rewrite app_length. lia. Qed.

Section WireOk.
Variable e : env.
Hypothesis Htags : forall sid fd, In fd (fields_of e sid) -> ftag fd < 256.

(* well-formedness needs the lengths to fit the format's length fields: a bound on the serialised size at each node *)
Definition ok_member (t : ty) (v : val) : Prop :=
  N.of_nat (length (ser_body (wire_of e t v))) < lim -> wf_ok (wire_of e t v).

Lemma wire_elems_ok x xs : Forall (ok_member x) xs ->
  N.of_nat (length (ser_fields (wire_elems e x xs))) < lim -> fields_ok (wire_elems e x xs).
Proof.
  induction 1 as [|y r Hy _ IH]; intros Hl; [constructor|]. cbn [wire_elems ser_fields] in *. rewrite app_length in Hl.
  pose proof (ser_body_le_field (0, wire_of e x y)). cbn [snd] in *.
  constructor; [cbn [fst snd]; split; [lia|apply Hy; lia]|apply IH; lia].
Qed.
Lemma wire_entries_ok kt vt kvs : Forall (fun p => ok_member kt (fst p) /\ ok_member vt (snd p)) kvs ->
  N.of_nat (length (ser_fields (flat (wire_entries e kt vt kvs)))) < lim ->
  Forall (fun p => fst (fst p) < 256 /\ fst (snd p) < 256 /\ wf_ok (snd (fst p)) /\ wf_ok (snd (snd p))) (wire_entries e kt vt kvs).
Proof.
  induction 1 as [|[ky y] r [Hk Hy] _ IH]; intros Hl; [constructor|]. cbn [fst snd] in Hk, Hy. cbn [wire_entries] in *.
  unfold flat in Hl. cbn [flat_map fst snd app ser_fields] in Hl. fold (flat (wire_entries e kt vt r)) in Hl. rewrite !app_length in Hl.
  pose proof (ser_body_le_field (0, wire_of e kt ky)). pose proof (ser_body_le_field (1, wire_of e vt y)). cbn [snd] in *.
  constructor; [cbn [fst snd]; repeat split; try lia; [apply Hk|apply Hy]; lia|apply IH; lia].
Qed.
Lemma wire_fields_ok_of fds vs : Forall2 (fun fd x => ok_member (fty fd) x) fds vs -> (forall fd, In fd fds -> ftag fd < 256) ->
  N.of_nat (length (ser_fields (wire_fields e vs fds))) < lim -> fields_ok (wire_fields e vs fds).
Proof.
  induction 1 as [|fd x fds vs Hx _ IH]; intros Ht Hl; [constructor|]. cbn [wire_fields] in *.
  assert (Ht' : forall fd', In fd' fds -> ftag fd' < 256) by (intros fd' Hin; apply Ht; now right).
  destruct (left_out (fty fd) (freq fd) (fdef fd) x); [now apply IH|].
  cbn [ser_fields] in Hl. rewrite app_length in Hl. pose proof (ser_body_le_field (ftag fd, wire_of e (fty fd) x)). cbn [snd] in *.
  constructor; [cbn [fst snd]; split; [apply Ht; now left|apply Hx; lia]|apply IH; [assumption|lia]].
Qed.

Lemma wire_ok : forall t v, has_type e t v -> ok_member t v.
Proof.
  apply (has_type_nested e ok_member); unfold ok_member.
  - intros t v Hs Hty Hl. destruct v; cbn [wire_of] in *; try (destruct t; contradiction).
    + apply wint_ok. now destruct b.
    + apply wint_ok. now apply (sc_typed_fits64 t).
    + destruct t; cbn [sc_typed] in Hty; try contradiction; exact Hty.
    + destruct t; cbn [sc_typed] in Hty; try contradiction.
      unfold wstr in *. destruct (N.of_nat (length s) <=? 255) eqn:E; cbn [wf_ok ser_body] in *; [lia|].
      rewrite app_length, be_length in Hl. change (2 ^ 31) with 2147483648. lia.
  - intros s Hs _. cbn [wire_of wf_ok]. change (2 ^ 31) with 2147483648. lia.
  - intros x xs _ _ _ IH Hl. rewrite wire_of_vec in *. cbn [wf_ok ser_body] in *. rewrite ser_list_go, app_length in Hl.
    pose proof (ser_fields_length (wire_elems e x xs)) as Hlen. rewrite wire_elems_length in *.
    change (2 ^ 30) with 1073741824. split; [lia|]. apply wf_ok_fields. apply wire_elems_ok; [assumption|lia].
  - intros n x xs _ _ _ _ IH Hl. rewrite wire_of_arr in *. cbn [wf_ok ser_body] in *. rewrite ser_list_go, app_length in Hl.
    pose proof (ser_fields_length (wire_elems e x xs)) as Hlen. rewrite wire_elems_length in *.
    change (2 ^ 30) with 1073741824. split; [lia|]. apply wf_ok_fields. apply wire_elems_ok; [assumption|lia].
  - intros kt vt kvs _ _ IH Hl. rewrite wire_of_map in *. cbn [wf_ok ser_body] in *. rewrite ser_map_go, app_length in Hl.
    pose proof (ser_fields_length (flat (wire_entries e kt vt kvs))) as Hlen. rewrite flat_length, wire_entries_length in *.
    change (2 ^ 30) with 1073741824. split; [lia|]. apply entries_ok_build. apply wire_entries_ok; [assumption|lia].
  - intros sid vs _ IH Hl. rewrite wire_of_struct in *. cbn [wf_ok ser_body] in *. rewrite ser_list_go, app_length in Hl.
    apply wf_ok_fields. apply wire_fields_ok_of; [assumption|apply Htags|lia].
Qed.
Lemma wire_fields_ok fds vs : Forall2 (fun fd x => has_type e (fty fd) x) fds vs -> (forall fd, In fd fds -> ftag fd < 256) ->
  N.of_nat (length (ser_fields (wire_fields e vs fds))) < lim -> fields_ok (wire_fields e vs fds).
Proof. intros H. apply wire_fields_ok_of. induction H; constructor; [now apply wire_ok|assumption]. Qed.
End WireOk.

Lemma schema_tags_lt k e : wf_schema k e -> forall sid fd, In fd (fields_of e sid) -> ftag fd < 256.
Proof. intros Hwf sid. apply schema_ascending_lt256, (wf_asc k e Hwf). Qed.

(* C03, second clause: the bytes of a well-typed value are the serialisation of a well-formed wire field list that
   conforms to the schema (declared tags, admissible wire types, required members present), tags strictly ascending *)
Theorem encode_conforms e k sid vs :
  wf_schema k e -> has_type e (TStruct sid) (VStruct vs) -> N.of_nat (length (encode e sid (VStruct vs))) < lim ->
  let fs := wire_fields e vs (fields_of e sid) in
  encode e sid (VStruct vs) = ser_fields fs /\ fields_ok fs /\ conforms (fields_of e sid) fs /\
  StronglySorted N.lt (map fst fs).
Proof.
  intros Hwf Hty Hl fs. pose proof (encode_wire e sid vs Hty) as He. fold fs in He.
  pose proof (has_type_struct _ _ _ Hty) as Hvs.
  assert (Hc : conforms (fields_of e sid) fs) by (now apply wire_fields_conform).
  repeat split; try assumption.
  - apply (wire_fields_ok e (schema_tags_lt k e Hwf)); [assumption|apply (schema_tags_lt k e Hwf sid)|]. fold fs. now rewrite <- He.
  - apply (conforms_sorted (fields_of e sid)); [apply (wf_asc k e Hwf)|assumption].
Qed.
(* integers in their narrowest width: the wire tree of an integer is the declarative spec_int of Props/C02 *)
Theorem wint_narrowest z tag : fits 64 z = true -> ser_field (tag, wint z) = spec_int z tag.
Proof. intros H. rewrite <- w_int64_wint by assumption. now apply wire_int64. Qed.
Print Assumptions encode_conforms.
