(* C06 "never decoded into made-up data", typing half: whatever the bytes, a value the decoder returns is a value of
   the IDL type (integers within the range of their Go type, float bit patterns of the right width, containers of
   typed elements with counts the format can express, fixed arrays of the declared length, struct members typed by
   the schema). With it, C03's canonicity becomes exact: decode-then-encode is the identity on an accepted input
   exactly when the input is an image of the encoder. *)
From Coq Require Import List NArith ZArith Lia Bool Arith.
From Coq Require Import ZifyN ZifyNat ZifyBool.
From TarsV Require Import Gen.Consts Base.Hex Codec.Wire Codec.WireProofs Codec.Skip Codec.SkipProofs Codec.Prim
  Codec.PrimProofs Codec.GenCodec Codec.Corr Codec.GenProofs Codec.RoundTrip Codec.RoundTripProofs Codec.TotalProofs
  Codec.FloatWiden Codec.NormProofs Codec.CanonProofs.
Import ListNotations.
Ltac Zify.zify_post_hook ::= Z.div_mod_to_equations.
Open Scope N_scope.

Definition sfx (r bs : list N) : Prop := exists p, bs = p ++ r.
Lemma sfx_refl bs : sfx bs bs. Proof. now exists []. Qed.
Lemma sfx_nil bs : sfx [] bs. Proof. exists bs. now rewrite app_nil_r. Qed.
Lemma sfx_trans a b c : sfx a b -> sfx b c -> sfx a c.
Proof. intros [p ->] [q ->]. exists (q ++ p). now rewrite app_assoc. Qed.
Lemma sfx_cons b r : sfx r (b :: r). Proof. now exists [b]. Qed.
Lemma sfx_skipn n bs : sfx (skipn n bs) bs. Proof. exists (firstn n bs). symmetry. apply firstn_skipn. Qed.
Lemma sfx_tl bs : sfx (tl bs) bs. Proof. destruct bs; [apply sfx_refl|apply sfx_cons]. Qed.
Lemma sfx_Forall (P : N -> Prop) r bs : sfx r bs -> Forall P bs -> Forall P r.
Proof. intros [p ->] H. apply Forall_app in H. tauto. Qed.
Lemma sfx_len r bs : sfx r bs -> (length r <= length bs)%nat.
Proof. intros [p ->]. rewrite app_length. lia. Qed.
Lemma sfx_drop n bs : sfx (drop n bs) bs.
Proof. unfold drop. destruct (_ <=? _); [apply sfx_nil|apply sfx_skipn]. Qed.

Lemma read_head2_sfx bs ty tg r two : read_head2 bs = Some (ty, tg, r, two) -> sfx r bs.
Proof.
  unfold read_head2. destruct bs as [|b r0]; [discriminate|].
  destruct (b / 16 =? 15); [destruct r0 as [|t r1]; [discriminate|]|]; intros H; inversion H; subst.
  - eexists [_; _]. reflexivity.
  - apply sfx_cons.
Qed.
Lemma read_head_sfx bs ty tg r : read_head bs = Some (ty, tg, r) -> sfx r bs.
Proof.
  unfold read_head. destruct (read_head2 bs) as [[[[a b] c] d]|] eqn:E; [|discriminate].
  intros H; inversion H; subst. eapply read_head2_sfx; eauto.
Qed.
Lemma bread_sfx n bs v r : bread n bs = Some (v, r) -> sfx r bs /\ v = be_val 0 (firstn n bs) /\ (n <= length bs)%nat.
Proof.
  unfold bread. destruct (n <=? length bs)%nat eqn:E; [|discriminate]. intros H; inversion H; subst.
  apply Nat.leb_le in E. repeat split; [apply sfx_skipn|assumption].
Qed.
Lemma read_count_sfx bs : match read_count bs with COk _ r => sfx r bs | CErr r => sfx r bs end.
Proof.
  unfold read_count. destruct (read_head bs) as [[[ty tg] r]|] eqn:E; [|apply sfx_nil].
  apply read_head_sfx in E.
  destruct (negb (tg =? 0) || (ty =? tSE)); [assumption|].
  destruct (ty =? tZERO); [assumption|].
  destruct (ty =? tBYTE). { destruct r as [|b r']; [apply sfx_nil|]. eapply sfx_trans; [apply sfx_cons|eassumption]. }
  destruct (ty =? tSHORT). { destruct (bread 2 r) as [[v r']|] eqn:B; [|apply sfx_nil]. apply bread_sfx in B. eapply sfx_trans; [apply B|assumption]. }
  destruct (ty =? tINT). { destruct (bread 4 r) as [[v r']|] eqn:B; [|apply sfx_nil]. apply bread_sfx in B. eapply sfx_trans; [apply B|assumption]. }
  assumption.
Qed.

Lemma skip_sfx : forall fuel,
  (forall d ty bs, sfx (snd (skip_field fuel d ty bs)) bs) /\
  (forall d n bs, sfx (snd (skip_n fuel d n bs)) bs) /\
  (forall d bs, sfx (snd (skip_to_end fuel d bs)) bs).
Proof.
  induction fuel as [|f (IHf & IHn & IHe)]; [repeat split; intros; apply sfx_refl|].
  split; [|split].
  - intros d ty bs. cbn [skip_field].
    destruct (ty =? tBYTE); [apply sfx_drop|]. destruct (ty =? tSHORT); [apply sfx_drop|].
    destruct (ty =? tINT); [apply sfx_drop|]. destruct (ty =? tLONG); [apply sfx_drop|].
    destruct (ty =? tFLOAT); [apply sfx_drop|]. destruct (ty =? tDOUBLE); [apply sfx_drop|].
    destruct (ty =? tSTR1). { destruct bs as [|l r]; [apply sfx_nil|]. cbn [snd]. eapply sfx_trans; [apply sfx_drop|apply sfx_cons]. }
    destruct (ty =? tSTR4).
    { destruct (bread 4 bs) as [[l r]|] eqn:B; [|apply sfx_nil]. apply bread_sfx in B. cbn [snd]. eapply sfx_trans; [apply sfx_drop|apply B]. }
    destruct (ty =? tMAP).
    { destruct (maxd <=? d); [apply sfx_refl|]. pose proof (read_count_sfx bs) as Hc.
      destruct (read_count bs) as [n r|r]; [|exact Hc]. eapply sfx_trans; [apply IHn|exact Hc]. }
    destruct (ty =? tLIST).
    { destruct (maxd <=? d); [apply sfx_refl|]. pose proof (read_count_sfx bs) as Hc.
      destruct (read_count bs) as [n r|r]; [|exact Hc]. eapply sfx_trans; [apply IHn|exact Hc]. }
    destruct (ty =? tSIMPLE).
    { destruct (read_head bs) as [[[t tg] r]|] eqn:E; [|apply sfx_nil]. apply read_head_sfx in E.
      destruct (negb (t =? tBYTE)); [exact E|].
      pose proof (read_count_sfx r) as Hc. destruct (read_count r) as [n r'|r']; [|eapply sfx_trans; eassumption].
      cbn [snd]. destruct (0 <? n)%Z; [eapply sfx_trans; [apply sfx_drop|]|]; eapply sfx_trans; eassumption. }
    destruct (ty =? tSB). { destruct (maxd <=? d); [apply sfx_refl|apply IHe]. }
    destruct ((ty =? tSE) || (ty =? tZERO)); apply sfx_refl.
  - intros d n bs. cbn [skip_n]. destruct (n <=? 0)%Z; [apply sfx_refl|].
    destruct (read_head bs) as [[[ty tg] r]|] eqn:E; [|apply sfx_nil]. apply read_head_sfx in E.
    pose proof (IHf d ty r) as H1. destruct (skip_field f d ty r) as [s r']. cbn [snd] in H1.
    eapply sfx_trans; [apply IHn|]. eapply sfx_trans; eassumption.
  - intros d bs. cbn [skip_to_end].
    destruct (read_head bs) as [[[ty tg] r]|] eqn:E; [|apply sfx_nil]. apply read_head_sfx in E.
    pose proof (IHf d ty r) as H1. destruct (skip_field f d ty r) as [s r']. cbn [snd] in H1.
    destruct s; cbn [snd]; try (eapply sfx_trans; eassumption).
    destruct (ty =? tSE); cbn [snd]; [eapply sfx_trans; eassumption|].
    eapply sfx_trans; [apply IHe|]. eapply sfx_trans; eassumption.
Qed.

Definition seek_sfx (bs : list N) (s : seek) : Prop :=
  match s with Found _ r => sfx r bs | NotFound r => sfx r bs | _ => True end.
Lemma seek_suffix : forall fuel tag req bs, seek_sfx bs (skip_to_no_check fuel tag req bs).
Proof.
  induction fuel as [|f IH]; intros tag req bs; [exact I|]. cbn [skip_to_no_check].
  destruct (read_head2 bs) as [[[[ty tg] r] two]|] eqn:E.
  - apply read_head2_sfx in E. destruct ((ty =? tSE) || (tag <? tg)).
    + destruct req; [exact I|]. cbn [seek_sfx]. unfold unread. destruct (two && (tg <? 15)); [apply sfx_tl|apply sfx_refl].
    + destruct (tg =? tag); [exact E|]. destruct (skip_sfx f) as (Hf & _). pose proof (Hf 0 ty r) as H1.
      destruct (skip_field f 0 ty r) as [s r']. cbn [snd] in H1. destruct s; try exact I.
      specialize (IH tag req r'). destruct (skip_to_no_check f tag req r'); cbn [seek_sfx] in *; try exact I;
        (eapply sfx_trans; [exact IH|]; eapply sfx_trans; eassumption).
  - destruct req; [exact I|]. apply sfx_nil.
Qed.
Lemma skip_to_suffix fuel ty tag req bs : seek_sfx bs (skip_to fuel ty tag req bs).
Proof.
  unfold skip_to. pose proof (seek_suffix fuel tag req bs) as H.
  destruct (skip_to_no_check fuel tag req bs); try exact H. destruct (ty0 =? ty); [exact H|exact I].
Qed.

Definition bytes_ok (bs : list N) : Prop := Forall (fun b => b < 256) bs.
(* shorter than the largest length an int32 count can announce *)
Definition lenok (bs : list N) : Prop := N.of_nat (length bs) < 2147483648.
Lemma bytes_ok_sfx r bs : sfx r bs -> bytes_ok bs -> bytes_ok r.
Proof. apply sfx_Forall. Qed.
Lemma lenok_sfx r bs : sfx r bs -> lenok bs -> lenok r.
Proof. intros H L. apply sfx_len in H. unfold lenok in *. lia. Qed.
Lemma bytes_ok_firstn n bs : bytes_ok bs -> bytes_ok (firstn n bs).
Proof. intros H. rewrite <- (firstn_skipn n bs) in H. apply Forall_app in H. tauto. Qed.

Lemma be_val_lt l : forall acc, bytes_ok l -> be_val acc l < (acc + 1) * 256 ^ N.of_nat (length l).
Proof.
  induction l as [|b r IH]; intros acc H; cbn [be_val length].
  - cbn. lia.
  - inversion H as [|? ? Hb Hr]; subst. specialize (IH (acc * 256 + b) Hr).
    rewrite Nnat.Nat2N.inj_succ, N.pow_succ_r'.
    eapply N.lt_le_trans; [exact IH|].
    replace ((acc + 1) * (256 * 256 ^ N.of_nat (length r))) with (((acc + 1) * 256) * 256 ^ N.of_nat (length r)) by lia.
    apply N.mul_le_mono_r. lia.
Qed.
Lemma bread_val n bs v r : bread n bs = Some (v, r) -> bytes_ok bs -> v < 256 ^ N.of_nat n.
Proof.
  intros B H. apply bread_sfx in B. destruct B as (_ & -> & Hn).
  pose proof (be_val_lt (firstn n bs) 0 (bytes_ok_firstn n bs H)) as Hl. rewrite firstn_length_le in Hl by assumption. lia.
Qed.

Lemma sext_fits bits v : is_width bits -> (Z.of_N v < 2 ^ bits)%Z -> fits bits (sext bits v) = true.
Proof.
  intros Hb Hv. assert (Hpos : (0 < bits)%Z) by (destruct Hb as [-> | [-> | [-> | ->]]]; lia).
  assert (E : (2 ^ bits = 2 * 2 ^ (bits - 1))%Z) by (rewrite <- Z.pow_succ_r by lia; f_equal; lia).
  unfold fits, sext. cbv zeta. destruct (Z.of_N v <? 2 ^ (bits - 1))%Z eqn:C; lia.
Qed.

(* a big-endian field of [nb] bytes read as a signed integer of width [w] = 8 nb fits every width from [w] up *)
Lemma bread_sext_typed nb w bits r z r' : is_width w -> (w <= bits)%Z -> Z.of_N (256 ^ N.of_nat nb) = (2 ^ w)%Z -> bytes_ok r ->
  match bread nb r with None => None | Some (v, x) => Some (sext w v, x) end = Some (z, r') -> fits bits z = true /\ sfx r' r.
Proof.
  intros Hw Hle Hp Hr. destruct (bread nb r) as [[v x]|] eqn:B; [|discriminate]. intros H; inversion H; subst.
  pose proof (bread_val _ _ _ _ B Hr) as Hv. apply bread_sfx in B. split; [|apply B].
  apply (fits_mono w bits); [assumption|]. apply sext_fits; [assumption|lia].
Qed.

Lemma read_int_body_typed bits ty r z r' : is_width bits -> bytes_ok r -> read_int_body bits ty r = Some (z, r') ->
  fits bits z = true /\ sfx r' r.
Proof.
  intros Hb Hr. unfold read_int_body.
  destruct (ty =? tZERO). { intros H; inversion H; subst. split; [destruct Hb as [-> | [-> | [-> | ->]]]; reflexivity|apply sfx_refl]. }
  destruct (ty =? tBYTE).
  { destruct r as [|b r0]; [discriminate|]. intros H; inversion H; subst. inversion Hr; subst. split; [|apply sfx_cons].
    apply (fits_mono 8 bits); [destruct Hb as [-> | [-> | [-> | ->]]]; lia|]. apply sext_fits; [widths|]. cbn. lia. }
  destruct ((ty =? tSHORT) && (16 <=? bits)%Z) eqn:E1; [apply (bread_sext_typed 2 16); [widths|lia|reflexivity|assumption]|].
  destruct ((ty =? tINT) && (32 <=? bits)%Z) eqn:E2; [apply (bread_sext_typed 4 32); [widths|lia|reflexivity|assumption]|].
  destruct ((ty =? tLONG) && (64 <=? bits)%Z) eqn:E3; [apply (bread_sext_typed 8 64); [widths|lia|reflexivity|assumption]|].
  discriminate.
Qed.
Lemma read_f32_body_typed ty r b r' : bytes_ok r -> read_f32_body ty r = Some (b, r') -> b < 4294967296 /\ sfx r' r.
Proof.
  intros Hr. unfold read_f32_body. destruct (ty =? tZERO); [intros H; inversion H; subst; split; [lia|apply sfx_refl]|].
  destruct (ty =? tFLOAT); [|discriminate]. intros B. pose proof (bread_val _ _ _ _ B Hr) as Hv. apply bread_sfx in B. split; [cbn in Hv; lia|apply B].
Qed.
Lemma read_f64_body_typed ty r b r' : bytes_ok r -> read_f64_body ty r = Some (b, r') -> b < 18446744073709551616 /\ sfx r' r.
Proof.
  intros Hr. unfold read_f64_body. destruct (ty =? tZERO); [intros H; inversion H; subst; split; [lia|apply sfx_refl]|].
  destruct (ty =? tFLOAT).
  { destruct (bread 4 r) as [[v x]|] eqn:B; [|discriminate]. intros H; inversion H; subst.
    pose proof (bread_val _ _ _ _ B Hr) as Hv. apply bread_sfx in B. split; [apply widen32_range; cbn in Hv; lia|apply B]. }
  destruct (ty =? tDOUBLE); [|discriminate]. intros B. pose proof (bread_val _ _ _ _ B Hr) as Hv. apply bread_sfx in B. split; [cbn in Hv; lia|apply B].
Qed.
Lemma take_str_sfx l r s r' : take_str l r = Some (s, r') -> sfx r' r /\ (length s <= length r)%nat /\ s = firstn (N.to_nat l) r.
Proof.
  unfold take_str. destruct (_ <? _); [discriminate|]. intros H; inversion H; subst.
  repeat split; [apply sfx_skipn|rewrite firstn_length; lia].
Qed.
Lemma read_string_body_typed ty r s r' : read_string_body ty r = Some (s, r') -> sfx r' r /\ (length s <= length r)%nat.
Proof.
  unfold read_string_body. destruct (ty =? tSTR4).
  { destruct (bread 4 r) as [[l x]|] eqn:B; [|discriminate]. apply bread_sfx in B. destruct B as (B & _ & _). intros H.
    apply take_str_sfx in H. destruct H as (H1 & H2 & _). pose proof (sfx_len _ _ B). split; [eapply sfx_trans; eassumption|lia]. }
  destruct (ty =? tSTR1); [|discriminate]. destruct r as [|l x]; [discriminate|]. intros H.
  apply take_str_sfx in H. destruct H as (H1 & H2 & _). split; [eapply sfx_trans; [exact H1|apply sfx_cons]|cbn [length]; lia].
Qed.

(* of a primitive reader's result on [bs]: the value read satisfies [Q], and what is left is a suffix of [bs] *)
Definition rty {A} (Q : A -> Prop) (bs : list N) (rr : rres A) : Prop :=
  match rr with ROk a rest => Q a /\ sfx rest bs | RAbsent rest => sfx rest bs | _ => True end.
Lemma with_seek_typed {A} (Q : A -> Prop) f tag req bs (body : N -> list N -> option (A * list N)) :
  (forall ty r a r', bytes_ok r -> lenok r -> body ty r = Some (a, r') -> Q a /\ sfx r' r) ->
  bytes_ok bs -> lenok bs -> rty Q bs (with_seek f tag req bs body).
Proof.
  intros Hb Hbs Hl. unfold with_seek. pose proof (seek_suffix f tag req bs) as Hs.
  destruct (skip_to_no_check f tag req bs) as [ty r|r| |]; cbn [seek_sfx rty] in *; try exact I; try exact Hs.
  destruct (body ty r) as [[a r']|] eqn:E; [|exact I]. cbn [rty].
  destruct (Hb ty r a r' (bytes_ok_sfx _ _ Hs Hbs) (lenok_sfx _ _ Hs Hl) E) as [HQ Hr]. split; [exact HQ|eapply sfx_trans; eassumption].
Qed.
Lemma rty_map {A B} (g : A -> B) (Q : A -> Prop) (Q' : B -> Prop) bs rr :
  (forall a, Q a -> Q' (g a)) -> rty Q bs rr -> rty Q' bs (map_r g rr).
Proof. intros Hg. destruct rr; cbn [rty map_r]; try tauto. intros [H1 H2]. split; [now apply Hg|assumption]. Qed.
Lemma rty_of {A} (Q : A -> Prop) bs rr prior (inj : A -> val) (T : val -> Prop) v r :
  rty Q bs rr -> (forall a, Q a -> T (inj a)) -> T prior -> of_rres rr prior inj = DOk v r -> T v /\ sfx r bs.
Proof.
  destruct rr; cbn [rty of_rres]; intros H Hi Hp E; try discriminate; inversion E; subst.
  - destruct H. split; [now apply Hi|assumption].
  - split; assumption.
Qed.

Lemma r_int_typed bits f tag req bs : is_width bits -> bytes_ok bs -> lenok bs ->
  rty (fun z => fits bits z = true) bs (r_int bits f tag req bs).
Proof. intros Hb Hbs Hl. apply with_seek_typed; try assumption. intros ty r a r' Hr _. now apply read_int_body_typed. Qed.
Lemma r_uint_typed bits m f tag req bs : is_width bits -> (0 < m)%Z -> bytes_ok bs -> lenok bs ->
  rty (fun z => (0 <= z < m)%Z) bs (map_r (fun z => z mod m)%Z (r_int bits f tag req bs)).
Proof. intros Hb Hm Hbs Hl. eapply rty_map; [|now apply r_int_typed]. intros a _. now apply Z.mod_pos_bound. Qed.

Lemma dec_scalar_typed f tag req t prior bs v r : scalar_ty t = true -> sc_typed t prior -> bytes_ok bs -> lenok bs ->
  dec_scalar f tag req t prior bs = DOk v r -> sc_typed t v /\ sfx r bs.
Proof.
  intros Hsc Hp Hbs Hl E.
  destruct t; try discriminate; cbn [dec_scalar] in E; (eapply rty_of; [| |exact Hp|exact E]); try (intros a Ha; exact Ha).
  - eapply rty_map; [|apply (r_int_typed 8); [widths|assumption|assumption]]. intros; exact I.
  - apply r_int_typed; [widths|assumption|assumption].
  - apply r_uint_typed; [widths|lia|assumption|assumption].
  - apply r_int_typed; [widths|assumption|assumption].
  - apply r_uint_typed; [widths|lia|assumption|assumption].
  - apply r_int_typed; [widths|assumption|assumption].
  - apply r_uint_typed; [widths|lia|assumption|assumption].
  - apply r_int_typed; [widths|assumption|assumption].
  - apply with_seek_typed; try assumption. intros ty r0 a r' Hr _ Hbody. now apply (read_f32_body_typed ty r0).
  - apply with_seek_typed; try assumption. intros ty r0 a r' Hr _ Hbody. now apply (read_f64_body_typed ty r0).
  - apply with_seek_typed; try assumption. intros ty r0 a r' Hr Hl0 Hbody. apply read_string_body_typed in Hbody.
    destruct Hbody as [H1 H2]. split; [unfold lenok in Hl0; cbn [sc_typed]; lia|assumption].
  - apply r_int_typed; [widths|assumption|assumption].
Qed.

(* every fixed array in the type has a positive length that a count can express *)
Fixpoint arr_ok (t : ty) : bool :=
  match t with
  | TVec x => arr_ok x
  | TMap a b => arr_ok a && arr_ok b
  | TArr n x => (0 <? n)%nat && (N.of_nat n <? 2147483648) && arr_ok x
  | _ => true
  end.
Definition arrs_ok (e : env) : Prop := forall sid fd, In fd (fields_of e sid) -> arr_ok (fty fd) = true.
Definition arrs_ok_b (e : env) : bool := forallb (forallb (fun fd => arr_ok (fty fd))) e.
Lemma arrs_ok_b_sound e : arrs_ok_b e = true -> arrs_ok e.
Proof. intros H sid fd. exact (env_forallb (fun fd => arr_ok (fty fd)) e H sid fd). Qed.

Section Typed.
Variable e : env.
Variable k : nat.
Hypothesis Hwf : wf_schema k e.
Hypothesis Hdt : defaults_typed e.
Hypothesis Harr : arrs_ok e.

Lemma zero_typed : forall n t f, nest_ok n e t = true -> (n <= f)%nat -> arr_ok t = true -> has_type e t (zero_of f e t).
Proof.
  induction n as [|n IH]; intros t f Hn Hf Ha; [discriminate|]. destruct f as [|f]; [lia|].
  destruct t; cbn [nest_ok arr_ok] in Hn, Ha;
    try (apply HT_scalar; [reflexivity|cbn; first [exact I | reflexivity | lia]]).
  - cbn [zero_of]. destruct t; try (apply HT_vec; [discriminate|cbn; lia|constructor]). apply HT_bytes. cbn. lia.
  - cbn [zero_of]. apply HT_map; [cbn; lia|constructor].
  - cbn [zero_of]. apply andb_true_iff in Ha. destruct Ha as [Ha Hx]. apply andb_true_iff in Ha. destruct Ha as [H0 H1].
    apply Nat.ltb_lt in H0. apply HT_arr; [apply repeat_length|assumption|lia|].
    apply Forall_forall. intros z Hz. apply repeat_spec in Hz. subst z. apply IH; [assumption|lia|assumption].
  - cbn [zero_of]. apply HT_struct. rewrite forallb_forall in Hn. apply Forall2_map_in. intros fd Hin.
    apply IH; [now apply Hn|lia|now apply (Harr sid)].
Qed.

Lemma reset_typed : forall n sid f, nest_ok n e (TStruct sid) = true -> (n <= f)%nat -> has_type e (TStruct sid) (reset_val f e sid).
Proof.
  induction n as [|n IH]; intros sid f Hn Hf; [discriminate|]. destruct f as [|f]; [lia|].
  cbn [nest_ok] in Hn. rewrite forallb_forall in Hn. cbn [reset_val]. apply HT_struct. apply Forall2_map_in. intros fd Hin.
  destruct (fdef fd) as [d|] eqn:Ed.
  - apply HT_scalar; [apply (wf_def k e Hwf sid fd Hin); congruence|now apply (Hdt sid fd d Hin)].
  - pose proof (Hn fd Hin) as Hfd. destruct (fty fd) eqn:Et; try (rewrite <- Et; apply zero_typed with (n := n); rewrite ?Et; [assumption|lia|rewrite <- Et; now apply (Harr sid)]).
    apply IH; [assumption|lia].
Qed.
End Typed.

Lemma replace_nth_Forall (P : val -> Prop) v : forall i l, Forall P l -> P v -> Forall P (replace_nth i v l).
Proof.
  induction i as [|i IH]; intros [|y l] Hl Hv; cbn [replace_nth]; try constructor; inversion Hl; subst; try assumption.
  now apply IH.
Qed.
Lemma replace_nth_length v : forall i l, length (replace_nth i v l) = length l.
Proof. induction i as [|i IH]; intros [|y l]; cbn [replace_nth length]; try reflexivity. now rewrite IH. Qed.
Lemma nth_Forall (P : val -> Prop) i l d : Forall P l -> P d -> P (nth i l d).
Proof. intros Hl Hd. destruct (nth_in_or_default i l d) as [Hin| ->]; [|assumption]. rewrite Forall_forall in Hl. now apply Hl. Qed.
Lemma list_val_typed e x xs : N.of_nat (length xs) < 2147483648 -> Forall (has_type e x) xs -> has_type e (TVec x) (list_val x xs).
Proof.
  intros Hl Hxs. destruct x; try (apply HT_vec; [discriminate|assumption|assumption]). apply HT_bytes. now rewrite map_length.
Qed.
Lemma is_byte_cases x : is_byte x = true -> x = TI8 \/ x = TU8.
Proof. destruct x; cbn; intros H; try discriminate; tauto. Qed.

Section TypedDec.
Variable e : env.
Variable k : nat.
Hypothesis Hwf : wf_schema k e.
Hypothesis Hdt : defaults_typed e.
Hypothesis Harr : arrs_ok e.

Lemma fs_len_var f n t tag req prior bs v r : tfin n e t = true -> (2 * length bs + 3 + tneed n e t <= f)%nat ->
  dec_var f e tag req t prior bs = DOk v r -> (length r <= length bs)%nat /\ (req = true -> (length r < length bs)%nat).
Proof. intros Hfin Hf E. destruct (fs_all e f) as (HV & _). pose proof (HV n t tag req prior bs Hfin Hf) as H. rewrite E in H. exact H. Qed.

Definition TY_var (f : nat) : Prop := forall n t tag req prior bs v r,
  tfin n e t = true -> arr_ok t = true -> ty_nest k e t = true -> has_type e t prior -> bytes_ok bs -> lenok bs ->
  (2 * length bs + 3 + tneed n e t + k <= f)%nat -> dec_var f e tag req t prior bs = DOk v r ->
  has_type e t v /\ sfx r bs.
Definition TY_elems (f : nat) : Prop := forall n x cnt bs vs r,
  tfin n e x = true -> arr_ok x = true -> ty_nest k e x = true -> bytes_ok bs -> lenok bs ->
  (2 * length bs + 4 + tneed n e x + k <= f)%nat -> dec_elems f e x cnt bs = DOk vs r ->
  Forall (has_type e x) vs /\ sfx r bs /\ Z.of_nat (length vs) = Z.max 0 cnt.
Definition TY_arr (f : nat) : Prop := forall n x len i cnt cur bs vs r,
  tfin n e x = true -> arr_ok x = true -> ty_nest k e x = true -> Forall (has_type e x) cur -> bytes_ok bs -> lenok bs ->
  (2 * length bs + 4 + tneed n e x + k <= f)%nat -> dec_arr f e x len i cnt cur bs = DOk vs r ->
  Forall (has_type e x) vs /\ sfx r bs /\ length vs = length cur.
Definition TY_entries (f : nat) : Prop := forall n kt vt cnt bs kvs r,
  tfin n e kt = true -> tfin n e vt = true -> arr_ok kt = true -> arr_ok vt = true -> ty_nest k e kt = true -> ty_nest k e vt = true ->
  bytes_ok bs -> lenok bs -> (2 * length bs + 4 + Nat.max (tneed n e kt) (tneed n e vt) + k <= f)%nat ->
  dec_entries f e kt vt cnt bs = DOk kvs r ->
  Forall (fun p => has_type e kt (fst p) /\ has_type e vt (snd p)) kvs /\ sfx r bs /\ Z.of_nat (length kvs) = Z.max 0 cnt.
Definition TY_fields (f : nat) : Prop := forall n fds ps bs vs r,
  (forall fd, In fd fds -> tfin n e (fty fd) = true /\ arr_ok (fty fd) = true /\ ty_nest k e (fty fd) = true) ->
  Forall2 (fun fd p => has_type e (fty fd) p) fds ps -> bytes_ok bs -> lenok bs ->
  (2 * length bs + 4 + length fds + tmax (tneed n e) fds + k <= f)%nat -> dec_fields f e fds ps bs = DOk vs r ->
  Forall2 (fun fd x => has_type e (fty fd) x) fds vs /\ sfx r bs.

Lemma ty_step_elems f : TY_var f -> TY_elems f -> TY_elems (S f).
Proof.
  intros HV HE n x cnt bs vs r Hfin Ha Hn Hbs Hl Hf E. rewrite dec_elems_S in E.
  destruct (cnt <=? 0)%Z eqn:E0; [inversion E; subst; repeat split; [constructor|apply sfx_refl|cbn; lia]|].
  destruct (dec_var f e 0 true x (zero_of f e x) bs) as [v r1| | | |] eqn:E1; try discriminate.
  destruct (fs_len_var f n x 0 true _ bs v r1 Hfin ltac:(lia) E1) as [_ Hlt]. specialize (Hlt eq_refl).
  destruct (HV n x 0 true (zero_of f e x) bs v r1 Hfin Ha Hn) as [Hv Hs1]; try assumption; try lia.
  { apply (zero_typed e Harr k); [now apply (ty_nest_nest e k)|lia|assumption]. }
  destruct (dec_elems f e x (cnt - 1)%Z r1) as [vs' r2| | | |] eqn:E2; try discriminate. inversion E; subst.
  destruct (HE n x (cnt - 1)%Z r1 vs' r Hfin Ha Hn (bytes_ok_sfx _ _ Hs1 Hbs) (lenok_sfx _ _ Hs1 Hl) ltac:(lia) E2) as (Hvs & Hs2 & Hc).
  repeat split; [constructor; assumption|eapply sfx_trans; eassumption|cbn [length]; lia].
Qed.

Lemma ty_step_arr f : TY_var f -> TY_arr f -> TY_arr (S f).
Proof.
  intros HV HA n x len i cnt cur bs vs r Hfin Ha Hn Hcur Hbs Hl Hf E. rewrite dec_arr_S in E.
  destruct (cnt <=? 0)%Z eqn:E0; [inversion E; subst; repeat split; [assumption|apply sfx_refl]|].
  destruct (len <=? i)%nat; [discriminate|].
  assert (Hz : has_type e x (zero_of f e x)) by (apply (zero_typed e Harr k); [now apply (ty_nest_nest e k)|lia|assumption]).
  destruct (dec_var f e 0 true x (nth i cur (zero_of f e x)) bs) as [v r1| | | |] eqn:E1; try discriminate.
  destruct (fs_len_var f n x 0 true _ bs v r1 Hfin ltac:(lia) E1) as [_ Hlt]. specialize (Hlt eq_refl).
  destruct (HV n x 0 true _ bs v r1 Hfin Ha Hn (nth_Forall _ i cur _ Hcur Hz) Hbs Hl ltac:(lia) E1) as [Hv Hs1].
  destruct (HA n x len (S i) (cnt - 1)%Z (replace_nth i v cur) r1 vs r Hfin Ha Hn (replace_nth_Forall _ v i cur Hcur Hv)
              (bytes_ok_sfx _ _ Hs1 Hbs) (lenok_sfx _ _ Hs1 Hl) ltac:(lia) E) as (Hvs & Hs2 & Hc).
  rewrite replace_nth_length in Hc. repeat split; [assumption|eapply sfx_trans; eassumption|assumption].
Qed.

Lemma ty_step_entries f : TY_var f -> TY_entries f -> TY_entries (S f).
Proof.
  intros HV HM n kt vt cnt bs kvs r Hfk Hfv Hak Hav Hnk Hnv Hbs Hl Hf E. rewrite dec_entries_S in E.
  destruct (cnt <=? 0)%Z eqn:E0; [inversion E; subst; repeat split; [constructor|apply sfx_refl|cbn; lia]|].
  destruct (dec_var f e 0 true kt (zero_of f e kt) bs) as [kv r1| | | |] eqn:E1; try discriminate.
  destruct (fs_len_var f n kt 0 true _ bs kv r1 Hfk ltac:(lia) E1) as [_ Hlt1]. specialize (Hlt1 eq_refl).
  destruct (HV n kt 0 true (zero_of f e kt) bs kv r1 Hfk Hak Hnk) as [Hkv Hs1]; try assumption; try lia.
  { apply (zero_typed e Harr k); [now apply (ty_nest_nest e k)|lia|assumption]. }
  destruct (dec_var f e 1 true vt (zero_of f e vt) r1) as [vv r2| | | |] eqn:E2; try discriminate.
  destruct (fs_len_var f n vt 1 true _ r1 vv r2 Hfv ltac:(lia) E2) as [_ Hlt2]. specialize (Hlt2 eq_refl).
  destruct (HV n vt 1 true (zero_of f e vt) r1 vv r2 Hfv Hav Hnv) as [Hvv Hs2]; try assumption; try lia;
    try (now apply (bytes_ok_sfx _ _ Hs1)); try (now apply (lenok_sfx _ _ Hs1)).
  { apply (zero_typed e Harr k); [now apply (ty_nest_nest e k)|lia|assumption]. }
  destruct (dec_entries f e kt vt (cnt - 1)%Z r2) as [kvs' r3| | | |] eqn:E3; try discriminate. inversion E; subst.
  assert (Hs12 : sfx r2 bs) by (eapply sfx_trans; eassumption).
  destruct (HM n kt vt (cnt - 1)%Z r2 kvs' r Hfk Hfv Hak Hav Hnk Hnv (bytes_ok_sfx _ _ Hs12 Hbs) (lenok_sfx _ _ Hs12 Hl) ltac:(lia) E3) as (Hkvs & Hs3 & Hc).
  repeat split; [constructor; [split; assumption|assumption]|eapply sfx_trans; eassumption|cbn [length]; lia].
Qed.

Lemma ty_step_fields f : TY_var f -> TY_fields f -> TY_fields (S f).
Proof.
  intros HV HF n fds ps bs vs r Hfds Hps Hbs Hl Hf E. rewrite dec_fields_S in E.
  destruct Hps as [|fd p fds ps Hp Hps]; [inversion E; subst; split; [constructor|apply sfx_refl]|]. cbv zeta in E. cbn [tl] in E.
  cbn [length tmax fold_right] in Hf. fold (tmax (tneed n e) fds) in Hf.
  destruct (Hfds fd (or_introl eq_refl)) as (Hfin & Ha & Hn).
  destruct (dec_var f e (ftag fd) (freq fd) (fty fd) p bs) as [v r1| | | |] eqn:E1; try discriminate.
  destruct (HV n (fty fd) (ftag fd) (freq fd) p bs v r1 Hfin Ha Hn Hp Hbs Hl ltac:(lia) E1) as [Hv Hs1].
  pose proof (sfx_len _ _ Hs1) as Hle.
  destruct (dec_fields f e fds ps r1) as [vs' r2| | | |] eqn:E2; try discriminate. inversion E; subst.
  destruct (HF n fds ps r1 vs' r (fun fd' Hin => Hfds fd' (or_intror Hin)) Hps (bytes_ok_sfx _ _ Hs1 Hbs) (lenok_sfx _ _ Hs1 Hl) ltac:(lia) E2) as (Hvs & Hs2).
  split; [constructor; assumption|eapply sfx_trans; eassumption].
Qed.

Lemma ty_step_var f : TY_elems f -> TY_arr f -> TY_entries f -> TY_fields f -> TY_var (S f).
Proof.
  intros HE HA HM HF n t tag req prior bs v r Hfin Ha Hn Hp Hbs Hl Hf E.
  destruct n as [|n]; [discriminate|].
  destruct t as [| | | | | | | | | | | |x|kt vt|len x|sid]; try (rewrite dec_var_scalar in E by reflexivity;
                   match type of E with dec_scalar _ _ _ ?t0 _ _ = _ =>
                     destruct (dec_scalar_typed f tag req t0 prior bs v r eq_refl (has_type_scalar e t0 prior eq_refl Hp) Hbs Hl E) as [Hv Hs] end;
                   split; [apply HT_scalar; [reflexivity|exact Hv]|exact Hs]).
  - cbn [tfin tneed arr_ok] in Hfin, Hf, Ha. pose proof (ty_nest_vec e k x Hn) as Hnx. rewrite dec_var_vec in E.
    pose proof (seek_suffix f tag req bs) as Hs0. pose proof (seek_fuel f tag req bs ltac:(lia)) as Hl0.
    destruct (skip_to_no_check f tag req bs) as [wt r0|r0| |]; try discriminate; cbn [seek_sfx seek_good] in Hs0, Hl0.
    2:{ inversion E; subst. split; assumption. }
    destruct (wt =? tLIST).
    + pose proof (read_count_sfx r0) as Hs1. pose proof (read_count_len_ok r0) as Hl1.
      destruct (read_count r0) as [c r1|]; [|discriminate].
      destruct (c <? 0)%Z eqn:Ec0; [discriminate|]. destruct (Z.of_nat (length r1) <? c)%Z eqn:Ec1; [discriminate|].
      destruct (dec_elems f e x c r1) as [xs r2| | | |] eqn:Ee; try discriminate. inversion E; subst.
      assert (Hs01 : sfx r1 bs) by (eapply sfx_trans; eassumption).
      destruct (HE n x c r1 xs r Hfin Ha Hnx (bytes_ok_sfx _ _ Hs01 Hbs) (lenok_sfx _ _ Hs01 Hl) ltac:(lia) Ee) as (Hxs & Hs2 & Hc).
      split; [|eapply sfx_trans; eassumption].
      pose proof (lenok_sfx _ _ Hs01 Hl) as Hl1'. unfold lenok in Hl1'.
      apply list_val_typed; [lia|exact Hxs].
    + destruct (wt =? tSIMPLE); [|discriminate]. destruct (is_byte x) eqn:Eb; [|discriminate].
      pose proof (skip_to_suffix f tBYTE 0 true r0) as Hs1.
      destruct (skip_to f tBYTE 0 true r0) as [wt1 r1|r1| |]; try discriminate; cbn [seek_sfx] in Hs1.
      pose proof (read_count_sfx r1) as Hs2. destruct (read_count r1) as [c r2|]; [|discriminate].
      destruct (read_slice c r2) as [[s r3]|] eqn:Er; [|discriminate]. inversion E; subst.
      assert (Hs02 : sfx r2 bs) by (eapply sfx_trans; [exact Hs2|]; eapply sfx_trans; eassumption).
      unfold read_slice in Er. destruct (c <? 0)%Z; [discriminate|]. destruct (_ <? c)%Z; [discriminate|]. inversion Er; subst.
      split; [|eapply sfx_trans; [apply sfx_skipn|exact Hs02]].
      pose proof (lenok_sfx _ _ Hs02 Hl) as Hl2. unfold lenok in Hl2.
      assert (Hfl : (length (firstn (Z.to_nat c) r2) <= length r2)%nat) by (rewrite firstn_length; lia).
      destruct (is_byte_cases x Eb) as [-> | ->]; cbn [bytes_val].
      * apply HT_bytes. lia.
      * apply HT_vec; [discriminate|rewrite map_length; lia|].
        pose proof (bytes_ok_firstn (Z.to_nat c) r2 (bytes_ok_sfx _ _ Hs02 Hbs)) as Hbf.
        apply Forall_map. eapply Forall_impl; [|exact Hbf]. intros b Hb. cbv beta in Hb. apply HT_scalar; [reflexivity|cbn [sc_typed]; lia].
  - cbn [tfin tneed arr_ok] in Hfin, Hf, Ha. apply andb_true_iff in Hfin. destruct Hfin as [Hfk Hfv].
    apply andb_true_iff in Ha. destruct Ha as [Hak Hav]. destruct (ty_nest_map e k kt vt Hn) as [Hnk Hnv]. rewrite dec_var_map in E.
    pose proof (skip_to_suffix f tMAP tag req bs) as Hs0. pose proof (skip_to_fuel f tMAP tag req bs ltac:(lia)) as Hl0.
    destruct (skip_to f tMAP tag req bs) as [wt r0|r0| |]; try discriminate; cbn [seek_sfx seek_good] in Hs0, Hl0.
    2:{ inversion E; subst. split; assumption. }
    pose proof (read_count_sfx r0) as Hs1. pose proof (read_count_len_ok r0) as Hl1.
    destruct (read_count r0) as [c r1|]; [|discriminate].
    destruct ((c <? 0)%Z || (Z.of_nat (length r1) / 2 <? c)%Z) eqn:Ec; [discriminate|].
    destruct (dec_entries f e kt vt c r1) as [kvs r2| | | |] eqn:Ee; try discriminate. inversion E; subst.
    assert (Hs01 : sfx r1 bs) by (eapply sfx_trans; eassumption).
    destruct (HM n kt vt c r1 kvs r Hfk Hfv Hak Hav Hnk Hnv (bytes_ok_sfx _ _ Hs01 Hbs) (lenok_sfx _ _ Hs01 Hl) ltac:(lia) Ee) as (Hkvs & Hs2 & Hc).
    split; [|eapply sfx_trans; eassumption].
    pose proof (lenok_sfx _ _ Hs01 Hl) as Hl1'. unfold lenok in Hl1'. apply HT_map; [lia|exact Hkvs].
  - cbn [tfin tneed arr_ok] in Hfin, Hf, Ha. pose proof (ty_nest_arr e k len x Hn) as Hnx. rewrite dec_var_arr in E.
    apply andb_true_iff in Ha. destruct Ha as [Ha Hax]. apply andb_true_iff in Ha. destruct Ha as [Hpos Hbnd]. apply Nat.ltb_lt in Hpos.
    pose proof (seek_suffix f tag req bs) as Hs0. pose proof (seek_fuel f tag req bs ltac:(lia)) as Hl0.
    destruct (skip_to_no_check f tag req bs) as [wt r0|r0| |]; try discriminate; cbn [seek_sfx seek_good] in Hs0, Hl0.
    2:{ inversion E; subst. split; assumption. }
    destruct (wt =? tLIST); [|discriminate].
    pose proof (read_count_sfx r0) as Hs1. pose proof (read_count_len_ok r0) as Hl1.
    destruct (read_count r0) as [c r1|]; [|discriminate].
    destruct ((c <? 0)%Z || (Z.of_nat len <? c)%Z); [discriminate|].
    inversion Hp as [? ? Hsc|  | |? ? l Hll _ _ Hlt| |]; subst; [discriminate|].
    destruct (dec_arr f e x (length l) 0 c l r1) as [xs r2| | | |] eqn:Ee; try discriminate. inversion E; subst.
    assert (Hs01 : sfx r1 bs) by (eapply sfx_trans; eassumption).
    destruct (HA n x (length l) 0%nat c l r1 xs r Hfin Hax Hnx Hlt (bytes_ok_sfx _ _ Hs01 Hbs) (lenok_sfx _ _ Hs01 Hl) ltac:(lia) Ee) as (Hxs & Hs2 & Hc).
    split; [|eapply sfx_trans; eassumption]. apply HT_arr; [assumption|assumption|lia|assumption].
  - cbn [tfin tneed] in Hfin, Hf. rewrite forallb_forall in Hfin. rewrite dec_var_struct in E. cbv zeta in E.
    unfold reset_default in E.
    assert (Hreset : has_type e (TStruct sid) (reset_val f e sid)).
    { apply (reset_typed e k Hwf Hdt Harr k); [now apply (ty_nest_nest e k)|lia]. }
    pose proof (skip_to_suffix f tSB tag req bs) as Hs0. pose proof (skip_to_fuel f tSB tag req bs ltac:(lia)) as Hl0.
    destruct (skip_to f tSB tag req bs) as [wt r0|r0| |]; try discriminate; cbn [seek_sfx seek_good] in Hs0, Hl0.
    2:{ inversion E; subst. split; assumption. }
    destruct f as [|f']; [lia|]. cbn [reset_val] in E, Hreset.
    inversion Hreset as [? ? Hsc| | | | |? ? Hps]; subst; [discriminate|].
    match type of E with context [dec_fields _ _ _ ?ps0 _] => set (ps := ps0) in * end.
    destruct (dec_fields (S f') e (fields_of e sid) ps r0) as [vs r1| | | |] eqn:Ee; try discriminate.
    destruct (HF n (fields_of e sid) ps r0 vs r1) as (Hvs & Hs1); try assumption;
      try (now apply (bytes_ok_sfx _ _ Hs0)); try (now apply (lenok_sfx _ _ Hs0)); try lia.
    { intros fd Hin. repeat split; [now apply Hfin|now apply (Harr sid)|now apply (wf_nest k e Hwf sid)]. }
    destruct (skip_sfx (S f')) as (_ & _ & Hse). pose proof (Hse 0 r1) as Hs2.
    destruct (skip_to_end (S f') 0 r1) as [s r2]. cbn [snd] in Hs2. destruct s; try discriminate. inversion E; subst.
    split; [now apply HT_struct|]. eapply sfx_trans; [exact Hs2|]. eapply sfx_trans; eassumption.
Qed.

Theorem ty_all : forall f, TY_var f /\ TY_elems f /\ TY_arr f /\ TY_entries f /\ TY_fields f.
Proof.
  induction f as [|f (HV & HE & HA & HM & HF)].
  - unfold TY_var, TY_elems, TY_arr, TY_entries, TY_fields. split; [|split; [|split; [|split]]]; intros; lia.
  - split; [|split; [|split; [|split]]].
    + now apply ty_step_var.
    + now apply ty_step_elems.
    + now apply ty_step_arr.
    + now apply ty_step_entries.
    + now apply ty_step_fields.
Qed.

(* whatever the bytes (of a packet-sized input) and the target, a value the decoder returns is a value of the struct type *)
Theorem decode_typed n sid prior bs v r :
  (S k <= 64)%nat -> tfin n e (TStruct sid) = true -> (tneed n e (TStruct sid) + k <= 64)%nat ->
  bytes_ok bs -> lenok bs -> decode_into e sid prior bs = DOk v r -> has_type e (TStruct sid) v /\ sfx r bs.
Proof.
  intros Hk Hfin Hn Hbs Hl E. unfold decode_into, reset_default in E.
  replace (4 * length bs + 64)%nat with (S (4 * length bs + 63)) in E by lia.
  assert (Hreset : has_type e (TStruct sid) (reset_val (S (4 * length bs + 63)) e sid)).
  { apply (reset_typed e k Hwf Hdt Harr (S k)); [|lia]. cbn [nest_ok]. apply forallb_forall. intros fd Hin.
    apply (ty_nest_nest e k). now apply (wf_nest k e Hwf sid). }
  cbn [reset_val] in E, Hreset. inversion Hreset as [? ? Hsc| | | | |? ? Hps]; subst; [discriminate|].
  match type of E with context [dec_fields _ _ _ ?ps0 _] => set (ps := ps0) in * end.
  destruct (dec_fields (S (4 * length bs + 63)) e (fields_of e sid) ps bs) as [vs r1| | | |] eqn:Ee; try discriminate. inversion E; subst.
  destruct n as [|n']; [discriminate|]. cbn [tfin tneed] in Hfin, Hn. rewrite forallb_forall in Hfin.
  destruct (ty_all (S (4 * length bs + 63))) as (_ & _ & _ & _ & HF).
  destruct (HF n' (fields_of e sid) ps bs vs r) as (Hvs & Hs); try assumption; try lia.
  { intros fd Hin. repeat split; [now apply Hfin|now apply (Harr sid)|now apply (wf_nest k e Hwf sid)]. }
  split; [now apply HT_struct|assumption].
Qed.
End TypedDec.
Print Assumptions decode_typed.

(* C03, canonicity made exact: on an accepted input (everything consumed), decode-then-encode gives the input back
   exactly when the input is an image of the encoder on a well-typed value *)
Theorem reencode_exact e k n sid bs v :
  wf_schema k e -> defaults_typed e -> arrs_ok e -> (S k <= 64)%nat ->
  tfin n e (TStruct sid) = true -> (tneed n e (TStruct sid) + k <= 64)%nat ->
  bytes_ok bs -> lenok bs -> decode e sid bs = DOk v [] ->
  (encode e sid v = bs <-> exists vs, has_type e (TStruct sid) (VStruct vs) /\ bs = encode e sid (VStruct vs)).
Proof.
  intros Hwf Hdt Harr Hk Hfin Hn Hbs Hl E. split.
  - intros Eb. destruct (decode_typed e k Hwf Hdt Harr n sid _ bs v [] Hk Hfin Hn Hbs Hl E) as [Hv _].
    inversion Hv as [? ? Hsc| | | | |? vs Hvs]; subst; [discriminate|]. exists vs. split; [exact Hv|now symmetry].
  - intros (vs & Hty & ->). pose proof (roundtrip_struct_static e k n sid vs Hwf Hk Hfin Hn Hty) as D.
    rewrite D in E. assert (v = norm_struct e sid (VStruct vs)) by (inversion E; reflexivity). subst v.
    now apply encode_norm.
Qed.
Print Assumptions reencode_exact.

(* canonicalisation preserves the meaning: the re-encoding of whatever was accepted decodes, with everything consumed,
   to a value equal to the one first decoded (and, by encode_norm, re-encoding again changes nothing) *)
Theorem reencode_meaning e k n sid bs v :
  wf_schema k e -> defaults_typed e -> arrs_ok e -> (S k <= 64)%nat ->
  tfin n e (TStruct sid) = true -> (tneed n e (TStruct sid) + k <= 64)%nat ->
  bytes_ok bs -> lenok bs -> decode e sid bs = DOk v [] ->
  exists v', decode e sid (encode e sid v) = DOk v' [] /\ veq e (TStruct sid) v' v /\ encode e sid v' = encode e sid v.
Proof.
  intros Hwf Hdt Harr Hk Hfin Hn Hbs Hl E.
  destruct (decode_typed e k Hwf Hdt Harr n sid _ bs v [] Hk Hfin Hn Hbs Hl E) as [Hv _].
  inversion Hv as [? ? Hsc| | | | |? vs Hvs]; subst; [discriminate|].
  exists (norm_struct e sid (VStruct vs)). split; [now apply (roundtrip_struct_static e k n)|].
  split; [now apply norm_veq|now apply encode_norm].
Qed.
Print Assumptions reencode_meaning.
