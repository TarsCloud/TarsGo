(* C03 struct-level round trip and C04 unknown-fields theorems for the generated-codec model, for every
   schema environment satisfying wf_schema and every well-typed value: proofs. *)
From Coq Require Import List NArith ZArith Lia Bool Arith.
From Coq Require Import ZifyN ZifyNat ZifyBool.
From TarsV Require Import Gen.Consts Base.Hex Codec.Wire Codec.WireProofs Codec.Skip Codec.SkipProofs Codec.Prim
  Codec.PrimProofs Codec.GenCodec Codec.Corr Codec.GenProofs Codec.RoundTrip.
Import ListNotations.
Ltac Zify.zify_post_hook ::= Z.div_mod_to_equations.
Open Scope N_scope.

(* enc_var, norm and need recurse on the value through anonymous local fixes (for the termination checker); the [_go]
   lemmas identify those with the named list functions of RoundTrip.v *)
Lemma enc_elems_go e x xs :
  (fix go l := match l with [] => [] | y :: r => enc_var e 0 true x None y ++ go r end) xs = enc_elems e x xs.
Proof. induction xs as [|y r IH]; cbn [enc_elems]; [reflexivity|]. now rewrite IH. Qed.
Lemma enc_entries_go e kt vt kvs :
  (fix go l := match l with [] => []
     | (k, x) :: r => enc_var e 0 true kt None k ++ enc_var e 1 true vt None x ++ go r end) kvs = enc_entries e kt vt kvs.
Proof. induction kvs as [|[k x] r IH]; cbn [enc_entries]; [reflexivity|]. now rewrite IH. Qed.
Lemma enc_fields_go e vs : forall fds,
  (fix go (l : list val) (fds : schema) {struct l} : list N :=
     match l, fds with
     | x :: l', fd :: fds' => enc_var e (ftag fd) (freq fd) (fty fd) (fdef fd) x ++ go l' fds'
     | _, _ => []
     end) vs fds = enc_fields e vs fds.
Proof. induction vs as [|x r IH]; intros [|fd fds]; cbn [enc_fields]; try reflexivity. now rewrite IH. Qed.

Lemma enc_var_list e tag req x d xs :
  enc_var e tag req (TVec x) d (VList xs) =
  if negb req && (match xs with [] => true | _ => false end) then []
  else head tLIST tag ++ w_int32 (Z.of_nat (length xs)) 0 ++ enc_elems e x xs.
Proof. rewrite <- enc_elems_go. destruct x; reflexivity. Qed.
Lemma enc_var_arr e tag req n x d xs :
  enc_var e tag req (TArr n x) d (VList xs) =
  if negb req && (match xs with [] => true | _ => false end) then []
  else head tLIST tag ++ w_int32 (Z.of_nat (length xs)) 0 ++ enc_elems e x xs.
Proof. rewrite <- enc_elems_go. reflexivity. Qed.
Lemma enc_var_map e tag req kt vt d kvs :
  enc_var e tag req (TMap kt vt) d (VMap kvs) =
  if negb req && (match kvs with [] => true | _ => false end) then []
  else head tMAP tag ++ w_int32 (Z.of_nat (length kvs)) 0 ++ enc_entries e kt vt kvs.
Proof. rewrite <- enc_entries_go. reflexivity. Qed.
Lemma enc_var_struct e tag req sid d vs :
  enc_var e tag req (TStruct sid) d (VStruct vs) = head tSB tag ++ enc_fields e vs (fields_of e sid) ++ head tSE 0.
Proof. rewrite <- enc_fields_go. reflexivity. Qed.
Lemma encode_fields e sid vs : encode e sid (VStruct vs) = enc_fields e vs (fields_of e sid).
Proof. unfold encode. now rewrite enc_fields_go. Qed.

Lemma norm_elems_go e x xs :
  (fix go l := match l with [] => [] | y :: r => norm e x true None y :: go r end) xs = norm_elems e x xs.
Proof. induction xs as [|y r IH]; cbn [norm_elems]; [reflexivity|]. now rewrite IH. Qed.
Lemma norm_entries_go e kt vt kvs :
  (fix go l := match l with [] => []
     | (k, x) :: r => (norm e kt true None k, norm e vt true None x) :: go r end) kvs = norm_entries e kt vt kvs.
Proof. induction kvs as [|[k x] r IH]; cbn [norm_entries]; [reflexivity|]. now rewrite IH. Qed.
Lemma norm_fields_go e vs : forall fds,
  (fix go l (fds : schema) := match l, fds with
     | x :: l', fd :: fds' => norm e (fty fd) (freq fd) (fdef fd) x :: go l' fds'
     | _, _ => [] end) vs fds = norm_fields e vs fds.
Proof. induction vs as [|x r IH]; intros [|fd fds]; cbn [norm_fields]; try reflexivity. now rewrite IH. Qed.
Lemma norm_vec e req d x xs : norm e (TVec x) req d (VList xs) = VList (norm_elems e x xs).
Proof. cbn [norm]. now rewrite norm_elems_go. Qed.
Lemma norm_arr e req d n x xs : norm e (TArr n x) req d (VList xs) = VList (norm_elems e x xs).
Proof. cbn [norm]. now rewrite norm_elems_go. Qed.
Lemma norm_map e req d kt vt kvs : norm e (TMap kt vt) req d (VMap kvs) = VMap (norm_entries e kt vt kvs).
Proof. cbn [norm]. now rewrite norm_entries_go. Qed.
Lemma norm_str e req d sid vs : norm e (TStruct sid) req d (VStruct vs) = VStruct (norm_fields e vs (fields_of e sid)).
Proof. cbn [norm]. now rewrite norm_fields_go. Qed.

Lemma need_list_go xs :
  (fix go l := match l with [] => 1%nat | y :: r => S (Nat.max (need y) (go r)) end) xs = need_list xs.
Proof. induction xs as [|y r IH]; cbn [need_list]; [reflexivity|]. now rewrite IH. Qed.
Lemma need_entries_go kvs :
  (fix go l := match l with [] => 1%nat
     | (k, x) :: r => S (Nat.max (need k) (Nat.max (need x) (go r))) end) kvs = need_entries kvs.
Proof. induction kvs as [|[k x] r IH]; cbn [need_entries]; [reflexivity|]. now rewrite IH. Qed.
Lemma need_VList xs : need (VList xs) = (2 + need_list xs)%nat.
Proof. cbn [need]. now rewrite need_list_go. Qed.
Lemma need_VMap kvs : need (VMap kvs) = (2 + need_entries kvs)%nat.
Proof. cbn [need]. now rewrite need_entries_go. Qed.
Lemma need_VStruct vs : need (VStruct vs) = (3 + need_list vs)%nat.
Proof. cbn [need]. now rewrite need_list_go. Qed.
Lemma need_list_ge l : (1 <= need_list l)%nat.
Proof. destruct l; cbn [need_list]; lia. Qed.
Lemma need_entries_ge l : (1 <= need_entries l)%nat.
Proof. destruct l as [|[k x] r]; cbn [need_entries]; lia. Qed.
Lemma need_ge v : (3 <= need v)%nat.
Proof.
  destruct v; rewrite ?need_VList, ?need_VMap, ?need_VStruct; cbn [need]; try lia.
  - pose proof (need_list_ge xs). lia.
  - pose proof (need_entries_ge kvs). lia.
Qed.

(* one-step equations of the five mutually recursive decoders: [cbn] on one of them unfolds all five, so the proofs
   rewrite with these *)
Lemma dec_var_scalar f e tag req t prior bs : scalar_ty t = true ->
  dec_var (S f) e tag req t prior bs = dec_scalar f tag req t prior bs.
Proof. destruct t; cbn [scalar_ty]; intros H; try discriminate; reflexivity. Qed.
Lemma dec_elems_S f e x n bs : dec_elems (S f) e x n bs =
  if (n <=? 0)%Z then DOk [] bs else
  match dec_var f e 0 true x (zero_of f e x) bs with
  | DOk v r => match dec_elems f e x (n - 1)%Z r with DOk vs r' => DOk (v :: vs) r' | o => o end
  | DErr => DErr | DPanic s => DPanic s | DHuge => DHuge | DFuel => DFuel
  end.
Proof. reflexivity. Qed.
Lemma dec_arr_S f e x len i n cur bs : dec_arr (S f) e x len i n cur bs =
  if (n <=? 0)%Z then DOk cur bs else
  if (len <=? i)%nat then DPanic site_array_index else
  match dec_var f e 0 true x (nth i cur (zero_of f e x)) bs with
  | DOk v r => dec_arr f e x len (S i) (n - 1)%Z (replace_nth i v cur) r
  | DErr => DErr | DPanic s => DPanic s | DHuge => DHuge | DFuel => DFuel
  end.
Proof. reflexivity. Qed.
Lemma dec_entries_S f e kt vt n bs : dec_entries (S f) e kt vt n bs =
  if (n <=? 0)%Z then DOk [] bs else
  match dec_var f e 0 true kt (zero_of f e kt) bs with
  | DOk k r =>
      match dec_var f e 1 true vt (zero_of f e vt) r with
      | DOk v r' => match dec_entries f e kt vt (n - 1)%Z r' with DOk kvs r'' => DOk ((k, v) :: kvs) r'' | o => o end
      | DErr => DErr | DPanic s => DPanic s | DHuge => DHuge | DFuel => DFuel
      end
  | DErr => DErr | DPanic s => DPanic s | DHuge => DHuge | DFuel => DFuel
  end.
Proof. reflexivity. Qed.
Lemma dec_fields_S f e fds priors bs : dec_fields (S f) e fds priors bs =
  match fds with
  | [] => DOk [] bs
  | fd :: fds' =>
      let p := match priors with p :: _ => p | [] => zero_of f e (fty fd) end in
      match dec_var f e (ftag fd) (freq fd) (fty fd) p bs with
      | DOk v r => match dec_fields f e fds' (tl priors) r with DOk vs r' => DOk (v :: vs) r' | o => o end
      | DErr => DErr | DPanic s => DPanic s | DHuge => DHuge | DFuel => DFuel
      end
  end.
Proof. reflexivity. Qed.
Lemma dec_var_vec f e tag req x prior bs : dec_var (S f) e tag req (TVec x) prior bs =
  match skip_to_no_check f tag req bs with
  | NotFound r => DOk prior r
  | SeekErr => DErr | SeekFuel => DFuel
  | Found wt r =>
      if wt =? tLIST then
        match read_count r with
        | CErr _ => DErr
        | COk n r1 =>
            if (n <? 0)%Z then DErr
            else if (Z.of_nat (length r1) <? n)%Z then DErr
            else match dec_elems f e x n r1 with
                 | DOk xs r2 => DOk (list_val x xs) r2
                 | DErr => DErr | DPanic s => DPanic s | DHuge => DHuge | DFuel => DFuel
                 end
        end
      else if wt =? tSIMPLE then
        if is_byte x then
          match skip_to f tBYTE 0 true r with
          | Found _ r1 =>
              match read_count r1 with
              | CErr _ => DErr
              | COk n r2 => match read_slice n r2 with
                            | None => DErr
                            | Some (s, r3) => DOk (bytes_val x s) r3
                            end
              end
          | SeekFuel => DFuel
          | _ => DErr
          end
        else DErr
      else DErr
  end.
Proof. reflexivity. Qed.
Lemma dec_var_arr f e tag req len x prior bs : dec_var (S f) e tag req (TArr len x) prior bs =
  match skip_to_no_check f tag req bs with
  | NotFound r => DOk prior r
  | SeekErr => DErr | SeekFuel => DFuel
  | Found wt r =>
      if wt =? tLIST then
        match read_count r with
        | CErr _ => DErr
        | COk n r1 =>
            if (n <? 0)%Z || (Z.of_nat len <? n)%Z then DErr else
            match dec_arr f e x len 0 n (match prior with VList l => l | _ => [] end) r1 with
            | DOk xs r2 => DOk (VList xs) r2
            | DErr => DErr | DPanic s => DPanic s | DHuge => DHuge | DFuel => DFuel
            end
        end
      else DErr
  end.
Proof. reflexivity. Qed.
Lemma dec_var_map f e tag req kt vt prior bs : dec_var (S f) e tag req (TMap kt vt) prior bs =
  match skip_to f tMAP tag req bs with
  | NotFound r => DOk prior r
  | SeekErr => DErr | SeekFuel => DFuel
  | Found _ r =>
      match read_count r with
      | CErr _ => DErr
      | COk n r1 => if (n <? 0)%Z || (Z.of_nat (length r1) / 2 <? n)%Z then DErr else
                    match dec_entries f e kt vt n r1 with
                    | DOk kvs r2 => DOk (VMap kvs) r2
                    | DErr => DErr | DPanic s => DPanic s | DHuge => DHuge | DFuel => DFuel
                    end
      end
  end.
Proof. reflexivity. Qed.
Lemma dec_var_struct f e tag req sid prior bs : dec_var (S f) e tag req (TStruct sid) prior bs =
  let prior' := reset_default f e sid prior in
  match skip_to f tSB tag req bs with
  | NotFound r => DOk prior' r
  | SeekErr => DErr | SeekFuel => DFuel
  | Found _ r =>
      match dec_fields f e (fields_of e sid) (match reset_default f e sid prior' with VStruct l => l | _ => [] end) r with
      | DOk vs r1 => match skip_to_end f 0 r1 with
                     | (SOk, r2) => DOk (VStruct vs) r2
                     | (SFuel, _) => DFuel
                     | _ => DErr
                     end
      | DErr => DErr | DPanic s => DPanic s | DHuge => DHuge | DFuel => DFuel
      end
  end.
Proof. reflexivity. Qed.

Lemma ser_fields_cons t w J : ser_fields ((t, w) :: J) = head (ty_of w) t ++ ser_body w ++ ser_fields J.
Proof. cbn [ser_fields]. unfold ser_field. cbn [fst snd]. now rewrite <- app_assoc. Qed.
Lemma ser_fields_length J : (length J <= length (ser_fields J))%nat.
Proof.
  induction J as [|[t w] J IH]; [cbn; lia|]. rewrite ser_fields_cons, !app_length.
  pose proof (head_length (ty_of w) t). cbn [length]. lia.
Qed.

Lemma seek_junk J : forall f lo tag req bs', junk_ok lo tag J ->
  (2 * length (ser_fields J ++ bs') + 3 <= f)%nat ->
  skip_to_no_check f tag req (ser_fields J ++ bs') = skip_to_no_check (f - length J) tag req bs'.
Proof.
  induction J as [|[t0 w0] J IH]; intros f lo tag req bs' HJ Hf.
  - cbn [ser_fields app length]. now rewrite Nat.sub_0_r.
  - inversion HJ as [|? ? (Ht0 & Hw0 & Hd0 & Hlt & _) HJ']; subst. cbn [fst snd] in *.
    destruct f as [|f]; [lia|]. rewrite ser_fields_cons, <- !app_assoc in *.
    rewrite !app_length in Hf. pose proof (head_length (ty_of w0) t0).
    cbn [skip_to_no_check]. rewrite read_head2_head by hd.
    rewrite ty_of_not_se. cbn [orb]. replace (tag <? t0) with false by lia. replace (t0 =? tag) with false by lia.
    rewrite (skip_exact w0 Hw0 0 f) by (rewrite ?app_length; lia).
    cbn [length Nat.sub]. apply (IH f lo); [exact HJ'|rewrite app_length; lia].
Qed.
Lemma fuel_sub J bs' f : (2 * length (ser_fields J ++ bs') + 3 <= f)%nat -> exists f', (f - length J = S f')%nat /\ (2 * length bs' + 2 <= f')%nat.
Proof.
  intros H. rewrite app_length in H. pose proof (ser_fields_length J). exists (f - length J - 1)%nat. lia.
Qed.

(* the seek for a member stops, without consuming anything, at the end of the input, at a StructEnd and at a larger tag *)
Lemma seek_follows f tag req rest : follows tag rest ->
  skip_to_no_check (S f) tag req rest = if req then SeekErr else NotFound rest.
Proof.
  intros [->|(ty & tg & r & Hty & Htg & -> & Hc)]; [now destruct req|].
  cbn [skip_to_no_check]. rewrite read_head2_head by assumption.
  assert (Hb : (ty =? tSE) || (tag <? tg) = true) by (destruct Hc as [->|Hc]; [reflexivity|]; lia).
  rewrite Hb. destruct req; [reflexivity|]. unfold unread. destruct (tg <? 15); reflexivity.
Qed.
Lemma seek_stop f tag rest : follows tag rest -> skip_to_no_check (S f) tag false rest = NotFound rest.
Proof. apply seek_follows. Qed.
Lemma follows_mono t t' rest : t <= t' -> follows t' rest -> follows t rest.
Proof.
  intros Hle [->|(ty & tg & r & Hty & Htg & -> & Hc)]; [now left|].
  right. exists ty, tg, r. repeat split; try assumption. destruct Hc; [now left|right; lia].
Qed.

Lemma seek_member J f lo tag req ty r : junk_ok lo tag J -> ty < 16 -> tag < 256 -> (ty =? tSE) = false ->
  (2 * length (ser_fields J ++ head ty tag ++ r) + 3 <= f)%nat ->
  skip_to_no_check f tag req (ser_fields J ++ head ty tag ++ r) = Found ty r.
Proof.
  intros HJ Hty Htag Hse Hf. rewrite (seek_junk J f lo) by assumption.
  destruct (fuel_sub J _ f Hf) as (f' & -> & _). now apply seek_first.
Qed.
Lemma seek_absent J f lo tag req rest : junk_ok lo tag J -> follows tag rest ->
  (2 * length (ser_fields J ++ rest) + 3 <= f)%nat ->
  skip_to_no_check f tag req (ser_fields J ++ rest) = if req then SeekErr else NotFound rest.
Proof.
  intros HJ Hfo Hf. rewrite (seek_junk J f lo) by assumption.
  destruct (fuel_sub J _ f Hf) as (f' & -> & _). now apply seek_follows.
Qed.

Lemma wrapu_small bits m : (Z.of_N m < 2 ^ bits)%Z -> wrapu bits (Z.of_N m) = m.
Proof. intros H. unfold wrapu. rewrite Z.mod_small by lia. apply N2Z.id. Qed.
Lemma fits_range bits z m : (0 <= z < m)%Z -> (m <= 2 ^ (bits - 1))%Z -> fits bits z = true.
Proof. intros Hz Hm. unfold fits. pose proof (Z.pow_nonneg 2 (bits - 1) ltac:(lia)). lia. Qed.
Lemma w_int32_len m : m < 2147483648 -> w_int32 (Z.of_N m) 0 = w_len m.
Proof.
  intros Hm. unfold w_int32, w_int16, w_int8, w_len.
  destruct (m =? 0) eqn:D.
  - assert (m = 0) by lia. subst. reflexivity.
  - destruct (m <? 128) eqn:E.
    + replace ((-32768 <=? Z.of_N m) && (Z.of_N m <=? 32767))%Z with true by lia.
      replace ((-128 <=? Z.of_N m) && (Z.of_N m <=? 127))%Z with true by lia.
      replace (Z.of_N m =? 0)%Z with false by lia.
      rewrite wrapu_small by (cbn; lia). reflexivity.
    + replace ((-128 <=? Z.of_N m) && (Z.of_N m <=? 127))%Z with false by lia.
      destruct (m <? 32768) eqn:F.
      * replace ((-32768 <=? Z.of_N m) && (Z.of_N m <=? 32767))%Z with true by lia.
        rewrite wrapu_small by (cbn; lia). reflexivity.
      * replace ((-32768 <=? Z.of_N m) && (Z.of_N m <=? 32767))%Z with false by lia.
        rewrite wrapu_small by (cbn; lia). reflexivity.
Qed.
Lemma read_count_len n rest : N.of_nat n < 2147483648 ->
  read_count (w_int32 (Z.of_nat n) 0 ++ rest) = COk (Z.of_nat n) rest.
Proof.
  intros Hn. replace (Z.of_nat n) with (Z.of_N (N.of_nat n)) by lia.
  rewrite w_int32_len by assumption. apply read_count_w_len. cbn. lia.
Qed.
Lemma read_slice_app s rest : read_slice (Z.of_nat (length s)) (s ++ rest) = Some (s, rest).
Proof.
  unfold read_slice. destruct (Z.of_nat (length s) <? 0)%Z eqn:E; [lia|].
  rewrite app_length. destruct (Z.of_nat (length s + length rest) <? Z.of_nat (length s))%Z eqn:E2; [lia|].
  rewrite Nat2Z.id, firstn_app, skipn_app, Nat.sub_diag, firstn_all, skipn_all. cbn [firstn skipn app].
  now rewrite app_nil_r.
Qed.

(* [has_type] recurses through [Forall]/[Forall2]: the induction principle with the hypothesis for every element, key,
   value and member *)
Lemma has_type_nested e (P : ty -> val -> Prop) :
  (forall t v, scalar_ty t = true -> sc_typed t v -> P t v) ->
  (forall s, N.of_nat (length s) < 2147483648 -> P (TVec TI8) (VBytes s)) ->
  (forall x xs, x <> TI8 -> N.of_nat (length xs) < 2147483648 -> Forall (has_type e x) xs -> Forall (P x) xs ->
     P (TVec x) (VList xs)) ->
  (forall n x xs, length xs = n -> (0 < n)%nat -> N.of_nat n < 2147483648 -> Forall (has_type e x) xs -> Forall (P x) xs ->
     P (TArr n x) (VList xs)) ->
  (forall kt vt kvs, N.of_nat (length kvs) < 2147483648 ->
     Forall (fun p => has_type e kt (fst p) /\ has_type e vt (snd p)) kvs ->
     Forall (fun p => P kt (fst p) /\ P vt (snd p)) kvs -> P (TMap kt vt) (VMap kvs)) ->
  (forall sid vs, Forall2 (fun fd x => has_type e (fty fd) x) (fields_of e sid) vs ->
     Forall2 (fun fd x => P (fty fd) x) (fields_of e sid) vs -> P (TStruct sid) (VStruct vs)) ->
  forall t v, has_type e t v -> P t v.
Proof.
  intros Hs Hb Hv Ha Hm Hst. fix IH 3. intros t v H.
  destruct H as [t v H1 H2|s H1|x xs H1 H2 H3|n x xs H1 H2 H3 H4|kt vt kvs H1 H2|sid vs H1].
  - now apply Hs.
  - now apply Hb.
  - apply Hv; try assumption. clear H1 H2. revert xs H3. fix IHl 2. intros xs [|y r Hy Hr]; constructor; [now apply IH|now apply IHl].
  - apply Ha; try assumption. clear H1 H2 H3. revert xs H4. fix IHl 2. intros xs [|y r Hy Hr]; constructor; [now apply IH|now apply IHl].
  - apply Hm; try assumption. clear H1. revert kvs H2. fix IHl 2.
    intros kvs [|p r [Hk Hy] Hr]; constructor; [split; now apply IH|now apply IHl].
  - apply Hst; try assumption. revert vs H1. generalize (fields_of e sid). fix IHl 3.
    intros fds vs [|fd x fds' vs' Hx Hr]; constructor; [now apply IH|now apply IHl].
Qed.
Lemma has_type_scalar e t v : scalar_ty t = true -> has_type e t v -> sc_typed t v.
Proof. intros Hs H. inversion H; subst; try assumption; discriminate. Qed.
Lemma has_type_struct e sid vs : has_type e (TStruct sid) (VStruct vs) ->
  Forall2 (fun fd x => has_type e (fty fd) x) (fields_of e sid) vs.
Proof. intros H. inversion H; subst; [discriminate|assumption]. Qed.

Definition omit (t : ty) (req : bool) (d : option val) (v : val) : bool :=
  match t with TEnum => false | _ => negb req && scalar_is_default t d v end.
Lemma enc_var_scalar e tag req t d v : scalar_ty t = true ->
  enc_var e tag req t d v = if omit t req d v then [] else w_scalar t v tag.
Proof. destruct t; cbn [scalar_ty]; intros H; try discriminate; destruct v; reflexivity. Qed.
Lemma norm_scalar e t req d v : scalar_ty t = true -> sc_typed t v ->
  norm e t req d v = if omit t req d v then match d with Some dv => dv | None => zscalar t end else v.
Proof.
  destruct t; cbn [scalar_ty]; intros H Hs; try discriminate; destruct v; cbn [sc_typed] in Hs; try contradiction; reflexivity.
Qed.
Lemma omit_optional t req d v : omit t req d v = true -> req = false.
Proof. unfold omit. destruct t, req; cbn [negb andb]; intros H; first [discriminate H | reflexivity]. Qed.

Definition headed (tag : N) (bs : list N) : Prop := exists ty r, ty < 16 /\ bs = head ty tag ++ r.
Lemma headed_head ty tag : ty < 16 -> headed tag (head ty tag).
Proof. intros H. exists ty, []. split; [assumption|now rewrite app_nil_r]. Qed.
Lemma headed_app ty tag r : ty < 16 -> headed tag (head ty tag ++ r).
Proof. intros H. exists ty, r. split; [assumption|reflexivity]. Qed.
Lemma w_int8_headed v tag : headed tag (w_int8 v tag).
Proof. unfold w_int8. destruct (v =? 0)%Z; [apply headed_head|apply headed_app]; reflexivity. Qed.
Lemma w_int16_headed v tag : headed tag (w_int16 v tag).
Proof. unfold w_int16. destruct (_ && _)%bool; [apply w_int8_headed|apply headed_app; reflexivity]. Qed.
Lemma w_int32_headed v tag : headed tag (w_int32 v tag).
Proof. unfold w_int32. destruct (_ && _)%bool; [apply w_int16_headed|apply headed_app; reflexivity]. Qed.
Lemma w_int64_headed v tag : headed tag (w_int64 v tag).
Proof. unfold w_int64. destruct (_ && _)%bool; [apply w_int32_headed|apply headed_app; reflexivity]. Qed.
Lemma w_scalar_headed t v tag : scalar_ty t = true -> sc_typed t v -> headed tag (w_scalar t v tag).
Proof.
  destruct t; cbn [scalar_ty]; intros H Hs; try discriminate; destruct v; cbn [sc_typed] in Hs; try contradiction;
  cbn [w_scalar]; unfold w_bool, w_uint8, w_uint16, w_uint32, w_f32, w_f64;
  first [apply w_int8_headed | apply w_int16_headed | apply w_int32_headed | apply w_int64_headed
        | apply headed_app; reflexivity | idtac].
  unfold w_string. cbv zeta. destruct (255 <? _); apply headed_app; reflexivity.
Qed.
Lemma headed_length tag bs : headed tag bs -> (1 <= length bs)%nat.
Proof. intros (ty & r & _ & ->). rewrite app_length. pose proof (head_length ty tag). lia. Qed.

Lemma omitted_or_headed (c req : bool) ty tag r : ty < 16 ->
  (req = false /\ (if negb req && c then [] else head ty tag ++ r) = []) \/
  headed tag (if negb req && c then [] else head ty tag ++ r).
Proof. intros H. destruct req, c; cbn [negb andb]; first [left; split; reflexivity | right; now apply headed_app]. Qed.

Lemma xenc_head e tag req t d v bs : has_type e t v -> xenc e tag req t d v bs ->
  (req = false /\ bs = []) \/ headed tag bs.
Proof.
  intros Hty Hx. destruct Hx; try (apply omitted_or_headed; reflexivity).
  - rewrite enc_var_scalar by assumption. destruct (omit t req d v) eqn:Eo.
    + left. split; [now apply omit_optional in Eo|reflexivity].
    + right. apply w_scalar_headed; [assumption|now apply (has_type_scalar e)].
  - right. apply headed_app. reflexivity.
Qed.
Lemma xenc_req_length e tag t d v bs : has_type e t v -> xenc e tag true t d v bs -> (1 <= length bs)%nat.
Proof. intros Hty Hx. destruct (xenc_head e tag true t d v bs Hty Hx) as [[? _]|Hh]; [discriminate|]. now apply headed_length in Hh. Qed.
Lemma xelems_length e x xs body : xelems e x xs body -> Forall (has_type e x) xs -> (length xs <= length body)%nat.
Proof.
  induction 1 as [|x y r b bs Hb _ IH]; intros Hty; [cbn; lia|]. inversion Hty; subst.
  cbn [length]. rewrite app_length. pose proof (xenc_req_length e 0 x None y b H1 Hb). specialize (IH H2). lia.
Qed.
Lemma xentries_length e kt vt kvs body : xentries e kt vt kvs body ->
  Forall (fun p => has_type e kt (fst p) /\ has_type e vt (snd p)) kvs -> (2 * length kvs <= length body)%nat.
Proof.
  induction 1 as [|kt vt ky y r bk bv bs Hbk Hbv _ IH]; intros Hty; [cbn; lia|]. inversion Hty as [|? ? [Hk Hy] Hr]; subst.
  cbn [fst snd] in *. cbn [length]. rewrite !app_length.
  pose proof (xenc_req_length e 0 kt None ky bk Hk Hbk). pose proof (xenc_req_length e 1 vt None y bv Hy Hbv). specialize (IH Hr). lia.
Qed.

(* the encoder's own output is the encoding without unknown fields *)
Lemma encx_nil e vs : forall fds, length fds = length vs ->
  encx_fields e vs fds (map (fun _ => []) fds) = enc_fields e vs fds.
Proof.
  induction vs as [|x vs IH]; intros [|fd fds] Hl; try discriminate; [reflexivity|].
  cbn [map encx_fields enc_fields ser_fields app]. rewrite IH by (cbn [length] in Hl; lia). reflexivity.
Qed.
Lemma junk_nil lo tag : junk_ok lo tag [].
Proof. constructor. Qed.
Lemma junks_nil : forall fds lo, junks_ok lo fds (map (fun _ => []) fds).
Proof. induction fds as [|fd fds IH]; intros lo; cbn [map junks_ok]; [exact I|]. split; [apply junk_nil|apply IH]. Qed.
Lemma Forall2_len {A B} (R : A -> B -> Prop) l1 l2 : Forall2 R l1 l2 -> length l1 = length l2.
Proof. induction 1; cbn [length]; congruence. Qed.

Lemma xelems_enc e x xs : Forall (fun y => forall tag req d, xenc e tag req x d y (enc_var e tag req x d y)) xs ->
  xelems e x xs (enc_elems e x xs).
Proof. induction 1 as [|y r Hy _ IH]; cbn [enc_elems]; constructor; [apply Hy|exact IH]. Qed.
Lemma xfields_encx e : forall fds vs,
  Forall2 (fun fd x => forall tag req d, xenc e tag req (fty fd) d x (enc_var e tag req (fty fd) d x)) fds vs ->
  forall lo Js, junks_ok lo fds Js -> xfields e fds vs Js (encx_fields e vs fds Js).
Proof.
  induction 1 as [|fd x fds vs Hx _ IH]; intros lo [|J Js] HJ; try contradiction; [constructor|].
  cbn [encx_fields]. constructor; [apply Hx|]. apply (IH (Some (ftag fd))), HJ.
Qed.
Lemma xenc_plain e : forall t v, has_type e t v -> forall tag req d, xenc e tag req t d v (enc_var e tag req t d v).
Proof.
  apply (has_type_nested e (fun t v => forall tag req d, xenc e tag req t d v (enc_var e tag req t d v))).
  - intros t v Hs _ tag req d. now apply XE_scalar.
  - intros s _ tag req d. apply XE_bytes.
  - intros x xs _ _ _ IH tag req d. rewrite enc_var_list. apply XE_vec, xelems_enc, IH.
  - intros n x xs _ _ _ _ IH tag req d. rewrite enc_var_arr. apply XE_arr, xelems_enc, IH.
  - intros kt vt kvs _ _ IH tag req d. rewrite enc_var_map. apply XE_map.
    induction IH as [|[ky y] r [Hk Hy] _ IHr]; cbn [enc_entries]; constructor; [apply Hk|apply Hy|exact IHr].
  - intros sid vs Hty IH tag req d. rewrite enc_var_struct, <- (encx_nil e vs) by (now apply Forall2_len in Hty).
    apply (XE_struct e tag req d sid vs (map (fun _ => []) (fields_of e sid)) []); [|apply junks_nil|constructor].
    apply (xfields_encx e _ _ IH None), junks_nil.
Qed.

Lemma Forall2_map_in {A B} (R : A -> B -> Prop) (g : A -> B) l : (forall a, In a l -> R a (g a)) -> Forall2 R l (map g l).
Proof. induction l as [|a l IH]; intros H; cbn [map]; constructor; [apply H; now left|apply IH; intros; apply H; now right]. Qed.

Lemma zero_zlike e : forall n t f, nest_ok n e t = true -> (n <= f)%nat -> zlike e t (zero_of f e t).
Proof.
  induction n as [|n IH]; intros t f Hn Hf; [discriminate|]. destruct f as [|f]; [lia|].
  destruct t; cbn [nest_ok] in Hn;
    try (match goal with |- zlike _ ?t _ => exact (ZL_base e t eq_refl) end).
  - cbn [zero_of]. apply ZL_arr; [apply repeat_length|]. apply Forall_forall. intros z Hz.
    apply repeat_spec in Hz. subst z. apply IH; [assumption|lia].
  - cbn [zero_of]. apply ZL_struct. rewrite forallb_forall in Hn. apply Forall2_map_in.
    intros fd Hin _. apply IH; [now apply Hn|lia].
Qed.

(* the repaired ResetDefault: with fuel for the by-value nesting of the struct type, every member holds its
   declared default or is zero-like - whatever the target held *)
Definition reset_member (f : nat) (e : env) (fd : field) : val :=
  match fdef fd with
  | Some d => d
  | None => match fty fd with TStruct s => reset_val f e s | t => zero_of f e t end
  end.
Lemma reset_member_prior e n f fd : (forall s, nest_ok n e (TStruct s) = true -> zlike e (TStruct s) (reset_val f e s)) ->
  nest_ok n e (fty fd) = true -> (n <= f)%nat -> prior_ok e (fty fd) (fdef fd) (reset_member f e fd).
Proof.
  intros IH Hn Hf. unfold prior_ok, reset_member. destruct (fdef fd); [reflexivity|].
  destruct (fty fd) eqn:Et; try (now apply (zero_zlike e n)). now apply IH.
Qed.
Lemma reset_val_zlike e : forall n s f, nest_ok n e (TStruct s) = true -> (n <= f)%nat -> zlike e (TStruct s) (reset_val f e s).
Proof.
  induction n as [|n IH]; intros s f Hn Hf; [discriminate|]. destruct f as [|f]; [lia|].
  cbn [nest_ok] in Hn. rewrite forallb_forall in Hn. cbn [reset_val]. apply ZL_struct. apply (Forall2_map_in _ (reset_member f e)).
  intros fd Hin Hd. pose proof (reset_member_prior e n f fd (fun s' H => IH s' f H ltac:(lia)) (Hn fd Hin) ltac:(lia)) as H.
  unfold prior_ok in H. now rewrite Hd in H.
Qed.
Lemma reset_zlike e n : forall f s x, nest_ok n e (TStruct s) = true -> (n <= f)%nat -> zlike e (TStruct s) (reset_default f e s x).
Proof. intros f s x Hn Hf. unfold reset_default. now apply (reset_val_zlike e n). Qed.
Lemma reset_val_priors e k f sid : wf_schema k e -> (k <= f)%nat ->
  Forall2 (fun fd p => prior_ok e (fty fd) (fdef fd) p) (fields_of e sid) (map (reset_member f e) (fields_of e sid)).
Proof.
  intros Hwf Hk. apply Forall2_map_in. intros fd Hin. apply (reset_member_prior e k); [|
    pose proof (wf_nest k e Hwf sid fd Hin) as Hn; destruct (fty fd); cbn [ty_nest] in Hn; apply andb_true_iff in Hn; tauto|assumption].
  intros s Hs. now apply (reset_val_zlike e k).
Qed.
(* the member priors the generated ReadFrom/ReadBlock uses, from ANY target *)
Lemma struct_priors1 e k f sid prior : wf_schema k e -> (k <= f)%nat ->
  exists ps, reset_default (S f) e sid prior = VStruct ps /\
             Forall2 (fun fd p => prior_ok e (fty fd) (fdef fd) p) (fields_of e sid) ps.
Proof.
  intros Hwf Hk. unfold reset_default. cbn [reset_val]. eexists. split; [reflexivity|]. now apply (reset_val_priors e k).
Qed.
Lemma struct_priors e k f sid prior : wf_schema k e -> (k <= f)%nat ->
  exists ps, reset_default (S f) e sid (reset_default (S f) e sid prior) = VStruct ps /\
             Forall2 (fun fd p => prior_ok e (fty fd) (fdef fd) p) (fields_of e sid) ps.
Proof. apply struct_priors1. Qed.

Lemma dec_scalar_junk J f lo tag req t prior bs' : junk_ok lo tag J ->
  (2 * length (ser_fields J ++ bs') + 3 <= f)%nat ->
  dec_scalar f tag req t prior (ser_fields J ++ bs') = dec_scalar (f - length J) tag req t prior bs'.
Proof.
  intros HJ Hf. unfold dec_scalar, r_bool, r_int8, r_uint8, r_int16, r_uint16, r_int32, r_uint32, r_int64, r_int, r_f32, r_f64,
    r_string, with_seek.
  destruct t; try reflexivity; now rewrite (seek_junk J f lo).
Qed.
Lemma dec_scalar_absent f tag req t prior rest : scalar_ty t = true -> follows tag rest ->
  dec_scalar (S f) tag req t prior rest = if req then DErr else DOk prior rest.
Proof.
  intros Ht Hfo. unfold dec_scalar, r_bool, r_int8, r_uint8, r_int16, r_uint16, r_int32, r_uint32, r_int64, r_int, r_f32, r_f64,
    r_string, with_seek.
  destruct t; try discriminate; rewrite seek_follows by assumption; now destruct req.
Qed.
Lemma zlike_scalar e t p : scalar_ty t = true -> zlike e t p -> p = zscalar t.
Proof. intros Ht H. inversion H; subst; try discriminate. destruct t; try discriminate; reflexivity. Qed.
Lemma zlike_vec e x p : zlike e (TVec x) p -> p = match x with TI8 => VBytes [] | _ => VList [] end.
Proof. intros H. inversion H; subst. reflexivity. Qed.
Lemma zlike_map e a b p : zlike e (TMap a b) p -> p = VMap [].
Proof. intros H. inversion H; subst. reflexivity. Qed.

Lemma replace_nth_app dn z todo v : replace_nth (length dn) v (dn ++ z :: todo) = dn ++ v :: todo.
Proof. induction dn as [|a dn IH]; cbn [length app replace_nth]; [reflexivity|]. now rewrite IH. Qed.
Lemma nth_app_here dn z todo (dflt : val) : nth (length dn) (dn ++ z :: todo) dflt = z.
Proof. rewrite app_nth2 by lia. now rewrite Nat.sub_diag. Qed.

Lemma member_absent e f tag req t prior lo J rest : junk_ok lo tag J -> follows tag rest ->
  (2 * length (ser_fields J ++ rest) + 3 <= f)%nat ->
  dec_var (S f) e tag req t prior (ser_fields J ++ rest) =
  if req then DErr else DOk (match t with TStruct sid => reset_default f e sid prior | _ => prior end) rest.
Proof.
  intros HJ Hfo Hf. pose proof (seek_absent J f lo tag req rest HJ Hfo Hf) as Hs.
  destruct t; try (rewrite dec_var_scalar by reflexivity; rewrite (dec_scalar_junk J f lo) by assumption;
                   destruct (fuel_sub J rest f Hf) as (f' & -> & _); now apply dec_scalar_absent).
  - rewrite dec_var_vec, Hs. now destruct req.
  - rewrite dec_var_map. unfold skip_to. rewrite Hs. now destruct req.
  - rewrite dec_var_arr, Hs. now destruct req.
  - rewrite dec_var_struct. cbv zeta. unfold skip_to. rewrite Hs. now destruct req.
Qed.
Lemma member_absent_required e f tag t prior lo J rest : junk_ok lo tag J -> follows tag rest ->
  (2 * length (ser_fields J ++ rest) + 3 <= f)%nat ->
  dec_var (S f) e tag true t prior (ser_fields J ++ rest) = DErr.
Proof. apply member_absent. Qed.
(* an absent optional member of a non-struct type keeps the target's value (the declared default after
   ResetDefault, else the zero value of a fresh target), and nothing is consumed *)
Lemma member_absent_optional e f tag t prior lo J rest : junk_ok lo tag J -> follows tag rest ->
  (match t with TStruct _ => False | _ => True end) ->
  (2 * length (ser_fields J ++ rest) + 3 <= f)%nat ->
  dec_var (S f) e tag false t prior (ser_fields J ++ rest) = DOk prior rest.
Proof. intros HJ Hfo Hns Hf. rewrite (member_absent e f tag false t prior lo J rest) by assumption. now destruct t. Qed.

Lemma follows_nil t : follows t [].
Proof. now left. Qed.
Lemma follows_se t rest : follows t (head tSE 0 ++ rest).
Proof. right. exists tSE, 0, rest. repeat split; try reflexivity. now left. Qed.
Lemma follows_fields t J rest : (forall p, In p J -> fst p < 256 /\ t < fst p) -> follows t rest -> follows t (ser_fields J ++ rest).
Proof.
  intros HJ Hfo. destruct J as [|[t0 w0] J]; [exact Hfo|]. destruct (HJ (t0, w0) (or_introl eq_refl)) as [A B].
  right. exists (ty_of w0), t0. eexists. repeat split; [apply ty_of_lt|assumption|rewrite ser_fields_cons, <- !app_assoc; reflexivity|now right].
Qed.

Lemma follows_xfields e : forall fds vs Js bs, xfields e fds vs Js bs -> forall lo t tail,
  t <= lo -> ascending lo fds -> junks_ok (Some lo) fds Js ->
  Forall2 (fun fd x => has_type e (fty fd) x) fds vs ->
  follows t tail -> follows t (bs ++ tail).
Proof.
  induction 1 as [|fd fds x vs J Js b bs Hb _ IH]; intros lo t tail Hle Hasc HJ Hty Hfo; [exact Hfo|].
  inversion Hty as [|? ? ? ? Hx Hvs]; subst. destruct Hasc as (Hlt & H256 & Hasc). destruct HJ as [HJ HJs].
  rewrite <- app_assoc. apply follows_fields.
  - intros p Hp. unfold junk_ok in HJ. rewrite Forall_forall in HJ. destruct (HJ p Hp) as (A & _ & _ & _ & B). split; [assumption|lia].
  - rewrite <- app_assoc. destruct (xenc_head e (ftag fd) (freq fd) (fty fd) (fdef fd) x b Hx Hb) as [[_ ->]|(ty & r & Hty' & ->)].
    + apply (IH (ftag fd)); try assumption. lia.
    + right. exists ty, (ftag fd). eexists. repeat split; [assumption|assumption|now rewrite <- app_assoc|right; lia].
Qed.
Lemma trail_skip fds Jl f rest : trail_ok fds Jl -> (2 * length (ser_fields Jl ++ head tSE 0 ++ rest) + 1 <= f)%nat ->
  skip_to_end f 0 (ser_fields Jl ++ head tSE 0 ++ rest) = (SOk, rest).
Proof.
  intros Ht Hf. apply skip_to_end_fields; try assumption.
  - apply Forall_forall. intros p _. apply skip_exact.
  - eapply Forall_impl; [|exact Ht]. intros p (A & B & _). split; assumption.
  - eapply Forall_impl; [|exact Ht]. intros p (_ & _ & C & _). lia.
Qed.
Lemma follows_trail fds Jl fd rest : trail_ok fds Jl -> In fd fds -> follows (ftag fd) (ser_fields Jl ++ head tSE 0 ++ rest).
Proof.
  intros Ht Hin. apply follows_fields; [|apply follows_se]. unfold trail_ok in Ht. rewrite Forall_forall in Ht.
  intros p Hp. destruct (Ht p Hp) as (A & _ & _ & B). auto.
Qed.

Lemma len_cons_pos {A} (y : A) r : (Z.of_nat (length (y :: r)) <=? 0)%Z = false.
Proof. cbn [length]. lia. Qed.
Lemma len_cons_pred {A} (y : A) r : (Z.of_nat (length (y :: r)) - 1)%Z = Z.of_nat (length r).
Proof. cbn [length]. lia. Qed.

Section RT.
Variable e : env.
Variable k : nat.
Hypothesis Hwf : wf_schema k e.

(* fuel for a value that needs [n]: a seek and a skip can each take a step per byte (2 * length), ResetDefault nests [k]
   deep; [need_top] bridges to the 4 * length + 64 the model starts with *)
Definition fuel_ok (n : nat) (bs : list N) (fuel : nat) : Prop := (n + k + 2 * length bs + 3 <= fuel)%nat.

Definition asc_opt (lo : option N) (fds : schema) : Prop :=
  match lo with None => schema_ascending fds | Some p => ascending p fds end.
Lemma asc_opt_cons lo fd fds : asc_opt lo (fd :: fds) -> ftag fd < 256 /\ ascending (ftag fd) fds.
Proof. destruct lo; cbn [asc_opt schema_ascending ascending]; tauto. Qed.
Definition member_ok (fd : field) : Prop :=
  ty_nest k e (fty fd) = true /\ (fdef fd <> None -> scalar_ty (fty fd) = true).

(* What the induction proves, for any encoding [xenc] of the value: unknown fields in front of the members and after
   the last member of every struct value, at any depth. *)
Definition X_var (fuel : nat) : Prop := forall tag req t d v prior lo J rest bs,
  has_type e t v -> ty_nest k e t = true -> tag < 256 ->
  (d <> None -> scalar_ty t = true) -> prior_ok e t d prior -> junk_ok lo tag J ->
  xenc e tag req t d v bs -> (req = true \/ follows tag rest) ->
  fuel_ok (need v) (ser_fields J ++ bs ++ rest) fuel ->
  dec_var fuel e tag req t prior (ser_fields J ++ bs ++ rest) = DOk (norm e t req d v) rest.
Definition X_elems (fuel : nat) : Prop := forall x xs body rest,
  Forall (has_type e x) xs -> ty_nest k e x = true -> xelems e x xs body ->
  fuel_ok (need_list xs) (body ++ rest) fuel ->
  dec_elems fuel e x (Z.of_nat (length xs)) (body ++ rest) = DOk (norm_elems e x xs) rest.
Definition X_arr (fuel : nat) : Prop := forall x len dn todo xs body rest,
  Forall (has_type e x) xs -> ty_nest k e x = true -> xelems e x xs body ->
  length todo = length xs -> (length dn + length xs = len)%nat -> Forall (zlike e x) todo ->
  fuel_ok (need_list xs) (body ++ rest) fuel ->
  dec_arr fuel e x len (length dn) (Z.of_nat (length xs)) (dn ++ todo) (body ++ rest) = DOk (dn ++ norm_elems e x xs) rest.
Definition X_entries (fuel : nat) : Prop := forall kt vt kvs body rest,
  Forall (fun p => has_type e kt (fst p) /\ has_type e vt (snd p)) kvs ->
  ty_nest k e kt = true -> ty_nest k e vt = true -> xentries e kt vt kvs body ->
  fuel_ok (need_entries kvs) (body ++ rest) fuel ->
  dec_entries fuel e kt vt (Z.of_nat (length kvs)) (body ++ rest) = DOk (norm_entries e kt vt kvs) rest.
Definition X_fields (fuel : nat) : Prop := forall fds vs ps Js lo body tail,
  Forall2 (fun fd x => has_type e (fty fd) x) fds vs -> Forall member_ok fds -> asc_opt lo fds ->
  Forall2 (fun fd p => prior_ok e (fty fd) (fdef fd) p) fds ps -> junks_ok lo fds Js -> xfields e fds vs Js body ->
  (forall fd, In fd fds -> follows (ftag fd) tail) ->
  fuel_ok (need_list vs) (body ++ tail) fuel ->
  dec_fields fuel e fds ps (body ++ tail) = DOk (norm_fields e vs fds) tail.

Lemma ty_nest_nest t : ty_nest k e t = true -> nest_ok k e t = true.
Proof. destruct t; cbn [ty_nest]; intros H; apply andb_true_iff in H; tauto. Qed.
Lemma ty_nest_vec x : ty_nest k e (TVec x) = true -> ty_nest k e x = true.
Proof. cbn [ty_nest]. intros H. apply andb_true_iff in H. tauto. Qed.
Lemma ty_nest_arr n x : ty_nest k e (TArr n x) = true -> ty_nest k e x = true.
Proof. cbn [ty_nest]. intros H. apply andb_true_iff in H. tauto. Qed.
Lemma ty_nest_map a b : ty_nest k e (TMap a b) = true -> ty_nest k e a = true /\ ty_nest k e b = true.
Proof. cbn [ty_nest]. intros H. apply andb_true_iff in H. destruct H as [_ H]. now apply andb_true_iff in H. Qed.
Lemma members_ok sid : Forall member_ok (fields_of e sid).
Proof.
  apply Forall_forall. intros fd Hin. split; [now apply (wf_nest k e Hwf sid)|now apply (wf_def k e Hwf sid)].
Qed.

(* an element, key or value: required, no default, no unknown fields in front, whatever follows *)
Lemma X_var_elem f tag x y prior b rest : X_var f -> tag < 256 -> has_type e x y -> ty_nest k e x = true ->
  zlike e x prior -> xenc e tag true x None y b -> fuel_ok (need y) (b ++ rest) f ->
  dec_var f e tag true x prior (b ++ rest) = DOk (norm e x true None y) rest.
Proof.
  intros HV Htag Hy Hn Hp Hb Hf. apply (HV tag true x None y prior None [] rest b); try assumption.
  - intros Hc. now destruct Hc.
  - apply junk_nil.
  - now left.
Qed.

Lemma xstep_elems f : X_var f -> X_elems f -> X_elems (S f).
Proof.
  intros HV HE x xs body rest Hty Hn Hx Hf. rewrite dec_elems_S. destruct Hx as [|x y r b bs Hb Hbs]; [reflexivity|].
  inversion Hty as [|? ? Hy Hr]; subst. unfold fuel_ok in Hf. cbn [need_list] in Hf.
  rewrite <- app_assoc, app_length in *. rewrite len_cons_pos, len_cons_pred.
  rewrite (X_var_elem f 0 x y _ b (bs ++ rest) HV); try assumption.
  - rewrite HE; try assumption; [reflexivity|]. unfold fuel_ok. lia.
  - lia.
  - apply (zero_zlike e k); [now apply ty_nest_nest|lia].
  - unfold fuel_ok. rewrite app_length. lia.
Qed.

Lemma xstep_arr f : X_var f -> X_arr f -> X_arr (S f).
Proof.
  intros HV HA x len dn todo xs body rest Hty Hn Hx Hlen Hsum Hz Hf. rewrite dec_arr_S.
  destruct Hx as [|x y r b bs Hb Hbs]; [destruct todo; [reflexivity|discriminate]|].
  pose proof (Forall_inv Hty) as Hy. pose proof (Forall_inv_tail Hty) as Hr. destruct todo as [|z todo]; [discriminate|].
  pose proof (Forall_inv Hz) as Hz1. pose proof (Forall_inv_tail Hz) as Hz2. unfold fuel_ok in Hf. cbn [need_list] in Hf. rewrite <- app_assoc, app_length in *. rewrite len_cons_pos, len_cons_pred.
  cbn [length] in Hlen, Hsum. replace (len <=? length dn)%nat with false by lia.
  rewrite nth_app_here. rewrite (X_var_elem f 0 x y z b (bs ++ rest) HV); try assumption.
  - (* the element just decoded joins the done part *)
    rewrite replace_nth_app. pose proof (HA x len (dn ++ [norm e x true None y]) todo r bs rest) as H. rewrite <- !app_assoc, app_length in H.
    cbn [length app] in H. rewrite Nat.add_1_r in H. apply H; try assumption; [lia|lia|]. unfold fuel_ok. lia.
  - lia.
  - unfold fuel_ok. rewrite app_length. lia.
Qed.

Lemma xstep_entries f : X_var f -> X_entries f -> X_entries (S f).
Proof.
  intros HV HE kt vt kvs body rest Hty Hnk Hnv Hx Hf. rewrite dec_entries_S.
  destruct Hx as [|kt vt ky y r bk bv bs Hbk Hbv Hbs]; [reflexivity|].
  inversion Hty as [|? ? [Hk Hy] Hr]; subst. cbn [fst snd] in Hk, Hy. unfold fuel_ok in Hf. cbn [need_entries] in Hf.
  rewrite <- !app_assoc, !app_length in *. rewrite len_cons_pos, len_cons_pred.
  rewrite (X_var_elem f 0 kt ky _ bk (bv ++ bs ++ rest) HV); try assumption.
  - rewrite (X_var_elem f 1 vt y _ bv (bs ++ rest) HV); try assumption.
    + rewrite HE; try assumption; [reflexivity|]. unfold fuel_ok. rewrite app_length. lia.
    + lia.
    + apply (zero_zlike e k); [now apply ty_nest_nest|lia].
    + unfold fuel_ok. rewrite !app_length. lia.
  - lia.
  - apply (zero_zlike e k); [now apply ty_nest_nest|lia].
  - unfold fuel_ok. rewrite !app_length. lia.
Qed.

Lemma xstep_fields f : X_var f -> X_fields f -> X_fields (S f).
Proof.
  intros HV HF fds vs ps Js lo body tail Hty Hmem Hasc Hps HJ Hx Htail Hf. rewrite dec_fields_S.
  destruct Hx as [|fd fds x vs J Js b bs Hb Hbs]; [reflexivity|].
  inversion Hty as [|? ? ? ? Hx Hvs]; subst. inversion Hps as [|? p ? ps' Hp Hps']; subst. destruct HJ as [HJ HJs].
  inversion Hmem as [|? ? [Hm1 Hm2] Hmem']; subst.
  destruct (asc_opt_cons _ _ _ Hasc) as [H256 Hasc'].
  cbn [norm_fields tl]. cbv zeta. unfold fuel_ok in Hf. cbn [need_list] in Hf. rewrite <- !app_assoc, !app_length in *.
  rewrite (HV (ftag fd) (freq fd) (fty fd) (fdef fd) x p lo J (bs ++ tail) b); try assumption.
  - rewrite (HF fds vs ps' Js (Some (ftag fd)) bs tail); try assumption; [reflexivity| |].
    + intros fd' Hin. apply Htail. now right.
    + unfold fuel_ok. rewrite app_length. lia.
  - right. apply (follows_xfields e fds vs Js bs Hbs (ftag fd)); try assumption; [lia|]. apply Htail. now left.
  - unfold fuel_ok. rewrite !app_length. lia.
Qed.

Lemma step_var_scalar f tag req t d v prior lo J rest :
  scalar_ty t = true -> sc_typed t v -> tag < 256 -> prior_ok e t d prior -> junk_ok lo tag J ->
  (req = true \/ follows tag rest) ->
  fuel_ok (need v) (ser_fields J ++ enc_var e tag req t d v ++ rest) (S f) ->
  dec_var (S f) e tag req t prior (ser_fields J ++ enc_var e tag req t d v ++ rest) = DOk (norm e t req d v) rest.
Proof.
  intros Hsc Hty Htag Hp HJ Hfo Hf. unfold fuel_ok in Hf. pose proof (need_ge v).
  rewrite norm_scalar by assumption. rewrite enc_var_scalar in * by assumption.
  destruct (omit t req d v) eqn:Eo.
  - apply omit_optional in Eo. subst req. destruct Hfo as [|Hfo]; [discriminate|]. cbn [app] in *.
    rewrite (member_absent e f tag false t prior lo J rest) by (try assumption; lia).
    destruct t; try discriminate; f_equal; unfold prior_ok in Hp; (destruct d; [assumption|now apply (zlike_scalar e)]).
  - rewrite dec_var_scalar by assumption. rewrite (dec_scalar_junk J f lo) by (try assumption; lia).
    destruct (fuel_sub J (w_scalar t v tag ++ rest) f ltac:(lia)) as (f' & -> & Hf').
    rewrite <- (dec_var_scalar (S f') e) by assumption. now apply scalar_member_roundtrip.
Qed.

Ltac sf := first [reflexivity | assumption | lia].

Lemma step_var_bytes f tag req d s prior lo J rest :
  N.of_nat (length s) < 2147483648 -> tag < 256 -> zlike e (TVec TI8) prior -> junk_ok lo tag J ->
  (req = true \/ follows tag rest) ->
  fuel_ok 3 (ser_fields J ++ enc_var e tag req (TVec TI8) d (VBytes s) ++ rest) (S f) ->
  dec_var (S f) e tag req (TVec TI8) prior (ser_fields J ++ enc_var e tag req (TVec TI8) d (VBytes s) ++ rest) = DOk (VBytes s) rest.
Proof.
  intros Hs Htag Hp HJ Hfo Hf. unfold fuel_ok in Hf. apply zlike_vec in Hp. subst prior. cbn [enc_var] in *.
  destruct (negb req && match s with [] => true | _ => false end) eqn:Eo.
  - destruct req; [discriminate|]. destruct s; [|discriminate]. destruct Hfo as [|Hfo]; [discriminate|].
    cbn [app] in *. apply (member_absent_optional e f tag _ _ lo J rest); sf || exact I.
  - rewrite dec_var_vec, <- !app_assoc in *. rewrite (seek_member J f lo) by sf.
    change (tSIMPLE =? tLIST) with false. change (tSIMPLE =? tSIMPLE) with true. cbv iota. cbn [is_byte].
    unfold skip_to. destruct f as [|f0]; [lia|]. rewrite seek_first by sf.
    change (tBYTE =? tBYTE) with true. cbv iota. rewrite read_count_len by assumption. now rewrite read_slice_app.
Qed.

Lemma xstep_var f : X_elems f -> X_arr f -> X_entries f -> X_fields f -> X_var (S f).
Proof.
  intros HE HA HM HF tag req t d v prior lo J rest bs Hty Hn Htag Hd Hp HJ Hx Hfo Hf.
  assert (Hz : scalar_ty t = false -> zlike e t prior).
  { intros Hs. destruct d; [|exact Hp]. specialize (Hd ltac:(discriminate)). congruence. }
  destruct Hx as [tag req t d v Hs|tag req d s|tag req d x xs body Hb|tag req d n x xs body Hb|tag req d kt vt kvs body Hb
                 |tag req d sid vs Js Jl body Hb HJs HJl].
  - apply (step_var_scalar f tag req t d v prior lo); try assumption. now apply (has_type_scalar e).
  - inversion Hty; subst; [discriminate|]. apply (step_var_bytes f tag req d s prior lo); auto.
  - (* vector: an empty optional one is left out and the zero target stays; else head, count, elements *)
    inversion Hty as [| |? ? Hx Hlen Hxs| | |]; subst; [discriminate|]. apply ty_nest_vec in Hn.
    rewrite norm_vec. unfold fuel_ok in Hf. rewrite need_VList in Hf.
    assert (prior = VList []) by (apply zlike_vec in Hz; [destruct x; congruence|reflexivity]). subst prior.
    destruct (negb req && match xs with [] => true | _ => false end) eqn:Eo.
    + destruct req; [discriminate|]. destruct xs; [|discriminate]. destruct Hfo as [|Hfo]; [discriminate|].
      cbn [app] in Hf |- *. apply (member_absent_optional e f tag _ _ lo J rest); sf || exact I.
    + rewrite dec_var_vec. rewrite <- !app_assoc in Hf. rewrite <- !app_assoc. rewrite (seek_member J f lo) by sf.
      change (tLIST =? tLIST) with true. cbv iota. rewrite read_count_len by assumption.
      pose proof (xelems_length e x xs body Hb Hxs) as Hel. rewrite !app_length in Hf. rewrite !app_length.
      replace (Z.of_nat (length xs) <? 0)%Z with false by lia.
      replace (Z.of_nat (length body + length rest) <? Z.of_nat (length xs))%Z with false by lia.
      rewrite HE; try assumption; [destruct x; try reflexivity; congruence|]. unfold fuel_ok. rewrite app_length. lia.
  - (* fixed array: never left out (its length is positive); the elements go into the target's *)
    inversion Hty as [| | |? ? ? Hl Hpos Hlen Hxs| |]; subst; [discriminate|]. apply ty_nest_arr in Hn.
    rewrite norm_arr. unfold fuel_ok in Hf. rewrite need_VList in Hf.
    specialize (Hz eq_refl). inversion Hz as [? Hc|? ? l Hll Hzl|]; subst; [discriminate|].
    replace (negb req && match xs with [] => true | _ => false end) with false in *
      by (destruct xs; [cbn [length] in Hpos; lia|now destruct req]).
    rewrite dec_var_arr. rewrite <- !app_assoc in Hf. rewrite <- !app_assoc. rewrite (seek_member J f lo) by sf.
    change (tLIST =? tLIST) with true. cbv iota. rewrite read_count_len by lia.
    replace ((Z.of_nat (length xs) <? 0)%Z || (Z.of_nat (length xs) <? Z.of_nat (length xs))%Z) with false by lia.
    pose proof (HA x (length xs) [] l xs body rest) as H. cbn [length app] in H. rewrite H; try assumption; try reflexivity.
    unfold fuel_ok. rewrite !app_length in Hf. rewrite !app_length. lia.
  - inversion Hty as [| | | |? ? ? Hlen Hkvs|]; subst; [discriminate|]. apply ty_nest_map in Hn. destruct Hn as [Hnk Hnv].
    rewrite norm_map. unfold fuel_ok in Hf. rewrite need_VMap in Hf. apply zlike_map in Hz; [|reflexivity]. subst prior.
    destruct (negb req && match kvs with [] => true | _ => false end) eqn:Eo.
    + destruct req; [discriminate|]. destruct kvs; [|discriminate]. destruct Hfo as [|Hfo]; [discriminate|].
      cbn [app] in Hf |- *. apply (member_absent_optional e f tag _ _ lo J rest); sf || exact I.
    + rewrite dec_var_map. rewrite <- !app_assoc in Hf. rewrite <- !app_assoc. unfold skip_to. rewrite (seek_member J f lo) by sf.
      change (tMAP =? tMAP) with true. cbv iota. rewrite read_count_len by assumption.
      pose proof (xentries_length e kt vt kvs body Hb Hkvs) as Hel. rewrite !app_length in Hf. rewrite !app_length.
      replace ((Z.of_nat (length kvs) <? 0)%Z || (Z.of_nat (length body + length rest) / 2 <? Z.of_nat (length kvs))%Z) with false by lia.
      rewrite HM; try assumption; [reflexivity|]. unfold fuel_ok. rewrite app_length. lia.
  - (* struct: always written; ResetDefault supplies the members' targets; the trailing unknown fields are skipped *)
    pose proof (has_type_struct _ _ _ Hty) as Hvs. rewrite norm_str.
    unfold fuel_ok in Hf. rewrite need_VStruct in Hf. pose proof (need_list_ge vs).
    rewrite dec_var_struct. rewrite <- !app_assoc in Hf. rewrite <- !app_assoc. cbv zeta. unfold skip_to. rewrite (seek_member J f lo) by sf.
    change (tSB =? tSB) with true. cbv iota. rewrite !app_length in Hf.
    destruct f as [|f0]; [lia|]. destruct (struct_priors e k f0 sid prior Hwf ltac:(lia)) as (ps & -> & Hps).
    rewrite (HF (fields_of e sid) vs ps Js None body (ser_fields Jl ++ head tSE 0 ++ rest)); try assumption.
    + rewrite (trail_skip (fields_of e sid)); [reflexivity|assumption|]. rewrite !app_length. lia.
    + apply members_ok.
    + apply (wf_asc k e Hwf).
    + intros fd Hin. now apply (follows_trail (fields_of e sid)).
    + unfold fuel_ok. rewrite !app_length. lia.
Qed.

Theorem rtx_all : forall fuel, X_var fuel /\ X_elems fuel /\ X_arr fuel /\ X_entries fuel /\ X_fields fuel.
Proof.
  induction fuel as [|f (HV & HE & HA & HM & HF)].
  - (* no fuel: [fuel_ok] asks for at least 3 *)
    repeat split; intro; intros; unfold fuel_ok in *; lia.
  - repeat split.
    + now apply xstep_var.
    + now apply xstep_elems.
    + now apply xstep_arr.
    + now apply xstep_entries.
    + now apply xstep_fields.
Qed.

Lemma xelems_plain x xs : Forall (has_type e x) xs -> xelems e x xs (enc_elems e x xs).
Proof. intros H. apply xelems_enc. eapply Forall_impl; [|exact H]. apply xenc_plain. Qed.
Lemma xentries_plain kt vt kvs : Forall (fun p => has_type e kt (fst p) /\ has_type e vt (snd p)) kvs ->
  xentries e kt vt kvs (enc_entries e kt vt kvs).
Proof. induction 1 as [|[ky y] r [Hk Hy] _ IH]; cbn [enc_entries]; constructor; [now apply xenc_plain|now apply xenc_plain|assumption]. Qed.
Lemma xfields_plain fds vs lo Js : Forall2 (fun fd x => has_type e (fty fd) x) fds vs -> junks_ok lo fds Js ->
  xfields e fds vs Js (encx_fields e vs fds Js).
Proof.
  intros Hty. apply xfields_encx. clear lo Js. induction Hty; constructor; [intros; now apply xenc_plain|assumption].
Qed.

(* The encoder's own output is the encoding without unknown fields inside values ([xenc_plain]): the five statements for it *)
Definition P_var (fuel : nat) : Prop := forall tag req t d v prior lo J rest,
  has_type e t v -> ty_nest k e t = true -> tag < 256 ->
  (d <> None -> scalar_ty t = true) -> prior_ok e t d prior -> junk_ok lo tag J ->
  (req = true \/ follows tag rest) ->
  fuel_ok (need v) (ser_fields J ++ enc_var e tag req t d v ++ rest) fuel ->
  dec_var fuel e tag req t prior (ser_fields J ++ enc_var e tag req t d v ++ rest) = DOk (norm e t req d v) rest.
Definition P_elems (fuel : nat) : Prop := forall x xs rest,
  Forall (has_type e x) xs -> ty_nest k e x = true ->
  fuel_ok (need_list xs) (enc_elems e x xs ++ rest) fuel ->
  dec_elems fuel e x (Z.of_nat (length xs)) (enc_elems e x xs ++ rest) = DOk (norm_elems e x xs) rest.
Definition P_arr (fuel : nat) : Prop := forall x len dn todo xs rest,
  Forall (has_type e x) xs -> ty_nest k e x = true ->
  length todo = length xs -> (length dn + length xs = len)%nat -> Forall (zlike e x) todo ->
  fuel_ok (need_list xs) (enc_elems e x xs ++ rest) fuel ->
  dec_arr fuel e x len (length dn) (Z.of_nat (length xs)) (dn ++ todo) (enc_elems e x xs ++ rest)
  = DOk (dn ++ norm_elems e x xs) rest.
Definition P_entries (fuel : nat) : Prop := forall kt vt kvs rest,
  Forall (fun p => has_type e kt (fst p) /\ has_type e vt (snd p)) kvs ->
  ty_nest k e kt = true -> ty_nest k e vt = true ->
  fuel_ok (need_entries kvs) (enc_entries e kt vt kvs ++ rest) fuel ->
  dec_entries fuel e kt vt (Z.of_nat (length kvs)) (enc_entries e kt vt kvs ++ rest) = DOk (norm_entries e kt vt kvs) rest.
Definition P_fields (fuel : nat) : Prop := forall fds vs ps Js lo tail,
  Forall2 (fun fd x => has_type e (fty fd) x) fds vs -> Forall member_ok fds -> asc_opt lo fds ->
  Forall2 (fun fd p => prior_ok e (fty fd) (fdef fd) p) fds ps -> junks_ok lo fds Js ->
  (forall fd, In fd fds -> follows (ftag fd) tail) ->
  fuel_ok (need_list vs) (encx_fields e vs fds Js ++ tail) fuel ->
  dec_fields fuel e fds ps (encx_fields e vs fds Js ++ tail) = DOk (norm_fields e vs fds) tail.
Theorem rt_all : forall fuel, P_var fuel /\ P_elems fuel /\ P_arr fuel /\ P_entries fuel /\ P_fields fuel.
Proof.
  intros fuel. destruct (rtx_all fuel) as (HV & HE & HA & HM & HF). repeat split.
  - intros tag req t d v prior lo J rest Hty Hn Htag Hd Hp HJ Hfo Hf.
    exact (HV tag req t d v prior lo J rest _ Hty Hn Htag Hd Hp HJ (xenc_plain e t v Hty tag req d) Hfo Hf).
  - intros x xs rest Hty Hn Hf. exact (HE x xs _ rest Hty Hn (xelems_plain x xs Hty) Hf).
  - intros x len dn todo xs rest Hty Hn Hl Hs Hz Hf. exact (HA x len dn todo xs _ rest Hty Hn (xelems_plain x xs Hty) Hl Hs Hz Hf).
  - intros kt vt kvs rest Hty Hk Hv Hf. exact (HM kt vt kvs _ rest Hty Hk Hv (xentries_plain kt vt kvs Hty) Hf).
  - intros fds vs ps Js lo tail Hty Hm Ha Hp HJ Ht Hf.
    exact (HF fds vs ps Js lo _ tail Hty Hm Ha Hp HJ (xfields_plain fds vs lo Js Hty HJ) Ht Hf).
Qed.
End RT.

Lemma follows_encx e : forall fds vs Js lo t tail,
  t <= lo -> ascending lo fds -> junks_ok (Some lo) fds Js ->
  Forall2 (fun fd x => has_type e (fty fd) x) fds vs ->
  follows t tail -> follows t (encx_fields e vs fds Js ++ tail).
Proof.
  intros fds vs Js lo t tail Hle Hasc HJ Hty. apply (follows_xfields e fds vs Js _ (xfields_plain e fds vs _ Js Hty HJ) lo); assumption.
Qed.
Lemma enc_var_head e tag req t d v : has_type e t v ->
  (req = false /\ enc_var e tag req t d v = []) \/ headed tag (enc_var e tag req t d v).
Proof. intros Hty. apply (xenc_head e tag req t d v); [assumption|now apply xenc_plain]. Qed.
Lemma enc_var_req_length e tag t d v : has_type e t v -> (1 <= length (enc_var e tag true t d v))%nat.
Proof. intros Hty. apply (xenc_req_length e tag t d v); [assumption|now apply xenc_plain]. Qed.

Lemma zero_struct_zlike e k sid : wf_schema k e -> (S k <= 64)%nat -> zlike e (TStruct sid) (zero_struct e sid).
Proof.
  intros Hwf Hk. unfold zero_struct. apply (zero_zlike e (S k)); [|assumption].
  cbn [nest_ok]. apply forallb_forall. intros fd Hin. apply (ty_nest_nest e k). now apply (wf_nest k e Hwf sid).
Qed.

(* ReadFrom, into any target, of an encoding with unknown fields at every struct level, followed by anything that
   cannot be mistaken for a member: the decoded value is that of the clean encoding, the cursor stops at the tail *)
Theorem decode_into_nested e k sid vs prior Js body tail :
  wf_schema k e -> has_type e (TStruct sid) (VStruct vs) ->
  xfields e (fields_of e sid) vs Js body -> junks_ok None (fields_of e sid) Js ->
  (forall fd, In fd (fields_of e sid) -> follows (ftag fd) tail) ->
  (need_list vs + k + 3 <= 2 * length (body ++ tail) + 64)%nat ->
  decode_into e sid prior (body ++ tail) = DOk (norm_struct e sid (VStruct vs)) tail.
Proof.
  intros Hwf Hty Hxf HJ Htail Hfuel. unfold decode_into, norm_struct. rewrite norm_str.
  set (bs := body ++ tail) in *.
  replace (4 * length bs + 64)%nat with (S (4 * length bs + 63)) by lia.
  destruct (struct_priors1 e k (4 * length bs + 63) sid prior Hwf ltac:(lia)) as (ps & -> & Hps).
  destruct (rtx_all e k Hwf (S (4 * length bs + 63))) as (_ & _ & _ & _ & HF).
  pose proof (has_type_struct _ _ _ Hty) as Hvs.
  assert (H1 : dec_fields (S (4 * length bs + 63)) e (fields_of e sid) ps bs = DOk (norm_fields e vs (fields_of e sid)) tail).
  { apply (HF (fields_of e sid) vs ps Js None body tail); try assumption.
    - now apply members_ok.
    - apply (wf_asc k e Hwf).
    - unfold fuel_ok. fold bs. lia. }
  now rewrite H1.
Qed.

(* unknown fields before the top-level members only *)
Theorem decode_into_extras e k sid vs prior Js tail :
  wf_schema k e -> has_type e (TStruct sid) (VStruct vs) ->
  junks_ok None (fields_of e sid) Js ->
  (forall fd, In fd (fields_of e sid) -> follows (ftag fd) tail) ->
  (need_list vs + k + 3 <= 2 * length (encx_fields e vs (fields_of e sid) Js ++ tail) + 64)%nat ->
  decode_into e sid prior (encx_fields e vs (fields_of e sid) Js ++ tail) = DOk (norm_struct e sid (VStruct vs)) tail.
Proof.
  intros Hwf Hty HJ. apply (decode_into_nested e k sid vs prior Js); try assumption.
  pose proof (has_type_struct _ _ _ Hty) as Hvs. now apply (xfields_plain e _ _ None).
Qed.

Theorem roundtrip_into e k sid vs prior rest :
  wf_schema k e -> has_type e (TStruct sid) (VStruct vs) ->
  (forall fd, In fd (fields_of e sid) -> follows (ftag fd) rest) ->
  (need_list vs + k + 3 <= 2 * length (encode e sid (VStruct vs) ++ rest) + 64)%nat ->
  decode_into e sid prior (encode e sid (VStruct vs) ++ rest) = DOk (norm_struct e sid (VStruct vs)) rest.
Proof.
  intros Hwf Hty Htail Hfuel.
  assert (Hl : length (fields_of e sid) = length vs).
  { pose proof (has_type_struct _ _ _ Hty) as Hvs. now apply Forall2_len in Hvs. }
  rewrite encode_fields in *. rewrite <- (encx_nil e vs (fields_of e sid) Hl) in *.
  apply (decode_into_extras e k); try assumption. apply junks_nil.
Qed.

(* C03: decode (encode v) = norm v, everything consumed *)
Theorem roundtrip_struct e k sid vs :
  wf_schema k e -> (S k <= 64)%nat -> has_type e (TStruct sid) (VStruct vs) ->
  (need_list vs + k + 3 <= 2 * length (encode e sid (VStruct vs)) + 64)%nat ->
  decode e sid (encode e sid (VStruct vs)) = DOk (norm_struct e sid (VStruct vs)) [].
Proof.
  intros Hwf Hk Hty Hfuel. unfold decode.
  rewrite <- (app_nil_r (encode e sid (VStruct vs))). apply (roundtrip_into e k); try assumption.
  - intros; apply follows_nil.
  - now rewrite app_nil_r.
Qed.

Print Assumptions roundtrip_struct.
Print Assumptions decode_into_extras.

(* fuel adequacy from the schema alone, for types whose graph is finite *)
Section Need.
Variable e : env.

(* the members of a container need what each needs against its own encoding *)
Lemma need_list_bound x T xs body : xelems e x xs body -> Forall (has_type e x) xs ->
  (forall y b, has_type e x y -> xenc e 0 true x None y b -> (need y <= T + 2 * length b)%nat) ->
  (need_list xs <= 1 + T + 2 * length body)%nat.
Proof.
  intros Hx Hty Hb. induction Hx as [|x y r b bs Hy _ IH]; cbn [need_list length]; [lia|]. rewrite app_length.
  pose proof (Hb y b (Forall_inv Hty) Hy). pose proof (xenc_req_length e 0 x None y b (Forall_inv Hty) Hy).
  specialize (IH (Forall_inv_tail Hty) Hb). lia.
Qed.
Lemma need_entries_bound kt vt Tk Tv kvs body : xentries e kt vt kvs body ->
  Forall (fun p => has_type e kt (fst p) /\ has_type e vt (snd p)) kvs ->
  (forall y b, has_type e kt y -> xenc e 0 true kt None y b -> (need y <= Tk + 2 * length b)%nat) ->
  (forall y b, has_type e vt y -> xenc e 1 true vt None y b -> (need y <= Tv + 2 * length b)%nat) ->
  (need_entries kvs <= 1 + Nat.max Tk Tv + 2 * length body)%nat.
Proof.
  intros Hx Hty Hbk Hbv. induction Hx as [|kt vt ky y r bk bv bs Hk Hy _ IH]; cbn [need_entries length]; [lia|].
  rewrite !app_length. destruct (Forall_inv Hty) as [Uk Uy]. cbn [fst snd] in Uk, Uy.
  pose proof (Hbk ky bk Uk Hk). pose proof (Hbv y bv Uy Hy).
  pose proof (xenc_req_length e 0 kt None ky bk Uk Hk). pose proof (xenc_req_length e 1 vt None y bv Uy Hy).
  specialize (IH (Forall_inv_tail Hty) Hbk Hbv). lia.
Qed.
Lemma need_fields_bound (g : ty -> nat) fds vs Js body : xfields e fds vs Js body ->
  Forall2 (fun fd x => has_type e (fty fd) x) fds vs ->
  (forall fd x b, In fd fds -> has_type e (fty fd) x -> xenc e (ftag fd) (freq fd) (fty fd) (fdef fd) x b ->
     (need x <= g (fty fd) + 2 * length b)%nat) ->
  (need_list vs <= 1 + length fds + tmax g fds + 2 * length body)%nat.
Proof.
  intros Hx. induction Hx as [|fd fds x vs J Js b bs Hb _ IH]; intros Hty Hg; cbn [need_list length tmax fold_right]; [lia|].
  fold (tmax g fds). inversion Hty as [|? ? ? ? Hx Hvs]; subst. rewrite !app_length.
  pose proof (Hg fd x b (or_introl eq_refl) Hx Hb). specialize (IH Hvs (fun fd' x' b' Hin => Hg fd' x' b' (or_intror Hin))). lia.
Qed.

Lemma need_bound_x : forall n t v tag req d bs, tfin n e t = true -> has_type e t v -> xenc e tag req t d v bs ->
  (need v <= tneed n e t + 2 * length bs)%nat.
Proof.
  induction n as [|n IH]; intros t v tag req d bs Hfin Hty Hx; [discriminate|].
  destruct Hx as [tag req t d v Hs|tag req d s|tag req d x xs body Hb|tag req d m x xs body Hb|tag req d kt vt kvs body Hb
                 |tag req d sid vs Js Jl body Hb HJs HJl]; cbn [tfin] in Hfin.
  - apply (has_type_scalar e) in Hty; [|assumption].
    destruct t; try discriminate; destruct v; cbn [sc_typed] in Hty; try contradiction; cbn [need tneed]; lia.
  - cbn [need tneed]. lia.
  - inversion Hty; subst; [discriminate|]. rewrite need_VList. cbn [tneed].
    pose proof (need_list_bound x (tneed n e x) xs body Hb ltac:(assumption) (fun y b Hy => IH x y 0 true None b Hfin Hy)).
    destruct xs, req; cbn [negb andb need_list length] in *; rewrite ?app_length; lia.
  - inversion Hty; subst; [discriminate|]. rewrite need_VList. cbn [tneed].
    pose proof (need_list_bound x (tneed n e x) xs body Hb ltac:(assumption) (fun y b Hy => IH x y 0 true None b Hfin Hy)).
    destruct xs, req; cbn [negb andb need_list length] in *; rewrite ?app_length; lia.
  - inversion Hty; subst; [discriminate|]. rewrite need_VMap. cbn [tneed]. apply andb_true_iff in Hfin. destruct Hfin as [Hfa Hfb].
    pose proof (need_entries_bound kt vt (tneed n e kt) (tneed n e vt) kvs body Hb ltac:(assumption)
                  (fun y b Hy => IH kt y 0 true None b Hfa Hy) (fun y b Hy => IH vt y 1 true None b Hfb Hy)).
    destruct kvs, req; cbn [negb andb need_entries length] in *; rewrite ?app_length; lia.
  - inversion Hty; subst; [discriminate|]. rewrite need_VStruct. cbn [tneed]. rewrite forallb_forall in Hfin.
    pose proof (need_fields_bound (tneed n e) _ vs Js body Hb ltac:(assumption)
                  (fun fd x b Hin Hx => IH (fty fd) x (ftag fd) (freq fd) (fdef fd) b (Hfin fd Hin) Hx)).
    rewrite !app_length. lia.
Qed.
Lemma need_bound n t v tag req d : tfin n e t = true -> has_type e t v ->
  (need v <= tneed n e t + 2 * length (enc_var e tag req t d v))%nat.
Proof. intros Hfin Hty. apply (need_bound_x n t v tag req d); [assumption|assumption|now apply xenc_plain]. Qed.

Lemma need_fields_x n fds vs Js body : xfields e fds vs Js body ->
  Forall2 (fun fd x => has_type e (fty fd) x) fds vs -> (forall fd, In fd fds -> tfin n e (fty fd) = true) ->
  (need_list vs <= 1 + length fds + tmax (tneed n e) fds + 2 * length body)%nat.
Proof.
  intros Hx Hty Hfin. apply (need_fields_bound (tneed n e) fds vs Js body Hx Hty).
  intros fd x b Hin. apply need_bound_x. now apply Hfin.
Qed.

Lemma fields_bound_aux (g : ty -> nat) fds vs :
  Forall2 (fun fd x => has_type e (fty fd) x) fds vs ->
  (forall fd, In fd fds -> forall x tag req d, has_type e (fty fd) x ->
     (need x <= g (fty fd) + 2 * length (enc_var e tag req (fty fd) d x))%nat) ->
  Forall2 (fun fd x => (need x <= g (fty fd) + 2 * length (enc_var e (ftag fd) (freq fd) (fty fd) (fdef fd) x))%nat) fds vs.
Proof.
  induction 1 as [|fd x fds vs Hx _ IHF]; intros Hb; constructor.
  - apply Hb; [now left|assumption].
  - apply IHF. intros fd' Hin. apply Hb. now right.
Qed.

(* the top level: what the model's fuel 4*len+64 must cover *)
Lemma need_top n sid vs : tfin n e (TStruct sid) = true -> has_type e (TStruct sid) (VStruct vs) ->
  (3 + need_list vs <= tneed n e (TStruct sid) + 2 * length (encode e sid (VStruct vs)))%nat.
Proof.
  intros Hfin Hty. pose proof (has_type_struct _ _ _ Hty) as Hvs.
  destruct n; [discriminate|]. cbn [tfin tneed] in *. rewrite forallb_forall in Hfin.
  pose proof (need_fields_x n _ vs _ _ (xfields_plain e _ vs None _ Hvs (junks_nil _ None)) Hvs Hfin) as H.
  rewrite encx_nil in H by (now apply Forall2_len in Hvs). rewrite encode_fields. lia.
Qed.
End Need.

(* a member as the encoder writes it decodes to its normal form in front of anything that cannot be mistaken for it, with
   the fuel bounded from the schema *)
Lemma member_decodes e k f m tag req t d v prior rest : wf_schema k e ->
  has_type e t v -> ty_nest k e t = true -> tag < 256 -> (d <> None -> scalar_ty t = true) -> prior_ok e t d prior ->
  tfin m e t = true -> (req = true \/ follows tag rest) ->
  (tneed m e t + k + 4 * length (enc_var e tag req t d v) + 2 * length rest + 3 <= f)%nat ->
  dec_var f e tag req t prior (enc_var e tag req t d v ++ rest) = DOk (norm e t req d v) rest.
Proof.
  intros Hwf Hty Hn Htag Hd Hp Hfin Hfo Hf. destruct (rt_all e k Hwf f) as (HV & _).
  pose proof (need_bound e m t v tag req d Hfin Hty) as Hb.
  apply (HV tag req t d v prior None [] rest); try assumption; [apply junk_nil|].
  unfold fuel_ok. cbn [ser_fields app]. rewrite app_length. lia.
Qed.

(* C03 with the fuel condition discharged from the schema: for struct types whose type graph is finite *)
Theorem roundtrip_struct_static e k n sid vs :
  wf_schema k e -> (S k <= 64)%nat -> tfin n e (TStruct sid) = true -> (tneed n e (TStruct sid) + k <= 64)%nat ->
  has_type e (TStruct sid) (VStruct vs) ->
  decode e sid (encode e sid (VStruct vs)) = DOk (norm_struct e sid (VStruct vs)) [].
Proof.
  intros Hwf Hk Hfin Hn Hty. apply (roundtrip_struct e k); try assumption.
  pose proof (need_top e n sid vs Hfin Hty). lia.
Qed.
Print Assumptions roundtrip_struct_static.
Lemma tneed_overflow n e sid : (length e <= sid)%nat -> tneed (S n) e (TStruct sid) = 4%nat.
Proof. intros H. cbn [tneed]. unfold fields_of. rewrite nth_overflow by assumption. reflexivity. Qed.

Definition trailing_ok (fds : schema) (Jl : list (N * wf)) : Prop :=
  Forall (fun p => fst p < 256 /\ forall fd, In fd fds -> ftag fd < fst p) Jl.
Lemma follows_trailing fds Jl fd : trailing_ok fds Jl -> In fd fds -> follows (ftag fd) (ser_fields Jl).
Proof.
  intros Ht Hin. rewrite <- (app_nil_r (ser_fields Jl)). apply follows_fields; [|apply follows_nil].
  unfold trailing_ok in Ht. rewrite Forall_forall in Ht. intros p Hp. destruct (Ht p Hp). auto.
Qed.

(* C04, first clause, full strength: for every wf_schema environment, every struct type with a finite type graph
   and every well-typed value, an encoding that carries well-formed unknown fields at any struct level (in front
   of any member and after the last member of the top-level struct and of every struct value nested in it)
   decodes to the same value as the clean encoding; the cursor stops in front of the trailing top-level ones *)
Theorem extras_nested e k n sid vs Js body Jl :
  wf_schema k e -> (S k <= 64)%nat -> tfin n e (TStruct sid) = true -> (tneed n e (TStruct sid) + k <= 64)%nat ->
  has_type e (TStruct sid) (VStruct vs) ->
  xfields e (fields_of e sid) vs Js body -> junks_ok None (fields_of e sid) Js -> trailing_ok (fields_of e sid) Jl ->
  decode e sid (body ++ ser_fields Jl) = DOk (norm_struct e sid (VStruct vs)) (ser_fields Jl)
  /\ decode e sid (encode e sid (VStruct vs)) = DOk (norm_struct e sid (VStruct vs)) [].
Proof.
  intros Hwf Hk Hfin Hn Hty Hxf HJ HJl. split; [|now apply (roundtrip_struct_static e k n)].
  unfold decode. apply (decode_into_nested e k sid vs _ Js); try assumption.
  - intros fd Hin. now apply (follows_trailing (fields_of e sid)).
  - destruct n as [|n']; [discriminate|]. cbn [tfin tneed] in Hfin, Hn. rewrite forallb_forall in Hfin.
    pose proof (has_type_struct _ _ _ Hty) as Hvs.
    pose proof (need_fields_x e n' _ _ _ _ Hxf Hvs Hfin). rewrite app_length. lia.
Qed.

(* unknown fields before any member and after the last one change neither the value nor success; the cursor
   stops exactly in front of the trailing unknown fields *)
Theorem extras_ignored e k n sid vs Js Jl :
  wf_schema k e -> (S k <= 64)%nat -> tfin n e (TStruct sid) = true -> (tneed n e (TStruct sid) + k <= 64)%nat ->
  has_type e (TStruct sid) (VStruct vs) ->
  junks_ok None (fields_of e sid) Js -> trailing_ok (fields_of e sid) Jl ->
  decode e sid (encx_fields e vs (fields_of e sid) Js ++ ser_fields Jl) = DOk (norm_struct e sid (VStruct vs)) (ser_fields Jl)
  /\ decode e sid (encode e sid (VStruct vs)) = DOk (norm_struct e sid (VStruct vs)) [].
Proof.
  intros Hwf Hk Hfin Hn Hty HJ. apply (extras_nested e k n sid vs Js); try assumption.
  pose proof (has_type_struct _ _ _ Hty) as Hvs. now apply (xfields_plain e _ _ None).
Qed.

Lemma ascending_app_l p a b : ascending p (a ++ b) -> ascending p a.
Proof. revert p. induction a as [|x a IH]; intros p H; [exact I|]. cbn [app ascending] in *. destruct H as (H1 & H2 & H3). repeat split; try assumption. now apply IH. Qed.
Lemma ascending_app_mid p a fd b : ascending p (a ++ fd :: b) -> p < ftag fd /\ ftag fd < 256 /\ ascending (ftag fd) b.
Proof.
  revert p. induction a as [|x a IH]; intros p H; cbn [app ascending] in H.
  - tauto.
  - destruct H as (H1 & H2 & H3). destruct (IH _ H3) as (A & B & C). repeat split; try assumption. lia.
Qed.

Lemma tmax_app_l g a b : (tmax g a <= tmax g (a ++ b))%nat.
Proof. induction a as [|x a IH]; cbn [tmax fold_right app]; [lia|]. fold (tmax g a). fold (tmax g (a ++ b)). lia. Qed.
Lemma schema_ascending_mid a fd b : schema_ascending (a ++ fd :: b) -> ascending (ftag fd) b.
Proof.
  destruct a as [|x a]; cbn [app schema_ascending]; [tauto|]. intros [_ H]. apply ascending_app_mid in H. tauto.
Qed.

Lemma ascending_all_gt p a : ascending p a -> forall fd, In fd a -> p < ftag fd.
Proof.
  revert p. induction a as [|x a IH]; intros p H fd Hin; [contradiction|]. cbn [ascending] in H. destruct H as (H1 & H2 & H3).
  destruct Hin as [->|Hin]; [assumption|]. specialize (IH _ H3 fd Hin). lia.
Qed.
Lemma ascending_lt256 p a : ascending p a -> forall fd, In fd a -> ftag fd < 256.
Proof.
  revert p. induction a as [|x a IH]; intros p H fd Hin; [contradiction|]. destruct H as (_ & H2 & H3).
  destruct Hin as [->|Hin]; [assumption|now apply (IH _ H3)].
Qed.
Lemma schema_ascending_lt256 a : schema_ascending a -> forall fd, In fd a -> ftag fd < 256.
Proof. destruct a as [|x a]; intros H fd Hin; [contradiction|]. destruct H as [H1 H2]. destruct Hin as [->|Hin]; [assumption|now apply (ascending_lt256 _ a H2)]. Qed.
Lemma ascending_before fd b fd1 : forall l p, ascending p (l ++ fd :: b) -> In fd1 l -> ftag fd1 < ftag fd.
Proof.
  induction l as [|y l IH]; intros p Hl Hi; [contradiction|]. cbn [app ascending] in Hl. destruct Hl as (_ & _ & Hl).
  destruct Hi as [->|Hi]; [|now apply (IH _ Hl)].
  apply (ascending_all_gt _ _ Hl). apply in_or_app. right. now left.
Qed.
Lemma schema_ascending_before_lt a fd b fd1 : schema_ascending (a ++ fd :: b) -> In fd1 a -> ftag fd1 < ftag fd.
Proof.
  intros H Hin. destruct a as [|x a]; [contradiction|]. cbn [app schema_ascending] in H. destruct H as [_ H].
  destruct Hin as [->|Hin].
  - apply (ascending_all_gt _ _ H fd). apply in_or_app. right. now left.
  - exact (ascending_before fd b fd1 a _ H Hin).
Qed.
Lemma schema_ascending_before a fd b fd1 : schema_ascending (a ++ fd :: b) -> In fd1 a -> ftag fd1 <= ftag fd.
Proof. intros H Hin. apply N.lt_le_incl. exact (schema_ascending_before_lt a fd b fd1 H Hin). Qed.
Lemma tmax_mid g a fd b : (g (fty fd) <= tmax g (a ++ fd :: b))%nat.
Proof. induction a as [|x a IH]; cbn [tmax fold_right app]; [lia|]. fold (tmax g (a ++ fd :: b)). lia. Qed.

Section Absent.
Variable e : env.
Variable k : nat.
Hypothesis Hwf : wf_schema k e.

(* the members before a member whose own decoding fails decode; then the failure is the result. The failing member is
   described as weakly as its readers need: from an admissible target, with at least [T] of fuel left *)
Lemma fields_member_error : forall fuel fds1 vs1 ps Js lo fd fds2 tail T,
  Forall2 (fun fd x => has_type e (fty fd) x) fds1 vs1 -> Forall (member_ok e k) fds1 ->
  asc_opt lo (fds1 ++ fd :: fds2) ->
  Forall2 (fun fd p => prior_ok e (fty fd) (fdef fd) p) (fds1 ++ fd :: fds2) ps -> junks_ok lo fds1 Js ->
  (forall f' p, prior_ok e (fty fd) (fdef fd) p -> (T <= f')%nat -> dec_var f' e (ftag fd) (freq fd) (fty fd) p tail = DErr) ->
  (forall fd1, In fd1 fds1 -> follows (ftag fd1) tail) ->
  fuel_ok k (S (need_list vs1)) (encx_fields e vs1 fds1 Js ++ tail) fuel -> (T + length fds1 < fuel)%nat ->
  dec_fields fuel e (fds1 ++ fd :: fds2) ps (encx_fields e vs1 fds1 Js ++ tail) = DErr.
Proof.
  induction fuel as [|f IH]; intros fds1 vs1 ps Js lo fd fds2 tail T Hty Hmem Hasc Hps HJ Hfail Hfol Hf HT;
    [unfold fuel_ok in Hf; lia|].
  rewrite dec_fields_S. destruct Hty as [|fd1 x fds1 vs1 Hx Hvs]; cbn [app length] in *;
    inversion Hps as [|? p ? ps' Hp Hps']; subst; cbv zeta.
  - destruct Js; [|contradiction]. cbn [encx_fields app]. rewrite Hfail; [reflexivity|exact Hp|lia].
  - destruct Js as [|J Js]; [contradiction|]. destruct HJ as [HJ HJs].
    inversion Hmem as [|? ? [Hm1 Hm2] Hmem']; subst.
    destruct (asc_opt_cons _ _ _ Hasc) as [H256 Hasc'].
    cbn [encx_fields tl] in *. rewrite <- !app_assoc in *.
    unfold fuel_ok in Hf. cbn [need_list] in Hf. rewrite !app_length in Hf.
    destruct (rt_all e k Hwf f) as (HV & _).
    rewrite (HV (ftag fd1) (freq fd1) (fty fd1) (fdef fd1) x p lo J (encx_fields e vs1 fds1 Js ++ tail)); try assumption.
    + rewrite (IH fds1 vs1 ps' Js (Some (ftag fd1)) fd fds2 tail T); try assumption; [reflexivity| | |lia].
      * intros fd' Hin. apply Hfol. now right.
      * unfold fuel_ok. rewrite app_length. lia.
    + right. apply (follows_encx e fds1 vs1 Js (ftag fd1)); try assumption; [lia|now apply ascending_app_l in Hasc'|].
      apply Hfol. now left.
    + unfold fuel_ok. rewrite !app_length. lia.
Qed.
End Absent.

Lemma enc_fields_follows_tail e : forall fds vs t tail, ascending t fds ->
  Forall2 (fun fd x => has_type e (fty fd) x) fds vs -> follows t tail -> follows t (enc_fields e vs fds ++ tail).
Proof.
  intros fds vs t tail Hasc Hty. rewrite <- (encx_nil e vs fds) by (now apply Forall2_len in Hty).
  apply (follows_encx e fds vs _ t t); try assumption; [lia|apply junks_nil].
Qed.
Lemma enc_fields_follows e : forall fds vs t, ascending t fds ->
  Forall2 (fun fd x => has_type e (fty fd) x) fds vs -> follows t (enc_fields e vs fds).
Proof.
  intros fds vs t Hasc Hty. rewrite <- (app_nil_r (enc_fields e vs fds)). apply enc_fields_follows_tail; [assumption|assumption|apply follows_nil].
Qed.

(* the same with the fuel bounded from the schema, for the plain encoding of the members in front *)
Lemma fields_member_rejects e k fds1 fd fds2 vs1 ps lo m f tail : wf_schema k e ->
  Forall2 (fun fd x => has_type e (fty fd) x) fds1 vs1 -> Forall (member_ok e k) (fds1 ++ fd :: fds2) ->
  asc_opt lo (fds1 ++ fd :: fds2) ->
  Forall2 (fun fd p => prior_ok e (fty fd) (fdef fd) p) (fds1 ++ fd :: fds2) ps ->
  (forall fd', In fd' (fds1 ++ fd :: fds2) -> tfin m e (fty fd') = true) ->
  (forall f' p, prior_ok e (fty fd) (fdef fd) p -> (tneed m e (fty fd) + k + 4 * length tail + 3 <= f')%nat ->
     dec_var f' e (ftag fd) (freq fd) (fty fd) p tail = DErr) ->
  (forall fd1, In fd1 fds1 -> follows (ftag fd1) tail) ->
  (length (fds1 ++ fd :: fds2) + tmax (tneed m e) (fds1 ++ fd :: fds2) + 1 + k + 4 * length (enc_fields e vs1 fds1 ++ tail) + 3 <= f)%nat ->
  dec_fields f e (fds1 ++ fd :: fds2) ps (enc_fields e vs1 fds1 ++ tail) = DErr.
Proof.
  intros Hwf H1 Hmem Hasc Hps Hfin Hfail Hfo Hf. apply Forall_app in Hmem. destruct Hmem as [Hmem1 _].
  assert (Hl : length fds1 = length vs1) by (now apply Forall2_len in H1).
  pose proof (need_fields_x e m fds1 vs1 _ _ (xfields_plain e _ _ None _ H1 (junks_nil _ None)) H1
                (fun fd' Hin => Hfin fd' (in_or_app _ _ _ (or_introl Hin)))) as Hb.
  pose proof (tmax_app_l (tneed m e) fds1 (fd :: fds2)). pose proof (tmax_mid (tneed m e) fds1 fd fds2).
  rewrite !app_length in Hf. cbn [length] in Hf. rewrite <- (encx_nil e vs1 fds1 Hl) in *.
  apply (fields_member_error e k Hwf f fds1 vs1 ps _ lo fd fds2 tail (tneed m e (fty fd) + k + 4 * length tail + 3));
    try assumption; [apply junks_nil|unfold fuel_ok; rewrite app_length; lia|lia].
Qed.

(* an input in which the members before fd are encoded normally and what follows makes fd's own decoding fail *)
Theorem struct_member_rejects e k n sid fds1 fd fds2 vs1 tail :
  wf_schema k e -> (S k <= 64)%nat -> fields_of e sid = fds1 ++ fd :: fds2 ->
  Forall2 (fun fd x => has_type e (fty fd) x) fds1 vs1 ->
  (forall m f' p, tfin m e (fty fd) = true -> ty_nest k e (fty fd) = true -> ftag fd < 256 ->
     (fdef fd <> None -> scalar_ty (fty fd) = true) -> prior_ok e (fty fd) (fdef fd) p ->
     (tneed m e (fty fd) + k + 4 * length tail + 3 <= f')%nat -> dec_var f' e (ftag fd) (freq fd) (fty fd) p tail = DErr) ->
  (forall fd1, In fd1 fds1 -> follows (ftag fd1) tail) ->
  tfin n e (TStruct sid) = true -> (tneed n e (TStruct sid) + k <= 64)%nat ->
  decode e sid (enc_fields e vs1 fds1 ++ tail) = DErr.
Proof.
  intros Hwf Hk Hsid H1 Hfail Hfo Hfin Hn. unfold decode, decode_into.
  set (bs := enc_fields e vs1 fds1 ++ tail).
  replace (4 * length bs + 64)%nat with (S (4 * length bs + 63)) by lia.
  destruct (struct_priors1 e k (4 * length bs + 63) sid (zero_struct e sid) Hwf ltac:(lia)) as (ps & -> & Hps).
  pose proof (members_ok e k Hwf sid) as Hmem. pose proof (wf_asc k e Hwf sid) as Hasc.
  destruct n as [|n']; [discriminate|]. cbn [tfin tneed] in Hfin, Hn. rewrite forallb_forall in Hfin.
  rewrite Hsid in *.
  assert (Hin : In fd (fds1 ++ fd :: fds2)) by (apply in_or_app; right; now left).
  destruct (proj1 (Forall_forall _ _) Hmem fd Hin) as [Hm1 Hm2].
  assert (HD : dec_fields (S (4 * length bs + 63)) e (fds1 ++ fd :: fds2) ps bs = DErr).
  { unfold bs. apply (fields_member_rejects e k fds1 fd fds2 vs1 ps None n'); try assumption; [|fold bs; lia].
    intros f' p Hp Hf'. exact (Hfail n' f' p (Hfin fd Hin) Hm1 (schema_ascending_lt256 _ Hasc fd Hin) Hm2 Hp Hf'). }
  now rewrite HD.
Qed.

(* the same, for a member that fails from any target as soon as it has fuel to look at what follows *)
Theorem struct_member_error e k n sid fds1 fd fds2 vs1 tail :
  wf_schema k e -> (S k <= 64)%nat -> fields_of e sid = fds1 ++ fd :: fds2 ->
  Forall2 (fun fd x => has_type e (fty fd) x) fds1 vs1 ->
  (forall f' prior, (2 * length tail + 4 <= f')%nat -> dec_var f' e (ftag fd) (freq fd) (fty fd) prior tail = DErr) ->
  (forall fd1, In fd1 fds1 -> follows (ftag fd1) tail) ->
  tfin n e (TStruct sid) = true -> (tneed n e (TStruct sid) + k <= 64)%nat ->
  decode e sid (enc_fields e vs1 fds1 ++ tail) = DErr.
Proof.
  intros Hwf Hk Hsid H1 Hfail. apply (struct_member_rejects e k n sid fds1 fd fds2 vs1); try assumption.
  intros m f' p Hfm _ _ _ _ Hf'. apply Hfail. destruct m as [|m']; [discriminate|]. destruct (fty fd); cbn [tneed] in Hf'; lia.
Qed.

(* an input written without a member the reader requires is rejected *)
Theorem required_absent e k n sid fds1 fd fds2 vs1 vs2 :
  wf_schema k e -> (S k <= 64)%nat -> fields_of e sid = fds1 ++ fd :: fds2 -> freq fd = true ->
  Forall2 (fun fd x => has_type e (fty fd) x) fds1 vs1 -> Forall2 (fun fd x => has_type e (fty fd) x) fds2 vs2 ->
  tfin n e (TStruct sid) = true -> (tneed n e (TStruct sid) + k <= 64)%nat ->
  decode e sid (enc_fields e vs1 fds1 ++ enc_fields e vs2 fds2) = DErr.
Proof.
  intros Hwf Hk Hsid Hreq H1 H2 Hfin Hn. pose proof (wf_asc k e Hwf sid) as Hasc. rewrite Hsid in Hasc.
  assert (Hfo : follows (ftag fd) (enc_fields e vs2 fds2)).
  { apply enc_fields_follows; [|assumption]. now apply (schema_ascending_mid fds1). }
  apply (struct_member_error e k n sid fds1 fd fds2 vs1); try assumption.
  - intros [|f'] prior Hf'; [lia|]. rewrite Hreq.
    apply (member_absent_required e f' (ftag fd) (fty fd) prior None [] (enc_fields e vs2 fds2)); [apply junk_nil|assumption|cbn [ser_fields app]; lia].
  - intros fd1 Hin. apply (follows_mono _ (ftag fd)); [|assumption]. apply (schema_ascending_before fds1 fd fds2 fd1 Hasc Hin).
Qed.

(* the boolean checkers that examples and the correspondence evaluate are sound *)
Lemma tags_asc_some s : forall p, tags_ascending (Some p) s = true -> ascending p s.
Proof.
  induction s as [|fd s IH]; intros p H; [exact I|]. cbn [tags_ascending] in H.
  apply andb_true_iff in H. destruct H as [H H3]. apply andb_true_iff in H. destruct H as [H1 H2].
  cbn [ascending]. repeat split; [lia|lia|now apply IH].
Qed.
Lemma tags_asc_none s : tags_ascending None s = true -> schema_ascending s.
Proof.
  destruct s as [|fd s]; intros H; [exact I|]. cbn [tags_ascending] in H.
  apply andb_true_iff in H. destruct H as [H H3]. apply andb_true_iff in H. destruct H as [H1 _].
  cbn [schema_ascending]. split; [lia|now apply tags_asc_some].
Qed.
(* a member of a struct type of the environment belongs to one of its schemas (an unknown id has no members) *)
Lemma fields_of_in e sid fd : In fd (fields_of e sid) -> In (fields_of e sid) e.
Proof. unfold fields_of. destruct (nth_in_or_default sid e []) as [H| ->]; [intros _; exact H|contradiction]. Qed.
Lemma env_forallb (p : field -> bool) e : forallb (forallb p) e = true -> forall sid fd, In fd (fields_of e sid) -> p fd = true.
Proof.
  intros H sid fd Hin. rewrite forallb_forall in H. specialize (H _ (fields_of_in e sid fd Hin)).
  rewrite forallb_forall in H. now apply H.
Qed.
Theorem wf_schema_b_sound k e : wf_schema_b k e = true -> wf_schema k e.
Proof.
  intros H. unfold wf_schema_b in H. rewrite forallb_forall in H.
  assert (Hm : forall sid fd, In fd (fields_of e sid) ->
            (match fdef fd with None => true | Some _ => scalar_ty (fty fd) end) && ty_nest k e (fty fd) = true).
  { intros sid fd Hin. specialize (H _ (fields_of_in e sid fd Hin)). apply andb_true_iff in H. destruct H as [_ H].
    rewrite forallb_forall in H. now apply H. }
  split.
  - intros sid. unfold fields_of. destruct (nth_in_or_default sid e []) as [Hin| ->]; [|exact I].
    specialize (H _ Hin). apply andb_true_iff in H. now apply tags_asc_none.
  - intros sid fd Hfd Hd. specialize (Hm sid fd Hfd). apply andb_true_iff in Hm. destruct Hm as [Hm _].
    destruct (fdef fd); [assumption|congruence].
  - intros sid fd Hfd. specialize (Hm sid fd Hfd). apply andb_true_iff in Hm. tauto.
Qed.

Lemma sc_typed_b_sound t v : sc_typed_b t v = true -> sc_typed t v.
Proof. destruct t; destruct v; cbn [sc_typed_b sc_typed]; intros H; try discriminate; try exact I; try assumption; lia. Qed.
Lemma is_i8_true x : is_i8 x = true -> x = TI8.
Proof. destruct x; cbn; congruence. Qed.
Lemma is_i8_false x : is_i8 x = false -> x <> TI8.
Proof. destruct x; cbn; congruence. Qed.
Theorem has_type_b_sound e : forall fuel t v, has_type_b fuel e t v = true -> has_type e t v.
Proof.
  induction fuel as [|f IH]; intros t v H; [discriminate|]. cbn [has_type_b] in H.
  assert (Hsc : scalar_ty t && sc_typed_b t v = true -> has_type e t v).
  { intros Hc. apply andb_true_iff in Hc. destruct Hc. apply HT_scalar; [assumption|now apply sc_typed_b_sound]. }
  destruct v; try (now apply Hsc).
  - destruct t; try discriminate. apply andb_true_iff in H. destruct H as [H1 H2]. apply is_i8_true in H1. subst.
    apply HT_bytes. lia.
  - destruct t; try discriminate.
    + apply andb_true_iff in H. destruct H as [H H3]. apply andb_true_iff in H. destruct H as [H1 H2].
      apply HT_vec; [apply is_i8_false; now destruct (is_i8 t)|lia|].
      rewrite forallb_forall in H3. apply Forall_forall. intros y Hy. apply IH. now apply H3.
    + apply andb_true_iff in H. destruct H as [H H4]. apply andb_true_iff in H. destruct H as [H H3].
      apply andb_true_iff in H. destruct H as [H1 H2]. apply Nat.eqb_eq in H1. apply Nat.ltb_lt in H2.
      apply HT_arr; [assumption|assumption|lia|].
      rewrite forallb_forall in H4. apply Forall_forall. intros y Hy. apply IH. now apply H4.
  - destruct t; try discriminate. apply andb_true_iff in H. destruct H as [H1 H2].
    apply HT_map; [lia|]. rewrite forallb_forall in H2. apply Forall_forall. intros p Hp.
    specialize (H2 _ Hp). apply andb_true_iff in H2. destruct H2. split; now apply IH.
  - destruct t; try discriminate. apply HT_struct. clear Hsc. revert fs H. generalize (fields_of e sid). intros fds.
    induction fds as [|fd fds IHf]; intros [|x vs] H; try discriminate; constructor.
    + apply andb_true_iff in H. destruct H. now apply IH.
    + apply andb_true_iff in H. destruct H. now apply IHf.
Qed.
Print Assumptions required_absent.
Print Assumptions extras_ignored.
Print Assumptions decode_into_nested.
Print Assumptions extras_nested.
