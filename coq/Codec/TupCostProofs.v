(* C05T: the step count of UniAttribute.Decode (TupCost.v) is linear in the input length, on arbitrary bytes. *)
From Coq Require Import List NArith ZArith Lia Bool Arith.
From Coq Require Import ZifyN ZifyNat ZifyBool.
From TarsV Require Import Gen.Consts Base.Hex Codec.Wire Codec.WireProofs Codec.Skip Codec.SkipProofs Codec.Prim Codec.TypedProofs Codec.Tup Codec.TupProofs Codec.TupCost.
Import ListNotations.
Ltac Zify.zify_post_hook ::= Z.div_mod_to_equations.
Open Scope N_scope.

Lemma skip_field_len fuel d ty bs : (length (snd (skip_field fuel d ty bs)) <= length bs)%nat.
Proof. apply sfx_len. destruct (skip_sfx fuel) as (H & _). apply H. Qed.

Lemma skip_field_map f d bs : skip_field (S f) d tMAP bs =
  if maxd <=? d then (SErr, bs) else match read_count bs with CErr r => (SErr, r) | COk n r => skip_n f (d + 1) (wrap32 (n * 2)) r end.
Proof. reflexivity. Qed.
Lemma skip_field_list f d bs : skip_field (S f) d tLIST bs =
  if maxd <=? d then (SErr, bs) else match read_count bs with CErr r => (SErr, r) | COk n r => skip_n f (d + 1) n r end.
Proof. reflexivity. Qed.
Lemma skip_field_sb f d bs : skip_field (S f) d tSB bs = if maxd <=? d then (SErr, bs) else skip_to_end f (d + 1) bs.
Proof. reflexivity. Qed.

(* steps of the skipping functions: paid for by the bytes they consume *)
Lemma cost_skip : forall fuel,
  (forall d ty bs, (skf fuel d ty bs + 3 * length (snd (skip_field fuel d ty bs)) <= 3 * length bs + 2)%nat) /\
  (forall d n bs, (skn fuel d n bs + 3 * length (snd (skip_n fuel d n bs)) <= 3 * length bs + 1)%nat) /\
  (forall d bs, (ske fuel d bs + 3 * length (snd (skip_to_end fuel d bs)) <= 3 * length bs + 1)%nat).
Proof.
  induction fuel as [|f (IHf & IHn & IHe)]; [repeat split; intros; cbn; lia|].
  split; [|split].
  - intros d ty bs. destruct (ty =? tMAP) eqn:EM.
    { assert (ty = tMAP) as -> by lia. rewrite skip_field_map. cbn [skf]. change (tMAP =? tMAP) with true. cbv iota.
      destruct (maxd <=? d); [cbn [snd]; lia|]. pose proof (read_count_len_ok bs) as Hc.
      destruct (read_count bs) as [n r|r]; [|cbn [snd]; lia].
      specialize (IHn (d + 1) (wrap32 (n * 2)) r). lia. }
    destruct (ty =? tLIST) eqn:EL.
    { assert (ty = tLIST) as -> by lia. rewrite skip_field_list. cbn [skf]. change (tLIST =? tMAP) with false. change (tLIST =? tLIST) with true. cbv iota.
      destruct (maxd <=? d); [cbn [snd]; lia|]. pose proof (read_count_len_ok bs) as Hc.
      destruct (read_count bs) as [n r|r]; [|cbn [snd]; lia].
      specialize (IHn (d + 1) n r). lia. }
    destruct (ty =? tSB) eqn:ES.
    { assert (ty = tSB) as -> by lia. rewrite skip_field_sb. cbn [skf]. change (tSB =? tMAP) with false. change (tSB =? tLIST) with false.
      change (tSB =? tSB) with true. cbv iota.
      destruct (maxd <=? d); [cbn [snd]; lia|]. specialize (IHe (d + 1) bs). lia. }
    pose proof (skip_field_len (S f) d ty bs) as Hl. cbn [skf]. rewrite EM, EL, ES. lia.
  - intros d n bs. cbn [skn skip_n]. destruct (n <=? 0)%Z; [cbn [snd]; lia|].
    destruct (read_head bs) as [[[ty tg] r]|] eqn:E; [|cbn [snd length]; lia]. apply read_head_len in E.
    specialize (IHf d ty r). destruct (skip_field f d ty r) as [s r'] eqn:Es. cbn [snd] in IHf |- *.
    specialize (IHn d (n - 1)%Z r'). lia.
  - intros d bs. cbn [ske skip_to_end].
    destruct (read_head bs) as [[[ty tg] r]|] eqn:E; [|cbn [snd length]; lia]. apply read_head_len in E.
    specialize (IHf d ty r). destruct (skip_field f d ty r) as [s r'] eqn:Es. cbn [snd] in IHf.
    destruct s; [|cbn [snd]; lia|cbn [snd]; lia].
    destruct (ty =? tSE); [cbn [snd]; lia|]. specialize (IHe d r'). lia.
Qed.

Definition rest_len (s : seek) : nat := match s with Found _ r => length r | NotFound r => length r | _ => O end.
Lemma cost_seek : forall fuel tag req bs,
  (seekc fuel tag bs + 3 * rest_len (skip_to_no_check fuel tag req bs) <= 3 * length bs + 1)%nat.
Proof.
  induction fuel as [|f IH]; intros tag req bs; [cbn; lia|]. cbn [seekc skip_to_no_check].
  destruct (read_head2 bs) as [[[[ty tg] r] two]|] eqn:E; [|destruct req; cbn [rest_len length]; lia].
  pose proof (read_head2_len _ _ _ _ _ E) as Hl.
  destruct ((ty =? tSE) || (tag <? tg)).
  { destruct req; cbn [rest_len]; [lia|]. unfold unread. destruct (two && (tg <? 15)); [destruct bs; cbn [tl length]; lia|lia]. }
  destruct (tg =? tag); [cbn [rest_len]; lia|].
  destruct (cost_skip f) as (Hf & _). specialize (Hf 0 ty r).
  destruct (skip_field f 0 ty r) as [s r'] eqn:Es. cbn [snd] in Hf.
  destruct s; [|cbn [rest_len]; lia|cbn [rest_len]; lia]. specialize (IH tag req r'). lia.
Qed.
Lemma cost_skip_to fuel ty tag req bs :
  (seekc fuel tag bs + 3 * rest_len (skip_to fuel ty tag req bs) <= 3 * length bs + 1)%nat.
Proof.
  pose proof (cost_seek fuel tag req bs) as H. unfold skip_to.
  destruct (skip_to_no_check fuel tag req bs); try exact H. destruct (ty0 =? ty); [exact H|cbn [rest_len] in *; lia].
Qed.

Definition next_len (e : eres) : nat := match e with EIns _ _ r => length r | ESkip _ r => length r | _ => O end.

Lemma cost_value vreq k r : (value_cost vreq r + 3 * next_len (dec_value vreq k r) <= 3 * length r + 4)%nat.
Proof.
  unfold value_cost, dec_value. pose proof (cost_seek (fuel_for r) 1 vreq r) as H.
  destruct (skip_to_no_check (fuel_for r) 1 vreq r) as [ty r1|r1| |]; cbn [rest_len next_len] in *; try lia.
  destruct (ty =? tSIMPLE); [|cbn [next_len]; lia].
  pose proof (cost_skip_to (fuel_for r1) tBYTE 0 true r1) as H2.
  destruct (skip_to (fuel_for r1) tBYTE 0 true r1) as [ty2 r2|r2| |]; cbn [rest_len next_len] in *; try lia.
  pose proof (read_count_len_ok r2) as H3. destruct (read_count r2) as [n r3|r3]; [|cbn [next_len]; lia].
  destruct (read_bytes n r3) as [[v r4]|] eqn:E; [|cbn [next_len]; lia].
  apply read_bytes_split in E. destruct E as [-> _]. rewrite app_length in H3. cbn [next_len]. lia.
Qed.

Lemma cost_entry kreq vreq bs : (entry_cost kreq vreq bs + 3 * next_len (dec_entry kreq vreq bs) <= 3 * length bs + 6)%nat.
Proof.
  unfold entry_cost, dec_entry, r_string, with_seek. pose proof (cost_seek (fuel_for bs) 0 kreq bs) as H.
  destruct (skip_to_no_check (fuel_for bs) 0 kreq bs) as [ty r0|r0| |]; cbn [rest_len next_len] in *; try lia.
  - destruct (read_string_body ty r0) as [[k r]|] eqn:E; [|cbn [next_len]; lia].
    apply read_string_body_piece, piece_len in E. pose proof (cost_value vreq k r). lia.
  - pose proof (cost_value vreq [] r0). lia.
Qed.

(* Amortisation: an iteration costs its entry (3 per byte it consumes + 6, cost_entry) plus 1 for the loop; an entry with a
   required key consumes at least one byte (dec_entry_spec), and that byte pays the constant: 3 + 7 = 10 per byte. *)
Lemma cost_loop vreq : forall fuel n bs, (loop_cost true vreq fuel n bs <= 10 * length bs + 7)%nat.
Proof.
  induction fuel as [|f IH]; intros n bs; cbn [loop_cost]; destruct (n <=? 0)%Z; try lia.
  pose proof (cost_entry true vreq bs) as H. pose proof (dec_entry_spec true vreq bs) as G.
  destruct (dec_entry true vreq bs) as [k v r|k r|a|]; cbn [next_len] in H; try lia.
  - specialize (IH (n - 1)%Z r). lia.
  - destruct G as (_ & _ & G). specialize (G eq_refl). specialize (IH (n - 1)%Z r). lia.
Qed.

(* C05 for the TUP decoder, time: on ANY bytes the whole of Decode - every lookup, every activation of the skipping
   functions below it, every loop iteration - takes at most 10 steps per input byte plus 9 *)
Theorem tup_cost_linear bs : (tup_cost bs <= 10 * length bs + 9)%nat.
Proof.
  assert (C : forall r, (match read_count r with COk n r1 => loop_cost true true (S (length r1)) n r1 | CErr _ => O end <= 10 * length r + 7)%nat).
  { intros r. pose proof (read_count_len_ok r) as Hc. destruct (read_count r) as [n r1|r1]; [|lia].
    pose proof (cost_loop true (S (length r1)) n r1). lia. }
  unfold tup_cost. pose proof (cost_skip_to (fuel_for bs) tMAP 0 true bs) as H.
  destruct (skip_to (fuel_for bs) tMAP 0 true bs) as [ty r|r| |]; cbn [rest_len] in H; try lia; pose proof (C r); lia.
Qed.
Print Assumptions tup_cost_linear.

(* the pinned decoder's cost is not bounded by the input: four steps per announced entry, whatever the count.
   Count and result are Z so that an instance is compared on binary numbers; the fuel [Z.to_nat n] is never evaluated. *)
Lemma pinned_loop_cost (n : Z) : (0 <= n)%Z -> loop_cost false false (Z.to_nat n) n [] = Z.to_nat (4 * n + 1).
Proof.
  intros Hn. rewrite <- (Z2Nat.id n Hn) at 2 3. induction (Z.to_nat n) as [|k IH]; [reflexivity|]. cbn [loop_cost].
  destruct (Z.of_nat (S k) <=? 0)%Z eqn:E; [lia|]. change (dec_entry false false []) with (ESkip [] []). cbv iota.
  replace (Z.of_nat (S k) - 1)%Z with (Z.of_nat k) by lia. rewrite IH. change (entry_cost false false []) with 3%nat. lia.
Qed.
Example pinned_cost_unbounded :   (* 08 01 0b b8: four bytes announcing 3000 entries *)
  let bs := [8; 1; 11; 184] in
  t_iter (tup_decode_pinned bs) = 3000 /\ loop_cost false false (Z.to_nat 3000) 3000 [] = (Z.to_nat 12001) /\ (tup_cost bs <= 49)%nat.
Proof.
  cbv zeta. split; [|split].
  - change [8; 1; 11; 184] with (head tMAP 0 ++ w_len 3000). now rewrite pinned_decode_count.
  - exact (pinned_loop_cost 3000 ltac:(lia)).
  - vm_compute. lia.
Qed.
Example tup_cost_ex : tup_cost (tup_encode ex_m) = 24%nat.
Proof. vm_compute. reflexivity. Qed.
