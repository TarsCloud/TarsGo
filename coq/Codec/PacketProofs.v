(* C05T proofs about the packet-level pack / unpack model (Packet.v): the header announces exactly the packet's
   length, ParsePackage accepts a packed packet at exactly that length, unpack (pack body) is the struct decoder on
   the body, and the slice panic of the unpack functions cannot be reached through ParsePackage. *)
From Coq Require Import List NArith ZArith Lia Bool Arith.
From Coq Require Import ZifyN ZifyNat ZifyBool.
From TarsV Require Import Gen.Consts Gen.Schemas Base.Hex Codec.Wire Codec.WireProofs Codec.Skip Codec.Prim Codec.GenCodec Codec.Corr
  Frame.Framing Frame.FramingProofs Codec.Packet.
Import ListNotations.
Ltac Zify.zify_post_hook ::= Z.div_mod_to_equations.
Open Scope N_scope.

Lemma be4_shape v : exists a b c d, be 4 v = [a; b; c; d].
Proof.
  pose proof (be_length 4 v) as H. destruct (be 4 v) as [|a [|b [|c [|d [|x l]]]]]; try discriminate. now exists a, b, c, d.
Qed.
Lemma hdr_be4 v rest : v < 4294967296 -> hdr (be 4 v ++ rest) = Some v.
Proof.
  intros Hv. pose proof (be_val_be 4 v 0 ltac:(cbn; lia)) as H.
  destruct (be4_shape v) as (a & b & c & d & E). rewrite E in *. cbn [app hdr]. f_equal.
  cbn [be_val] in H. cbn in H. lia.
Qed.

Lemma frame_length body : length (frame body) = (4 + length body)%nat.
Proof. unfold frame. now rewrite app_length, be_length. Qed.

(* header length consistency: the four header bytes are the big-endian length of the whole packet *)
Theorem frame_header body more : 4 + N.of_nat (length body) < 4294967296 ->
  hdr (frame body ++ more) = Some (N.of_nat (length (frame body))).
Proof.
  intros H. unfold frame. rewrite <- app_assoc. rewrite N.mod_small by assumption. rewrite hdr_be4 by assumption.
  f_equal. rewrite app_length, be_length. lia.
Qed.

(* a packed packet is one of the packets the framing theorems speak of *)
Lemma frame_valid max body : 4 + N.of_nat (length body) < 4294967296 -> 4 + N.of_nat (length body) <= max ->
  valid max (frame body).
Proof.
  intros H Hm. unfold valid. rewrite <- (app_nil_r (frame body)) at 1. rewrite frame_header, frame_length by assumption.
  repeat split; lia.
Qed.

(* ParsePackage on a packed packet followed by anything: a full package of exactly the packet's length *)
Theorem parse_frame max body more : 4 + N.of_nat (length body) < 4294967296 -> 4 + N.of_nat (length body) <= max ->
  tars_request max (frame body ++ more) = Full (length (frame body)) /\
  firstn (length (frame body)) (frame body ++ more) = frame body.
Proof.
  intros H Hm. split; [now apply tars_request_valid, frame_valid|].
  rewrite firstn_app, Nat.sub_diag, firstn_all. cbn. now rewrite app_nil_r.
Qed.
(* every packet the pack functions produce is accepted by ParsePackage at its full length (below the limit) *)
Lemma frame_parses max body more : let pk := frame body in
  N.of_nat (length pk) < 4294967296 -> N.of_nat (length pk) <= max ->
  hdr (pk ++ more) = Some (N.of_nat (length pk)) /\ tars_request max (pk ++ more) = Full (length pk).
Proof.
  cbv zeta. rewrite frame_length. intros H1 H2. assert (V : valid max (frame body)) by (apply frame_valid; lia).
  split; [|now apply tars_request_valid]. rewrite <- (frame_length body). now apply hdr_app, V.
Qed.

Lemma skipn4_frame body : skipn 4 (frame body) = body.
Proof. unfold frame. destruct (be4_shape ((4 + N.of_nat (length body)) mod 4294967296)) as (a & b & c & d & ->). reflexivity. Qed.

Section Packets.
Variable e : env.
Variables req_sid rsp_sid : nat.
Variable tup_version : Z.
Variable oneway : Z.

(* unpack of a packed body is the struct decoder on the body: no panic at the slice, nothing lost or added *)
Theorem unpack_frame sid body : unpack e sid (frame body) = decode e sid body.
Proof.
  unfold unpack. rewrite frame_length. destruct (4 + length body <? 4)%nat eqn:E; [lia|]. now rewrite skipn4_frame.
Qed.

(* on arbitrary bytes: the only outcome unpack adds to those of the struct decoder is the slice panic, and it
   occurs exactly on inputs shorter than the header *)
Theorem unpack_total sid pkg :
  ((length pkg < 4)%nat /\ unpack e sid pkg = DPanic site_slice_bounds) \/
  ((4 <= length pkg)%nat /\ unpack e sid pkg = decode e sid (skipn 4 pkg)).
Proof. unfold unpack. destruct (length pkg <? 4)%nat eqn:E; [left|right]; split; try reflexivity; lia. Qed.

(* whatever ParsePackage hands over as a full package is at least a header long: the receive paths cannot reach
   the slice panic *)
Theorem full_package_unpack_safe max buf n sid : tars_request max buf = Full n ->
  (4 <= length (firstn n buf))%nat /\ unpack e sid (firstn n buf) = decode e sid (skipn 4 (firstn n buf)).
Proof.
  unfold tars_request. destruct (hdr buf) as [l|]; [|discriminate].
  destruct ((l <? 4) || (max <? l)) eqn:E; [discriminate|]. destruct (N.of_nat (length buf) <? l) eqn:E2; [discriminate|].
  intros H; inversion H; subst n. assert (Hl : (4 <= length (firstn (N.to_nat l) buf))%nat) by (rewrite firstn_length; lia).
  split; [assumption|]. unfold unpack. destruct (length (firstn (N.to_nat l) buf) <? 4)%nat eqn:E3; [lia|reflexivity].
Qed.

(* RequestPack then the server's unpack / rsp2Byte then the client's ResponseUnpack: the struct codec round trip
   on the packet value, with nothing added by the framing *)
Theorem request_pack_unpack req :
  request_unpack e req_sid (request_pack e req_sid req) = decode e req_sid (encode e req_sid req).
Proof. apply unpack_frame. Qed.

Theorem rsp2byte_unpack rsp :
  let '(sid, v) := rsp_body e req_sid rsp_sid tup_version rsp in
  unpack e sid (rsp2byte e req_sid rsp_sid tup_version rsp) = decode e sid (encode e sid v).
Proof. unfold rsp2byte. destruct (rsp_body e req_sid rsp_sid tup_version rsp) as [sid v]. apply unpack_frame. Qed.

Theorem rsp2byte_plain rsp : (rsp_version e rsp_sid rsp =? tup_version)%Z = false ->
  response_unpack e rsp_sid (rsp2byte e req_sid rsp_sid tup_version rsp) = decode e rsp_sid (encode e rsp_sid rsp).
Proof. intros H. pose proof (rsp2byte_unpack rsp) as U. unfold rsp_body in U. rewrite H in U. exact U. Qed.

Theorem rsp2byte_tup rsp : (rsp_version e rsp_sid rsp =? tup_version)%Z = true ->
  request_unpack e req_sid (rsp2byte e req_sid rsp_sid tup_version rsp) =
  decode e req_sid (encode e req_sid (req_of_rsp e req_sid rsp_sid rsp)).
Proof. intros H. pose proof (rsp2byte_unpack rsp) as U. unfold rsp_body in U. rewrite H in U. exact U. Qed.

Theorem rsp2byte_parses max rsp more : let pk := rsp2byte e req_sid rsp_sid tup_version rsp in
  N.of_nat (length pk) < 4294967296 -> N.of_nat (length pk) <= max ->
  hdr (pk ++ more) = Some (N.of_nat (length pk)) /\ tars_request max (pk ++ more) = Full (length pk).
Proof. unfold rsp2byte. destruct (rsp_body e req_sid rsp_sid tup_version rsp) as [sid v]. apply frame_parses. Qed.
(* InvokeTimeout: below four bytes the slice panic; a one-way request that decodes gets no reply at all; a two-way
   request that decodes gets the timeout reply, a packet that ParsePackage accepts at exactly its length *)
Theorem invoke_timeout_short pkg : (length pkg < 4)%nat ->
  invoke_timeout e req_sid rsp_sid tup_version oneway pkg = DPanic site_slice_bounds.
Proof. intros H. unfold invoke_timeout, request_unpack, unpack. destruct (length pkg <? 4)%nat eqn:E; [reflexivity|lia]. Qed.
Theorem invoke_timeout_oneway pkg req r : request_unpack e req_sid pkg = DOk req r ->
  (req_packet_type e req_sid req =? oneway)%Z = true ->
  invoke_timeout e req_sid rsp_sid tup_version oneway pkg = DOk [] r.
Proof. intros H Ho. unfold invoke_timeout. now rewrite H, Ho. Qed.
Theorem invoke_timeout_twoway max pkg req r more : request_unpack e req_sid pkg = DOk req r ->
  (req_packet_type e req_sid req =? oneway)%Z = false ->
  let reply := rsp2byte e req_sid rsp_sid tup_version (timeout_rsp e req_sid rsp_sid req) in
  invoke_timeout e req_sid rsp_sid tup_version oneway pkg = DOk reply r /\
  (N.of_nat (length reply) < 4294967296 -> N.of_nat (length reply) <= max ->
   hdr (reply ++ more) = Some (N.of_nat (length reply)) /\ tars_request max (reply ++ more) = Full (length reply)).
Proof.
  intros H Ho. cbv zeta. split; [unfold invoke_timeout; now rewrite H, Ho|]. apply rsp2byte_parses.
Qed.
End Packets.

(* the unguarded statement "ResponseUnpack never panics on any bytes" is false of the faithful model *)
Example unpack_unguarded_refuted : exists pkg, forall e sid, unpack e sid pkg = DPanic site_slice_bounds.
Proof. exists [0; 0; 0]. reflexivity. Qed.

Print Assumptions frame_header.
Print Assumptions parse_frame.
Print Assumptions unpack_frame.
Print Assumptions full_package_unpack_safe.

(* concrete instances over the regenerated schemas of requestf.RequestPacket / ResponsePacket *)
Definition ex_rsp (ver : Z) : val :=
  VStruct [VInt ver; VInt 0; VInt 7; VInt 0; VInt (-3); VBytes [1; 2; 255]; VMap [(VStr [107], VStr [118])]; VStr [111; 107]; VMap []].
Example rsp2byte_roundtrip_ex :
  response_unpack env0 sid_requestf_ResponsePacket (rsp2byte env0 sid_requestf_RequestPacket sid_requestf_ResponsePacket c_TUPVERSION (ex_rsp 1))
  = DOk (ex_rsp 1) [].
Proof. vm_compute. reflexivity. Qed.
Example rsp2byte_tup_ex :
  request_unpack env0 sid_requestf_RequestPacket (rsp2byte env0 sid_requestf_RequestPacket sid_requestf_ResponsePacket c_TUPVERSION (ex_rsp c_TUPVERSION))
  = DOk (VStruct [VInt c_TUPVERSION; VInt 0; VInt 0; VInt 7; VStr []; VStr []; VBytes [1; 2; 255]; VInt 0; VMap []; VMap [(VStr [107], VStr [118])]]) [].
Proof. vm_compute. reflexivity. Qed.
Example invoke_timeout_oneway_ex :
  invoke_timeout env0 sid_requestf_RequestPacket sid_requestf_ResponsePacket c_TUPVERSION c_TARSONEWAY
    (request_pack env0 sid_requestf_RequestPacket
       (VStruct [VInt 1; VInt c_TARSONEWAY; VInt 0; VInt 77; VStr [111]; VStr [102]; VBytes [5]; VInt 0; VMap []; VMap []]))
  = DOk [] [].
Proof. vm_compute. reflexivity. Qed.
Example invoke_timeout_ex :
  invoke_timeout env0 sid_requestf_RequestPacket sid_requestf_ResponsePacket c_TUPVERSION c_TARSONEWAY
    (request_pack env0 sid_requestf_RequestPacket
       (VStruct [VInt 1; VInt 0; VInt 0; VInt 77; VStr [111]; VStr [102]; VBytes [5]; VInt 0; VMap []; VMap []]))
  = DOk (rsp2byte env0 sid_requestf_RequestPacket sid_requestf_ResponsePacket c_TUPVERSION
           (VStruct [VInt 1; VInt 0; VInt 77; VInt 0; VInt 1; VBytes []; VMap []; VStr (raw "server invoke timeout"%hex); VMap []])) [].
Proof. vm_compute. reflexivity. Qed.
Example parse_ex : tars_request c_maxPackageLength (rsp2byte env0 sid_requestf_RequestPacket sid_requestf_ResponsePacket c_TUPVERSION (ex_rsp 1) ++ [9; 9])
  = Full (length (rsp2byte env0 sid_requestf_RequestPacket sid_requestf_ResponsePacket c_TUPVERSION (ex_rsp 1))).
Proof. vm_compute. reflexivity. Qed.
