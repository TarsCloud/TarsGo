(* C02 proofs: exact round trip with exact cursor, widening reads, conformance to the declarative wire spec. *)
From Coq Require Import List NArith ZArith Lia Bool Arith.
From Coq Require Import ZifyN ZifyNat ZifyBool.
From TarsV Require Import Gen.Consts Base.Hex Codec.Wire Codec.WireProofs Codec.Skip Codec.Prim.
Import ListNotations.
Ltac Zify.zify_post_hook ::= Z.div_mod_to_equations.
Open Scope N_scope.

Definition is_width (b : Z) : Prop := (b = 8 \/ b = 16 \/ b = 32 \/ b = 64)%Z.
Lemma is_width_range b : is_width b -> (8 <= b <= 64)%Z.
Proof. intros [-> | [-> | [-> | ->]]]; lia. Qed.

Lemma seek_first f ty tag req r : ty < 16 -> tag < 256 -> (ty =? tSE) = false ->
  skip_to_no_check (S f) tag req (head ty tag ++ r) = Found ty r.
Proof.
  intros Hty Htag Hse. cbn [skip_to_no_check]. rewrite read_head2_head by assumption.
  rewrite Hse. cbn [orb]. rewrite N.ltb_irrefl, N.eqb_refl. reflexivity.
Qed.

(* the float and string readers on the wire types that carry data *)
Lemma read_f32_float r : read_f32_body tFLOAT r = bread 4 r.
Proof. reflexivity. Qed.
Lemma read_f64_float r : read_f64_body tFLOAT r = match bread 4 r with None => None | Some (v, r') => Some (widen32 v, r') end.
Proof. reflexivity. Qed.
Lemma read_f64_double r : read_f64_body tDOUBLE r = bread 8 r.
Proof. reflexivity. Qed.
Lemma read_string_str4 r : read_string_body tSTR4 r = match bread 4 r with None => None | Some (l, r') => take_str l r' end.
Proof. reflexivity. Qed.
Lemma read_string_str1 r : read_string_body tSTR1 r = match r with [] => None | l :: r' => take_str l r' end.
Proof. reflexivity. Qed.

Lemma sext_wrapu bits v : (0 < bits)%Z -> fits bits v = true -> sext bits (wrapu bits v) = v.
Proof.
  intros Hb Hf. unfold fits in Hf. unfold sext, wrapu.
  assert (E : (2 ^ bits = 2 * 2 ^ (bits - 1))%Z) by (rewrite <- Z.pow_succ_r by lia; f_equal; lia).
  rewrite E. assert (0 < 2 ^ (bits - 1))%Z by (apply Z.pow_pos_nonneg; lia). set (P := (2 ^ (bits - 1))%Z) in *.
  rewrite Z2N.id by (apply Z.mod_pos_bound; lia).
  destruct (v <? 0)%Z eqn:Ev.
  - rewrite <- (Z.mod_unique v (2 * P) (-1) (v + 2 * P)) by lia. destruct (v + 2 * P <? P)%Z eqn:El; lia.
  - rewrite Z.mod_small by lia. destruct (v <? P)%Z eqn:El; lia.
Qed.

Lemma wrapu_lt bits v : (0 < bits)%Z -> wrapu bits v < 2 ^ Z.to_N bits.
Proof.
  intros Hb. unfold wrapu. pose proof (Z.mod_pos_bound v (2 ^ bits) ltac:(apply Z.pow_pos_nonneg; lia)) as H.
  apply N2Z.inj_lt. rewrite Z2N.id by lia. rewrite N2Z.inj_pow. rewrite Z2N.id by lia. cbn. lia.
Qed.

Lemma fits_mono a b v : (a <= b)%Z -> fits a v = true -> fits b v = true.
Proof. intros H. unfold fits. pose proof (Z.pow_le_mono_r 2 (a - 1) (b - 1) ltac:(lia) ltac:(lia)). lia. Qed.
Lemma fits_wider a b v : (0 < a <= b)%Z -> fits a v = true -> fits b v = true.
Proof. intros [_ H]. now apply fits_mono. Qed.

(* the width cascade WriteInt64 -> 32 -> 16 -> 8, one step at a time *)
Lemma w_int16_fits v tag : w_int16 v tag = if fits 8 v then w_int8 v tag else head tSHORT tag ++ be 2 (wrapu 16 v).
Proof. unfold w_int16, fits. now replace (v <=? 127)%Z with (v <? 2 ^ (8 - 1))%Z by lia. Qed.
Lemma w_int32_fits v tag : w_int32 v tag = if fits 16 v then w_int16 v tag else head tINT tag ++ be 4 (wrapu 32 v).
Proof. unfold w_int32, fits. now replace (v <=? 32767)%Z with (v <? 2 ^ (16 - 1))%Z by lia. Qed.
Lemma w_int64_fits v tag : w_int64 v tag = if fits 32 v then w_int32 v tag else head tLONG tag ++ be 8 (wrapu 64 v).
Proof. unfold w_int64, fits. now replace (v <=? 2147483647)%Z with (v <? 2 ^ (32 - 1))%Z by lia. Qed.

(* the cascade collapses: a narrower writer writes what WriteInt64 writes *)
Lemma w_int32_64 v tag : fits 32 v = true -> w_int32 v tag = w_int64 v tag.
Proof. intros H. now rewrite w_int64_fits, H. Qed.
Lemma w_int16_64 v tag : fits 16 v = true -> w_int16 v tag = w_int64 v tag.
Proof. intros H. rewrite <- w_int32_64 by now apply (fits_wider 16). now rewrite w_int32_fits, H. Qed.
Lemma w_int8_64 v tag : fits 8 v = true -> w_int8 v tag = w_int64 v tag.
Proof. intros H. rewrite <- w_int16_64 by now apply (fits_wider 8). now rewrite w_int16_fits, H. Qed.

(* the integer fields that carry data: wire type, number of value bytes, width in bits *)
Inductive int_code : N -> nat -> Z -> Prop :=
| code_byte : int_code tBYTE 1 8 | code_short : int_code tSHORT 2 16
| code_int : int_code tINT 4 32 | code_long : int_code tLONG 8 64.

Lemma int_code_facts ty n w : int_code ty n w ->
  ty < 16 /\ (ty =? tSE) = false /\ (0 < w)%Z /\ 256 ^ N.of_nat n = 2 ^ Z.to_N w.
Proof. intros []; repeat split. Qed.

(* ReadIntN on such a field: N-bit readers take it when it is no wider than N; a BYTE is taken by every reader *)
Lemma read_int_body_code bits ty n w r : int_code ty n w ->
  read_int_body bits ty r =
  if ((w <=? bits) || (w =? 8))%Z then match bread n r with Some (x, r') => Some (sext w x, r') | None => None end else None.
Proof.
  intros []; unfold read_int_body;
    cbn [N.eqb Pos.eqb andb orb Z.eqb tZERO tBYTE tSHORT tINT tLONG c_ZeroTag c_BYTE c_SHORT c_INT c_LONG].
  - rewrite orb_true_r. now destruct r.
  - rewrite orb_false_r. now destruct (16 <=? bits)%Z.
  - rewrite orb_false_r. now destruct (32 <=? bits)%Z.
  - rewrite orb_false_r. now destruct (64 <=? bits)%Z.
Qed.

(* what WriteInt64 emits: ZeroTag for 0, else the value in the narrowest of the four widths that holds it *)
Lemma w_int64_code v tag :
  (v = 0%Z /\ w_int64 v tag = head tZERO tag) \/
  exists ty n w, int_code ty n w /\ (w = 64 \/ fits w v = true)%Z /\ (w = 8 \/ fits (w / 2) v = false)%Z /\
                 w_int64 v tag = head ty tag ++ be n (wrapu w v).
Proof.
  rewrite w_int64_fits, w_int32_fits, w_int16_fits. unfold w_int8.
  destruct (fits 32 v) eqn:F32; [|right; exists tLONG, 8%nat, 64%Z; repeat split; auto using int_code].
  destruct (fits 16 v) eqn:F16; [|right; exists tINT, 4%nat, 32%Z; repeat split; auto using int_code].
  destruct (fits 8 v) eqn:F8; [|right; exists tSHORT, 2%nat, 16%Z; repeat split; auto using int_code].
  destruct (v =? 0)%Z eqn:E0; [left; split; [lia|reflexivity]|].
  right. exists tBYTE, 1%nat, 8%Z. repeat split; auto using int_code.
  cbn [be app]. now rewrite N.mod_small by (apply (wrapu_lt 8); lia).
Qed.

(* the single lemma behind every integer round trip and every widening read: whatever the cascade wrote
   for v is read back as v by a reader of any width that can hold v *)
Lemma r_int_w_int64 bits f tag req v rest : is_width bits -> tag < 256 -> fits bits v = true ->
  r_int bits (S f) tag req (w_int64 v tag ++ rest) = ROk v rest.
Proof.
  intros Hb Htag Hfb. pose proof (is_width_range bits Hb) as Hr. unfold r_int, with_seek.
  destruct (w_int64_code v tag) as [[-> ->]|(ty & n & w & Hc & Hw & Hmin & ->)].
  { now rewrite seek_first by (reflexivity || assumption). }
  destruct (int_code_facts _ _ _ Hc) as (Hty & Hse & Hpos & E256). rewrite <- app_assoc, seek_first by assumption.
  rewrite (read_int_body_code bits ty n w) by assumption.
  assert (Hf : fits w v = true) by (destruct Hw as [->|]; [apply (fits_wider bits); [lia|assumption]|assumption]).
  (* v fits the reader's width but not the next width below w, so the reader is wide enough *)
  assert (Hwide : ((w <=? bits) || (w =? 8))%Z = true).
  { destruct Hmin as [->|Hmin]; [apply orb_true_r|]. apply orb_true_iff. left. apply Z.leb_le.
    destruct (Z.le_gt_cases w bits) as [|Hlt]; [assumption|exfalso].
    rewrite (fits_wider bits (w / 2) v) in Hmin; [discriminate| |assumption].
    destruct Hb as [-> | [-> | [-> | ->]]]; destruct Hc; lia. }
  rewrite Hwide, bread_be by (rewrite E256; now apply wrapu_lt). now rewrite sext_wrapu.
Qed.

Ltac widths := first [left; reflexivity | right; left; reflexivity | right; right; left; reflexivity | right; right; right; reflexivity].
Ltac fits_tac := unfold fits in *; lia.

(* round trips: identical value, cursor exactly at the end of the field *)
Theorem roundtrip_int8 f tag req v rest : tag < 256 -> fits 8 v = true ->
  r_int8 (S f) tag req (w_int8 v tag ++ rest) = ROk v rest.
Proof. intros. rewrite w_int8_64 by assumption. apply r_int_w_int64; [widths|assumption..]. Qed.
Theorem roundtrip_int16 f tag req v rest : tag < 256 -> fits 16 v = true ->
  r_int16 (S f) tag req (w_int16 v tag ++ rest) = ROk v rest.
Proof. intros. rewrite w_int16_64 by assumption. apply r_int_w_int64; [widths|assumption..]. Qed.
Theorem roundtrip_int32 f tag req v rest : tag < 256 -> fits 32 v = true ->
  r_int32 (S f) tag req (w_int32 v tag ++ rest) = ROk v rest.
Proof. intros. rewrite w_int32_64 by assumption. apply r_int_w_int64; [widths|assumption..]. Qed.
Theorem roundtrip_int64 f tag req v rest : tag < 256 -> fits 64 v = true ->
  r_int64 (S f) tag req (w_int64 v tag ++ rest) = ROk v rest.
Proof. intros. apply r_int_w_int64; [widths|assumption..]. Qed.

(* an unsigned value below 2^(bits-1) read by the signed reader of width bits and cast back *)
Lemma r_int_unsigned bits m f tag req v rest : is_width bits -> tag < 256 -> (0 <= v < m)%Z -> (m <= 2 ^ (bits - 1))%Z ->
  map_r (fun z => z mod m)%Z (r_int bits (S f) tag req (w_int64 v tag ++ rest)) = ROk v rest.
Proof.
  intros Hb Htag Hv Hm. assert (Hf : fits bits v = true) by (unfold fits; lia).
  rewrite r_int_w_int64 by assumption.
  cbn [map_r]. now rewrite Z.mod_small.
Qed.

Theorem roundtrip_uint8 f tag req v rest : tag < 256 -> (0 <= v < 256)%Z ->
  r_uint8 (S f) tag req (w_uint8 v tag ++ rest) = ROk v rest.
Proof. intros. unfold r_uint8, w_uint8. rewrite w_int16_64 by fits_tac. apply r_int_unsigned; [widths|assumption..|reflexivity || discriminate]. Qed.
Theorem roundtrip_uint16 f tag req v rest : tag < 256 -> (0 <= v < 65536)%Z ->
  r_uint16 (S f) tag req (w_uint16 v tag ++ rest) = ROk v rest.
Proof. intros. unfold r_uint16, w_uint16. rewrite w_int32_64 by fits_tac. apply r_int_unsigned; [widths|assumption..|discriminate]. Qed.
Theorem roundtrip_uint32 f tag req v rest : tag < 256 -> (0 <= v < 4294967296)%Z ->
  r_uint32 (S f) tag req (w_uint32 v tag ++ rest) = ROk v rest.
Proof. intros. unfold r_uint32, w_uint32. apply r_int_unsigned; [widths|assumption..|discriminate]. Qed.
Theorem roundtrip_bool f tag req b rest : tag < 256 ->
  r_bool (S f) tag req (w_bool b tag ++ rest) = ROk b rest.
Proof. intros. unfold r_bool, w_bool. rewrite w_int8_64 by (destruct b; reflexivity).
  rewrite r_int_w_int64 by (try assumption; first [widths|destruct b; reflexivity]). destruct b; reflexivity. Qed.

(* widening: a reader of a wider type accepts every narrower encoding with the same value *)
Theorem widen_signed bits f tag req v rest : is_width bits -> tag < 256 -> fits bits v = true ->
  forall wbits, is_width wbits -> (bits <= wbits)%Z ->
  r_int wbits (S f) tag req (w_int64 v tag ++ rest) = ROk v rest.
Proof.
  intros Hb Htag Hf wbits Hw Hle.
  apply r_int_w_int64; try assumption. apply (fits_wider bits); [pose proof (is_width_range bits Hb); lia|assumption].
Qed.
Theorem widen_uint8_16 f tag req v rest : tag < 256 -> (0 <= v < 256)%Z ->
  r_uint16 (S f) tag req (w_uint8 v tag ++ rest) = ROk v rest /\
  r_uint32 (S f) tag req (w_uint8 v tag ++ rest) = ROk v rest /\
  r_int16 (S f) tag req (w_uint8 v tag ++ rest) = ROk v rest /\
  r_int32 (S f) tag req (w_uint8 v tag ++ rest) = ROk v rest /\
  r_int64 (S f) tag req (w_uint8 v tag ++ rest) = ROk v rest.
Proof.
  intros. unfold r_uint16, r_uint32, w_uint8, r_int16, r_int32, r_int64. rewrite w_int16_64 by fits_tac.
  rewrite !(r_int_unsigned _ _ f tag req v rest) by (assumption || widths || lia || discriminate).
  rewrite !r_int_w_int64 by (try assumption; first [widths|fits_tac]). repeat split.
Qed.
Theorem widen_uint16_32 f tag req v rest : tag < 256 -> (0 <= v < 65536)%Z ->
  r_uint32 (S f) tag req (w_uint16 v tag ++ rest) = ROk v rest /\
  r_int32 (S f) tag req (w_uint16 v tag ++ rest) = ROk v rest /\
  r_int64 (S f) tag req (w_uint16 v tag ++ rest) = ROk v rest.
Proof.
  intros. unfold r_uint32, w_uint16, r_int32, r_int64. rewrite w_int32_64 by fits_tac.
  rewrite (r_int_unsigned _ _ f tag req v rest) by (assumption || widths || lia || discriminate).
  rewrite !r_int_w_int64 by (try assumption; first [widths|fits_tac]). repeat split.
Qed.

(* floats: bit-exact (NaN payloads, infinities, -0 are just bit patterns) *)
Theorem roundtrip_f32 f tag req b rest : tag < 256 -> b < 4294967296 ->
  r_f32 (S f) tag req (w_f32 b tag ++ rest) = ROk b rest.
Proof.
  intros. unfold r_f32, with_seek, w_f32. rewrite <- app_assoc, seek_first by (try reflexivity; assumption).
  now rewrite read_f32_float, bread_be by assumption.
Qed.
Theorem roundtrip_f64 f tag req b rest : tag < 256 -> b < 18446744073709551616 ->
  r_f64 (S f) tag req (w_f64 b tag ++ rest) = ROk b rest.
Proof.
  intros. unfold r_f64, with_seek, w_f64. rewrite <- app_assoc, seek_first by (try reflexivity; assumption).
  now rewrite read_f64_double, bread_be by assumption.
Qed.
Theorem widen_f32_f64 f tag req b rest : tag < 256 -> b < 4294967296 ->
  r_f64 (S f) tag req (w_f32 b tag ++ rest) = ROk (widen32 b) rest.
Proof.
  intros. unfold r_f64, with_seek, w_f32. rewrite <- app_assoc, seek_first by (try reflexivity; assumption).
  now rewrite read_f64_float, bread_be by assumption.
Qed.

(* strings: any bytes, any length below 2^32 *)
Lemma take_str_app s rest : take_str (N.of_nat (length s)) (s ++ rest) = Some (s, rest).
Proof.
  unfold take_str. rewrite app_length. destruct (N.of_nat (length s + length rest) <? N.of_nat (length s)) eqn:E; [lia|].
  rewrite Nnat.Nat2N.id, firstn_app, skipn_app, Nat.sub_diag, firstn_all, skipn_all. cbn. now rewrite app_nil_r.
Qed.
Theorem roundtrip_string f tag req s rest : tag < 256 -> N.of_nat (length s) < 4294967296 ->
  r_string (S f) tag req (w_string s tag ++ rest) = ROk s rest.
Proof.
  intros Htag Hl. unfold r_string, with_seek, w_string. cbv zeta.
  destruct (255 <? N.of_nat (length s)) eqn:E.
  - rewrite <- app_assoc, seek_first by (try reflexivity; assumption).
    rewrite read_string_str4.
    rewrite <- app_assoc. rewrite N.mod_small by assumption. rewrite bread_be by (cbn; lia).
    now rewrite take_str_app.
  - rewrite <- app_assoc, seek_first by (try reflexivity; assumption).
    rewrite read_string_str1.
    cbn [app]. now rewrite take_str_app.
Qed.

(* conformance: the writers emit exactly what the wire format prescribes *)
Lemma head_spec ty tag : head ty tag = spec_head ty tag.
Proof. reflexivity. Qed.

Theorem wire_int64 v tag : fits 64 v = true -> w_int64 v tag = spec_int v tag.
Proof.
  intros H64. rewrite w_int64_fits, w_int32_fits, w_int16_fits. unfold w_int8, spec_int.
  destruct (v =? 0)%Z eqn:E0; [apply Z.eqb_eq in E0; now subst v|].
  destruct (fits 8 v) eqn:F8.
  - rewrite (fits_wider 8 16), (fits_wider 8 32) by (lia || assumption).
    cbn [be app]. now rewrite N.mod_small by (apply (wrapu_lt 8); lia).
  - destruct (fits 16 v) eqn:F16; [now rewrite (fits_wider 16 32) by (lia || assumption)|].
    now destruct (fits 32 v).
Qed.
Theorem wire_f32 b tag : w_f32 b tag = spec_f32 b tag.  Proof. reflexivity. Qed.
Theorem wire_f64 b tag : w_f64 b tag = spec_f64 b tag.  Proof. reflexivity. Qed.
Theorem wire_string s tag : N.of_nat (length s) < 4294967296 -> w_string s tag = spec_string s tag.
Proof.
  intros Hl. unfold w_string, spec_string. cbv zeta. rewrite !head_spec.
  destruct (255 <? N.of_nat (length s)) eqn:E; destruct (N.of_nat (length s) <=? 255) eqn:E2; try lia.
  - now rewrite N.mod_small by assumption.
  - cbn [be app]. f_equal. f_equal. lia.
Qed.

Example c02_ex1 : r_int32 5 200 true (w_int16 (-32769 + 1) 200 ++ [7]) = ROk (-32768)%Z [7].
Proof. vm_compute. reflexivity. Qed.
Example c02_ex2 : w_int64 (-32769) 15 = [242; 15; 255; 255; 127; 255].
Proof. vm_compute. reflexivity. Qed.
Example c02_ex3 : r_string 5 3 true (w_string (repeat 65 300) 3 ++ [1; 2]) = ROk (repeat 65 300) [1; 2].
Proof. vm_compute. reflexivity. Qed.
