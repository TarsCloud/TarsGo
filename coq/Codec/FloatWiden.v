(* C02 (extra): the IEEE-754 meaning of the FLOAT -> double widening of the primitive codec.

   Codec/Prim.v models what ReadFloat64 returns for a FLOAT (4-byte) field by a function on bit patterns,
   widen32 : N -> N (float32 pattern -> float64 pattern, as float64(float32) on amd64 produces, including the
   quieting of signalling NaNs).  Here that function is proved against Flocq's formalisation of IEEE-754
   binary32/binary64 (b32_of_bits, b64_of_bits, B2R): finite values keep their real value and sign (subnormal
   singles become normal doubles), infinities keep their sign, NaNs stay NaNs with the payload shifted and the quiet
   bit forced, and the map is injective away from NaNs.

   This file depends on Flocq and therefore (through Flocq's use of the Coq reals) on the axioms of the standard
   library's Reals.  It is deliberately NOT in the closure of Props/C02.v; only Props/C02_float.v requires it.
   Nothing is declared here: no Axiom/Parameter/Admitted. *)
From Coq Require Import ZArith NArith Lia Reals Bool ZifyBool ZifyN.
From Flocq Require Import Core IEEE754.Binary IEEE754.Bits.
From TarsV Require Import Codec.Prim Codec.PrimProofs.

(* the three fields of a float32 pattern, exactly as widen32 computes them *)
Definition fs (b : N) : N := (b / 2147483648)%N.            (* sign bit *)
Definition fe (b : N) : N := ((b / 8388608) mod 256)%N.     (* biased exponent field *)
Definition fm (b : N) : N := (b mod 8388608)%N.             (* fraction field *)
Definition fsb (b : N) : bool := (fs b =? 1)%N.

(* the fields of the float64 pattern that widen32 produces, by class of the input *)
Definition wm (b : N) : N :=
  (if fe b =? 255 then (if fm b =? 0 then 0 else 2251799813685248 + (fm b mod 4194304) * 536870912)
   else if fe b =? 0 then (if fm b =? 0 then 0 else (fm b - 2 ^ N.log2 (fm b)) * 2 ^ (52 - N.log2 (fm b)))
   else fm b * 536870912)%N.
Definition we (b : N) : N :=
  (if fe b =? 255 then 2047
   else if fe b =? 0 then (if fm b =? 0 then 0 else N.log2 (fm b) + 874)
   else fe b + 896)%N.

Lemma fields_N b : (b < 4294967296)%N ->
  (b = fs b * 2147483648 + fe b * 8388608 + fm b /\ fs b < 2 /\ fe b < 256 /\ fm b < 8388608)%N.
Proof. intros H. unfold fs, fe, fm. lia. Qed.

(* widen32 by fields: sign | exponent field | fraction field *)
Lemma widen32_fields b :
  widen32 b = (fs b * 9223372036854775808 + we b * 4503599627370496 + wm b)%N.
Proof.
  unfold widen32, we, wm. fold (fs b) (fe b) (fm b).
  destruct (fe b =? 255)%N; [destruct (fm b =? 0)%N; lia|].
  destruct (fe b =? 0)%N; [destruct (fm b =? 0)%N; lia|]. lia.
Qed.

(* the highest set bit of a non-zero fraction *)
Lemma log2_fm m : (0 < m < 8388608)%N ->
  (N.log2 m <= 22 /\ 2 ^ N.log2 m <= m < 2 ^ N.log2 m * 2 /\ 2 ^ N.log2 m * 2 ^ (52 - N.log2 m) = 4503599627370496)%N.
Proof.
  intros [H0 H1]. pose proof (N.log2_spec m H0) as [L1 L2]. rewrite N.pow_succ_r' in L2.
  assert (K : (N.log2 m < 23)%N) by (apply N.log2_lt_pow2; [assumption | exact H1]).
  repeat split; try lia.
  rewrite <- N.pow_add_r. replace (N.log2 m + (52 - N.log2 m))%N with 52%N by lia. reflexivity.
Qed.

Lemma wm_we_range b : (b < 4294967296)%N -> (wm b < 4503599627370496 /\ we b < 2048)%N.
Proof.
  intros H. destruct (fields_N b H) as (_ & _ & He & Hm). unfold wm, we.
  destruct (fe b =? 255)%N eqn:E1.
  { split; [|lia]. destruct (fm b =? 0)%N; [lia|].
    pose proof (N.mod_lt (fm b) 4194304 ltac:(lia)). lia. }
  destruct (fe b =? 0)%N eqn:E2; [|lia].
  destruct (fm b =? 0)%N eqn:E3; [lia|].
  destruct (log2_fm (fm b) ltac:(lia)) as (K & (L1 & L2) & P). split; [|lia].
  rewrite <- P. apply N.mul_lt_mono_pos_r; [|lia].
  apply N.neq_0_lt_0, N.pow_nonzero. lia.
Qed.

Lemma widen32_range b : (b < 4294967296)%N -> (widen32 b < 18446744073709551616)%N.
Proof.
  intros H. rewrite widen32_fields. destruct (wm_we_range b H). destruct (fields_N b H) as (_ & ? & _). lia.
Qed.

Local Open Scope Z_scope.

(* what Flocq's decoder [binary_float_of_bits_aux] does with a (sign, fraction, exponent) triple *)
Definition dec (emin : Z) (emaxfield : Z) (hidden : Z) (s : bool) (m e : Z) : full_float :=
  if Zeq_bool e 0 then
    match m with Z0 => F754_zero s | Zpos p => F754_finite s p emin | Zneg _ => F754_nan false xH end
  else if Zeq_bool e emaxfield then
    match m with Z0 => F754_infinity s | Zpos p => F754_nan s p | Zneg _ => F754_nan false xH end
  else match m + hidden with Zpos p => F754_finite s p (e + emin - 1) | _ => F754_nan false xH end.

Lemma aux_join mw ew s m e : 0 < mw -> 0 < ew -> 0 <= m < 2^mw -> 0 <= e < 2^ew ->
  binary_float_of_bits_aux mw ew (join_bits mw ew s m e) = dec (3 - 2^(ew - 1) - (mw + 1)) (2^ew - 1) (2^mw) s m e.
Proof. intros Hmw Hew Hm He. unfold binary_float_of_bits_aux. rewrite split_join_bits by assumption. reflexivity. Qed.

Lemma join32 b : (b < 4294967296)%N -> Z.of_N b = join_bits 23 8 (fsb b) (Z.of_N (fm b)) (Z.of_N (fe b)).
Proof.
  intros H. destruct (fields_N b H) as (E & Hs & _). unfold join_bits, fsb. rewrite Z.shiftl_mul_pow2 by lia.
  change (2 ^ 8) with 256. change (2 ^ 23) with 8388608.
  destruct (fs b =? 1)%N eqn:S1; lia.
Qed.
Lemma join64 b : (b < 4294967296)%N ->
  Z.of_N (widen32 b) = join_bits 52 11 (fsb b) (Z.of_N (wm b)) (Z.of_N (we b)).
Proof.
  intros H. destruct (fields_N b H) as (_ & Hs & _). rewrite widen32_fields.
  unfold join_bits, fsb. rewrite Z.shiftl_mul_pow2 by lia.
  change (2 ^ 11) with 2048. change (2 ^ 52) with 4503599627370496.
  destruct (fs b =? 1)%N eqn:S1; lia.
Qed.

Definition ff32 (b : N) : full_float := binary_float_of_bits_aux 23 8 (Z.of_N b).
Definition ff64 (b : N) : full_float := binary_float_of_bits_aux 52 11 (Z.of_N (widen32 b)).

Lemma ff32_dec b : (b < 4294967296)%N -> ff32 b = dec (-149) 255 (2^23) (fsb b) (Z.of_N (fm b)) (Z.of_N (fe b)).
Proof.
  intros H. unfold ff32. rewrite (join32 b H). destruct (fields_N b H) as (_ & _ & He & Hm).
  apply (aux_join 23 8); change (2 ^ 23) with 8388608; change (2 ^ 8) with 256; lia.
Qed.
Lemma ff64_dec b : (b < 4294967296)%N -> ff64 b = dec (-1074) 2047 (2^52) (fsb b) (Z.of_N (wm b)) (Z.of_N (we b)).
Proof.
  intros H. unfold ff64. rewrite (join64 b H). destruct (wm_we_range b H) as (Hm & He).
  apply (aux_join 52 11); change (2 ^ 52) with 4503599627370496; change (2 ^ 11) with 2048; lia.
Qed.

Definition widens (x : full_float) (y : full_float) : Prop :=
  match x with
  | F754_zero s => y = F754_zero s
  | F754_infinity s => y = F754_infinity s
  | F754_nan s pl => exists pl', y = F754_nan s pl' /\
      Zpos pl' = 2^51 + (Zpos pl mod 2^22) * 2^29
  | F754_finite s m e => exists m' e', y = F754_finite s m' e' /\ e' <= e /\
      Zpos m' = Zpos m * 2 ^ (e - e') /\ 2^52 <= Zpos m' < 2^53
  end.

Lemma Zeq_bool_N (a b : N) : Zeq_bool (Z.of_N a) (Z.of_N b) = (a =? b)%N.
Proof. destruct (a =? b)%N eqn:E; [apply Zeq_is_eq_bool | apply Zeq_bool_false]; lia. Qed.

(* normalising a subnormal fraction p with highest bit k: dropping that bit and shifting the rest up by 52 - k is,
   with the hidden bit put back, p * 2^(52-k), a full 53-bit significand *)
Lemma subnormal_scale p : (0 < N.pos p < 8388608)%N ->
  Z.of_N ((N.pos p - 2 ^ N.log2 (N.pos p)) * 2 ^ (52 - N.log2 (N.pos p))) + 2 ^ 52 = Z.pos p * 2 ^ (52 - Z.of_N (N.log2 (N.pos p))) /\
  2 ^ 52 <= Z.pos p * 2 ^ (52 - Z.of_N (N.log2 (N.pos p))) < 2 ^ 53.
Proof.
  intros Hp. destruct (log2_fm (N.pos p) Hp) as (K & (L1 & L2) & P). set (k := N.log2 (N.pos p)) in *. split.
  - rewrite N2Z.inj_mul, N2Z.inj_sub by lia. rewrite !N2Z.inj_pow, N2Z.inj_sub by lia.
    change (Z.of_N (N.pos p)) with (Z.pos p). change (Z.of_N 2) with 2. change (Z.of_N 52) with 52.
    rewrite Z.mul_sub_distr_r. rewrite <- Z.pow_add_r by lia.
    replace (Z.of_N k + (52 - Z.of_N k)) with 52 by lia. lia.
  - assert (Q : 2 ^ Z.of_N k * 2 ^ (52 - Z.of_N k) = 2 ^ 52).
    { rewrite <- Z.pow_add_r by lia. f_equal. lia. }
    assert (0 < 2 ^ (52 - Z.of_N k)) by (apply Z.pow_pos_nonneg; lia).
    assert (L1z : 2 ^ Z.of_N k <= Z.pos p).
    { change 2 with (Z.of_N 2). rewrite <- N2Z.inj_pow. lia. }
    assert (L2z : Z.pos p < 2 ^ Z.of_N k * 2).
    { change 2 with (Z.of_N 2) at 1. rewrite <- N2Z.inj_pow. lia. }
    change (2 ^ 53) with (2 ^ 52 * 2). rewrite <- Q. split.
    + apply Z.mul_le_mono_nonneg_r; lia.
    + replace (2 ^ Z.of_N k * 2 ^ (52 - Z.of_N k) * 2) with (2 ^ Z.of_N k * 2 * 2 ^ (52 - Z.of_N k)) by ring.
      apply Z.mul_lt_mono_pos_r; lia.
Qed.

(* which pattern decodes to which class: the fields of the pattern read off the decoded single *)
Lemma ff32_class b : (b < 4294967296)%N ->
  match ff32 b with
  | F754_zero s => s = fsb b /\ fe b = 0%N /\ fm b = 0%N
  | F754_infinity s => s = fsb b /\ fe b = 255%N /\ fm b = 0%N
  | F754_nan s p => s = fsb b /\ fe b = 255%N /\ fm b = N.pos p
  | F754_finite s p e => s = fsb b /\
      ((fe b = 0%N /\ fm b = N.pos p /\ e = -149) \/
       ((0 < fe b < 255)%N /\ Z.pos p = Z.of_N (fm b) + 2^23 /\ e = Z.of_N (fe b) - 150))
  end.
Proof.
  intros H. rewrite (ff32_dec b H). destruct (fields_N b H) as (_ & _ & He & Hm).
  unfold dec. change 0 with (Z.of_N 0). change 255 with (Z.of_N 255). rewrite !Zeq_bool_N.
  destruct (fe b =? 0)%N eqn:E0; [destruct (fm b); cbn [Z.of_N]; (split; [reflexivity|lia])|].
  destruct (fe b =? 255)%N eqn:E255; [destruct (fm b); cbn [Z.of_N]; (split; [reflexivity|lia])|].
  destruct (Z.of_N (fm b) + 2 ^ 23) eqn:Ep; [lia|split; [reflexivity|lia]|lia].
Qed.

Theorem widen32_widens b : (b < 4294967296)%N -> widens (ff32 b) (ff64 b).
Proof.
  intros H. rewrite (ff32_dec b H), (ff64_dec b H). destruct (fields_N b H) as (_ & _ & He & Hm).
  unfold dec. change 0 with (Z.of_N 0). change 255 with (Z.of_N 255). change 2047 with (Z.of_N 2047).
  rewrite !Zeq_bool_N. unfold we, wm.
  destruct (fe b =? 0)%N eqn:E0.
  - (* zero or subnormal single *)
    assert (E255 : (fe b =? 255)%N = false) by lia. rewrite E255.
    destruct (fm b) as [|p] eqn:Em.
    + (* zero *) cbn. reflexivity.
    + (* subnormal: becomes a normal double *)
      change ((N.pos p =? 0)%N) with false. cbv iota.
      destruct (log2_fm (N.pos p) ltac:(lia)) as (K & (L1 & L2) & P).
      set (k := N.log2 (N.pos p)) in *.
      assert (F1 : ((k + 874 =? 0) = false)%N) by lia. rewrite F1.
      assert (F2 : ((k + 874 =? 2047) = false)%N) by lia. rewrite F2.
      destruct (subnormal_scale p ltac:(lia)) as [EQ B]. fold k in EQ, B.
      rewrite EQ. destruct (Z.pos p * 2 ^ (52 - Z.of_N k)) as [|q|q] eqn:Eq; try lia.
      exists q, (Z.of_N (k + 874) + -1074 - 1). split; [reflexivity|].
      split; [lia|]. split; [|lia].
      rewrite <- Eq. f_equal. f_equal. lia.
  - destruct (fe b =? 255)%N eqn:E255.
    + (* infinity or NaN *)
      change ((2047 =? 0)%N) with false. change ((2047 =? 2047)%N) with true. cbv iota.
      destruct (fm b) as [|p] eqn:Em.
      * cbn. reflexivity.
      * change ((N.pos p =? 0)%N) with false. cbv iota.
        pose proof (N.mod_lt (N.pos p) 4194304 ltac:(lia)) as ML.
        destruct (Z.of_N (2251799813685248 + N.pos p mod 4194304 * 536870912)) as [|q|q] eqn:Eq; try lia.
        exists q. split; [reflexivity|]. rewrite <- Eq.
        rewrite N2Z.inj_add, N2Z.inj_mul, N2Z.inj_mod. reflexivity.
    + (* normal single -> normal double *)
      assert (F1 : ((fe b + 896 =? 0) = false)%N) by lia. rewrite F1.
      assert (F2 : ((fe b + 896 =? 2047) = false)%N) by lia. rewrite F2.
      change (2 ^ 23) with 8388608. change (2 ^ 52) with 4503599627370496.
      destruct (Z.of_N (fm b) + 8388608) as [|p|p] eqn:Ep; try lia.
      destruct (Z.of_N (fm b * 536870912) + 4503599627370496) as [|q|q] eqn:Eq; try lia.
      exists q, (Z.of_N (fe b + 896) + -1074 - 1). split; [reflexivity|].
      split; [lia|].
      replace (Z.of_N (fe b) + -149 - 1 - (Z.of_N (fe b + 896) + -1074 - 1)) with 29 by lia.
      change (2 ^ 29) with 536870912. change (2 ^ 53) with 9007199254740992.
      lia.
Qed.

Definition B32 (b : N) : binary32 := b32_of_bits (Z.of_N b).
Definition B64w (b : N) : binary64 := b64_of_bits (Z.of_N (widen32 b)).

Lemma B2FF_B32 b : B2FF 24 128 (B32 b) = ff32 b.
Proof. unfold B32, b32_of_bits, binary_float_of_bits. rewrite B2FF_FF2B. reflexivity. Qed.
Lemma B2FF_B64w b : B2FF 53 1024 (B64w b) = ff64 b.
Proof. unfold B64w, b64_of_bits, binary_float_of_bits. rewrite B2FF_FF2B. reflexivity. Qed.

Lemma widens_B b : (b < 4294967296)%N -> widens (B2FF 24 128 (B32 b)) (B2FF 53 1024 (B64w b)).
Proof. rewrite B2FF_B32, B2FF_B64w. apply widen32_widens. Qed.

Lemma sign_B2FF prec emax (x : binary_float prec emax) : sign_FF (B2FF prec emax x) = Bsign prec emax x.
Proof. now destruct x. Qed.
Lemma is_nan_B2FF' prec emax (x : binary_float prec emax) : is_nan_FF (B2FF prec emax x) = is_nan prec emax x.
Proof. now destruct x. Qed.

(* NaN payload (fraction field) of a float; 0 for non-NaNs *)
Definition pl_FF (x : full_float) : Z := match x with F754_nan _ pl => Zpos pl | _ => 0%Z end.
Definition nan_pl {prec emax} (x : binary_float prec emax) : Z :=
  match x with B754_nan _ _ _ pl _ => Zpos pl | _ => 0%Z end.
Lemma pl_B2FF prec emax (x : binary_float prec emax) : pl_FF (B2FF prec emax x) = nan_pl x.
Proof. now destruct x. Qed.
(* "is a non-zero finite number" on pre-floats *)
Definition is_finite_strict_FF (x : full_float) : bool := match x with F754_finite _ _ _ => true | _ => false end.
Lemma is_finite_strict_B2FF' prec emax (x : binary_float prec emax) :
  is_finite_strict_FF (B2FF prec emax x) = is_finite_strict prec emax x.
Proof. now destruct x. Qed.

Lemma cond_Zopp_mul s a c : SpecFloat.cond_Zopp s a * c = SpecFloat.cond_Zopp s (a * c).
Proof. destruct s; cbn; ring. Qed.

(* what [widens] means for values, signs and classes *)
Lemma widens_finite x y : widens x y -> is_finite_FF x = true ->
  is_finite_FF y = true /\ FF2R radix2 y = FF2R radix2 x /\ sign_FF y = sign_FF x /\
  is_finite_strict_FF y = is_finite_strict_FF x.
Proof.
  destruct x as [s|s|s pl|s m e]; cbn [widens is_finite_FF]; intros W F; try discriminate.
  - subst y. repeat split.
  - destruct W as (m' & e' & -> & Le & Em & _). cbn [is_finite_FF FF2R sign_FF is_finite_strict_FF].
    repeat split. rewrite (F2R_change_exp radix2 e' _ e Le). rewrite Em. f_equal. f_equal.
    change (radix2 ^ (e - e')) with (2 ^ (e - e')). symmetry. apply cond_Zopp_mul.
Qed.

(* the value clause on the decoder's pre-floats (Flocq's [binary_float_of_bits_aux], before validation): this form
   avoids the validity proofs inside b32_of_bits/b64_of_bits and so needs only the axioms behind R itself *)
Theorem widen32_value_FF b : (b < 4294967296)%N -> is_finite_FF (ff32 b) = true ->
  is_finite_FF (ff64 b) = true /\ FF2R radix2 (ff64 b) = FF2R radix2 (ff32 b) /\ sign_FF (ff64 b) = sign_FF (ff32 b).
Proof.
  intros H F. destruct (widens_finite _ _ (widen32_widens b H) F) as (A & B & C & _). auto.
Qed.

(* (1) finite singles: same real value, same sign, finite; zero stays zero, non-zero stays non-zero *)
Theorem widen32_finite b : (b < 4294967296)%N -> is_finite 24 128 (B32 b) = true ->
  is_finite 53 1024 (B64w b) = true /\
  B2R 53 1024 (B64w b) = B2R 24 128 (B32 b) /\
  Bsign 53 1024 (B64w b) = Bsign 24 128 (B32 b) /\
  is_finite_strict 53 1024 (B64w b) = is_finite_strict 24 128 (B32 b).
Proof.
  intros H F. rewrite <- is_finite_B2FF in F. destruct (widens_finite _ _ (widens_B b H) F) as (A & B & C & D).
  rewrite <- !is_finite_B2FF, <- !FF2R_B2FF, <- !sign_B2FF, <- !is_finite_strict_B2FF'. auto.
Qed.

(* signed zeros: +0 -> +0, -0 -> -0 *)
Theorem widen32_zero b s : (b < 4294967296)%N -> B32 b = B754_zero 24 128 s -> B64w b = B754_zero 53 1024 s.
Proof.
  intros H E. pose proof (widens_B b H) as W. rewrite E in W. apply B2FF_inj. exact W.
Qed.

(* every non-zero finite single, subnormal ones included, becomes a NORMAL double:
   Flocq mantissa of full 53-bit width, i.e. exponent field of the pattern in 1..2046 (in fact 874..1150) *)
Theorem widen32_normal b : (b < 4294967296)%N -> is_finite_strict 24 128 (B32 b) = true ->
  (exists s m e, B2FF 53 1024 (B64w b) = F754_finite s m e /\ (2^52 <= Zpos m < 2^53)%Z) /\
  (874 <= (widen32 b / 4503599627370496) mod 2048 <= 1150)%N.
Proof.
  intros H F. rewrite <- is_finite_strict_B2FF', B2FF_B32 in F. split.
  - pose proof (widens_B b H) as W. rewrite B2FF_B32 in W. destruct (ff32 b); try discriminate.
    destruct W as (m' & e' & -> & _ & _ & R). eauto.
  - assert (Hw : ((widen32 b / 4503599627370496) mod 2048 = we b)%N).
    { rewrite widen32_fields. destruct (wm_we_range b H). destruct (fields_N b H) as (_ & ? & _).
      symmetry. apply (N.mod_unique _ _ (fs b)); [assumption|].
      symmetry. apply (N.div_unique _ _ _ (wm b)); [assumption|]. lia. }
    rewrite Hw. pose proof (ff32_class b H) as C. destruct (fields_N b H) as (_ & _ & _ & Hm). unfold we.
    destruct (ff32 b); try discriminate. destruct C as (_ & [(E0 & Em & _)|(R & _)]).
    + rewrite E0, Em. cbn [N.eqb]. destruct (log2_fm (N.pos m) ltac:(lia)) as (K & _). lia.
    + replace (fe b =? 255)%N with false by lia. replace (fe b =? 0)%N with false by lia. lia.
Qed.

(* (2) infinities keep their sign *)
Theorem widen32_infinity b s : (b < 4294967296)%N ->
  B32 b = B754_infinity 24 128 s -> B64w b = B754_infinity 53 1024 s.
Proof.
  intros H E. pose proof (widens_B b H) as W. rewrite E in W. apply B2FF_inj. exact W.
Qed.

(* (3) NaNs stay NaNs with the same sign; the fraction field p (23 bits, non-zero) becomes
   2^51 + (p mod 2^22) * 2^29: the low 22 payload bits move to bits 29..50, the quiet bit (bit 22 of a single,
   bit 51 of a double) is SET whatever it was, the low 29 bits are zero. *)
Theorem widen32_nan b : (b < 4294967296)%N -> is_nan 24 128 (B32 b) = true ->
  is_nan 53 1024 (B64w b) = true /\
  Bsign 53 1024 (B64w b) = Bsign 24 128 (B32 b) /\
  nan_pl (B64w b) = (2^51 + (nan_pl (B32 b) mod 2^22) * 2^29)%Z.
Proof.
  intros H F. pose proof (widens_B b H) as W. rewrite <- is_nan_B2FF' in F.
  rewrite <- !is_nan_B2FF', <- !sign_B2FF, <- !pl_B2FF.
  destruct (B2FF 24 128 (B32 b)); try discriminate. destruct W as (pl' & -> & E). cbn [is_nan_FF sign_FF pl_FF]. auto.
Qed.

(* the same, split by the quiet bit of the input: a quiet NaN keeps its payload (shifted by 29),
   a signalling NaN is quieted and otherwise keeps its payload *)
Lemma quiet_split p : (0 <= p < 2^23)%Z ->
  (2^51 + (p mod 2^22) * 2^29 = if Z.testbit p 22 then p * 2^29 else p * 2^29 + 2^51)%Z.
Proof.
  intros R. rewrite Z.testbit_odd, Z.shiftr_div_pow2 by lia.
  pose proof (Z.div_mod p (2^22) ltac:(lia)) as D. pose proof (Z.mod_pos_bound p (2^22) ltac:(lia)) as M.
  assert (Q : (p / 2^22 = 0 \/ p / 2^22 = 1)%Z).
  { assert (0 <= p / 2^22 < 2)%Z; [|lia]. split; [apply Z.div_pos; lia | apply Z.div_lt_upper_bound; lia]. }
  change (2^22)%Z with 4194304%Z in *. change (2^29)%Z with 536870912%Z. change (2^51)%Z with 2251799813685248%Z.
  destruct Q as [Q|Q]; rewrite Q in *; cbn [Z.odd]; lia.
Qed.

Theorem widen32_nan_quiet b : (b < 4294967296)%N -> is_nan 24 128 (B32 b) = true ->
  nan_pl (B64w b) = (if Z.testbit (nan_pl (B32 b)) 22 then nan_pl (B32 b) * 2^29
                     else nan_pl (B32 b) * 2^29 + 2^51)%Z /\
  Z.testbit (nan_pl (B64w b)) 51 = true.
Proof.
  intros H F. destruct (widen32_nan b H F) as (_ & _ & E).
  assert (R : (0 <= nan_pl (B32 b) < 2^23)%Z).
  { rewrite <- pl_B2FF, B2FF_B32. pose proof (ff32_class b H) as C. destruct (fields_N b H) as (_ & _ & _ & Hm).
    destruct (ff32 b); cbn [pl_FF]; lia. }
  split; [rewrite E; apply quiet_split; exact R|].
  rewrite E. rewrite Z.testbit_odd, Z.shiftr_div_pow2 by lia.
  pose proof (Z.mod_pos_bound (nan_pl (B32 b)) (2^22) ltac:(lia)) as M.
  replace ((2 ^ 51 + nan_pl (B32 b) mod 2 ^ 22 * 2 ^ 29) / 2 ^ 51)%Z with 1%Z; [reflexivity|].
  apply (Z.div_unique _ _ _ (nan_pl (B32 b) mod 2 ^ 22 * 2 ^ 29)); [|lia].
  left. change (2^22)%Z with 4194304%Z in *. change (2^29)%Z with 536870912%Z. change (2^51)%Z with 2251799813685248%Z. lia.
Qed.

(* (4) injectivity away from NaNs: arithmetic on the patterns, no reals involved *)
Local Close Scope Z_scope.
Local Open Scope N_scope.

Definition is_nan32 (b : N) : bool := (fe b =? 255) && negb (fm b =? 0).

Lemma is_nan32_spec b : b < 4294967296 -> is_nan 24 128 (B32 b) = is_nan32 b.
Proof.
  intros H. rewrite <- is_nan_B2FF', B2FF_B32. pose proof (ff32_class b H) as C. unfold is_nan32.
  destruct (ff32 b); cbn [is_nan_FF]; lia.
Qed.

Lemma widen32_parts b1 b2 : b1 < 4294967296 -> b2 < 4294967296 -> widen32 b1 = widen32 b2 ->
  fs b1 = fs b2 /\ we b1 = we b2 /\ wm b1 = wm b2.
Proof.
  intros H1 H2. rewrite !widen32_fields.
  destruct (wm_we_range b1 H1), (wm_we_range b2 H2).
  destruct (fields_N b1 H1) as (_ & ? & _), (fields_N b2 H2) as (_ & ? & _). lia.
Qed.

(* A non-NaN pattern is recovered from the fields of its image: the exponent field tells the class, and within a
   class the fraction is the input's fraction scaled by a power of two (a subnormal with highest bit k gets exponent
   field k + 874 and loses that bit). *)
Lemma unwiden b : b < 4294967296 -> is_nan32 b = false ->
  (we b = 2047 /\ fe b = 255 /\ fm b = 0) \/
  (we b = 0 /\ fe b = 0 /\ fm b = 0) \/
  (874 <= we b <= 896 /\ fe b = 0 /\ fm b * 2 ^ (926 - we b) = wm b + 4503599627370496) \/
  (896 < we b < 2047 /\ fe b = we b - 896 /\ fm b * 536870912 = wm b).
Proof.
  intros H N. destruct (fields_N b H) as (_ & _ & He & Hm). unfold is_nan32 in N. unfold we, wm.
  destruct (fe b =? 255) eqn:A; [left; lia|].
  destruct (fe b =? 0) eqn:B; [|right; right; right; lia].
  destruct (fm b =? 0) eqn:C; [right; left; lia|]. right; right; left.
  destruct (log2_fm (fm b) ltac:(lia)) as (K & (L1 & _) & P).
  replace (926 - (N.log2 (fm b) + 874)) with (52 - N.log2 (fm b)) by lia.
  rewrite N.mul_sub_distr_r, P. pose proof (N.mul_le_mono_r _ _ (2 ^ (52 - N.log2 (fm b))) L1). lia.
Qed.

Theorem widen32_inj_non_nan b1 b2 : b1 < 4294967296 -> b2 < 4294967296 ->
  is_nan32 b1 = false -> is_nan32 b2 = false -> widen32 b1 = widen32 b2 -> b1 = b2.
Proof.
  intros H1 H2 N1 N2 E. destruct (widen32_parts b1 b2 H1 H2 E) as (S & EE & EM).
  assert (F : fe b1 = fe b2 /\ fm b1 = fm b2).
  { pose proof (unwiden b1 H1 N1) as U1. pose proof (unwiden b2 H2 N2) as U2. clear H1 H2 N1 N2 S E.
    destruct U1 as [U1|[U1|[(R1 & Z1 & F1)|U1]]], U2 as [U2|[U2|[(R2 & Z2 & F2)|U2]]]; try lia.
    (* both subnormal: the same power of two on both sides *)
    rewrite EE, EM, <- F2 in F1. apply N.mul_cancel_r in F1; [lia|]. apply N.pow_nonzero. discriminate. }
  destruct (fields_N b1 H1) as (D1 & _), (fields_N b2 H2) as (D2 & _). lia.
Qed.

(* the same with Flocq's NaN test *)
Theorem widen32_inj b1 b2 : b1 < 4294967296 -> b2 < 4294967296 ->
  is_nan 24 128 (B32 b1) = false -> is_nan 24 128 (B32 b2) = false -> widen32 b1 = widen32 b2 -> b1 = b2.
Proof.
  intros H1 H2 N1 N2. rewrite is_nan32_spec in N1, N2 by assumption. now apply widen32_inj_non_nan.
Qed.

(* on NaNs the map is NOT injective: the quiet bit of the input is forgotten, and only that *)
Theorem widen32_nan_collision : is_nan32 2139095041 = true /\ is_nan32 2143289345 = true /\
  widen32 2139095041 = widen32 2143289345.   (* 0x7F800001 (signalling) and 0x7FC00001 (quiet) *)
Proof. repeat split; vm_compute; reflexivity. Qed.

Theorem widen32_nan_eq_iff b1 b2 : b1 < 4294967296 -> b2 < 4294967296 ->
  is_nan32 b1 = true -> is_nan32 b2 = true ->
  (widen32 b1 = widen32 b2 <-> fs b1 = fs b2 /\ fm b1 mod 4194304 = fm b2 mod 4194304).
Proof.
  intros H1 H2 N1 N2. unfold is_nan32 in N1, N2.
  assert (A1 : (fe b1 =? 255) = true) by lia. assert (A2 : (fe b2 =? 255) = true) by lia.
  assert (C1 : (fm b1 =? 0) = false) by lia. assert (C2 : (fm b2 =? 0) = false) by lia.
  split.
  - intros E. destruct (widen32_parts b1 b2 H1 H2 E) as (S & _ & EM). unfold wm in EM.
    rewrite A1, A2, C1, C2 in EM. lia.
  - intros (S & EM). rewrite !widen32_fields. unfold we, wm. rewrite A1, A2, C1, C2, S, EM. reflexivity.
Qed.

(* composed with the reader: a FLOAT field read by ReadFloat64 *)
Theorem read_f32_as_f64_value f tag req b rest : tag < 256 -> b < 4294967296 ->
  is_finite 24 128 (b32_of_bits (Z.of_N b)) = true ->
  exists d, r_f64 (S f) tag req (w_f32 b tag ++ rest) = ROk d rest /\ d < 18446744073709551616 /\
    is_finite 53 1024 (b64_of_bits (Z.of_N d)) = true /\
    B2R 53 1024 (b64_of_bits (Z.of_N d)) = B2R 24 128 (b32_of_bits (Z.of_N b)) /\
    Bsign 53 1024 (b64_of_bits (Z.of_N d)) = Bsign 24 128 (b32_of_bits (Z.of_N b)).
Proof.
  intros Ht Hb F. exists (widen32 b). split; [now apply widen_f32_f64|]. split; [now apply widen32_range|].
  destruct (widen32_finite b Hb F) as (A & B & C & _). auto.
Qed.

From Coq Require Import List.
Import ListNotations.
(* finite inputs: smallest subnormal 2^-149, largest subnormal, smallest normal, 1.0, largest finite, -0, -pi *)
Example finite_instances :
  forallb (fun b => is_finite 24 128 (B32 b))
    [1; 8388607; 8388608; 1065353216; 2139095039; 2147483648; 3226013659]%list = true.
Proof. vm_compute. reflexivity. Qed.
Example strict_instances :
  forallb (fun b => is_finite_strict 24 128 (B32 b)) [1; 8388607; 8388608; 1065353216; 2139095039; 3226013659]%list = true.
Proof. vm_compute. reflexivity. Qed.
Example zero_instances : B32 0 = B754_zero 24 128 false /\ B32 2147483648 = B754_zero 24 128 true.
Proof. split; apply B2FF_inj; vm_compute; reflexivity. Qed.
Example infinity_instances :
  B32 2139095040 = B754_infinity 24 128 false /\ B32 4286578688 = B754_infinity 24 128 true.
Proof. split; apply B2FF_inj; vm_compute; reflexivity. Qed.
Example nan_instances : forallb (fun b => is_nan 24 128 (B32 b)) [2139095041; 2143289344; 4290772992; 4294967295]%list = true.
Proof. vm_compute. reflexivity. Qed.
(* known answers (hex in the comment): what every IEEE-754 conversion gives for these singles *)
Example known_answers :
  widen32 1 = 3936146074321813504 /\              (* 00000001 -> 36A0000000000000 : 2^-149 *)
  widen32 8388607 = 4039728864677593088 /\        (* 007FFFFF -> 380FFFFFC0000000 *)
  widen32 8388608 = 4039728865751334912 /\        (* 00800000 -> 3810000000000000 : 2^-126 *)
  widen32 1065353216 = 4607182418800017408 /\     (* 3F800000 -> 3FF0000000000000 : 1.0 *)
  widen32 2139095039 = 5183643170566569984 /\     (* 7F7FFFFF -> 47EFFFFFE0000000 : max float32 *)
  widen32 2147483648 = 9223372036854775808 /\     (* 80000000 -> 8000000000000000 : -0 *)
  widen32 4286578688 = 18442240474082181120 /\    (* FF800000 -> FFF0000000000000 : -inf *)
  widen32 2143289344 = 9221120237041090560 /\     (* 7FC00000 -> 7FF8000000000000 : default quiet NaN *)
  widen32 2139095041 = 9221120237577961472 /\     (* 7F800001 -> 7FF8000020000000 : sNaN, quieted *)
  widen32 3226013659 = 13837628693603680256.      (* C0490FDB -> C00921FB60000000 : -pi as float32 *)
Proof. vm_compute. repeat split. Qed.

Example instances :
  forallb (fun b => is_finite 24 128 (b32_of_bits (Z.of_N b)))
    [1; 8388607; 8388608; 1065353216; 2139095039; 2147483648; 3226013659] = true /\
  forallb (fun b => is_nan 24 128 (b32_of_bits (Z.of_N b))) [2139095041; 2143289344; 4290772992; 4294967295] = true /\
  b32_of_bits 2139095040 = B754_infinity 24 128 false /\ b32_of_bits 4286578688 = B754_infinity 24 128 true /\
  b32_of_bits 0 = B754_zero 24 128 false /\ b32_of_bits 2147483648 = B754_zero 24 128 true.
Proof.
  split; [exact finite_instances|]. split; [exact nan_instances|].
  destruct infinity_instances, zero_instances. auto.
Qed.
