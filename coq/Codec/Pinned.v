(* The generated decoder as it was BEFORE the repairs of the generator template (fix commits "generated decoders
   size a vector by the count on the wire ...", "generated decoder of a fixed-size array indexes it ...",
   "generated ResetDefault leaves members without a declared default untouched", "ReadSliceInt8/ReadSliceUint8
   leave the target's previous content ..."): kept only to state, as _pinned_refuted examples, what the pinned
   code did on the witnesses of the recorded findings and that the repaired model (Codec/GenCodec.v) behaves
   differently on exactly those inputs. Nothing else depends on this file. *)
From Coq Require Import List NArith ZArith Lia Bool Arith.
From TarsV Require Import Gen.Consts Base.Hex Codec.Wire Codec.Skip Codec.Prim Codec.GenCodec.
Import ListNotations.
Open Scope N_scope.

(* ResetDefault: members with a declared default are set to it, struct members are reset recursively,
   everything else keeps its prior value *)
Fixpoint reset_default_pinned (fuel : nat) (e : env) (sid : nat) (v : val) : val :=
  match fuel with O => v | S f =>
  match v with
  | VStruct vs =>
      VStruct ((fix go (fds : schema) (vs : list val) : list val :=
                  match fds, vs with
                  | fd :: fds', x :: vs' =>
                      (match fdef fd with
                       | Some d => d
                       | None => match fty fd with TStruct s => reset_default_pinned f e s x | _ => x end
                       end) :: go fds' vs'
                  | _, _ => vs
                  end) (fields_of e sid) vs)
  | _ => v
  end end.

(* ReadSliceInt8 / ReadSliceUint8 at the pinned revision + 7b8c6ea: len <= 0 leaves the target alone, len > remaining is an error *)
Definition read_slice_pinned (n : Z) (r : list N) : option (option (list N) * list N) :=
  if (n <=? 0)%Z then Some (None, r)
  else if (Z.of_nat (length r) <? n)%Z then None
  else Some (Some (firstn (Z.to_nat n) r), skipn (Z.to_nat n) r).

Fixpoint dec_var_pinned (fuel : nat) (e : env) (tag : N) (req : bool) (t : ty) (prior : val) (bs : list N) {struct fuel} : dres val :=
  match fuel with O => DFuel | S f =>
  match t with
  | TVec x =>
      match skip_to_no_check f tag req bs with
      | NotFound r => DOk prior r
      | SeekErr => DErr | SeekFuel => DFuel
      | Found wt r =>
          if wt =? tLIST then
            match read_count r with
            | CErr _ => DErr
            | COk n r1 =>
                if (n <? 0)%Z then DPanic site_makeslice
                else if (Z.of_nat (length r1) <? n)%Z then DHuge
                else match dec_elems_pinned f e x n r1 with
                     | DOk xs r2 => DOk (list_val x xs) r2
                     | DErr => DErr | DPanic s => DPanic s | DHuge => DHuge | DFuel => DFuel
                     end
            end
          else if wt =? tSIMPLE then
            if is_byte x then
              match skip_to f tBYTE 0 true r with
              | Found _ r1 =>
                  match read_count r1 with
                  | CErr _ => DErr
                  | COk n r2 => match read_slice_pinned n r2 with
                                | None => DErr
                                | Some (None, r3) => DOk prior r3
                                | Some (Some s, r3) => DOk (bytes_val x s) r3
                                end
                  end
              | SeekFuel => DFuel
              | _ => DErr
              end
            else DErr
          else DErr
      end
  | TArr len x =>
      match skip_to_no_check f tag req bs with
      | NotFound r => DOk prior r
      | SeekErr => DErr | SeekFuel => DFuel
      | Found wt r =>
          if wt =? tLIST then
            match read_count r with
            | CErr _ => DErr
            | COk n r1 =>
                match dec_arr_pinned f e x len 0 n (match prior with VList l => l | _ => [] end) r1 with
                | DOk xs r2 => DOk (VList xs) r2
                | DErr => DErr | DPanic s => DPanic s | DHuge => DHuge | DFuel => DFuel
                end
            end
          else DErr                                      (* SimpleList into a fixed array is not generated *)
      end
  | TMap kt vt =>
      match skip_to f tMAP tag req bs with
      | NotFound r => DOk prior r
      | SeekErr => DErr | SeekFuel => DFuel
      | Found _ r =>
          match read_count r with
          | CErr _ => DErr
          | COk n r1 => match dec_entries_pinned f e kt vt n r1 with
                        | DOk kvs r2 => DOk (VMap kvs) r2
                        | DErr => DErr | DPanic s => DPanic s | DHuge => DHuge | DFuel => DFuel
                        end
          end
      end
  | TStruct sid =>
      let prior' := reset_default_pinned f e sid prior in
      match skip_to f tSB tag req bs with
      | NotFound r => DOk prior' r
      | SeekErr => DErr | SeekFuel => DFuel
      | Found _ r =>
          match dec_fields_pinned f e (fields_of e sid) (match reset_default_pinned f e sid prior' with VStruct l => l | _ => [] end) r with
          | DOk vs r1 => match skip_to_end f 0 r1 with
                         | (SOk, r2) => DOk (VStruct vs) r2
                         | (SFuel, _) => DFuel
                         | _ => DErr
                         end
          | DErr => DErr | DPanic s => DPanic s | DHuge => DHuge | DFuel => DFuel
          end
      end
  | _ => dec_scalar f tag req t prior bs
  end end
with dec_elems_pinned (fuel : nat) (e : env) (x : ty) (n : Z) (bs : list N) {struct fuel} : dres (list val) :=
  match fuel with O => DFuel | S f =>
    if (n <=? 0)%Z then DOk [] bs else
    match dec_var_pinned f e 0 true x (zero_of f e x) bs with
    | DOk v r => match dec_elems_pinned f e x (n - 1)%Z r with
                 | DOk vs r' => DOk (v :: vs) r'
                 | o => o
                 end
    | DErr => DErr | DPanic s => DPanic s | DHuge => DHuge | DFuel => DFuel
    end
  end
with dec_arr_pinned (fuel : nat) (e : env) (x : ty) (len : nat) (i : nat) (n : Z) (cur : list val) (bs : list N) {struct fuel} : dres (list val) :=
  match fuel with O => DFuel | S f =>
    if (n <=? 0)%Z then DOk cur bs else
    if (len <=? i)%nat then DPanic site_array_index else
    match dec_var_pinned f e 0 true x (nth i cur (zero_of f e x)) bs with
    | DOk v r => dec_arr_pinned f e x len (S i) (n - 1)%Z (replace_nth i v cur) r
    | DErr => DErr | DPanic s => DPanic s | DHuge => DHuge | DFuel => DFuel
    end
  end
with dec_entries_pinned (fuel : nat) (e : env) (kt vt : ty) (n : Z) (bs : list N) {struct fuel} : dres (list (val * val)) :=
  match fuel with O => DFuel | S f =>
    if (n <=? 0)%Z then DOk [] bs else
    match dec_var_pinned f e 0 true kt (zero_of f e kt) bs with
    | DOk k r =>
        match dec_var_pinned f e 1 true vt (zero_of f e vt) r with
        | DOk v r' => match dec_entries_pinned f e kt vt (n - 1)%Z r' with
                      | DOk kvs r'' => DOk ((k, v) :: kvs) r''
                      | o => o
                      end
        | DErr => DErr | DPanic s => DPanic s | DHuge => DHuge | DFuel => DFuel
        end
    | DErr => DErr | DPanic s => DPanic s | DHuge => DHuge | DFuel => DFuel
    end
  end
with dec_fields_pinned (fuel : nat) (e : env) (fds : schema) (priors : list val) (bs : list N) {struct fuel} : dres (list val) :=
  match fuel with O => DFuel | S f =>
    match fds with
    | [] => DOk [] bs
    | fd :: fds' =>
        let p := match priors with p :: _ => p | [] => zero_of f e (fty fd) end in
        match dec_var_pinned f e (ftag fd) (freq fd) (fty fd) p bs with
        | DOk v r => match dec_fields_pinned f e fds' (tl priors) r with
                     | DOk vs r' => DOk (v :: vs) r'
                     | o => o
                     end
        | DErr => DErr | DPanic s => DPanic s | DHuge => DHuge | DFuel => DFuel
        end
    end
  end.

(* ReadFrom of a top-level struct into a target holding [prior] *)
Definition decode_into_pinned (e : env) (sid : nat) (prior : val) (bs : list N) : dres val :=
  let fuel := (4 * length bs + 64)%nat in
  match dec_fields_pinned fuel e (fields_of e sid) (match reset_default_pinned fuel e sid prior with VStruct l => l | _ => [] end) bs with
  | DOk vs r => DOk (VStruct vs) r
  | DErr => DErr | DPanic s => DPanic s | DHuge => DHuge | DFuel => DFuel
  end.
Definition decode_pinned (e : env) (sid : nat) (bs : list N) : dres val := decode_into_pinned e sid (zero_struct e sid) bs.

(* C05 (F1): LIST count -1 panicked in make, 2^30 with nothing behind it reached make *)
Definition ex_env_bytes : env := [[ {| ftag := 7; freq := true; fty := TVec TI8; fdef := None |} ]].
Example C05_total_pinned_refuted :
  decode_pinned ex_env_bytes 0 [121; 0; 255] = DPanic site_makeslice /\
  decode_pinned ex_env_bytes 0 [121; 2; 64; 0; 0; 0] = DHuge.
Proof. vm_compute. split; reflexivity. Qed.
Example C05_total_repaired_witness :
  decode ex_env_bytes 0 [121; 0; 255] = DErr /\ decode ex_env_bytes 0 [121; 2; 64; 0; 0; 0] = DErr.
Proof. vm_compute. split; reflexivity. Qed.

(* C06/C05 (F2): a fixed array int x[3] sent with count 4 indexed st.X[3] *)
Definition ex_env_arr : env := [[ {| ftag := 1; freq := true; fty := TArr 3 TI32; fdef := None |} ]].
Example C06_array_count_pinned_refuted :
  decode_pinned ex_env_arr 0 [25; 0; 4; 12; 12; 12; 12] = DPanic site_array_index.
Proof. vm_compute. reflexivity. Qed.
Example C06_array_count_repaired_witness :
  decode ex_env_arr 0 [25; 0; 4; 12; 12; 12; 12] = DErr /\
  decode ex_env_arr 0 [25; 0; 3; 12; 0; 7; 12] = DOk (VStruct [VList [VInt 0; VInt 7; VInt 0]]) [].
Proof. vm_compute. split; reflexivity. Qed.

(* C04 (F3): a reused target kept a stale optional member without a declared default *)
Definition ex_env_opt : env := [[ {| ftag := 0; freq := true; fty := TI32; fdef := None |};
                                  {| ftag := 1; freq := false; fty := TStr; fdef := None |} ]].
Example C04_reuse_pinned_refuted :
  decode_into_pinned ex_env_opt 0 (VStruct [VInt 7; VStr [98; 111; 111; 109]]) (w_int32 5 0)
  = DOk (VStruct [VInt 5; VStr [98; 111; 111; 109]]) [].
Proof. vm_compute. reflexivity. Qed.
Example C04_reuse_repaired_witness :
  decode_into ex_env_opt 0 (VStruct [VInt 7; VStr [98; 111; 111; 109]]) (w_int32 5 0) = DOk (VStruct [VInt 5; VStr []]) [].
Proof. vm_compute. reflexivity. Qed.

(* C01/C04 (F4): an empty byte vector (SimpleList, length 0) left the target's bytes in place *)
Example C04_empty_bytes_pinned_refuted :
  decode_into_pinned ex_env_bytes 0 (VStruct [VBytes [1; 2; 3]]) [125; 0; 12] = DOk (VStruct [VBytes [1; 2; 3]]) [].
Proof. vm_compute. reflexivity. Qed.
Example C04_empty_bytes_repaired_witness :
  decode_into ex_env_bytes 0 (VStruct [VBytes [1; 2; 3]]) [125; 0; 12] = DOk (VStruct [VBytes []]) [] /\
  decode_into ex_env_bytes 0 (VStruct [VBytes [1; 2; 3]]) [125; 0; 0; 255] = DErr.
Proof. vm_compute. split; reflexivity. Qed.
