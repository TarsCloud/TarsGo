(* C05: the allocation of the repaired decoder is linear in the input for every type with a finite type graph: every
   count that passes the check in front of make, plus every map entry inserted, summed over one run on ANY bytes
   (successful or failing), is at most tneed(type) x the bytes consumed (success) / the bytes given (failure). *)
From Coq Require Import List NArith ZArith Lia Bool Arith.
From Coq Require Import ZifyN ZifyNat ZifyBool.
From TarsV Require Import Gen.Consts Base.Hex Codec.Wire Codec.WireProofs Codec.Skip Codec.SkipProofs Codec.Prim
  Codec.PrimProofs Codec.GenCodec Codec.Corr Codec.GenProofs Codec.RoundTrip Codec.RoundTripProofs Codec.TotalProofs Codec.Alloc
  Gen.Schemas Codec.RoundTripExamples.
Import ListNotations.
Ltac Zify.zify_post_hook ::= Z.div_mod_to_equations.
Open Scope N_scope.

Lemma bnd_seq T a1 a2 l0 l1 l2 : (l1 <= l0)%nat -> (l2 <= l1)%nat ->
  (a1 <= T * (l0 - l1))%nat -> (a2 <= T * (l1 - l2))%nat -> (a1 + a2 <= T * (l0 - l2))%nat.
Proof.
  intros H1 H2 A1 A2.
  assert (E : (T * (l0 - l2) = T * (l0 - l1) + T * (l1 - l2))%nat) by (rewrite <- Nat.mul_add_distr_l; f_equal; lia).
  lia.
Qed.
Lemma bnd_seq_fail T a1 a2 l0 l1 : (l1 <= l0)%nat ->
  (a1 <= T * (l0 - l1))%nat -> (a2 <= T * l1)%nat -> (a1 + a2 <= T * l0)%nat.
Proof.
  intros H1 A1 A2. rewrite <- (Nat.sub_0_r l0). rewrite <- (Nat.sub_0_r l1) in A2.
  exact (bnd_seq T a1 a2 l0 l1 0 H1 (Nat.le_0_l l1) A1 A2).
Qed.
Lemma bnd_mono T T' a c c' : (T <= T')%nat -> (c <= c')%nat -> (a <= T * c)%nat -> (a <= T' * c')%nat.
Proof. intros HT Hc Ha. pose proof (Nat.mul_le_mono T T' c c' HT Hc). lia. Qed.
Lemma bnd_plus T k a c : (k <= c)%nat -> (a <= T * c)%nat -> (k + a <= (1 + T) * c)%nat.
Proof. intros Hk Ha. rewrite Nat.mul_add_distr_r. lia. Qed.

(* the invariant of al_all: a units were allocated, at most T per byte consumed (per byte of the input if the decoder failed) *)
Definition bnd {A} (T : nat) (bs : list N) (res : dres A) (a : nat) : Prop :=
  match res with
  | DOk _ r => (a <= T * (length bs - length r))%nat
  | _ => (a <= T * length bs)%nat
  end.
Lemma bnd_zero {A} T bs (res : dres A) : bnd T bs res 0.
Proof. destruct res; cbn [bnd]; apply Nat.le_0_l. Qed.

(* a bound relative to what is left after a head and a count holds relative to the whole member, for any larger factor *)
Lemma bnd_shift {A} T T' bs r1 (res : dres A) a : (T <= T')%nat -> (length r1 <= length bs)%nat ->
  bnd T r1 res a -> bnd T' bs res a.
Proof. intros HT Hl. destruct res; cbn [bnd]; apply bnd_mono; lia. Qed.

(* the decoder steps that only repackage the value of a call *)
Lemma bnd_map {A B} T bs (r : dres A) (g : A -> list N -> B) a : bnd T bs r a ->
  bnd T bs (match r with DOk x r' => DOk (g x r') r' | DErr => DErr | DPanic s => DPanic s | DHuge => DHuge | DFuel => DFuel end) a.
Proof. now destruct r. Qed.
Lemma good_map {A B} req bs (r : dres A) (g : A -> list N -> B) : good req bs r ->
  good req bs (match r with DOk x r' => DOk (g x r') r' | DErr => DErr | DPanic s => DPanic s | DHuge => DHuge | DFuel => DFuel end).
Proof. now destruct r. Qed.

(* a call that allocates a1 followed, on what it leaves, by a continuation that allocates a2 *)
Lemma bnd_bind {A B} T req1 bs (r : dres A) (k : A -> list N -> dres B) a1 (a2 : A -> list N -> nat) :
  good req1 bs r -> bnd T bs r a1 ->
  (forall v rest, (length rest <= length bs)%nat -> (req1 = true -> (length rest < length bs)%nat) ->
     good false rest (k v rest) /\ bnd T rest (k v rest) (a2 v rest)) ->
  bnd T bs (match r with DOk v rest => k v rest | DErr => DErr | DPanic s => DPanic s | DHuge => DHuge | DFuel => DFuel end)
    (a1 + match r with DOk v rest => a2 v rest | _ => 0 end).
Proof.
  destruct r as [v rest| | | |]; cbn [good bnd]; intros Hg H1 Hk; try (rewrite Nat.add_0_r; exact H1).
  destruct Hg as [Hl Hs]. destruct (Hk v rest Hl Hs) as [Hg2 H2].
  destruct (k v rest); cbn [good bnd] in *; [|now apply (bnd_seq_fail _ _ _ _ (length rest))..|contradiction].
  apply (bnd_seq _ _ _ _ (length rest)); tauto.
Qed.

(* the same when the call must consume at least one byte and its success costs one more unit (the map entry inserted):
   the unit is paid by raising the factor by one *)
Lemma bnd_bind1 {A B} T bs (r : dres A) (k : A -> list N -> dres B) a1 (a2 : A -> list N -> nat) :
  good true bs r -> bnd T bs r a1 ->
  (forall v rest, (length rest < length bs)%nat -> good false rest (k v rest) /\ bnd (1 + T) rest (k v rest) (a2 v rest)) ->
  bnd (1 + T) bs (match r with DOk v rest => k v rest | DErr => DErr | DPanic s => DPanic s | DHuge => DHuge | DFuel => DFuel end)
    (a1 + match r with DOk v rest => 1 + a2 v rest | _ => 0 end).
Proof.
  intros Hg H1 Hk.
  assert (H1' : bnd (1 + T) bs r (a1 + match r with DOk _ _ => 1 | _ => 0 end)).
  { destruct r; cbn [good bnd] in *; try (rewrite Nat.add_0_r; apply (bnd_mono T _ _ (length bs)); lia).
    rewrite Nat.add_comm. apply bnd_plus; [|exact H1]. destruct Hg as [_ Hg]. specialize (Hg eq_refl). lia. }
  destruct r as [v rest| | | |]; try (rewrite Nat.add_0_r in *; exact H1').
  rewrite Nat.add_assoc. apply (bnd_bind (1 + T) true bs (DOk v rest) k (a1 + 1) a2 Hg H1').
  intros v' rest' Hl Hs. apply Hk. now apply Hs.
Qed.

Section Alloc.
Variable e : env.

Definition AL_var (f : nat) : Prop := forall n t tag req prior bs, tfin n e t = true ->
  (2 * length bs + 3 + tneed n e t <= f)%nat ->
  bnd (tneed n e t) bs (dec_var f e tag req t prior bs) (al_var f e tag req t prior bs).
Definition AL_elems (f : nat) : Prop := forall n x cnt bs, tfin n e x = true ->
  (2 * length bs + 4 + tneed n e x <= f)%nat ->
  bnd (tneed n e x) bs (dec_elems f e x cnt bs) (al_elems f e x cnt bs) /\
  (forall vs r, dec_elems f e x cnt bs = DOk vs r -> (cnt <= Z.of_nat (length bs - length r))%Z).
Definition AL_arr (f : nat) : Prop := forall n x len i cnt cur bs, tfin n e x = true ->
  (2 * length bs + 4 + tneed n e x <= f)%nat ->
  bnd (tneed n e x) bs (dec_arr f e x len i cnt cur bs) (al_arr f e x len i cnt cur bs).
Definition AL_entries (f : nat) : Prop := forall n kt vt cnt bs, tfin n e kt = true -> tfin n e vt = true ->
  (2 * length bs + 4 + Nat.max (tneed n e kt) (tneed n e vt) <= f)%nat ->
  bnd (1 + Nat.max (tneed n e kt) (tneed n e vt)) bs (dec_entries f e kt vt cnt bs) (al_entries f e kt vt cnt bs).
Definition AL_fields (f : nat) : Prop := forall n fds ps bs, (forall fd, In fd fds -> tfin n e (fty fd) = true) ->
  (2 * length bs + 4 + length fds + tmax (tneed n e) fds <= f)%nat ->
  bnd (tmax (tneed n e) fds) bs (dec_fields f e fds ps bs) (al_fields f e fds ps bs).

Lemma al_var_S f tag req t prior bs : al_var (S f) e tag req t prior bs =
  match t with
  | TVec x =>
      match skip_to_no_check f tag req bs with
      | Found wt r =>
          if wt =? tLIST then
            match read_count r with
            | COk n r1 =>
                if (n <? 0)%Z then 0%nat
                else if (Z.of_nat (length r1) <? n)%Z then 0%nat
                else (Z.to_nat n + al_elems f e x n r1)%nat
            | CErr _ => 0%nat
            end
          else 0%nat
      | _ => 0%nat
      end
  | TArr len x =>
      match skip_to_no_check f tag req bs with
      | Found wt r =>
          if wt =? tLIST then
            match read_count r with
            | COk n r1 =>
                if (n <? 0)%Z || (Z.of_nat len <? n)%Z then 0%nat
                else al_arr f e x len 0 n (match prior with VList l => l | _ => [] end) r1
            | CErr _ => 0%nat
            end
          else 0%nat
      | _ => 0%nat
      end
  | TMap kt vt =>
      match skip_to f tMAP tag req bs with
      | Found _ r =>
          match read_count r with
          | COk n r1 => if (n <? 0)%Z || (Z.of_nat (length r1) / 2 <? n)%Z then 0%nat else al_entries f e kt vt n r1
          | CErr _ => 0%nat
          end
      | _ => 0%nat
      end
  | TStruct sid =>
      match skip_to f tSB tag req bs with
      | Found _ r => al_fields f e (fields_of e sid)
                       (match reset_default f e sid (reset_default f e sid prior) with VStruct l => l | _ => [] end) r
      | _ => 0%nat
      end
  | _ => 0%nat
  end.
Proof. destruct t; reflexivity. Qed.

Lemma tmax_ge n fds fd : In fd fds -> (tneed n e (fty fd) <= tmax (tneed n e) fds)%nat.
Proof.
  induction fds as [|a fds IH]; intros Hin; [contradiction|]. cbn [tmax fold_right]. fold (tmax (tneed n e) fds).
  destruct Hin as [->|Hin]; [lia|]. specialize (IH Hin). lia.
Qed.

Lemma al_all : forall f, AL_var f /\ AL_elems f /\ AL_arr f /\ AL_entries f /\ AL_fields f.
Proof.
  induction f as [|f (HV & HE & HA & HM & HF)].
  { split; [|split; [|split; [|split]]]; intro; intros; exfalso; lia. }
  destruct (fs_all e f) as (FV & FE & FA & FM & FF).
  split; [|split; [|split; [|split]]].
  - intros n t tag req prior bs Hfin Hf. destruct n as [|n]; [discriminate|]. rewrite al_var_S.
    destruct t as [| | | | | | | | | | | |x|kt vt|len x|sid]; try apply bnd_zero.
    + (* vec: make([]T, c) with c at most the bytes left, then the elements *)
      cbn [tfin tneed] in Hfin, Hf |- *. rewrite dec_var_vec.
      pose proof (seek_fuel f tag req bs ltac:(lia)) as Hs.
      destruct (skip_to_no_check f tag req bs) as [wt r|r| |]; try apply bnd_zero. cbn [seek_good] in Hs.
      destruct (wt =? tLIST); [|apply bnd_zero].
      pose proof (read_count_len_ok r) as Hc. destruct (read_count r) as [c r1|]; [|apply bnd_zero].
      destruct (c <? 0)%Z eqn:E0; [apply bnd_zero|]. destruct (Z.of_nat (length r1) <? c)%Z eqn:E1; [apply bnd_zero|].
      destruct (HE n x c r1 Hfin ltac:(lia)) as [Hb Hcnt]. pose proof (FE n x c r1 Hfin ltac:(lia)) as Hg.
      apply (bnd_shift (1 + tneed n e x) _ _ r1); [lia|lia|]. apply bnd_map.
      destruct (dec_elems f e x c r1) as [xs r2| | | |]; cbn [bnd good] in *; (apply bnd_plus; [|exact Hb]); try lia.
      specialize (Hcnt xs r2 eq_refl). lia.
    + cbn [tfin tneed] in Hfin, Hf |- *. apply andb_true_iff in Hfin. destruct Hfin as [Ha Hb]. rewrite dec_var_map.
      pose proof (skip_to_fuel f tMAP tag req bs ltac:(lia)) as Hs.
      destruct (skip_to f tMAP tag req bs) as [wt r|r| |]; try apply bnd_zero. cbn [seek_good] in Hs.
      pose proof (read_count_len_ok r) as Hc. destruct (read_count r) as [c r1|]; [|apply bnd_zero].
      destruct ((c <? 0)%Z || (_ <? c)%Z); [apply bnd_zero|].
      apply (bnd_shift (1 + Nat.max (tneed n e kt) (tneed n e vt)) _ _ r1); [lia|lia|]. apply bnd_map, (HM n); assumption || lia.
    + cbn [tfin tneed] in Hfin, Hf |- *. rewrite dec_var_arr.
      pose proof (seek_fuel f tag req bs ltac:(lia)) as Hs.
      destruct (skip_to_no_check f tag req bs) as [wt r|r| |]; try apply bnd_zero. cbn [seek_good] in Hs.
      destruct (wt =? tLIST); [|apply bnd_zero].
      pose proof (read_count_len_ok r) as Hc. destruct (read_count r) as [c r1|]; [|apply bnd_zero].
      destruct ((c <? 0)%Z || (_ <? c)%Z); [apply bnd_zero|].
      apply (bnd_shift (tneed n e x) _ _ r1); [lia|lia|]. apply bnd_map, (HA n); assumption || lia.
    + cbn [tfin tneed] in Hfin, Hf |- *. rewrite forallb_forall in Hfin. rewrite dec_var_struct. cbv zeta.
      pose proof (skip_to_fuel f tSB tag req bs ltac:(lia)) as Hs.
      destruct (skip_to f tSB tag req bs) as [wt r|r| |]; try apply bnd_zero. cbn [seek_good] in Hs.
      pose proof (HF n (fields_of e sid) (match reset_default f e sid (reset_default f e sid prior) with VStruct l => l | _ => [] end) r Hfin ltac:(lia)) as Hb.
      pose proof (FF n (fields_of e sid) (match reset_default f e sid (reset_default f e sid prior) with VStruct l => l | _ => [] end) r Hfin ltac:(lia)) as Hg.
      destruct (dec_fields f e (fields_of e sid) _ r) as [vs r1| | | |]; cbn [bnd good] in *;
        try (apply (bnd_mono (tmax (tneed n e) (fields_of e sid)) _ _ (length r)); [lia|lia|exact Hb]).
      destruct (skip_fuel f) as (_ & _ & He). destruct (He 0 r1 ltac:(lia)) as [Hne Hl].
      destruct (skip_to_end f 0 r1) as [s r2]. cbn [fst snd] in *.
      destruct s; cbn [bnd];
        try (apply (bnd_mono (tmax (tneed n e) (fields_of e sid)) _ _ (length r - length r1)); [lia|lia|exact Hb]).
  - (* dec_elems: the bound, and every element announced and decoded took at least one byte *)
    intros n x cnt bs Hfin Hf. rewrite dec_elems_S. cbn [al_elems].
    destruct (cnt <=? 0)%Z eqn:Ec.
    { split; [cbn [bnd]; lia|]. intros vs r H. inversion H; subst. lia. }
    split.
    + apply (bnd_bind _ true); [apply (FV n); assumption || lia|apply (HV n); assumption || lia|].
      intros v r Hl Hs. specialize (Hs eq_refl). split; [apply good_map, (FE n)|apply bnd_map, (HE n)]; assumption || lia.
    + intros vs0 r0 H. pose proof (FV n x 0 true (zero_of f e x) bs Hfin ltac:(lia)) as G1.
      destruct (dec_var f e 0 true x (zero_of f e x) bs) as [v r| | | |]; try discriminate.
      destruct G1 as [_ G1]. specialize (G1 eq_refl).
      destruct (HE n x (cnt - 1)%Z r Hfin ltac:(lia)) as [_ C2]. pose proof (FE n x (cnt - 1)%Z r Hfin ltac:(lia)) as G2.
      destruct (dec_elems f e x (cnt - 1)%Z r) as [vs r'| | | |]; try discriminate.
      inversion H; subst. specialize (C2 vs r0 eq_refl). cbn [good] in G2. lia.
  - intros n x len i cnt cur bs Hfin Hf. rewrite dec_arr_S. cbn [al_arr].
    destruct (cnt <=? 0)%Z; [cbn [bnd]; lia|]. destruct (len <=? i)%nat; [cbn [bnd]; lia|].
    apply (bnd_bind _ true); [apply (FV n); assumption || lia|apply (HV n); assumption || lia|].
    intros v r Hl Hs. specialize (Hs eq_refl). split; [apply (FA n)|apply (HA n)]; assumption || lia.
  - (* dec_entries: key, value, then the entry is inserted *)
    intros n kt vt cnt bs Ha Hb Hf. rewrite dec_entries_S. cbn [al_entries].
    destruct (cnt <=? 0)%Z; [cbn [bnd]; lia|].
    set (T := Nat.max (tneed n e kt) (tneed n e vt)) in *.
    apply (bnd_bind _ true); [apply (FV n); assumption || lia| |].
    { apply (bnd_shift (tneed n e kt) _ bs bs), (HV n); assumption || lia. }
    intros kv r Hl Hs. specialize (Hs eq_refl). split.
    + apply (good_bind true false r r); [apply (FV n); assumption || lia|apply le_n|]. intros v r' Hl' Hs'. specialize (Hs' eq_refl).
      pose proof (FM n kt vt (cnt - 1)%Z r' Ha Hb ltac:(lia)) as G3.
      destruct (dec_entries f e kt vt (cnt - 1)%Z r'); cbn [good] in *; try tauto. split; [lia|discriminate].
    + apply bnd_bind1; [apply (FV n); assumption || lia| |].
      { apply (bnd_shift (tneed n e vt) _ r r), (HV n); assumption || lia. }
      intros v r' Hs'. split; [apply good_map, (FM n)|apply bnd_map, (HM n)]; assumption || lia.
  - intros n fds ps bs Hfin Hf. rewrite dec_fields_S. cbn [al_fields]. destruct fds as [|fd fds]; [cbn [bnd]; lia|]. cbv zeta.
    cbn [length tmax fold_right] in Hf |- *. fold (tmax (tneed n e) fds) in Hf |- *.
    assert (Hfd := Hfin fd (or_introl eq_refl)). assert (Hfin' := fun fd' Hin => Hfin fd' (or_intror Hin)).
    apply (bnd_bind _ (freq fd)); [apply (FV n); assumption || lia| |].
    + apply (bnd_shift (tneed n e (fty fd)) _ bs bs), (HV n); assumption || lia.
    + intros v r Hl _. split; [apply good_map, (FF n); assumption || lia|].
      apply bnd_map, (bnd_shift (tmax (tneed n e) fds) _ r r), (HF n); assumption || lia.
Qed.

(* one ReadFrom of any bytes into any target: the allocation is at most tneed(type) x the input length *)
Theorem alloc_linear n sid prior bs : tfin n e (TStruct sid) = true -> (tneed n e (TStruct sid) <= 64)%nat ->
  (alloc_of e sid prior bs <= tneed n e (TStruct sid) * length bs)%nat.
Proof.
  intros Hfin Hn. destruct n as [|n]; [discriminate|]. cbn [tfin tneed] in Hfin, Hn |- *. rewrite forallb_forall in Hfin.
  unfold alloc_of. cbv zeta. destruct (al_all (4 * length bs + 64)) as (_ & _ & _ & _ & HF).
  pose proof (HF n (fields_of e sid) (match reset_default (4 * length bs + 64) e sid prior with VStruct l => l | _ => [] end) bs Hfin ltac:(lia)) as H.
  destruct (dec_fields (4 * length bs + 64) e (fields_of e sid) _ bs); cbn [bnd] in H;
    (eapply bnd_mono; [| |exact H]; lia).
Qed.
End Alloc.
Print Assumptions alloc_linear.

(* Recursive types: the bound does NOT hold, allocation grows quadratically.
   struct Rec { 0 require int id; 1 optional vector<Rec> kids; }: every level announces as many kids as bytes are
   left; each count passes the check in front of make. 8 bytes per level: 0c (id = 0), 19 (kids: LIST), 02 nnnnnnnn
   (count), 0a (StructBegin of the first kid). *)
Definition rec_env : env :=
  [[ {| ftag := 0; freq := true; fty := TI32; fdef := None |};
     {| ftag := 1; freq := false; fty := TVec (TStruct 0); fdef := None |} ]].
Fixpoint rec_attack (levels : nat) (left : N) : list N :=
  match levels with
  | O => []
  | S k => [12; 25; 2] ++ be 4 left ++ [10] ++ rec_attack k (left - 8)
  end.
Lemma rec_attack_length k : forall left, length (rec_attack k left) = (8 * k)%nat.
Proof. induction k as [|k IH]; intros left; [reflexivity|]. cbn [rec_attack]. rewrite !app_length, be_length, IH. cbn [length]. lia. Qed.

Lemma read_count_int left rest : left < 2147483648 -> read_count (2 :: be 4 left ++ rest) = COk (Z.of_N left) rest.
Proof.
  intros H. unfold read_count. cbn -[be bread sext]. rewrite bread_be by (cbn; lia). f_equal. unfold sext.
  destruct (Z.of_N left <? 2 ^ (32 - 1))%Z eqn:E; lia.
Qed.

(* One level of the attack in front of a tail A of 8k bytes on which the member loop fails: the id member reads, the
   count of kids (8k+1, exactly the bytes left behind it) passes the check in front of make, and the first kid's
   members are A. So the level fails like A, and allocates its count on top of what A allocates. *)
Section Level.
Variables (k : nat) (A : list N).
Hypothesis HlenA : length A = (8 * k)%nat.
Let left := N.of_nat (8 * k + 1).
Let bs := [12; 25; 2] ++ be 4 left ++ [10] ++ A.
Hypothesis Hk : N.of_nat (8 * k + 1) < 2147483648.

Lemma level_id f p : dec_var (S (S (S f))) rec_env 0 true TI32 p bs = DOk (VInt 0) (skipn 1 bs).
Proof. reflexivity. Qed.

Let r1 := [25; 2] ++ be 4 left ++ [10] ++ A.
Variable F : nat.
Hypothesis HA : forall f ps, (F <= f)%nat -> dec_fields f rec_env (fields_of rec_env 0) ps A = DErr.

Lemma level_struct f z : (F <= S (S f))%nat -> dec_var (S (S (S f))) rec_env 0 true (TStruct 0) z (10 :: A) = DErr.
Proof. intros Hf. rewrite dec_var_struct. cbv zeta. change (skip_to (S (S f)) tSB 0 true (10 :: A)) with (Found 10 A). cbv beta iota. now rewrite HA. Qed.

Lemma level_kids f p : (F <= S (S (S f)))%nat -> dec_var (S (S (S (S (S (S f)))))) rec_env 1 false (TVec (TStruct 0)) p r1 = DErr.
Proof.
  intros Hf. rewrite dec_var_vec. change (skip_to_no_check (S (S (S (S (S f))))) 1 false r1) with (Found 9 (2 :: be 4 left ++ [10] ++ A)). cbv beta iota.
  rewrite N.eqb_refl, read_count_int by (subst left; lia).
  destruct (Z.of_N left <? 0)%Z eqn:E0; [subst left; lia|].
  destruct (Z.of_nat (length _) <? Z.of_N left)%Z eqn:E1; [subst left; cbn [length app] in E1; lia|].
  rewrite dec_elems_S. destruct (Z.of_N left <=? 0)%Z eqn:E2; [subst left; lia|].
  cbn [app]. now rewrite level_struct by lia.
Qed.

Lemma level_dec f ps : (F <= S (S (S f)))%nat -> dec_fields (S (S (S (S (S (S (S (S f)))))))) rec_env (fields_of rec_env 0) ps bs = DErr.
Proof.
  intros Hf. rewrite dec_fields_S. change (fields_of rec_env 0) with [ {| ftag := 0; freq := true; fty := TI32; fdef := None |};
     {| ftag := 1; freq := false; fty := TVec (TStruct 0); fdef := None |} ]. cbv zeta. cbn [ftag freq fty].
  rewrite level_id. cbv beta iota. rewrite dec_fields_S. cbv zeta. cbn [ftag freq fty skipn].
  change (skipn 1 bs) with r1. now rewrite level_kids by assumption.
Qed.

Lemma level_al f ps : (F <= S (S (S f)))%nat -> exists ps', al_fields (S (S (S (S (S (S (S (S f)))))))) rec_env (fields_of rec_env 0) ps bs =
  (N.to_nat left + al_fields (S (S (S f))) rec_env (fields_of rec_env 0) ps' A)%nat.
Proof.
  intros Hf. eexists.
  change (fields_of rec_env 0) with [ {| ftag := 0; freq := true; fty := TI32; fdef := None |};
     {| ftag := 1; freq := false; fty := TVec (TStruct 0); fdef := None |} ] at 1.
  cbn [al_fields ftag freq fty]. rewrite level_id. cbv beta iota. change (skipn 1 bs) with r1. rewrite level_kids by assumption.
  rewrite (al_var_S rec_env), (al_var_S rec_env).
  change (skip_to_no_check (S (S (S (S (S f))))) 1 false r1) with (Found 9 (2 :: be 4 left ++ [10] ++ A)). cbv beta iota.
  rewrite N.eqb_refl, read_count_int by (subst left; lia).
  destruct (Z.of_N left <? 0)%Z eqn:E0; [subst left; lia|].
  destruct (Z.of_nat (length _) <? Z.of_N left)%Z eqn:E1; [subst left; cbn [length app] in E1; lia|].
  cbn [al_elems]. destruct (Z.of_N left <=? 0)%Z eqn:E2; [subst left; lia|].
  cbn [app]. rewrite level_struct, (al_var_S rec_env) by lia.
  change (skip_to (S (S (S f))) tSB 0 true (10 :: A)) with (Found 10 A). cbv beta iota.
  rewrite <- Z_N_nat, N2Z.id, !Nat.add_0_r. reflexivity.
Qed.
End Level.

(* the count the outermost of k levels announces *)
Definition attack_count (k : nat) : N := N.of_nat (8 * k) - 7.
Lemma rec_attack_S k : rec_attack (S k) (attack_count (S k)) = [12; 25; 2] ++ be 4 (N.of_nat (8 * k + 1)) ++ [10] ++ rec_attack k (attack_count k).
Proof.
  cbn [rec_attack]. replace (attack_count (S k) - 8) with (attack_count k) by (unfold attack_count; lia).
  now replace (attack_count (S k)) with (N.of_nat (8 * k + 1)) by (unfold attack_count; lia).
Qed.

Lemma attack_rejected k : (k < 1000)%nat -> forall f ps, (5 * k + 3 <= f)%nat ->
  dec_fields f rec_env (fields_of rec_env 0) ps (rec_attack k (attack_count k)) = DErr.
Proof.
  induction k as [|k IH]; intros Hk f ps Hf.
  - destruct f as [|[|[|f]]]; try lia. reflexivity.
  - rewrite rec_attack_S. replace f with (8 + (f - 8))%nat by lia.
    apply (level_dec k _ (rec_attack_length k _) ltac:(lia) (5 * k + 3)); [|lia]. intros; apply IH; lia.
Qed.

(* the counts of all levels: 4k^2 - 3k *)
Fixpoint attack_alloc (k : nat) : nat := match k with O => 0 | S k' => 8 * k' + 1 + attack_alloc k' end.
Lemma attack_allocates k : (k < 1000)%nat -> forall f ps, (5 * k + 3 <= f)%nat ->
  al_fields f rec_env (fields_of rec_env 0) ps (rec_attack k (attack_count k)) = attack_alloc k.
Proof.
  induction k as [|k IH]; intros Hk f ps Hf.
  - destruct f as [|[|[|f]]]; try lia. reflexivity.
  - rewrite rec_attack_S. replace f with (8 + (f - 8))%nat by lia. cbn [Nat.add].
    destruct (level_al k _ (rec_attack_length k _) ltac:(lia) (5 * k + 3) (fun f' ps' H => attack_rejected k ltac:(lia) f' ps' H) (f - 8)%nat ps ltac:(lia)) as (ps' & ->).
    rewrite IH by lia. cbn [attack_alloc]. lia.
Qed.

Example alloc_recursive_quadratic :
  N.of_nat (length (rec_attack 25 193)) = 200 /\ N.of_nat (alloc_of rec_env 0 (VInt 0) (rec_attack 25 193)) = 2425 /\
  N.of_nat (length (rec_attack 50 393)) = 400 /\ N.of_nat (alloc_of rec_env 0 (VInt 0) (rec_attack 50 393)) = 9850 /\
  decode rec_env 0 (rec_attack 50 393) = DErr.
Proof.
  change 193 with (attack_count 25). change 393 with (attack_count 50). unfold alloc_of, decode, decode_into. cbv zeta.
  rewrite !rec_attack_length, !attack_allocates, attack_rejected by lia. repeat split.
Qed.


(* on the schemas regenerated from the tree: every generated struct type that fits the model allocates at most
   64 x the input length, whatever the bytes *)
Theorem env0_alloc_linear : forall sid prior bs, fits_model sid = true ->
  (alloc_of env0 sid prior bs <= 64 * length bs)%nat.
Proof.
  intros sid prior bs Hm. destruct (fits_model_spec sid Hm) as [Hfin Hn].
  pose proof (alloc_linear env0 8 sid prior bs Hfin ltac:(lia)) as H.
  eapply bnd_mono; [| |exact H]; lia.
Qed.
