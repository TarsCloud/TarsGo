(* Member-level facts about the generated-codec model: the fixed-length and length-prefixed reads are exact (C06),
   a field cut short is refused (app_cut .. int_prefix), ResetDefault (C04), two hostile-count witnesses and the
   nesting limit (C05), the round trip of a scalar member (C03). *)
From Coq Require Import List NArith ZArith Lia Bool Arith.
From Coq Require Import ZifyN ZifyNat ZifyBool.
From TarsV Require Import Gen.Consts Base.Hex Codec.Wire Codec.WireProofs Codec.Skip Codec.SkipProofs Codec.Prim Codec.PrimProofs Codec.GenCodec Codec.Corr.
Import ListNotations.
Ltac Zify.zify_post_hook ::= Z.div_mod_to_equations.
Open Scope N_scope.

(* the scalar layer of the decoder down to the field search and the body readers *)
Ltac unfold_scalar := unfold dec_scalar, r_bool, r_int8, r_uint8, r_int16, r_uint16, r_int32, r_uint32, r_int64, r_int, r_f32, r_f64, r_string, with_seek.

(* ---------- C06: the repaired readers never pad, never return partial data ---------- *)

(* io.ReadFull semantics: a successful n-byte read consumed exactly n bytes that are all there *)
Theorem bread_exact n bs v r : bread n bs = Some (v, r) ->
  bs = firstn n bs ++ r /\ length (firstn n bs) = n /\ v = be_val 0 (firstn n bs).
Proof.
  unfold bread. destruct (n <=? length bs)%nat eqn:E; [|discriminate]. intros H. inversion H; subst.
  apply Nat.leb_le in E. split; [symmetry; apply firstn_skipn|]. split; [apply firstn_length_le; assumption|reflexivity].
Qed.
Theorem bread_truncated n bs : (length bs < n)%nat -> bread n bs = None.
Proof. exact (bread_short n bs). Qed.

(* strings and byte vectors: the announced length is all there or the read fails *)
Theorem take_str_exact l r s r' : take_str l r = Some (s, r') -> r = s ++ r' /\ N.of_nat (length s) = l.
Proof.
  unfold take_str. destruct (N.of_nat (length r) <? l) eqn:E; [discriminate|]. intros H. inversion H; subst.
  split; [symmetry; apply firstn_skipn|]. rewrite firstn_length_le by lia. lia.
Qed.
Theorem take_str_truncated l r : N.of_nat (length r) < l -> take_str l r = None.
Proof. intros H. unfold take_str. destruct (N.of_nat (length r) <? l) eqn:E; [reflexivity|lia]. Qed.
Theorem read_slice_exact n r s r' : read_slice n r = Some (s, r') -> r = s ++ r' /\ Z.of_nat (length s) = n.
Proof.
  unfold read_slice. destruct (n <? 0)%Z eqn:E0; [discriminate|].
  destruct (Z.of_nat (length r) <? n)%Z eqn:E; [discriminate|]. intros H. inversion H; subst.
  split; [symmetry; apply firstn_skipn|]. rewrite firstn_length_le by lia. lia.
Qed.
Theorem read_slice_truncated n r : (Z.of_nat (length r) < n)%Z -> read_slice n r = None.
Proof.
  intros H. unfold read_slice. destruct (n <? 0)%Z eqn:E0; [reflexivity|].
  destruct (Z.of_nat (length r) <? n)%Z eqn:E; [reflexivity|lia].
Qed.
Theorem read_slice_negative n r : (n < 0)%Z -> read_slice n r = None.
Proof. intros H. unfold read_slice. destruct (n <? 0)%Z eqn:E0; [reflexivity|lia]. Qed.

Lemma read_head2_partial ty : ty < 16 -> read_head2 [240 + ty] = None.
Proof. intros H. unfold read_head2. assert (Hd : (240 + ty) / 16 = 15) by lia. rewrite Hd. reflexivity. Qed.
Lemma app_prefix_cases {A} (a b p q : list A) : a ++ b = p ++ q ->
  (exists t, a = p ++ t /\ q = t ++ b) \/ (exists t, p = a ++ t /\ b = t ++ q).
Proof.
  revert p. induction a as [|x a IH]; intros p E; [right; now exists p|].
  destruct p as [|y p]; [left; now exists (x :: a)|].
  cbn in E. injection E as -> E. destruct (IH p E) as [(t & -> & ->)|(t & -> & ->)]; [left|right]; now exists t.
Qed.
(* the same with the cut strictly inside a, or at or after its end *)
Lemma app_cut {A} (a b p q : list A) : a ++ b = p ++ q ->
  (exists t, t <> [] /\ a = p ++ t /\ q = t ++ b) \/ (exists t, p = a ++ t /\ b = t ++ q).
Proof.
  intros E. destruct (app_prefix_cases _ _ _ _ E) as [([|x t] & -> & ->)|H]; [right; exists []; now rewrite !app_nil_r| |now right].
  left. now exists (x :: t).
Qed.

(* a field cut short: nothing of it, the first byte of a two-byte head on its own, or the whole head and part of the body *)
Lemma head_cut ty tag body p q : ty < 16 -> head ty tag ++ body = p ++ q ->
  p = [] \/ p = [240 + ty] \/ exists u, p = head ty tag ++ u /\ body = u ++ q.
Proof.
  intros Hty E. destruct (app_cut _ _ _ _ E) as [(t & Ht & Ea & _)|(t & -> & ->)]; [|right; right; now exists t].
  unfold head in Ea. destruct (tag <? 15); destruct p as [|a p]; try now left.
  - injection Ea as _ Ea. symmetry in Ea. apply app_eq_nil in Ea as [_ ->]. congruence.
  - injection Ea as <- Ea. destruct p as [|b p]; [now (right; left)|].
    injection Ea as _ Ea. symmetry in Ea. apply app_eq_nil in Ea as [_ ->]. congruence.
Qed.

(* a reader on a present field cut short: an error, except that an optional member of which only the first byte
   of a two-byte head is there is taken to be absent (readHead fails and the error is dropped) *)
Lemma with_seek_cut {A} f tag req ty B p q (body : N -> list N -> option (A * list N)) :
  ty < 16 -> tag < 256 -> (ty =? tSE) = false -> head ty tag ++ B = p ++ q -> p <> [] ->
  (forall r, B = r ++ q -> body ty r = None) ->
  with_seek (S f) tag req p body = RErr \/
  (req = false /\ (exists ty, ty < 16 /\ p = [240 + ty]) /\ with_seek (S f) tag req p body = RAbsent []).
Proof.
  intros Hty Htag Hse E Hp Hb. unfold with_seek.
  destruct (head_cut _ _ _ _ _ Hty E) as [->|[->|(u & -> & EB)]]; [congruence| |].
  - cbn [skip_to_no_check]. rewrite read_head2_partial by assumption. destruct req; [now left|right; eauto].
  - rewrite seek_first, (Hb u EB) by assumption. now left.
Qed.

Lemma int_prefix f bits tag req v p q : tag < 256 -> w_int64 v tag = p ++ q -> q <> [] -> p <> [] ->
  r_int bits (S f) tag req p = RErr \/
  (req = false /\ (exists ty, ty < 16 /\ p = [240 + ty]) /\ r_int bits (S f) tag req p = RAbsent []).
Proof.
  intros Htag E Hq Hp. unfold r_int.
  destruct (w_int64_code v tag) as [[_ Ew]|(ty & n & w & Hc & _ & _ & Ew)]; rewrite Ew in E.
  - rewrite <- (app_nil_r (head _ _)) in E. apply (with_seek_cut f tag req tZERO [] p q); try easy.
    intros r Er. symmetry in Er. apply app_eq_nil in Er as [_ ->]. congruence.
  - destruct (int_code_facts _ _ _ Hc) as (Hty & Hse & _). apply (with_seek_cut f tag req ty (be n (wrapu w v)) p q); try assumption.
    intros r Er. rewrite (read_int_body_code bits ty n w), bread_short by (assumption || now apply (be_prefix_short n (wrapu w v) r q)).
    now destruct (_ || _)%bool.
Qed.

(* every proper prefix of an integer field is rejected when the field is required *)
Theorem int_prefix_rejected bits f tag v : is_width bits -> tag < 256 -> fits 64 v = true ->
  forall p q, w_int64 v tag = p ++ q -> q <> [] -> r_int bits (S f) tag true p = RErr.
Proof.
  intros _ Htag _ p q E Hq. destruct p as [|b p]; [reflexivity|].
  destruct (int_prefix f bits tag true v (b :: p) q Htag E Hq) as [H|(H & _)]; [discriminate|exact H|discriminate H].
Qed.

(* ---------- C04: the repaired ResetDefault assigns every member ---------- *)
(* decoding does not depend on what the target held before: ANY two prior targets (of any shape), any schema
   environment, any struct type, any bytes. By computation: reset_default (GenCodec.v) ignores the old target. *)
Theorem decode_into_prior_indep e sid p1 p2 bs : decode_into e sid p1 bs = decode_into e sid p2 bs.
Proof. reflexivity. Qed.
Theorem dec_var_struct_prior_indep fuel e tag req sid p1 p2 bs :
  dec_var fuel e tag req (TStruct sid) p1 bs = dec_var fuel e tag req (TStruct sid) p2 bs.
Proof. destruct fuel; reflexivity. Qed.
(* ... in particular decoding into a used target gives what decoding into a fresh one gives *)
Theorem decode_into_fresh e sid prior bs : decode_into e sid prior bs = decode e sid bs.
Proof. reflexivity. Qed.

Example reuse_witness :
  (* the witness of the former finding: a target that holds [7; "boom"] decodes an encoding containing only the
     required member; the optional string without a declared default is reset (Codec/Pinned.v: the pinned code
     kept "boom") *)
  let e := [[ {| ftag := 0; freq := true; fty := TI32; fdef := None |};
              {| ftag := 1; freq := false; fty := TStr; fdef := None |} ]] in
  decode_into e 0 (VStruct [VInt 7; VStr [98; 111; 111; 109]]) (w_int32 5 0)
  = DOk (VStruct [VInt 5; VStr []]) [].
Proof. vm_compute. reflexivity. Qed.

(* every member is reset to its declared default or, where none is declared, to the zero value of its type
   (struct members: reset recursively) - whatever the target held *)
Lemma reset_default_member f e sid v : forall i fd,
  nth_error (fields_of e sid) i = Some fd ->
  match reset_default (S f) e sid v with
  | VStruct l => nth_error l i = Some (match fdef fd with
                                       | Some d => d
                                       | None => match fty fd with TStruct s => reset_default f e s v | t => zero_of f e t end
                                       end)
  | _ => False
  end.
Proof.
  intros i fd Hn. unfold reset_default. cbn [reset_val]. now rewrite nth_error_map, Hn.
Qed.
(* members with a declared default do not depend on the prior target *)
Lemma reset_default_declared f e sid vs : forall i fd d,
  nth_error (fields_of e sid) i = Some fd -> fdef fd = Some d -> (i < length vs)%nat ->
  match reset_default (S f) e sid (VStruct vs) with
  | VStruct l => nth_error l i = Some d
  | _ => False
  end.
Proof.
  intros i fd d Hn Hd _. pose proof (reset_default_member f e sid (VStruct vs) i fd Hn) as H.
  destruct (reset_default (S f) e sid (VStruct vs)); try exact H. now rewrite Hd in H.
Qed.

(* ---------- C05: outcome classification of the decoder's scalar layer; explicit refutation witnesses ---------- *)
Lemma dec_scalar_safe fuel tag req t prior bs :
  match dec_scalar fuel tag req t prior bs with DPanic _ | DHuge => False | _ => True end.
Proof.
  unfold dec_scalar. destruct t; try exact I;
  match goal with |- match of_rres ?r _ _ with _ => _ end => destruct r; exact I end.
Qed.

(* the inputs of the two allocation findings: a byte vector sent as a LIST with count -1 (the pinned code panicked in
   make) or 2^30 with nothing behind it (the pinned code allocated) is refused (Codec/Pinned.v has the pinned outcomes) *)
Example hostile_count_witness :
  let e := [[ {| ftag := 7; freq := true; fty := TVec TI8; fdef := None |} ]] in
  decode e 0 [121; 0; 255] = DErr /\
  decode e 0 [121; 2; 64; 0; 0; 0] = DErr.
Proof. vm_compute. split; reflexivity. Qed.

(* the nesting limit: at the limit a nested head is refused without recursing, whatever follows *)
Theorem skip_depth_limit fuel ty bs : (ty = tMAP \/ ty = tLIST \/ ty = tSB) ->
  skip_field (S fuel) maxd ty bs = (SErr, bs).
Proof. intros [H|[H|H]]; subst ty; reflexivity. Qed.

(* ---------- C03: member-level round trip for every scalar member type, any suffix, exact cursor ---------- *)
Definition scalar_typed (t : ty) (v : val) : Prop :=
  match t, v with
  | TBool, VBool _ => True
  | TI8, VInt z => fits 8 z = true | TI16, VInt z => fits 16 z = true
  | TI32, VInt z => fits 32 z = true | TEnum, VInt z => fits 32 z = true | TI64, VInt z => fits 64 z = true
  | TU8, VInt z => (0 <= z < 256)%Z | TU16, VInt z => (0 <= z < 65536)%Z | TU32, VInt z => (0 <= z < 4294967296)%Z
  | TF32, VFlt b => b < 4294967296 | TF64, VFlt b => b < 18446744073709551616
  | TStr, VStr s => N.of_nat (length s) < 4294967296
  | _, _ => False
  end.

Theorem scalar_member_roundtrip f e tag req t prior v rest : tag < 256 -> scalar_typed t v ->
  dec_var (S (S f)) e tag req t prior (w_scalar t v tag ++ rest) = DOk v rest.
Proof.
  intros Htag Hty. destruct t; destruct v; cbn [scalar_typed] in Hty; try contradiction;
  cbn [dec_var dec_scalar w_scalar].
  - now rewrite roundtrip_bool.
  - now rewrite roundtrip_int8.
  - now rewrite roundtrip_uint8.
  - now rewrite roundtrip_int16.
  - now rewrite roundtrip_uint16.
  - now rewrite roundtrip_int32.
  - now rewrite roundtrip_uint32.
  - now rewrite roundtrip_int64.
  - now rewrite roundtrip_f32.
  - now rewrite roundtrip_f64.
  - now rewrite roundtrip_string.
  - now rewrite roundtrip_int32.
Qed.

(* an omitted optional scalar member: nothing was written, and when what follows starts with a larger tag,
   the enclosing StructEnd or the end of input, the member keeps its reset value and nothing is consumed *)
Theorem optional_member_absent f e tag t prior rest :
  (match t with TVec _ | TMap _ _ | TArr _ _ | TStruct _ => False | _ => True end) ->
  (rest = [] \/ exists ty tg r, read_head2 rest = Some (ty, tg, r, negb (tg <? 15)) /\ ((ty =? tSE) || (tag <? tg) = true)) ->
  dec_var (S (S f)) e tag false t prior rest = DOk prior rest.
Proof.
  intros Hsc Hrest.
  assert (Hseek : skip_to_no_check (S f) tag false rest = NotFound rest).
  { cbn [skip_to_no_check]. destruct Hrest as [->|(ty & tg & r & Hh & Hc)]; [reflexivity|].
    rewrite Hh, Hc. unfold unread. destruct (tg <? 15); reflexivity. }
  destruct t; try contradiction; cbn [dec_var dec_scalar];
  unfold_scalar;
  rewrite Hseek; reflexivity.
Qed.
