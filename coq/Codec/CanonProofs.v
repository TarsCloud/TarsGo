(* C03: the generated encoding is canonical. encode o norm = encode (re-encoding what was decoded from an encoding
   gives the same bytes), so two values have the same encoding exactly when they have the same normal form; and
   the decoder accepts more than the encoder produces (wider integers, STRING4 for short strings, members present
   at their default, unknown fields, vector<byte> as LIST, ZeroTag floats): on those images decode-then-encode
   is NOT the identity (witnesses). *)
From Coq Require Import List NArith ZArith Lia Bool Arith.
From Coq Require Import ZifyN ZifyNat ZifyBool.
From TarsV Require Import Gen.Consts Base.Hex Codec.Wire Codec.WireProofs Codec.Skip Codec.SkipProofs Codec.Prim
  Codec.PrimProofs Codec.GenCodec Codec.Corr Codec.GenProofs Codec.RoundTrip Codec.RoundTripProofs Codec.NormProofs.
Import ListNotations.
Open Scope N_scope.

Lemma flt_eq_self (na nb : bool) b x y : na && nb && x = true -> nb && nb && ((b =? b) || y) = true.
Proof. intros H. rewrite N.eqb_refl. destruct na, nb; try discriminate H; reflexivity. Qed.
Lemma f32_eq_self_of a b : f32_eq a b = true -> f32_eq b b = true.
Proof. apply flt_eq_self. Qed.
Lemma f64_eq_self_of a b : f64_eq a b = true -> f64_eq b b = true.
Proof. apply flt_eq_self. Qed.
Lemma bytes_eqb_refl s : bytes_eqb s s = true.
Proof. now apply bytes_eqb_eq. Qed.

(* the value an omitted optional scalar comes back as is itself omitted: the default equals itself under the test of
   its type - for floats because a NaN default is equal to nothing, so with a NaN default v was not omitted *)
Lemma omit_norm_scalar t req d v : scalar_ty t = true -> sc_typed t v -> (forall dv, d = Some dv -> sc_typed t dv) ->
  omit t req d v = true -> omit t req d (match d with Some dv => dv | None => zscalar t end) = true.
Proof.
  intros Hsc Hty Hd Ho. unfold omit in *.
  destruct t; try discriminate; apply andb_true_iff in Ho; destruct Ho as [Hr Ho]; rewrite Hr; cbn [andb];
    destruct v; cbn [sc_typed] in Hty; try contradiction; cbn [scalar_is_default] in Ho;
    (destruct d as [dv|]; [specialize (Hd dv eq_refl); destruct dv; cbn [sc_typed] in Hd; try contradiction|]);
    cbn [zscalar scalar_is_default];
    first [ apply Z.eqb_refl | apply eqb_reflx | apply bytes_eqb_refl | reflexivity
          | eapply f32_eq_self_of; eassumption | eapply f64_eq_self_of; eassumption ].
Qed.

Lemma norm_elems_length e x xs : length (norm_elems e x xs) = length xs.
Proof. induction xs; cbn [norm_elems length]; congruence. Qed.
Lemma norm_entries_length e kt vt kvs : length (norm_entries e kt vt kvs) = length kvs.
Proof. induction kvs as [|[k x] r IH]; cbn [norm_entries length]; congruence. Qed.
Lemma is_nil_norm_elems e x xs :
  (match norm_elems e x xs with [] => true | _ => false end) = (match xs with [] => true | _ => false end).
Proof. destruct xs; reflexivity. Qed.
Lemma is_nil_norm_entries e kt vt kvs :
  (match norm_entries e kt vt kvs with [] => true | _ => false end) = (match kvs with [] => true | _ => false end).
Proof. destruct kvs as [|[k x] r]; reflexivity. Qed.

Section Canon.
Variable e : env.
Hypothesis Hdt : defaults_typed e.

(* re-encoding the normal form of a member gives the member's bytes *)
Definition canon_member (t : ty) (v : val) : Prop := forall tag req d, (forall dv, d = Some dv -> sc_typed t dv) ->
  enc_var e tag req t d (norm e t req d v) = enc_var e tag req t d v.

Lemma enc_elems_norm x xs : Forall (canon_member x) xs -> enc_elems e x (norm_elems e x xs) = enc_elems e x xs.
Proof.
  induction 1 as [|y r Hy _ IH]; cbn [norm_elems enc_elems]; [reflexivity|]. rewrite Hy by discriminate. now rewrite IH.
Qed.
Lemma enc_entries_norm kt vt kvs : Forall (fun p => canon_member kt (fst p) /\ canon_member vt (snd p)) kvs ->
  enc_entries e kt vt (norm_entries e kt vt kvs) = enc_entries e kt vt kvs.
Proof.
  induction 1 as [|[ky y] r [Hk Hy] _ IH]; cbn [norm_entries enc_entries]; [reflexivity|]. cbn [fst snd] in Hk, Hy.
  rewrite Hk, Hy by discriminate. now rewrite IH.
Qed.
Lemma enc_fields_norm_of fds vs : Forall2 (fun fd x => canon_member (fty fd) x) fds vs ->
  (forall fd dv, In fd fds -> fdef fd = Some dv -> sc_typed (fty fd) dv) ->
  enc_fields e (norm_fields e vs fds) fds = enc_fields e vs fds.
Proof.
  induction 1 as [|fd x fds vs Hx _ IH]; intros Hd; cbn [norm_fields enc_fields]; [reflexivity|].
  rewrite Hx by (intros dv Hdv; apply (Hd fd dv); [now left|assumption]). rewrite IH; [reflexivity|].
  intros fd' dv Hin. apply Hd. now right.
Qed.

Theorem enc_var_norm : forall t v, has_type e t v -> canon_member t v.
Proof.
  apply (has_type_nested e canon_member); unfold canon_member.
  - intros t v Hs Hty tag req d Hd. rewrite norm_scalar by assumption. destruct (omit t req d v) eqn:Eo; [|reflexivity].
    rewrite !enc_var_scalar by assumption. rewrite Eo. now rewrite (omit_norm_scalar t req d v) by assumption.
  - reflexivity.
  - intros x xs _ _ _ IH tag req d _. now rewrite norm_vec, !enc_var_list, is_nil_norm_elems, norm_elems_length, (enc_elems_norm x xs IH).
  - intros n x xs _ _ _ _ IH tag req d _. now rewrite norm_arr, !enc_var_arr, is_nil_norm_elems, norm_elems_length, (enc_elems_norm x xs IH).
  - intros kt vt kvs _ _ IH tag req d _.
    now rewrite norm_map, !enc_var_map, is_nil_norm_entries, norm_entries_length, (enc_entries_norm kt vt kvs IH).
  - intros sid vs _ IH tag req d _. rewrite norm_str, !enc_var_struct, (enc_fields_norm_of _ vs IH); [reflexivity|].
    intros fd dv Hin. apply (Hdt sid fd dv Hin).
Qed.

Theorem encode_norm sid vs : has_type e (TStruct sid) (VStruct vs) ->
  encode e sid (norm_struct e sid (VStruct vs)) = encode e sid (VStruct vs).
Proof.
  intros Hty. unfold norm_struct. rewrite norm_str, !encode_fields.
  inversion Hty as [| | | | |? ? Hvs]; subst; [discriminate|]. apply enc_fields_norm_of; [|intros fd dv Hin; apply (Hdt sid fd dv Hin)].
  clear Hty. induction Hvs; constructor; [now apply enc_var_norm|assumption].
Qed.
End Canon.
Print Assumptions encode_norm.

Section Unique.
Variable e : env.
Variable k n : nat.
Hypothesis Hwf : wf_schema k e.
Hypothesis Hdt : defaults_typed e.
Hypothesis Hk : (S k <= 64)%nat.
Variable sid : nat.
Hypothesis Hfin : tfin n e (TStruct sid) = true.
Hypothesis Hn : (tneed n e (TStruct sid) + k <= 64)%nat.

(* decode-then-encode is the identity on every image of the encoder *)
Theorem reencode_canonical vs : has_type e (TStruct sid) (VStruct vs) ->
  exists v', decode e sid (encode e sid (VStruct vs)) = DOk v' [] /\ encode e sid v' = encode e sid (VStruct vs).
Proof.
  intros Hty. exists (norm_struct e sid (VStruct vs)). split.
  - now apply (roundtrip_struct_static e k n).
  - now apply encode_norm.
Qed.
(* two values have the same bytes exactly when they have the same normal form: the encoder is injective up to
   norm (i.e. up to Go's == on omitted optional floats), and the bytes of a value are unique *)
Theorem encode_injective vs1 vs2 : has_type e (TStruct sid) (VStruct vs1) -> has_type e (TStruct sid) (VStruct vs2) ->
  (encode e sid (VStruct vs1) = encode e sid (VStruct vs2) <-> norm_struct e sid (VStruct vs1) = norm_struct e sid (VStruct vs2)).
Proof.
  intros H1 H2. split; intros E.
  - pose proof (roundtrip_struct_static e k n sid vs1 Hwf Hk Hfin Hn H1) as D1.
    pose proof (roundtrip_struct_static e k n sid vs2 Hwf Hk Hfin Hn H2) as D2.
    rewrite E in D1. rewrite D1 in D2. congruence.
  - transitivity (encode e sid (norm_struct e sid (VStruct vs1))); [symmetry; now apply encode_norm|].
    rewrite E. now apply encode_norm.
Qed.
End Unique.

(* "decode-then-encode is the identity on every accepted input" is false: the readers widen (an integer member
   accepts every narrower-or-equal wire width, not only the narrowest), accept STRING4 for a short string, a
   member present at its default, ZeroTag for a float, a vector<byte> sent as LIST, and skip unknown fields.
   Each witness is accepted with everything consumed and re-encodes to different (the canonical) bytes. *)
Definition reencode_identity_statement : Prop :=
  forall e sid bs v, decode e sid bs = DOk v [] -> encode e sid v = bs.
Definition w_schema : env :=
  [ [ {| ftag := 0; freq := true; fty := TI32; fdef := None |};
      {| ftag := 1; freq := false; fty := TStr; fdef := None |};
      {| ftag := 2; freq := false; fty := TI32; fdef := Some (VInt 7) |};
      {| ftag := 3; freq := false; fty := TVec TI8; fdef := None |};
      {| ftag := 5; freq := false; fty := TF64; fdef := Some (VFlt 4607182418800017408) |} ] ].
Definition noncanonical (bs : list N) : bool :=
  match decode w_schema 0 bs with
  | DOk v [] => negb (bytes_eqb (encode w_schema 0 v) bs)
  | _ => false
  end.
Example noncanonical_images :
  noncanonical [1; 0; 5] = true                        (* int 5 as SHORT; canonical: BYTE *)
  /\ noncanonical [2; 0; 0; 0; 5] = true               (* int 5 as INT *)
  /\ noncanonical [0; 5; 23; 0; 0; 0; 1; 97] = true    (* "a" as STRING4; canonical: STRING1 *)
  /\ noncanonical [0; 5; 32; 7] = true                 (* optional member present at its default 7; canonical: left out *)
  /\ noncanonical [0; 5; 57; 0; 1; 0; 9] = true        (* vector<byte> [9] as LIST; canonical: SimpleList *)
  /\ noncanonical [0; 5; 92] = true                    (* double 0.0 as ZeroTag; canonical: DOUBLE + 8 bytes *)
  /\ noncanonical [0; 5; 84; 63; 128; 0; 0] = true     (* double member sent as FLOAT 1.0 = its default; canonical: left out *)
  /\ noncanonical [0; 5; 64; 9] = true                 (* unknown field tag 4; canonical: absent *)
  /\ noncanonical [0; 5] = false.                      (* the canonical image *)
Proof. vm_compute. repeat split; reflexivity. Qed.
Theorem reencode_identity_refuted : ~ reencode_identity_statement.
Proof.
  intros H. destruct noncanonical_images as [N1 _]. unfold noncanonical in N1.
  destruct (decode w_schema 0 [1; 0; 5]) as [v [|]| | | |] eqn:E; try discriminate.
  rewrite (H _ _ _ _ E), bytes_eqb_refl in N1. discriminate.
Qed.
Print Assumptions reencode_canonical.
Print Assumptions encode_injective.
Print Assumptions reencode_identity_refuted.
