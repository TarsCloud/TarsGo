(* the normal form of the round trip is the value itself up to Go's == on float members *)
From Coq Require Import List NArith ZArith Lia Bool Arith.
From Coq Require Import ZifyN ZifyNat ZifyBool.
From TarsV Require Import Gen.Consts Base.Hex Codec.Wire Codec.Skip Codec.Prim Codec.GenCodec Codec.Corr Codec.GenProofs
  Codec.RoundTrip Codec.RoundTripProofs.
Import ListNotations.
Open Scope N_scope.

(* an omitted value passed the default test of its type: for bool, integers and strings that test is equality with the
   default, for floats it is IEEE equality, which veq allows (VQ_f32 / VQ_f64) *)
Lemma norm_scalar_veq e t req d v : scalar_ty t = true -> sc_typed t v ->
  (forall dv, d = Some dv -> sc_typed t dv) -> veq e t (norm e t req d v) v.
Proof.
  intros Hsc Hty Hd. rewrite norm_scalar by assumption. destruct (omit t req d v) eqn:Eo; [|apply VQ_refl].
  unfold omit in Eo. destruct t; try discriminate; try (apply andb_true_iff in Eo; destruct Eo as [_ Eo]);
    destruct v; cbn [sc_typed] in Hty; try contradiction; cbn [scalar_is_default] in Eo;
    (destruct d as [dv|]; [specialize (Hd dv eq_refl); destruct dv; cbn [sc_typed] in Hd; try contradiction|]); cbn [zscalar];
    try (apply Bool.eqb_prop in Eo; subst; apply VQ_refl);
    try (apply Z.eqb_eq in Eo; subst; apply VQ_refl);
    try (apply bytes_eqb_eq in Eo; subst; apply VQ_refl);
    try (now apply VQ_f32); try (now apply VQ_f64).
Qed.

Section Norm.
Variable e : env.
Hypothesis Hdt : defaults_typed e.

(* the normal form of a member equals the member, whatever default its position declares *)
Definition veq_member (t : ty) (v : val) : Prop :=
  forall req d, (forall dv, d = Some dv -> sc_typed t dv) -> veq e t (norm e t req d v) v.

Lemma norm_elems_veq x xs : Forall (veq_member x) xs -> Forall2 (veq e x) (norm_elems e x xs) xs.
Proof. induction 1 as [|y r Hy _ IH]; cbn [norm_elems]; constructor; [now apply Hy|assumption]. Qed.
Lemma norm_entries_veq kt vt kvs : Forall (fun p => veq_member kt (fst p) /\ veq_member vt (snd p)) kvs ->
  Forall2 (fun p q => veq e kt (fst p) (fst q) /\ veq e vt (snd p) (snd q)) (norm_entries e kt vt kvs) kvs.
Proof.
  induction 1 as [|[ky y] r [Hk Hy] _ IH]; cbn [norm_entries]; constructor; [|assumption]. cbn [fst snd] in *.
  split; [now apply Hk|now apply Hy].
Qed.
Lemma norm_fields_veq fds vs : Forall2 (fun fd x => veq_member (fty fd) x) fds vs ->
  (forall fd dv, In fd fds -> fdef fd = Some dv -> sc_typed (fty fd) dv) ->
  Forall2 (fun p y => veq e (fty (fst p)) (snd p) y) (combine fds (norm_fields e vs fds)) vs.
Proof.
  induction 1 as [|fd x fds vs Hx _ IH]; intros Hd; cbn [norm_fields combine]; constructor.
  - cbn [fst snd]. apply Hx. intros dv Hdv. apply (Hd fd dv); [now left|assumption].
  - apply IH. intros fd' dv Hin. apply Hd. now right.
Qed.

Theorem norm_member_veq : forall t v, has_type e t v -> veq_member t v.
Proof.
  apply (has_type_nested e veq_member); unfold veq_member.
  - intros t v Hs Hty req d Hd. now apply norm_scalar_veq.
  - intros s _ req d _. apply VQ_refl.
  - intros x xs _ _ _ IH req d _. rewrite norm_vec. apply VQ_vec. now apply norm_elems_veq.
  - intros n x xs _ _ _ _ IH req d _. rewrite norm_arr. apply VQ_arr. now apply norm_elems_veq.
  - intros kt vt kvs _ _ IH req d _. rewrite norm_map. apply VQ_map. now apply norm_entries_veq.
  - intros sid vs _ IH req d _. rewrite norm_str. apply VQ_struct. apply norm_fields_veq; [assumption|].
    intros fd dv Hin. apply (Hdt sid fd dv Hin).
Qed.

Theorem norm_veq sid vs : has_type e (TStruct sid) (VStruct vs) ->
  veq e (TStruct sid) (norm_struct e sid (VStruct vs)) (VStruct vs).
Proof.
  intros Hty. unfold norm_struct. now apply norm_member_veq.
Qed.
End Norm.

Theorem defaults_typed_b_sound e : defaults_typed_b e = true -> defaults_typed e.
Proof.
  intros H sid fd dv Hin Hd. pose proof (env_forallb _ e H sid fd Hin) as Hb. cbv beta in Hb. rewrite Hd in Hb.
  now apply sc_typed_b_sound.
Qed.
Print Assumptions norm_veq.

(* C03, first clause as the property states it: decoding the encoding yields an equal value *)
Theorem roundtrip_equal e k n sid vs :
  wf_schema k e -> defaults_typed e -> (S k <= 64)%nat ->
  tfin n e (TStruct sid) = true -> (tneed n e (TStruct sid) + k <= 64)%nat ->
  has_type e (TStruct sid) (VStruct vs) ->
  exists v', decode e sid (encode e sid (VStruct vs)) = DOk v' [] /\ veq e (TStruct sid) v' (VStruct vs).
Proof.
  intros Hwf Hdt Hk Hfin Hn Hty. exists (norm_struct e sid (VStruct vs)). split.
  - now apply (roundtrip_struct_static e k n).
  - now apply norm_veq.
Qed.
Print Assumptions roundtrip_equal.
