(* C05: the repaired decoders of every type (vectors, arrays, maps, recursive types included) never panic or
   over-allocate, on any bytes; and the model's linear fuel never runs out, on any bytes, for any type with a finite
   type graph. In the inductions over the fuel the case of fuel 0 is closed by lia: every fuel hypothesis has a
   summand + 3 or + 4. *)
From Coq Require Import List NArith ZArith Lia Bool Arith.
From Coq Require Import ZifyN ZifyNat ZifyBool.
From TarsV Require Import Gen.Consts Base.Hex Codec.Wire Codec.WireProofs Codec.Skip Codec.SkipProofs Codec.Prim
  Codec.PrimProofs Codec.GenCodec Codec.Corr Codec.GenProofs Codec.RoundTrip Codec.RoundTripProofs.
Import ListNotations.
Ltac Zify.zify_post_hook ::= Z.div_mod_to_equations.
Open Scope N_scope.

Section NoPanic.
Variable e : env.

(* the only outcome of the repaired decoder that is neither a value, an error nor the fuel artifact would be the
   index check of a fixed array (DPanic site_array_index in dec_arr): the count check in front of the loop keeps the
   index below the array's length *)
Definition NP_var (f : nat) : Prop := forall t tag req prior bs, ok_out (dec_var f e tag req t prior bs).
Definition NP_elems (f : nat) : Prop := forall x cnt bs, ok_out (dec_elems f e x cnt bs).
Definition NP_arr (f : nat) : Prop := forall x len i cnt cur bs, (Z.of_nat i + cnt <= Z.of_nat len)%Z ->
  ok_out (dec_arr f e x len i cnt cur bs).
Definition NP_entries (f : nat) : Prop := forall kt vt cnt bs, ok_out (dec_entries f e kt vt cnt bs).
Definition NP_fields (f : nat) : Prop := forall fds ps bs, ok_out (dec_fields f e fds ps bs).

(* a decoder step passes on every outcome of the call it makes except a value *)
Lemma ok_out_bind {A B} (r : dres A) (k : A -> list N -> dres B) : ok_out r -> (forall a rest, ok_out (k a rest)) ->
  ok_out (match r with DOk a rest => k a rest | DErr => DErr | DPanic s => DPanic s | DHuge => DHuge | DFuel => DFuel end).
Proof. destruct r; cbn; auto. Qed.

Lemma np_all : forall f, NP_var f /\ NP_elems f /\ NP_arr f /\ NP_entries f /\ NP_fields f.
Proof.
  induction f as [|f (HV & HL & HA & HE & HF)]; [repeat split; intro; intros; exact I|]. repeat split.
  - intros t tag req prior bs.
    destruct t as [| | | | | | | | | | | |x|kt vt|n x|sid]; try (rewrite dec_var_scalar by reflexivity; apply dec_scalar_safe).
    + rewrite dec_var_vec. destruct (skip_to_no_check f tag req bs) as [wt r| | |]; try exact I.
      destruct (wt =? tLIST).
      { destruct (read_count r) as [c r1|]; try exact I. destruct (c <? 0)%Z; [exact I|]. destruct (_ <? c)%Z; [exact I|].
        apply ok_out_bind; [apply HL|intros; exact I]. }
      destruct (wt =? tSIMPLE); [|exact I]. destruct (is_byte x); [|exact I].
      destruct (skip_to f tBYTE 0 true r) as [? r1| | |]; try exact I. destruct (read_count r1) as [c r2|]; try exact I.
      destruct (read_slice c r2) as [[? ?]|]; exact I.
    + rewrite dec_var_map.
      destruct (skip_to f tMAP tag req bs) as [? r| | |]; try exact I. destruct (read_count r) as [c r1|]; try exact I.
      destruct ((c <? 0)%Z || (_ <? c)%Z); [exact I|]. apply ok_out_bind; [apply HE|intros; exact I].
    + rewrite dec_var_arr. destruct (skip_to_no_check f tag req bs) as [wt r| | |]; try exact I.
      destruct (wt =? tLIST); [|exact I]. destruct (read_count r) as [c r1|]; try exact I.
      destruct ((c <? 0)%Z || (Z.of_nat n <? c)%Z) eqn:Eg; [exact I|].
      apply ok_out_bind; [apply HA; lia|intros; exact I].
    + rewrite dec_var_struct. cbv zeta. destruct (skip_to f tSB tag req bs); try exact I.
      apply ok_out_bind; [apply HF|]. intros vs r. destruct (skip_to_end f 0 r) as [[| |] ?]; exact I.
  - intros x cnt bs. rewrite dec_elems_S. destruct (cnt <=? 0)%Z; [exact I|].
    apply ok_out_bind; [apply HV|]. intros v r. apply ok_out_bind; [apply HL|intros; exact I].
  - intros x len i cnt cur bs Hi. rewrite dec_arr_S. destruct (cnt <=? 0)%Z eqn:Ec; [exact I|].
    destruct (len <=? i)%nat eqn:Ei; [apply Nat.leb_le in Ei; lia|].
    apply ok_out_bind; [apply HV|]. intros v r. apply HA. lia.
  - intros kt vt cnt bs. rewrite dec_entries_S. destruct (cnt <=? 0)%Z; [exact I|].
    apply ok_out_bind; [apply HV|]. intros kv r. apply ok_out_bind; [apply HV|]. intros v r'.
    apply ok_out_bind; [apply HE|intros; exact I].
  - intros fds ps bs. rewrite dec_fields_S. destruct fds as [|fd fds]; [exact I|]. cbv zeta.
    apply ok_out_bind; [apply HV|]. intros v r. apply ok_out_bind; [apply HF|intros; exact I].
Qed.

(* any environment, any struct type (vectors, arrays, maps, recursive types included), any target, any bytes *)
Theorem decode_no_panic sid prior bs : ok_out (decode_into e sid prior bs).
Proof.
  unfold decode_into. destruct (np_all (4 * length bs + 64)) as (_ & _ & _ & _ & HF).
  pose proof (HF (fields_of e sid) (match reset_default (4 * length bs + 64) e sid prior with VStruct l => l | _ => [] end) bs) as H.
  destruct (dec_fields _ e (fields_of e sid) _ bs); try exact I; exact H.
Qed.
Theorem decode_no_panic_cases sid prior bs :
  match decode_into e sid prior bs with DOk _ _ | DErr | DFuel => True | _ => False end.
Proof. pose proof (decode_no_panic sid prior bs) as H. destruct (decode_into e sid prior bs); exact H || exact I. Qed.
(* the same at member level and for any fuel *)
Theorem dec_var_no_panic f t tag req prior bs : ok_out (dec_var f e tag req t prior bs).
Proof. destruct (np_all f) as (HV & _). apply HV. Qed.
End NoPanic.
Print Assumptions decode_no_panic.

(* the invariant of the fuel induction: a reader given enough fuel does not run out of it, what it leaves is part of its
   input, and a value it found (or any value, when the member is required) cost at least one byte *)
Definition rgood {A} (req : bool) (bs : list N) (r : rres A) : Prop :=
  match r with
  | RFuel => False
  | ROk _ rest => (length rest < length bs)%nat
  | RAbsent rest => (length rest <= length bs)%nat /\ req = false
  | RErr => True
  end.
Definition good {A} (req : bool) (bs : list N) (res : dres A) : Prop :=
  match res with
  | DFuel => False
  | DOk _ r => (length r <= length bs)%nat /\ (req = true -> (length r < length bs)%nat)
  | _ => True
  end.

Lemma with_seek_good {A} f tag req bs (body : N -> list N -> option (A * list N)) :
  (forall ty r a r', body ty r = Some (a, r') -> (length r' <= length r)%nat) ->
  (2 * length bs + 3 <= f)%nat -> rgood req bs (with_seek f tag req bs body).
Proof.
  intros Hb Hf. unfold with_seek. pose proof (seek_fuel f tag req bs Hf) as H.
  destruct (skip_to_no_check f tag req bs); cbn [seek_good rgood] in *; try tauto.
  destruct (body ty rest) as [[a r']|] eqn:E; [|exact I]. apply Hb in E. cbn [rgood]. lia.
Qed.
Lemma map_r_good {A B} (g : A -> B) req bs r : rgood req bs r -> rgood req bs (map_r g r).
Proof. destruct r; exact (fun H => H). Qed.
Lemma of_rres_good {A} req bs (r : rres A) prior inj : rgood req bs r -> good req bs (of_rres r prior inj).
Proof.
  destruct r; cbn [rgood of_rres good]; try tauto.
  - intros H. split; [lia|intros; lia].
  - intros [H ->]. split; [lia|discriminate].
Qed.
Lemma bread_map_len {A} n r (g : N -> A) a r' :
  match bread n r with None => None | Some (v, x) => Some (g v, x) end = Some (a, r') -> (length r' <= length r)%nat.
Proof. destruct (bread n r) as [[v x]|] eqn:B; [|discriminate]. apply bread_len in B. intros H; inversion H; subst; lia. Qed.
Lemma read_int_body_len bits ty r a r' : read_int_body bits ty r = Some (a, r') -> (length r' <= length r)%nat.
Proof.
  unfold read_int_body. destruct (ty =? tZERO); [intros H; inversion H; lia|].
  destruct (ty =? tBYTE). { destruct r; [discriminate|]. intros H; inversion H; cbn; lia. }
  destruct ((ty =? tSHORT) && (16 <=? bits)%Z); [apply bread_map_len|].
  destruct ((ty =? tINT) && (32 <=? bits)%Z); [apply bread_map_len|].
  destruct ((ty =? tLONG) && (64 <=? bits)%Z); [apply bread_map_len|].
  discriminate.
Qed.
Lemma read_f32_body_len ty r a r' : read_f32_body ty r = Some (a, r') -> (length r' <= length r)%nat.
Proof.
  unfold read_f32_body. destruct (ty =? tZERO); [intros H; inversion H; lia|].
  destruct (ty =? tFLOAT); [apply bread_len|discriminate].
Qed.
Lemma read_f64_body_len ty r a r' : read_f64_body ty r = Some (a, r') -> (length r' <= length r)%nat.
Proof.
  unfold read_f64_body. destruct (ty =? tZERO); [intros H; inversion H; lia|].
  destruct (ty =? tFLOAT); [apply bread_map_len|].
  destruct (ty =? tDOUBLE); [apply bread_len|discriminate].
Qed.
Lemma take_str_len l r s r' : take_str l r = Some (s, r') -> (length r' <= length r)%nat.
Proof. unfold take_str. destruct (_ <? _); [discriminate|]. intros H; inversion H. rewrite skipn_length. lia. Qed.
Lemma read_string_body_len ty r a r' : read_string_body ty r = Some (a, r') -> (length r' <= length r)%nat.
Proof.
  unfold read_string_body. destruct (ty =? tSTR4).
  { destruct (bread 4 r) as [[l x]|] eqn:B; [|discriminate]. apply bread_len in B. intros H. apply take_str_len in H. lia. }
  destruct (ty =? tSTR1); [|discriminate]. destruct r as [|l x]; [discriminate|]. intros H. apply take_str_len in H. cbn [length]. lia.
Qed.
Lemma dec_scalar_good f tag req t prior bs : (2 * length bs + 3 <= f)%nat -> good req bs (dec_scalar f tag req t prior bs).
Proof.
  intros Hf. unfold dec_scalar, r_bool, r_int8, r_uint8, r_int16, r_uint16, r_int32, r_uint32, r_int64, r_int, r_f32, r_f64, r_string.
  destruct t; try exact I; apply of_rres_good; repeat apply map_r_good; apply with_seek_good; try assumption;
    first [apply read_int_body_len | apply read_f32_body_len | apply read_f64_body_len | apply read_string_body_len].
Qed.
Lemma read_slice_len n r o r' : read_slice n r = Some (o, r') -> (length r' <= length r)%nat.
Proof.
  unfold read_slice. destruct (n <? 0)%Z; [discriminate|].
  destruct (_ <? _)%Z; [discriminate|]. intros H; inversion H. rewrite skipn_length. lia.
Qed.

Section Fuel.
Variable e : env.

Definition FS_var (f : nat) : Prop := forall n t tag req prior bs, tfin n e t = true ->
  (2 * length bs + 3 + tneed n e t <= f)%nat -> good req bs (dec_var f e tag req t prior bs).
Definition FS_elems (f : nat) : Prop := forall n x cnt bs, tfin n e x = true ->
  (2 * length bs + 4 + tneed n e x <= f)%nat -> good false bs (dec_elems f e x cnt bs).
Definition FS_arr (f : nat) : Prop := forall n x len i cnt cur bs, tfin n e x = true ->
  (2 * length bs + 4 + tneed n e x <= f)%nat -> good false bs (dec_arr f e x len i cnt cur bs).
Definition FS_entries (f : nat) : Prop := forall n kt vt cnt bs, tfin n e kt = true -> tfin n e vt = true ->
  (2 * length bs + 4 + Nat.max (tneed n e kt) (tneed n e vt) <= f)%nat -> good false bs (dec_entries f e kt vt cnt bs).
Definition FS_fields (f : nat) : Prop := forall n fds ps bs, (forall fd, In fd fds -> tfin n e (fty fd) = true) ->
  (2 * length bs + 4 + length fds + tmax (tneed n e) fds <= f)%nat -> good false bs (dec_fields f e fds ps bs).

Lemma tneed_ge n t : tfin n e t = true -> (3 <= tneed n e t)%nat.
Proof. destruct n; [discriminate|]. destruct t; cbn [tneed]; intros _; lia. Qed.

(* a call on bs (a part of bs0) followed by a continuation on what the call leaves *)
Lemma good_bind {A B} req1 req bs0 bs (r : dres A) (k : A -> list N -> dres B) :
  good req1 bs r -> (length bs <= length bs0)%nat ->
  (forall a rest, (length rest <= length bs)%nat -> (req1 = true -> (length rest < length bs)%nat) -> good req bs0 (k a rest)) ->
  good req bs0 (match r with DOk a rest => k a rest | DErr => DErr | DPanic s => DPanic s | DHuge => DHuge | DFuel => DFuel end).
Proof. destruct r; cbn [good]; intros H Hl Hk; try tauto. now apply Hk. Qed.

Lemma good_ok {A} req (bs bs0 : list N) (a : A) r : (length r <= length bs)%nat -> (length bs <= length bs0)%nat ->
  (req = true -> (length bs < length bs0)%nat) -> good req bs0 (DOk a r).
Proof. intros H1 H2 H3. split; [lia|]. intros E. specialize (H3 E). lia. Qed.

Lemma fs_all : forall f, FS_var f /\ FS_elems f /\ FS_arr f /\ FS_entries f /\ FS_fields f.
Proof.
  induction f as [|f (HV & HE & HA & HM & HF)].
  { repeat split; intro; intros; lia. }
  repeat split.
  - (* dec_var: behind the head what is left is strictly shorter *)
    intros n t tag req prior bs Hfin Hf. destruct n as [|n]; [discriminate|].
    destruct t; try (rewrite dec_var_scalar by reflexivity; apply dec_scalar_good; cbn [tneed] in Hf; lia);
      cbn [tfin tneed] in Hfin, Hf.
    + rewrite dec_var_vec.
      pose proof (seek_fuel f tag req bs ltac:(lia)) as Hs.
      destruct (skip_to_no_check f tag req bs) as [wt r|r| |]; cbn [seek_good good] in *; try tauto; [|split; [lia|now destruct Hs as [_ ->]]].
      destruct (wt =? tLIST).
      { pose proof (read_count_len_ok r) as Hc. destruct (read_count r) as [c r1|]; [|exact I].
        destruct (c <? 0)%Z; [exact I|]. destruct (_ <? c)%Z; [exact I|].
        apply (good_bind false req bs r1); [apply (HE n); [assumption|lia]|lia|]. intros xs r2 Hl _. apply (good_ok _ r1); lia. }
      destruct (wt =? tSIMPLE); [|exact I]. destruct (is_byte t); [|exact I].
      pose proof (skip_to_fuel f tBYTE 0 true r ltac:(lia)) as Hs2.
      destruct (skip_to f tBYTE 0 true r) as [wt1 r1|r1| |]; cbn [seek_good good] in *; try tauto.
      pose proof (read_count_len_ok r1) as Hc. destruct (read_count r1) as [c r2|]; [|exact I].
      destruct (read_slice c r2) as [[s r3]|] eqn:Er; [|exact I]. apply read_slice_len in Er. apply (good_ok _ r2); lia.
    + apply andb_true_iff in Hfin. destruct Hfin as [Ha Hb]. rewrite dec_var_map.
      pose proof (skip_to_fuel f tMAP tag req bs ltac:(lia)) as Hs.
      destruct (skip_to f tMAP tag req bs) as [wt r|r| |]; cbn [seek_good good] in *; try tauto; [|split; [lia|now destruct Hs as [_ ->]]].
      pose proof (read_count_len_ok r) as Hc. destruct (read_count r) as [c r1|]; [|exact I].
      destruct ((c <? 0)%Z || (_ <? c)%Z); [exact I|].
      apply (good_bind false req bs r1); [apply (HM n); [assumption..|lia]|lia|]. intros xs r2 Hl _. apply (good_ok _ r1); lia.
    + rewrite dec_var_arr.
      pose proof (seek_fuel f tag req bs ltac:(lia)) as Hs.
      destruct (skip_to_no_check f tag req bs) as [wt r|r| |]; cbn [seek_good good] in *; try tauto; [|split; [lia|now destruct Hs as [_ ->]]].
      destruct (wt =? tLIST); [|exact I].
      pose proof (read_count_len_ok r) as Hc. destruct (read_count r) as [c r1|]; [|exact I].
      destruct ((c <? 0)%Z || (_ <? c)%Z); [exact I|].
      apply (good_bind false req bs r1); [apply (HA n); [assumption|lia]|lia|]. intros xs r2 Hl _. apply (good_ok _ r1); lia.
    + rewrite forallb_forall in Hfin. rewrite dec_var_struct. cbv zeta.
      pose proof (skip_to_fuel f tSB tag req bs ltac:(lia)) as Hs.
      destruct (skip_to f tSB tag req bs) as [wt r|r| |]; cbn [seek_good good] in *; try tauto; [|split; [lia|now destruct Hs as [_ ->]]].
      apply (good_bind false req bs r); [apply (HF n); [assumption|lia]|lia|]. intros vs r1 Hl _.
      destruct (skip_fuel f) as (_ & _ & He). destruct (He 0 r1 ltac:(lia)) as [Hne Hl'].
      destruct (skip_to_end f 0 r1) as [[| |] r2]; cbn [fst snd] in *; try exact I; [apply (good_ok _ r1); lia|congruence].
  - intros n x cnt bs Hfin Hf. rewrite dec_elems_S. destruct (cnt <=? 0)%Z; [apply (good_ok _ bs); (apply le_n || discriminate)|].
    apply (good_bind true false bs bs); [apply (HV n); [assumption|lia]|apply le_n|]. intros v r Hl Hs. specialize (Hs eq_refl).
    apply (good_bind false false bs r); [apply (HE n); [assumption|lia]|lia|]. intros vs r' Hl' _. apply (good_ok _ r); lia || discriminate.
  - intros n x len i cnt cur bs Hfin Hf. rewrite dec_arr_S. destruct (cnt <=? 0)%Z; [apply (good_ok _ bs); (apply le_n || discriminate)|].
    destruct (len <=? i)%nat; [exact I|].
    apply (good_bind true false bs bs); [apply (HV n); [assumption|lia]|apply le_n|]. intros v r Hl Hs. specialize (Hs eq_refl).
    pose proof (HA n x len (S i) (cnt - 1)%Z (replace_nth i v cur) r Hfin ltac:(lia)) as H2.
    destruct (dec_arr f e x len (S i) (cnt - 1)%Z _ r); cbn [good] in *; try tauto. split; [lia|discriminate].
  - intros n kt vt cnt bs Ha Hb Hf. rewrite dec_entries_S. destruct (cnt <=? 0)%Z; [apply (good_ok _ bs); (apply le_n || discriminate)|].
    apply (good_bind true false bs bs); [apply (HV n); [assumption|lia]|apply le_n|]. intros kv r Hl Hs. specialize (Hs eq_refl).
    apply (good_bind true false bs r); [apply (HV n); [assumption|lia]|lia|]. intros v r' Hl' Hs'. specialize (Hs' eq_refl).
    apply (good_bind false false bs r'); [apply (HM n); [assumption..|lia]|lia|]. intros vs r'' Hl'' _. apply (good_ok _ r'); lia || discriminate.
  - intros n fds ps bs Hfin Hf. rewrite dec_fields_S. destruct fds as [|fd fds]; [apply (good_ok _ bs); (apply le_n || discriminate)|]. cbv zeta.
    cbn [length tmax fold_right] in Hf. fold (tmax (tneed n e) fds) in Hf.
    apply (good_bind (freq fd) false bs bs); [apply (HV n); [apply Hfin; now left|lia]|apply le_n|]. intros v r Hl _.
    apply (good_bind false false bs r); [apply (HF n); [intros fd' Hin; apply Hfin; now right|lia]|lia|].
    intros vs r' Hl' _. apply (good_ok _ r); lia || discriminate.
Qed.

(* the model's fuel never runs out, whatever the bytes and the target *)
Theorem decode_fuel n sid prior bs : tfin n e (TStruct sid) = true -> (tneed n e (TStruct sid) <= 64)%nat ->
  decode_into e sid prior bs <> DFuel.
Proof.
  intros Hfin Hn. destruct n as [|n]; [discriminate|]. cbn [tfin tneed] in Hfin, Hn. rewrite forallb_forall in Hfin.
  unfold decode_into. destruct (fs_all (4 * length bs + 64)) as (_ & _ & _ & _ & HF).
  pose proof (HF n (fields_of e sid) (match reset_default (4 * length bs + 64) e sid prior with VStruct l => l | _ => [] end) bs Hfin ltac:(lia)) as H.
  destruct (dec_fields _ e (fields_of e sid) _ bs); cbn [good] in H; try discriminate. contradiction.
Qed.
End Fuel.

(* C05: every struct type with a finite type graph (vectors, arrays and maps included), any target, ANY bytes:
   a value or an error - no panic, no count beyond the bytes left reaching an allocation, and the model's fuel
   suffices *)
Theorem decode_total e n sid prior bs : tfin n e (TStruct sid) = true -> (tneed n e (TStruct sid) <= 64)%nat ->
  total_out (decode_into e sid prior bs).
Proof.
  intros Hs Hn. pose proof (decode_no_panic e sid prior bs) as H1.
  pose proof (decode_fuel e n sid prior bs Hs Hn) as H2.
  destruct (decode_into e sid prior bs); cbn [ok_out total_out] in *; try tauto; congruence.
Qed.
Print Assumptions decode_fuel.
Print Assumptions decode_total.
