(* C05T: the packet-level theorems of PacketProofs.v composed with the struct-level round trip / fuel theorems
   instantiated on the regenerated schemas (RoundTripExamples.v). *)
From Coq Require Import List NArith ZArith Lia Bool Arith.
From TarsV Require Import Gen.Consts Base.Hex Codec.Wire Codec.Skip Codec.Prim Codec.GenCodec Codec.Corr Gen.Schemas
  Codec.RoundTrip Codec.RoundTripExamples Frame.Framing Codec.Packet Codec.PacketProofs.
Import ListNotations.
Open Scope N_scope.

Definition rq := sid_requestf_RequestPacket.
Definition rs := sid_requestf_ResponsePacket.

Example packets_fit : fits_model rq = true /\ fits_model rs = true.
Proof. vm_compute. split; reflexivity. Qed.

(* RequestPack, then the server's reading of the packet: the request, for every well-typed RequestPacket value *)
Theorem request_pack_roundtrip vs : has_type env0 (TStruct rq) (VStruct vs) ->
  exists v', request_unpack env0 rq (request_pack env0 rq (VStruct vs)) = DOk v' [] /\ veq env0 (TStruct rq) v' (VStruct vs).
Proof. intros H. rewrite request_pack_unpack. apply env0_roundtrip_equal; [apply packets_fit|exact H]. Qed.

(* rsp2Byte of a non-TUP reply, then the client's ResponseUnpack: the response *)
Theorem rsp2byte_roundtrip vs : has_type env0 (TStruct rs) (VStruct vs) ->
  (rsp_version env0 rs (VStruct vs) =? c_TUPVERSION)%Z = false ->
  exists v', response_unpack env0 rs (rsp2byte env0 rq rs c_TUPVERSION (VStruct vs)) = DOk v' [] /\ veq env0 (TStruct rs) v' (VStruct vs).
Proof. intros H Hv. rewrite rsp2byte_plain by exact Hv. apply env0_roundtrip_equal; [apply packets_fit|exact H]. Qed.

(* unpack on ARBITRARY bytes: never out of fuel; below four bytes the slice panic *)
Lemma unpack_fuel sid pkg : fits_model sid = true -> unpack env0 sid pkg <> DFuel.
Proof. intros H. destruct (unpack_total env0 sid pkg) as [[_ ->]|[_ ->]]; [discriminate|]. now apply env0_fuel. Qed.
Theorem response_unpack_fuel pkg : response_unpack env0 rs pkg <> DFuel.
Proof. apply unpack_fuel, packets_fit. Qed.
Theorem request_unpack_fuel pkg : request_unpack env0 rq pkg <> DFuel.
Proof. apply unpack_fuel, packets_fit. Qed.
Print Assumptions request_pack_roundtrip.
Print Assumptions rsp2byte_roundtrip.
Print Assumptions response_unpack_fuel.
