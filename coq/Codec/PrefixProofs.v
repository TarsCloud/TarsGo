(* C06 struct level, flat structs (all members scalar: bool, integers, floats, strings, enums): decoding any
   proper prefix of an encoding fails, or yields exactly the members completely present with the later
   (optional) members at their defaults. And, for members of every type: a present member whose wire type its
   reader does not accept, or whose embedded length or count exceeds what is left of the input, is an error. *)
From Coq Require Import List NArith ZArith Lia Bool Arith.
From Coq Require Import ZifyN ZifyNat ZifyBool.
From TarsV Require Import Gen.Consts Base.Hex Codec.Wire Codec.WireProofs Codec.Skip Codec.SkipProofs Codec.Prim
  Codec.PrimProofs Codec.GenCodec Codec.Corr Codec.GenProofs Codec.RoundTrip Codec.RoundTripProofs.
Import ListNotations.
Ltac Zify.zify_post_hook ::= Z.div_mod_to_equations.
Open Scope N_scope.

(* the first byte of a two-byte head on its own *)
Definition halfhead (p : list N) : Prop := exists ty, ty < 16 /\ p = [240 + ty].

Definition rabs {A} (req : bool) (p : list N) (r : rres A) : Prop :=
  r = RErr \/ (req = false /\ halfhead p /\ r = RAbsent []).
Lemma rabs_map {A B} (g : A -> B) req p r : rabs req p r -> rabs req p (map_r g r).
Proof. intros [->|(A1 & A2 & ->)]; [now left|right; repeat split; assumption]. Qed.
Lemma rabs_of {A} req p (r : rres A) prior inj : rabs req p r ->
  of_rres r prior inj = DErr \/ (req = false /\ halfhead p /\ of_rres r prior inj = DOk prior []).
Proof. intros [->|(A1 & A2 & ->)]; [now left|right; repeat split; assumption]. Qed.

(* every scalar member: a non-empty proper prefix of its encoding is an error, except that the first byte of a
   two-byte head on its own is ignored when the member is optional (the member is then absent) *)
Lemma scalar_prefix f tag req t v prior p q : scalar_ty t = true -> sc_typed t v -> tag < 256 ->
  w_scalar t v tag = p ++ q -> q <> [] -> p <> [] ->
  dec_scalar (S f) tag req t prior p = DErr \/ (req = false /\ halfhead p /\ dec_scalar (S f) tag req t prior p = DOk prior []).
Proof.
  intros Hsc Hty Htag E Hq Hp.
  assert (Hint : forall bits z, w_int64 z tag = p ++ q -> rabs req p (r_int bits (S f) tag req p))
    by (intros bits z Ez; exact (int_prefix f bits tag req z p q Htag Ez Hq Hp)).
  destruct t; try discriminate; destruct v; cbn [sc_typed] in Hty; try contradiction; cbn [w_scalar dec_scalar] in *;
    unfold r_bool, r_int8, r_uint8, r_int16, r_uint16, r_int32, r_uint32, r_int64, w_bool, w_uint8, w_uint16, w_uint32 in *;
    apply rabs_of; try apply rabs_map.
  - rewrite w_int8_64 in E by (destruct b; reflexivity). eauto.
  - rewrite w_int8_64 in E by assumption. eauto.
  - rewrite w_int16_64 in E by fits_tac. eauto.
  - rewrite w_int16_64 in E by assumption. eauto.
  - rewrite w_int32_64 in E by fits_tac. eauto.
  - rewrite w_int32_64 in E by assumption. eauto.
  - eauto.
  - eauto.
  - apply (with_seek_cut f tag req tFLOAT (be 4 bits) p q); try easy.
    intros r Eb. apply bread_short. now apply (be_prefix_short 4 bits r q).
  - apply (with_seek_cut f tag req tDOUBLE (be 8 bits) p q); try easy.
    intros r Eb. apply bread_short. now apply (be_prefix_short 8 bits r q).
  - unfold r_string, w_string in *. cbv zeta in E. destruct (255 <? N.of_nat (length s)) eqn:El.
    + apply (with_seek_cut f tag req tSTR4 (be 4 (N.of_nat (length s) mod 4294967296) ++ s) p q); try easy.
      intros r Eb. rewrite read_string_str4.
      rewrite N.mod_small in Eb by assumption.
      destruct (app_cut _ _ _ _ Eb) as [(u & Hu & Ha & _)|(u & -> & Hs)].
      * now rewrite bread_short by (apply (be_prefix_short 4 _ r u Ha Hu)).
      * rewrite bread_be by (cbn; lia). apply take_str_truncated. pose proof (cut_shorter s u q Hs Hq). lia.
    + apply (with_seek_cut f tag req tSTR1 ([N.of_nat (length s)] ++ s) p q); try easy.
      intros r Eb. rewrite read_string_str1.
      destruct r as [|l r]; [reflexivity|]. injection Eb as <- Es.
      apply take_str_truncated. pose proof (cut_shorter s r q Es Hq). lia.
  - rewrite w_int32_64 in E by assumption. eauto.
Qed.

Definition flat (fds : schema) : Prop := Forall (fun fd => scalar_ty (fty fd) = true) fds.
Definition optional (fds : schema) : Prop := Forall (fun fd => freq fd = false) fds.

(* a scalar member whose head the search does not reach: an error if it is required, else it keeps its target value *)
Lemma dec_scalar_unfound f tag req t prior bs r : scalar_ty t = true ->
  skip_to_no_check f tag req bs = (if req then SeekErr else NotFound r) ->
  dec_scalar f tag req t prior bs = if req then DErr else DOk prior r.
Proof.
  intros Ht Hs. unfold_scalar. rewrite Hs. destruct t; try discriminate; destruct req; reflexivity.
Qed.
Lemma dec_scalar_nil f tag req t prior : scalar_ty t = true ->
  dec_scalar (S f) tag req t prior [] = if req then DErr else DOk prior [].
Proof. intros Ht. apply dec_scalar_unfound; [assumption|destruct req; reflexivity]. Qed.

(* the members on an exhausted input: an error if one is required, else all keep their target values *)
Definition all_absent (e : env) (fds : schema) (res : dres (list val)) : Prop :=
  res = DErr \/ exists ps, res = DOk ps [] /\ optional fds /\ Forall2 (fun fd p => prior_ok e (fty fd) (fdef fd) p) fds ps.

(* a member of any type that is not found keeps its target value; a struct is reset *)
Definition absent_val (f : nat) (e : env) (t : ty) (prior : val) : val :=
  match t with TStruct sid => reset_default f e sid prior | _ => prior end.
(* a member whose head the search does not reach: an error if it is required, else it keeps its (reset) target value *)
Lemma dec_var_unfound e f tag req t prior bs r : skip_to_no_check f tag req bs = (if req then SeekErr else NotFound r) ->
  dec_var (S f) e tag req t prior bs = if req then DErr else DOk (absent_val f e t prior) r.
Proof.
  intros Hs. destruct t; cbn [absent_val]; try (rewrite dec_var_scalar by reflexivity; now apply dec_scalar_unfound).
  - rewrite dec_var_vec, Hs. destruct req; reflexivity.
  - rewrite dec_var_map. unfold skip_to. rewrite Hs. destruct req; reflexivity.
  - rewrite dec_var_arr, Hs. destruct req; reflexivity.
  - rewrite dec_var_struct. cbv zeta. unfold skip_to. rewrite Hs. destruct req; reflexivity.
Qed.
Lemma dec_var_notfound e f tag t prior bs r : skip_to_no_check f tag false bs = NotFound r ->
  dec_var (S f) e tag false t prior bs = DOk (absent_val f e t prior) r.
Proof. exact (dec_var_unfound e f tag false t prior bs r). Qed.
Lemma dec_var_nil e f tag req t prior :
  dec_var (S (S f)) e tag req t prior [] = if req then DErr else DOk (absent_val (S f) e t prior) [].
Proof. apply dec_var_unfound. destruct req; reflexivity. Qed.
Lemma dec_var_halfhead e f tag req t prior p : halfhead p ->
  dec_var (S (S f)) e tag req t prior p = if req then DErr else DOk (absent_val (S f) e t prior) [].
Proof.
  intros (ty & Hty & ->). apply dec_var_unfound. cbn [skip_to_no_check]. rewrite read_head2_partial by assumption.
  destruct req; reflexivity.
Qed.
Lemma nonscalar_no_default t (d : option val) : (d <> None -> scalar_ty t = true) -> scalar_ty t = false -> d = None.
Proof. intros Hd Hs. destruct d; [rewrite Hd in Hs by discriminate; discriminate|reflexivity]. Qed.
Lemma absent_prior_ok e k f t d prior : (forall sid, t = TStruct sid -> nest_ok k e t = true /\ (k <= f)%nat) ->
  (d <> None -> scalar_ty t = true) -> prior_ok e t d prior ->
  prior_ok e t d (absent_val f e t prior).
Proof.
  intros Hn Hd Hp. destruct t; try exact Hp. cbn [absent_val]. pose proof (nonscalar_no_default _ d Hd eq_refl). subst d.
  unfold prior_ok in *. destruct (Hn sid eq_refl). now apply (reset_zlike e k).
Qed.

Lemma fields_on_nil_gen e k : forall fds ps fuel, Forall (fun fd => fdef fd <> None -> scalar_ty (fty fd) = true) fds ->
  Forall (fun fd => forall sid, fty fd = TStruct sid -> nest_ok k e (fty fd) = true) fds ->
  Forall2 (fun fd p => prior_ok e (fty fd) (fdef fd) p) fds ps -> (length fds + k + 3 <= fuel)%nat ->
  all_absent e fds (dec_fields fuel e fds ps []).
Proof.
  induction fds as [|fd fds IH]; intros ps fuel Hd Hnest Hps Hf.
  - inversion Hps; subst. destruct fuel; [lia|]. right. exists []. repeat split; constructor.
  - inversion Hps as [|? p ? ps0 Hp Hps0]; subst. inversion Hd as [|? ? Hd1 Hd']; subst. cbn [length] in Hf.
    inversion Hnest as [|? ? Hn1 Hnest']; subst.
    destruct fuel as [|f]; [lia|]. rewrite dec_fields_S. cbv zeta. cbn [tl].
    destruct f as [|f]; [lia|]. destruct f as [|f]; [lia|]. rewrite dec_var_nil.
    destruct (freq fd) eqn:Er; [now left|].
    destruct (IH ps0 (S (S f)) Hd' Hnest' Hps0 ltac:(lia)) as [->|(ps' & -> & Ho & Hps')]; [now left|].
    right. eexists. split; [reflexivity|]. split; [constructor; assumption|].
    constructor; [apply (absent_prior_ok e k); [intros sid Hs; split; [exact (Hn1 sid Hs)|lia]|assumption|assumption]|assumption].
Qed.

Lemma fields_on_nil e : forall fds ps fuel, flat fds -> Forall2 (fun fd p => prior_ok e (fty fd) (fdef fd) p) fds ps ->
  (length fds + 3 <= fuel)%nat -> all_absent e fds (dec_fields fuel e fds ps []).
Proof.
  intros fds ps fuel Hfl Hps Hf. apply (fields_on_nil_gen e 0); [| |assumption|lia]; (eapply Forall_impl; [|exact Hfl]); intros fd Hsc.
  - intros _. exact Hsc.
  - intros sid Hs. cbn beta in Hsc. rewrite Hs in Hsc. discriminate.
Qed.

(* a scalar member of which a proper prefix (possibly nothing) is there *)
Lemma scalar_cut f tag req t v prior p q : scalar_ty t = true -> sc_typed t v -> tag < 256 ->
  w_scalar t v tag = p ++ q -> q <> [] ->
  dec_scalar (S f) tag req t prior p = DErr \/
  (req = false /\ (p = [] \/ halfhead p) /\ dec_scalar (S f) tag req t prior p = DOk prior []).
Proof.
  intros Hsc Hty Htag E Hq. destruct p as [|b p].
  - rewrite dec_scalar_nil by assumption. destruct req; auto.
  - destruct (scalar_prefix f tag req t v prior (b :: p) q) as [H|(A & B & C)]; auto; discriminate.
Qed.

Lemma pre_follows f tag E t q : follows tag E -> E = t ++ q ->
  skip_to_no_check (S f) tag false t = NotFound t \/ (halfhead t /\ skip_to_no_check (S f) tag false t = NotFound []).
Proof.
  intros [->|(ty & tg & r & Hty & Htg & -> & Hc)] HE; [destruct t; [now left|discriminate]|].
  destruct (head_cut _ _ _ _ _ Hty HE) as [->|[->|(u & -> & _)]]; [now left| |].
  - right. split; [now exists ty|]. cbn [skip_to_no_check]. now rewrite read_head2_partial.
  - left. apply seek_stop. right. now exists ty, tg, u.
Qed.

Lemma omitted_norm e t req d v prior : scalar_ty t = true -> sc_typed t v -> prior_ok e t d prior ->
  omit t req d v = true -> norm e t req d v = prior.
Proof.
  intros Hsc Hty Hp Ho. rewrite norm_scalar by assumption. rewrite Ho. unfold prior_ok in Hp.
  destruct d; [now symmetry|]. symmetry. now apply (zlike_scalar e).
Qed.

Lemma firstn_S_cons {A} n (x : A) l : firstn (S n) (x :: l) = x :: firstn n l.
Proof. reflexivity. Qed.

Section Prefix.
Variable e : env.

(* the result for a prefix p of the encoding of vs: an error, or the members completely present (the first i)
   followed by admissible target values for the others, which are all optional *)
Definition prefix_ok (fds : schema) (vs : list val) (p : list N) (res : dres (list val)) : Prop :=
  res = DErr \/
  exists i h ps, (i <= length fds)%nat /\ p = enc_fields e (firstn i vs) (firstn i fds) ++ h /\ (h = [] \/ halfhead h) /\
    optional (skipn i fds) /\ Forall2 (fun fd pr => prior_ok e (fty fd) (fdef fd) pr) fds ps /\
    res = DOk (firstn i (norm_fields e vs fds) ++ skipn i ps) [].

Lemma prefix_ok_intro fds vs p i h ps : (i <= length fds)%nat -> p = enc_fields e (firstn i vs) (firstn i fds) ++ h ->
  h = [] \/ halfhead h -> optional (skipn i fds) -> Forall2 (fun fd pr => prior_ok e (fty fd) (fdef fd) pr) fds ps ->
  prefix_ok fds vs p (DOk (firstn i (norm_fields e vs fds) ++ skipn i ps) []).
Proof. intros Hi Hp Hh Ho Hps. right. exists i, h, ps. repeat (split; [assumption|]). reflexivity. Qed.
Lemma prefix_ok_nil : prefix_ok [] [] [] (DOk [] []).
Proof. refine (prefix_ok_intro [] [] [] 0%nat [] [] _ _ _ _ _); [apply le_n|reflexivity|now left|constructor|constructor]. Qed.

(* one more member in front, written as t (nothing if the encoder left it out), that decodes to its normal form n *)
Lemma prefix_ok_cons fd fds x vs p0 t rest n res :
  enc_var e (ftag fd) (freq fd) (fty fd) (fdef fd) x = t -> norm e (fty fd) (freq fd) (fdef fd) x = n ->
  prior_ok e (fty fd) (fdef fd) p0 -> prefix_ok fds vs rest res ->
  prefix_ok (fd :: fds) (x :: vs) (t ++ rest)
    (match res with DOk l r => DOk (n :: l) r | DErr => DErr | DPanic s => DPanic s | DHuge => DHuge | DFuel => DFuel end).
Proof.
  intros <- <- Hp0 [->|(i & h & ps & Hi & -> & Hh & Ho & Hps & ->)]; [now left|].
  refine (prefix_ok_intro _ _ _ (S i) h (p0 :: ps) _ _ _ _ _); [cbn [length]; lia|cbn [firstn enc_fields]; now rewrite app_assoc|assumption..|now constructor].
Qed.

(* neither this member nor a later one is there: h is what is left of the input, x0 the member's target value *)
Lemma prefix_ok_stop fd fds x vs x0 h res : freq fd = false -> h = [] \/ halfhead h ->
  prior_ok e (fty fd) (fdef fd) x0 -> all_absent e fds res ->
  prefix_ok (fd :: fds) (x :: vs) h
    (match res with DOk l r => DOk (x0 :: l) r | DErr => DErr | DPanic s => DPanic s | DHuge => DHuge | DFuel => DFuel end).
Proof.
  intros Hr Hh Hx0 [->|(ps & -> & Ho & Hps)]; [now left|].
  refine (prefix_ok_intro _ _ _ 0%nat h (x0 :: ps) _ _ _ _ _); [cbn; lia|reflexivity|assumption|now constructor|now constructor].
Qed.

Lemma prefix_fields : forall fds vs ps p q lo fuel,
  Forall2 (fun fd x => has_type e (fty fd) x) fds vs -> flat fds -> asc_opt lo fds ->
  Forall2 (fun fd p => prior_ok e (fty fd) (fdef fd) p) fds ps ->
  enc_fields e vs fds = p ++ q -> (length fds + 4 <= fuel)%nat ->
  prefix_ok fds vs p (dec_fields fuel e fds ps p).
Proof.
  induction fds as [|fd fds IH]; intros vs ps p q lo fuel Hty Hfl Hasc Hps HE Hf.
  - inversion Hty; subst. inversion Hps; subst. cbn [enc_fields] in HE. destruct p; [|discriminate].
    destruct fuel; [lia|]. exact prefix_ok_nil.
  - inversion Hty as [|? x ? vs' Hx Hvs]; subst. inversion Hps as [|? p0 ? ps' Hp0 Hps']; subst.
    inversion Hfl as [|? ? Hsc Hfl']; subst.
    destruct (asc_opt_cons _ _ _ Hasc) as [H256 Hasc'].
    pose proof (has_type_scalar e (fty fd) x Hsc Hx) as Hsx.
    cbn [enc_fields length] in *.
    destruct fuel as [|[|[|f]]]; try lia. rewrite dec_fields_S. cbv zeta. cbn [tl]. rewrite dec_var_scalar by assumption.
    assert (Hnil := fields_on_nil e fds ps' (S (S f)) Hfl' Hps' ltac:(lia)).
    assert (Hrest : forall t, enc_fields e vs' fds = t ++ q ->
              prefix_ok fds vs' t (dec_fields (S (S f)) e fds ps' t))
      by (intros t Et; apply (IH vs' ps' t q (Some (ftag fd))); assumption || lia).
    pose proof (enc_var_scalar e (ftag fd) (freq fd) (fty fd) (fdef fd) x Hsc) as Henc.
    pose proof (norm_scalar e (fty fd) (freq fd) (fdef fd) x Hsc Hsx) as Hnorm.
    destruct (omit (fty fd) (freq fd) (fdef fd) x) eqn:Eo.
    + (* left out by the encoder: absent whatever follows *)
      assert (Hreq : freq fd = false) by (unfold omit in Eo; destruct (fty fd); destruct (freq fd); cbn in Eo; congruence).
      rewrite Henc in HE. cbn [app] in HE. rewrite Hreq in *.
      assert (Hn0 : norm e (fty fd) false (fdef fd) x = p0) by (apply omitted_norm; assumption).
      destruct (pre_follows f (ftag fd) _ p q (enc_fields_follows e fds vs' _ Hasc' Hvs) HE) as [Hs|[Hh Hs]];
        rewrite (dec_scalar_unfound _ _ false _ _ _ _ Hsc Hs); cbv beta iota.
      * apply (prefix_ok_cons fd fds x vs' p0 [] p p0); rewrite ?Hreq; auto.
      * apply prefix_ok_stop; auto.
    +
      rewrite Henc in HE. destruct (app_cut _ _ _ _ HE) as [(t & Ht & Ha & _)|(t & -> & HB)].
      * destruct (scalar_cut f (ftag fd) (freq fd) (fty fd) x p0 p t Hsc Hsx H256 Ha Ht) as [->|(Er & Hh & ->)]; [now left|cbv beta iota].
        apply prefix_ok_stop; auto.
      * rewrite <- (dec_var_scalar (S f) e), (scalar_member_roundtrip f e) by assumption. cbv beta iota.
        apply (prefix_ok_cons fd fds x vs' p0); auto.
Qed.
End Prefix.

(* C06, flat structs: every prefix p of the encoding of a well-typed value decodes to an error, or to exactly
   the first i members (those completely present in p; p is their encoding possibly followed by the first byte
   of a two-byte head, which is ignored) with all later members optional and at their reset values (declared
   default, else zero) *)
Theorem prefix_flat e k sid vs p q :
  wf_schema k e -> (S k <= 64)%nat -> flat (fields_of e sid) -> (length (fields_of e sid) + 4 <= 64)%nat ->
  has_type e (TStruct sid) (VStruct vs) -> encode e sid (VStruct vs) = p ++ q ->
  decode e sid p = DErr \/
  exists i h ps, (i <= length (fields_of e sid))%nat /\
    p = enc_fields e (firstn i vs) (firstn i (fields_of e sid)) ++ h /\ (h = [] \/ halfhead h) /\
    optional (skipn i (fields_of e sid)) /\
    Forall2 (fun fd p => prior_ok e (fty fd) (fdef fd) p) (fields_of e sid) ps /\
    decode e sid p = DOk (VStruct (firstn i (norm_fields e vs (fields_of e sid)) ++ skipn i ps)) [].
Proof.
  intros Hwf Hk Hfl Hn Hty HE. unfold decode, decode_into.
  replace (4 * length p + 64)%nat with (S (4 * length p + 63)) by lia.
  destruct (struct_priors1 e k (4 * length p + 63) sid (zero_struct e sid) Hwf ltac:(lia)) as (ps & -> & Hps).
  rewrite encode_fields in HE. pose proof (has_type_struct e sid vs Hty) as Hvs.
  pose proof (prefix_fields e (fields_of e sid) vs ps p q None (S (4 * length p + 63)) Hvs Hfl (wf_asc k e Hwf sid) Hps HE ltac:(lia)) as H.
  destruct H as [->|(i & h & ps' & Hi & Hp & Hh & Ho & Hps' & ->)]; [now left|].
  right. exists i, h, ps'. repeat (split; [assumption|]). reflexivity.
Qed.
Print Assumptions prefix_flat.

Lemma read_int_body_inadm bits ty r : adm_int bits ty = false -> read_int_body bits ty r = None.
Proof.
  unfold adm_int, read_int_body. intros H.
  destruct (ty =? tZERO); [discriminate|]. destruct (ty =? tBYTE); [discriminate|]. cbn [orb] in H.
  destruct ((ty =? tSHORT) && (16 <=? bits)%Z); [discriminate|].
  destruct ((ty =? tINT) && (32 <=? bits)%Z); [discriminate|].
  destruct ((ty =? tLONG) && (64 <=? bits)%Z); [discriminate|]. reflexivity.
Qed.

(* a present member (behind any unknown fields) whose wire type the reader of its IDL type does not accept *)
Theorem inadmissible_member e f tag req t prior lo J ty r :
  junk_ok lo tag J -> ty < 16 -> tag < 256 -> (ty =? tSE) = false -> adm t ty = false ->
  (2 * length (ser_fields J ++ head ty tag ++ r) + 3 <= f)%nat ->
  dec_var (S f) e tag req t prior (ser_fields J ++ head ty tag ++ r) = DErr.
Proof.
  intros HJ Hty Htag Hse Hadm Hf.
  pose proof (seek_member J f lo tag req ty r HJ Hty Htag Hse Hf) as Hs.
  destruct t; cbn [adm] in Hadm;
    try (rewrite dec_var_scalar by reflexivity;
         unfold_scalar;
         rewrite Hs; try (rewrite read_int_body_inadm by assumption; reflexivity)).
  - unfold read_f32_body. apply orb_false_iff in Hadm. destruct Hadm as [-> ->]. reflexivity.
  - unfold read_f64_body. apply orb_false_iff in Hadm. destruct Hadm as [Hadm ->]. apply orb_false_iff in Hadm. destruct Hadm as [-> ->]. reflexivity.
  - unfold read_string_body. apply orb_false_iff in Hadm. destruct Hadm as [-> ->]. reflexivity.
  - rewrite dec_var_vec, Hs. apply orb_false_iff in Hadm. destruct Hadm as [-> Hadm].
    destruct (ty =? tSIMPLE); [|reflexivity]. cbn [andb] in Hadm. now rewrite Hadm.
  - rewrite dec_var_map. unfold skip_to. now rewrite Hs, Hadm.
  - rewrite dec_var_arr, Hs. now rewrite Hadm.
  - rewrite dec_var_struct. cbv zeta. unfold skip_to. now rewrite Hs, Hadm.
Qed.

(* in an ascending schema a member's tag is a byte and exceeds the tags of the members before it *)
Lemma member_tag_bounds fds1 fd fds2 : schema_ascending (fds1 ++ fd :: fds2) ->
  ftag fd < 256 /\ forall fd1, In fd1 fds1 -> ftag fd1 < ftag fd.
Proof.
  intros Hasc. destruct fds1 as [|x a]; cbn [app schema_ascending] in Hasc; [split; [tauto|contradiction]|].
  destruct Hasc as [_ Hasc]. split; [apply ascending_app_mid in Hasc; tauto|].
  intros fd1 [->|Hin]; [apply (ascending_all_gt _ _ Hasc), in_or_app; right; now left|now apply (ascending_before fd fds2 fd1 a _ Hasc)].
Qed.

(* struct level: the members before it encoded normally, then a field under the member's tag with an
   inadmissible wire type and anything after it: rejected *)
Theorem inadmissible_rejected e k n sid fds1 fd fds2 vs1 ty r :
  wf_schema k e -> (S k <= 64)%nat -> fields_of e sid = fds1 ++ fd :: fds2 ->
  Forall2 (fun fd x => has_type e (fty fd) x) fds1 vs1 ->
  ty < 16 -> (ty =? tSE) = false -> adm (fty fd) ty = false ->
  tfin n e (TStruct sid) = true -> (tneed n e (TStruct sid) + k <= 64)%nat ->
  decode e sid (enc_fields e vs1 fds1 ++ head ty (ftag fd) ++ r) = DErr.
Proof.
  intros Hwf Hk Hsid H1 Hty Hse Hadm Hfin Hn.
  pose proof (wf_asc k e Hwf sid) as Hasc. rewrite Hsid in Hasc. destruct (member_tag_bounds _ _ _ Hasc) as [H256 Hlt].
  apply (struct_member_error e k n sid fds1 fd fds2); try assumption.
  - intros [|f'] prior Hf'; [lia|].
    apply (inadmissible_member e f' (ftag fd) (freq fd) (fty fd) prior None [] ty r (junk_nil None (ftag fd))); try assumption.
    cbn [ser_fields app]. lia.
  - intros fd1 Hin. right. exists ty, (ftag fd), r. repeat split; auto.
Qed.
Print Assumptions inadmissible_member.
Print Assumptions inadmissible_rejected.

(* a string member whose length field (1-byte or 4-byte form) announces more than what is left of the input *)
Theorem inflated_string_member e f tag req prior lo J (four : bool) l r :
  junk_ok lo tag J -> tag < 256 -> N.of_nat (length r) < l -> l < (if four then 4294967296 else 256) ->
  let field := (if four then head tSTR4 tag ++ be 4 l else head tSTR1 tag ++ [l]) ++ r in
  (2 * length (ser_fields J ++ field) + 3 <= f)%nat ->
  dec_var (S f) e tag req TStr prior (ser_fields J ++ field) = DErr.
Proof.
  intros HJ Htag Hl Hl2 field Hf. subst field. rewrite dec_var_scalar by reflexivity.
  unfold dec_scalar, r_string, with_seek.
  destruct four; rewrite <- !app_assoc in *; rewrite (seek_member J f lo) by (reflexivity || assumption).
  - now rewrite read_string_str4, bread_be, take_str_truncated by (assumption || (cbn; lia)).
  - rewrite read_string_str1. cbn [app]. now rewrite take_str_truncated.
Qed.
(* a byte-vector member (SimpleList) whose count announces more than what is left *)
Theorem inflated_bytes_member e f tag req x prior lo J n r :
  junk_ok lo tag J -> tag < 256 -> is_byte x = true -> (length r < n)%nat -> N.of_nat n < 2147483648 ->
  let field := head tSIMPLE tag ++ head tBYTE 0 ++ w_int32 (Z.of_nat n) 0 ++ r in
  (2 * length (ser_fields J ++ field) + 3 <= f)%nat ->
  dec_var (S f) e tag req (TVec x) prior (ser_fields J ++ field) = DErr.
Proof.
  intros HJ Htag Hb Hl Hn field Hf. subst field. rewrite dec_var_vec. rewrite (seek_member J f lo) by (reflexivity || assumption).
  change (tSIMPLE =? tLIST) with false. rewrite N.eqb_refl. rewrite Hb.
  unfold skip_to. destruct f as [|f0]; [lia|]. rewrite seek_first by (reflexivity || lia).
  rewrite N.eqb_refl. rewrite read_count_len by assumption.
  rewrite read_slice_truncated by lia. reflexivity.
Qed.
(* a LIST member whose count announces more elements than bytes are left (every element takes at least one
   byte): refused before anything is allocated or decoded *)
Theorem inflated_list_member e f tag req x prior lo J n r :
  junk_ok lo tag J -> tag < 256 -> (length r < n)%nat -> N.of_nat n < 2147483648 ->
  let field := head tLIST tag ++ w_int32 (Z.of_nat n) 0 ++ r in
  (2 * length (ser_fields J ++ field) + 3 <= f)%nat ->
  dec_var (S f) e tag req (TVec x) prior (ser_fields J ++ field) = DErr.
Proof.
  intros HJ Htag Hl Hn field Hf. subst field. rewrite dec_var_vec. rewrite (seek_member J f lo) by (reflexivity || assumption).
  rewrite N.eqb_refl. rewrite read_count_len by assumption.
  destruct (Z.of_nat n <? 0)%Z eqn:E1; [lia|].
  destruct (Z.of_nat (length r) <? Z.of_nat n)%Z eqn:E2; [reflexivity|lia].
Qed.
(* a MAP member whose count announces more entries than half the bytes left (every entry takes at least two) *)
Theorem inflated_map_member e f tag req kt vt prior lo J n r :
  junk_ok lo tag J -> tag < 256 -> (length r < 2 * n)%nat -> N.of_nat n < 2147483648 ->
  let field := head tMAP tag ++ w_int32 (Z.of_nat n) 0 ++ r in
  (2 * length (ser_fields J ++ field) + 3 <= f)%nat ->
  dec_var (S f) e tag req (TMap kt vt) prior (ser_fields J ++ field) = DErr.
Proof.
  intros HJ Htag Hl Hn field Hf. subst field. rewrite dec_var_map. unfold skip_to. rewrite (seek_member J f lo) by (reflexivity || assumption).
  rewrite N.eqb_refl. rewrite read_count_len by assumption.
  replace ((Z.of_nat n <? 0)%Z || (Z.of_nat (length r) / 2 <? Z.of_nat n)%Z) with true by lia. reflexivity.
Qed.
(* a fixed-array member whose count exceeds the array's length: refused (the pinned code indexed past the end) *)
Theorem array_count_member e f tag req len x prior lo J n r :
  junk_ok lo tag J -> tag < 256 -> (len < n)%nat -> N.of_nat n < 2147483648 ->
  let field := head tLIST tag ++ w_int32 (Z.of_nat n) 0 ++ r in
  (2 * length (ser_fields J ++ field) + 3 <= f)%nat ->
  dec_var (S f) e tag req (TArr len x) prior (ser_fields J ++ field) = DErr.
Proof.
  intros HJ Htag Hl Hn field Hf. subst field. rewrite dec_var_arr. rewrite (seek_member J f lo) by (reflexivity || assumption).
  rewrite N.eqb_refl. rewrite read_count_len by assumption.
  replace ((Z.of_nat n <? 0)%Z || (Z.of_nat len <? Z.of_nat n)%Z) with true by lia. reflexivity.
Qed.

(* struct level: the members before it encoded normally, then a string member whose length exceeds what is left *)
Theorem inflated_string_rejected e k n sid fds1 fd fds2 vs1 (four : bool) l r :
  wf_schema k e -> (S k <= 64)%nat -> fields_of e sid = fds1 ++ fd :: fds2 -> fty fd = TStr ->
  Forall2 (fun fd x => has_type e (fty fd) x) fds1 vs1 ->
  N.of_nat (length r) < l -> l < (if four then 4294967296 else 256) ->
  tfin n e (TStruct sid) = true -> (tneed n e (TStruct sid) + k <= 64)%nat ->
  decode e sid (enc_fields e vs1 fds1 ++ (if four then head tSTR4 (ftag fd) ++ be 4 l else head tSTR1 (ftag fd) ++ [l]) ++ r) = DErr.
Proof.
  intros Hwf Hk Hsid Hstr H1 Hl Hl2 Hfin Hn.
  pose proof (wf_asc k e Hwf sid) as Hasc. rewrite Hsid in Hasc. destruct (member_tag_bounds _ _ _ Hasc) as [H256 Hlt].
  apply (struct_member_error e k n sid fds1 fd fds2); try assumption.
  - intros [|f'] prior Hf'; [lia|]. rewrite Hstr.
    apply (inflated_string_member e f' (ftag fd) (freq fd) prior None [] four l r (junk_nil None (ftag fd))); try assumption.
    cbn [ser_fields app]. lia.
  - intros fd1 Hin. right. destruct four; rewrite <- app_assoc; [exists tSTR4|exists tSTR1]; eexists _, _; repeat split; auto.
Qed.
Print Assumptions inflated_string_member.
Print Assumptions inflated_bytes_member.
Print Assumptions inflated_list_member.
Print Assumptions inflated_map_member.
Print Assumptions array_count_member.
Print Assumptions inflated_string_rejected.
