(* C06 struct level, ALL struct types with a finite type graph (members of container and struct types included):
   decoding any prefix of an encoding fails with an error, or yields exactly the
   members completely present with all later members optional and at their reset values. *)
From Coq Require Import List NArith ZArith Lia Bool Arith.
From Coq Require Import ZifyN ZifyNat ZifyBool.
From TarsV Require Import Gen.Consts Base.Hex Codec.Wire Codec.WireProofs Codec.Skip Codec.SkipProofs Codec.Prim
  Codec.PrimProofs Codec.GenCodec Codec.Corr Codec.GenProofs Codec.RoundTrip Codec.RoundTripProofs Codec.PrefixProofs
  Codec.WireSpec Codec.WireSpecProofs.
From TarsV Require Codec.TotalProofs.
Import ListNotations.
Ltac Zify.zify_post_hook ::= Z.div_mod_to_equations.
Open Scope N_scope.

Definition bad {A} (r : dres A) : Prop := r = DErr.

(* a member whose head is found is decoded the same whether it is required or optional *)
Lemma dec_var_req_indep e f tag t prior ty r : ty < 16 -> tag < 256 -> (ty =? tSE) = false ->
  dec_var (S (S f)) e tag false t prior (head ty tag ++ r) = dec_var (S (S f)) e tag true t prior (head ty tag ++ r).
Proof.
  intros Hty Htag Hse. destruct t;
    try (rewrite !dec_var_scalar by reflexivity; unfold_scalar; rewrite !seek_first by assumption; reflexivity).
  - rewrite !dec_var_vec, !seek_first by assumption. reflexivity.
  - rewrite !dec_var_map. unfold skip_to. rewrite !seek_first by assumption. reflexivity.
  - rewrite !dec_var_arr, !seek_first by assumption. reflexivity.
  - rewrite !dec_var_struct. cbv zeta. unfold skip_to. rewrite !seek_first by assumption. reflexivity.
Qed.

Lemma count_prefix n r u : N.of_nat n < 2147483648 -> w_int32 (Z.of_nat n) 0 = r ++ u -> u <> [] ->
  exists r', read_count r = CErr r'.
Proof.
  intros Hn E Hu. rewrite w_int32_count in E by assumption. unfold w_len in E.
  assert (Hgen : forall ty k x, (ty = tBYTE /\ k = 1%nat) \/ (ty = tSHORT /\ k = 2%nat) \/ (ty = tINT /\ k = 4%nat) ->
            head ty 0 ++ be k x = r ++ u -> exists r', read_count r = CErr r').
  { intros ty k x Hk E'. destruct r as [|b r]; [exists []; reflexivity|].
    assert (Hh : head ty 0 = [ty]) by (destruct Hk as [[-> _]|[[-> _]|[-> _]]]; reflexivity).
    rewrite Hh in E'. cbn [app] in E'. injection E' as Eb Er. subst b.
    assert (Hlt : (length r < k)%nat) by (apply (be_prefix_short k x r u); [exact Er|exact Hu]).
    unfold read_count. destruct Hk as [[-> ->]|[[-> ->]|[-> ->]]].
    - destruct r; [|cbn [length] in Hlt; lia]. eexists. reflexivity.
    - eexists. cbn -[bread]. now rewrite bread_short.
    - eexists. cbn -[bread]. now rewrite bread_short. }
  destruct (N.of_nat n =? 0).
  - destruct r as [|b r]; [exists []; reflexivity|]. cbn in E. injection E as _ Er. destruct r; [|discriminate]. cbn in Er. congruence.
  - destruct (N.of_nat n <? 128) eqn:E1.
    + apply (Hgen tBYTE 1%nat (N.of_nat n)); [now left|]. cbn [be app]. rewrite <- E. f_equal. f_equal. rewrite N.mod_small by lia. reflexivity.
    + destruct (N.of_nat n <? 32768).
      * apply (Hgen tSHORT 2%nat (N.of_nat n)); [right; now left|exact E].
      * apply (Hgen tINT 4%nat (N.of_nat n)); [right; now right|exact E].
Qed.

Lemma enc_var_shape e tag req t d v : has_type e t v ->
  (left_out t req d v = true /\ req = false /\ enc_var e tag req t d v = []) \/
  (left_out t req d v = false /\ exists ty r, ty < 16 /\ (ty =? tSE) = false /\ enc_var e tag req t d v = head ty tag ++ r).
Proof.
  intros Hty. rewrite (enc_var_wire e t v Hty tag req d).
  destruct (left_out t req d v) eqn:El.
  - left. repeat split. destruct req; [|reflexivity]. now rewrite left_out_req in El.
  - right. split; [reflexivity|]. exists (ty_of (wire_of e t v)), (ser_body (wire_of e t v)).
    repeat split; [apply ty_of_lt|apply ty_of_not_se].
Qed.

Lemma written_req_true e tag t req d v : has_type e t v -> left_out t req d v = false ->
  enc_var e tag req t d v = enc_var e tag true t d v /\ norm e t req d v = norm e t true d v.
Proof.
  intros Hty Hl. inversion Hty; subst.
  - rewrite left_out_scalar in Hl by assumption. rewrite !enc_var_scalar, !norm_scalar by assumption. rewrite Hl.
    assert (omit t true d v = false) as -> by (unfold omit; destruct t; reflexivity). split; reflexivity.
  - cbn [left_out] in Hl. cbn [enc_var norm]. rewrite Hl. cbn [negb andb]. split; reflexivity.
  - cbn [left_out] in Hl. rewrite !enc_var_list, !norm_vec. rewrite Hl. cbn [negb andb]. split; reflexivity.
  - cbn [left_out] in Hl. rewrite !enc_var_arr, !norm_arr. rewrite Hl. cbn [negb andb]. split; reflexivity.
  - cbn [left_out] in Hl. rewrite !enc_var_map, !norm_map. rewrite Hl. cbn [negb andb]. split; reflexivity.
  - rewrite !enc_var_struct, !norm_str. split; reflexivity.
Qed.

Lemma left_out_prior e t req d v prior : has_type e t v -> prior_ok e t d prior -> (d <> None -> scalar_ty t = true) ->
  left_out t req d v = true -> norm e t req d v = prior /\ (forall f, absent_val f e t prior = prior).
Proof.
  intros Hty Hp Hd Hl. inversion Hty; subst.
  - rewrite left_out_scalar in Hl by assumption. split; [now apply omitted_norm|]. intros f. destruct t; try discriminate; reflexivity.
  - pose proof (nonscalar_no_default _ d Hd eq_refl). subst d.
    cbn [left_out] in Hl. apply andb_true_iff in Hl. destruct Hl as [_ Hl]. destruct s; [|discriminate].
    apply zlike_vec in Hp. subst prior. split; reflexivity.
  - pose proof (nonscalar_no_default _ d Hd eq_refl). subst d.
    cbn [left_out] in Hl. apply andb_true_iff in Hl. destruct Hl as [_ Hl]. destruct xs; [|discriminate].
    apply zlike_vec in Hp. subst prior. split; [rewrite norm_vec; destruct x; try reflexivity; congruence|reflexivity].
  - cbn [left_out] in Hl. apply andb_true_iff in Hl. destruct Hl as [_ Hl]. destruct xs; [|discriminate]. cbn [length] in *. lia.
  - pose proof (nonscalar_no_default _ d Hd eq_refl). subst d.
    cbn [left_out] in Hl. apply andb_true_iff in Hl. destruct Hl as [_ Hl]. destruct kvs; [|discriminate].
    apply zlike_map in Hp. subst prior. split; [now rewrite norm_map|reflexivity].
  - discriminate.
Qed.

Section PrefixGen.
Variable e : env.
Variable k : nat.
Hypothesis Hwf : wf_schema k e.

Lemma no_default (t : ty) : @None val <> None -> scalar_ty t = true.
Proof. congruence. Qed.

(* a member that is written decodes to its normal form whatever follows it *)
Lemma member_complete f m tag req t d v prior rest :
  has_type e t v -> ty_nest k e t = true -> tag < 256 -> (d <> None -> scalar_ty t = true) -> prior_ok e t d prior ->
  tfin m e t = true -> left_out t req d v = false ->
  (tneed m e t + k + 4 * length (enc_var e tag req t d v) + 2 * length rest + 3 <= f)%nat ->
  dec_var f e tag req t prior (enc_var e tag req t d v ++ rest) = DOk (norm e t req d v) rest.
Proof.
  intros Hty Hn Htag Hd Hp Hfin Hl Hf.
  destruct (written_req_true e tag t req d v Hty Hl) as [Ee En]. rewrite Ee, En in *.
  pose proof (member_decodes e k f m tag true t d v prior rest Hwf Hty Hn Htag Hd Hp Hfin (or_introl eq_refl) Hf) as H1.
  destruct req; [exact H1|].
  destruct (enc_var_shape e tag true t d v Hty) as [(El & _)|(_ & ty & r & Hty' & Hse & E)]; [now rewrite left_out_req in El|].
  rewrite E in *. rewrite <- app_assoc in *. pose proof (TotalProofs.tneed_ge e m t Hfin).
  destruct f as [|[|f]]; [lia|lia|]. rewrite dec_var_req_indep by assumption. exact H1.
Qed.

(* elements, keys and values are required members without a default, read into a zero value *)
Lemma zero_prior x f : ty_nest k e x = true -> (k <= f)%nat -> prior_ok e x None (zero_of f e x).
Proof. intros Hn Hf. apply (zero_zlike e k); [now apply (ty_nest_nest e k)|assumption]. Qed.
Lemma elem_complete f m tag x y prior rest : has_type e x y -> ty_nest k e x = true -> tfin m e x = true -> tag < 256 ->
  prior_ok e x None prior ->
  (tneed m e x + k + 4 * length (enc_var e tag true x None y) + 2 * length rest + 3 <= f)%nat ->
  dec_var f e tag true x prior (enc_var e tag true x None y ++ rest) = DOk (norm e x true None y) rest.
Proof.
  intros Hy Hn Hfin Htag Hp Hf. apply (member_complete f m); try assumption; [apply no_default|apply left_out_req].
Qed.

(* a member cut short: an error, or - only if it is optional and nothing or half a head of it is there - absent *)
Definition w_concl (f : nat) (tag : N) (req : bool) (t : ty) (d : option val) (prior : val) (p : list N) : Prop :=
  bad (dec_var f e tag req t prior p) \/
  (req = false /\ (p = [] \/ halfhead p) /\ exists x, dec_var f e tag req t prior p = DOk x [] /\ prior_ok e t d x).

Definition W_var (f : nat) : Prop := forall m t tag req d v prior p q,
  tfin m e t = true -> has_type e t v -> ty_nest k e t = true -> tag < 256 ->
  (d <> None -> scalar_ty t = true) -> prior_ok e t d prior ->
  enc_var e tag req t d v = p ++ q -> q <> [] -> (tneed m e t + k + 4 * length p + 3 <= f)%nat ->
  w_concl f tag req t d prior p.
Definition W_elems (f : nat) : Prop := forall m x xs p q,
  tfin m e x = true -> Forall (has_type e x) xs -> ty_nest k e x = true ->
  enc_elems e x xs = p ++ q -> q <> [] -> (tneed m e x + 1 + k + 4 * length p + 3 <= f)%nat ->
  bad (dec_elems f e x (Z.of_nat (length xs)) p).
Definition W_arr (f : nat) : Prop := forall m x len dn todo xs p q,
  tfin m e x = true -> Forall (has_type e x) xs -> ty_nest k e x = true ->
  length todo = length xs -> (length dn + length xs = len)%nat -> Forall (zlike e x) todo ->
  enc_elems e x xs = p ++ q -> q <> [] -> (tneed m e x + 1 + k + 4 * length p + 3 <= f)%nat ->
  bad (dec_arr f e x len (length dn) (Z.of_nat (length xs)) (dn ++ todo) p).
Definition W_entries (f : nat) : Prop := forall m kt vt kvs p q,
  tfin m e kt = true -> tfin m e vt = true ->
  Forall (fun pr => has_type e kt (fst pr) /\ has_type e vt (snd pr)) kvs -> ty_nest k e kt = true -> ty_nest k e vt = true ->
  enc_entries e kt vt kvs = p ++ q -> q <> [] ->
  (Nat.max (tneed m e kt) (tneed m e vt) + 1 + k + 4 * length p + 3 <= f)%nat ->
  bad (dec_entries f e kt vt (Z.of_nat (length kvs)) p).
Definition W_fields (f : nat) : Prop := forall m fds vs ps p q lo,
  (forall fd, In fd fds -> tfin m e (fty fd) = true) ->
  Forall2 (fun fd x => has_type e (fty fd) x) fds vs -> Forall (member_ok e k) fds -> asc_opt lo fds ->
  Forall2 (fun fd pr => prior_ok e (fty fd) (fdef fd) pr) fds ps ->
  enc_fields e vs fds = p ++ q -> (length fds + tmax (tneed m e) fds + 1 + k + 4 * length p + 3 <= f)%nat ->
  prefix_ok e fds vs p (dec_fields f e fds ps p).

Lemma wstep_elems f : W_var f -> W_elems f -> W_elems (S f).
Proof.
  intros HV HE m x xs p q Hfin Hty Hn E Hq Hf. unfold bad in *. rewrite dec_elems_S. destruct Hty as [|y r Hy Hr].
  - destruct p; [|discriminate]. cbn in E. congruence.
  - destruct (Z.of_nat (length (y :: r)) <=? 0)%Z eqn:E0; [cbn [length] in E0; lia|].
    cbn [enc_elems] in E. pose proof (enc_var_req_length e 0 x None y Hy) as Hb1.
    replace (Z.of_nat (length (y :: r)) - 1)%Z with (Z.of_nat (length r)) by (cbn [length]; lia).
    pose proof (zero_prior x f Hn ltac:(lia)) as Hz.
    destruct (app_cut _ _ _ _ E) as [(t & Ht & Ha & _)|(t & -> & HB)].
    + destruct (HV m x 0 true None y _ p t Hfin Hy Hn eq_refl (no_default x) Hz Ha Ht ltac:(lia)) as [->|(Hc & _)]; easy.
    + rewrite app_length in Hf. rewrite (elem_complete f m 0 x y _ t Hy Hn Hfin eq_refl Hz ltac:(lia)).
      now rewrite (HE m x r t q) by (assumption || lia).
Qed.

Lemma wstep_arr f : W_var f -> W_arr f -> W_arr (S f).
Proof.
  intros HV HA m x len dn todo xs p q Hfin Hty Hn Hlen Hsum Hz E Hq Hf. unfold bad in *. rewrite dec_arr_S.
  destruct Hty as [|y r Hy Hr].
  - destruct p; [|discriminate]. cbn in E. congruence.
  - destruct todo as [|z todo]; [discriminate|]. cbn [length] in Hlen, Hsum.
    destruct (Z.of_nat (length (y :: r)) <=? 0)%Z eqn:E0; [cbn [length] in E0; lia|].
    destruct (len <=? length dn)%nat eqn:E2; [apply Nat.leb_le in E2; lia|].
    rewrite nth_app_here. cbn [enc_elems] in E. pose proof (enc_var_req_length e 0 x None y Hy) as Hb1.
    inversion Hz as [|? ? Hz1 Hz2]; subst.
    replace (Z.of_nat (length (y :: r)) - 1)%Z with (Z.of_nat (length r)) by (cbn [length]; lia).
    destruct (app_cut _ _ _ _ E) as [(t & Ht & Ha & _)|(t & -> & HB)].
    + destruct (HV m x 0 true None y z p t Hfin Hy Hn eq_refl (no_default x) Hz1 Ha Ht ltac:(lia)) as [->|(Hc & _)]; easy.
    + rewrite app_length in Hf. rewrite (elem_complete f m 0 x y z t Hy Hn Hfin eq_refl Hz1 ltac:(lia)).
      (* the slot just filled joins the part of the array that is done *)
      rewrite replace_nth_app. change (dn ++ ?v :: todo) with (dn ++ [v] ++ todo). rewrite app_assoc.
      replace (S (length dn)) with (length (dn ++ [norm e x true None y])) by (rewrite app_length; cbn [length]; lia).
      apply (HA m x _ _ todo r t q); try assumption; [lia|rewrite app_length; cbn [length]; lia|lia].
Qed.

Lemma wstep_entries f : W_var f -> W_entries f -> W_entries (S f).
Proof.
  intros HV HM m kt vt kvs p q Hfk Hfv Hty Hnk Hnv E Hq Hf. unfold bad in *. rewrite dec_entries_S.
  destruct Hty as [|[ky y] r [Hk Hy] Hr].
  - destruct p; [|discriminate]. cbn in E. congruence.
  - cbn [fst snd] in Hk, Hy.
    destruct (Z.of_nat (length ((ky, y) :: r)) <=? 0)%Z eqn:E0; [cbn [length] in E0; lia|].
    cbn [enc_entries] in E.
    pose proof (enc_var_req_length e 0 kt None ky Hk) as Hb1. pose proof (enc_var_req_length e 1 vt None y Hy) as Hb2.
    replace (Z.of_nat (length ((ky, y) :: r)) - 1)%Z with (Z.of_nat (length r)) by (cbn [length]; lia).
    assert (Hkf : (k <= f)%nat) by lia.
    pose proof (zero_prior kt f Hnk Hkf) as Hzk. pose proof (zero_prior vt f Hnv Hkf) as Hzv.
    destruct (app_cut _ _ _ _ E) as [(t & Ht & Ha & _)|(t & -> & HB)].
    + destruct (HV m kt 0 true None ky _ p t Hfk Hk Hnk eq_refl (no_default kt) Hzk Ha Ht ltac:(lia)) as [->|(Hc & _)]; easy.
    + rewrite app_length in Hf. rewrite (elem_complete f m 0 kt ky _ t Hk Hnk Hfk eq_refl Hzk ltac:(lia)).
      destruct (app_cut _ _ _ _ HB) as [(u & Hu & Ha & _)|(u & -> & HB')].
      * destruct (HV m vt 1 true None y _ t u Hfv Hy Hnv eq_refl (no_default vt) Hzv Ha Hu ltac:(lia)) as [->|(Hc & _)]; easy.
      * rewrite app_length in Hf. rewrite (elem_complete f m 1 vt y _ u Hy Hnv Hfv eq_refl Hzv ltac:(lia)).
        now rewrite (HM m kt vt r u q) by (assumption || lia).
Qed.

Lemma members_default_ok fds : Forall (member_ok e k) fds -> Forall (fun fd => fdef fd <> None -> scalar_ty (fty fd) = true) fds.
Proof. intros H. eapply Forall_impl; [|exact H]. intros fd [_ A]. exact A. Qed.

Lemma members_nest_ok fds : Forall (member_ok e k) fds ->
  Forall (fun fd => forall sid, fty fd = TStruct sid -> nest_ok k e (fty fd) = true) fds.
Proof. intros H. eapply Forall_impl; [|exact H]. intros fd [A _] sid _. now apply (ty_nest_nest e k). Qed.

Lemma wstep_fields f : W_var f -> W_fields f -> W_fields (S f).
Proof.
  intros HV HF m fds vs ps p q lo Hfin Hty Hmem Hasc Hps E Hf. rewrite dec_fields_S.
  destruct Hty as [|fd x fds vs Hx Hvs].
  - cbn [enc_fields] in E. destruct p; [|discriminate]. inversion Hps; subst.
    exact (prefix_ok_nil e).
  - inversion Hps as [|? p0 ? ps0 Hp0 Hps0]; subst. inversion Hmem as [|? ? [Hm1 Hm2] Hmem']; subst.
    destruct (asc_opt_cons _ _ _ Hasc) as [H256 Hasc'].
    cbn [enc_fields length tmax fold_right] in *. fold (tmax (tneed m e) fds) in Hf. cbv zeta. cbn [tl].
    assert (Hfd : tfin m e (fty fd) = true) by (apply Hfin; now left).
    assert (Hfin' : forall fd', In fd' fds -> tfin m e (fty fd') = true) by (intros fd' Hin; apply Hfin; now right).
    pose proof (TotalProofs.tneed_ge e m (fty fd) Hfd) as H3.
    destruct f as [|[|f0]]; [lia|lia|].
    assert (Hnil : all_absent e fds (dec_fields (S (S f0)) e fds ps0 [])).
    { apply (fields_on_nil_gen e k); [now apply members_default_ok|now apply members_nest_ok|assumption|lia]. }
    assert (Hrest : forall t, enc_fields e vs fds = t ++ q -> (4 * length t <= 4 * length p)%nat ->
              prefix_ok e fds vs t (dec_fields (S (S f0)) e fds ps0 t))
      by (intros t Et Hl; apply (HF m fds vs ps0 t q (Some (ftag fd))); assumption || lia).
    destruct (enc_var_shape e (ftag fd) (freq fd) (fty fd) (fdef fd) x Hx) as [(Hl & Hreq & Ea)|(Hl & ty & r & Hty' & Hse & Ea)].
    + (* left out by the encoder: absent whatever follows *)
      rewrite Ea in E. cbn [app] in E. rewrite Hreq in *.
      destruct (left_out_prior e (fty fd) false (fdef fd) x p0 Hx Hp0 Hm2 Hl) as [Hn0 Hav].
      destruct (pre_follows f0 (ftag fd) _ p q (enc_fields_follows e fds vs _ Hasc' Hvs) E) as [Hs|[Hh Hs]];
        rewrite (dec_var_notfound e (S f0) _ _ _ _ _ Hs), Hav; cbv beta iota.
      * apply (prefix_ok_cons e fd fds x vs p0 [] p p0); rewrite ?Hreq; auto.
      * apply prefix_ok_stop; auto.
    + destruct (app_cut _ _ _ _ E) as [(t & Ht & Ha & _)|(t & -> & HB)].
      * (* cut inside the member *)
        destruct (HV m (fty fd) (ftag fd) (freq fd) (fdef fd) x p0 p t Hfd Hx Hm1 H256 Hm2 Hp0 Ha Ht ltac:(lia))
          as [->|(Hreq & Hph & x0 & -> & Hx0)]; [now left|cbv beta iota].
        apply prefix_ok_stop; auto.
      * rewrite app_length in Hf. rewrite (member_complete (S (S f0)) m) by (assumption || lia). cbv beta iota.
        apply (prefix_ok_cons e fd fds x vs p0); auto. apply Hrest; [assumption|rewrite app_length; lia].
Qed.

Lemma member_head_cut ty tag body p q : ty < 16 -> head ty tag ++ body = p ++ q ->
  (p = [] \/ halfhead p) \/ exists u, p = head ty tag ++ u /\ body = u ++ q.
Proof.
  intros Hty E. destruct (head_cut _ _ _ _ _ Hty E) as [->|[->|H]]; [left; now left|left; right; now exists ty|now right].
Qed.

Lemma w_absent f tag req t d prior p : (forall sid, t = TStruct sid -> nest_ok k e t = true /\ (k <= S f)%nat) ->
  (p = [] \/ halfhead p) -> (d <> None -> scalar_ty t = true) -> prior_ok e t d prior ->
  w_concl (S (S f)) tag req t d prior p.
Proof.
  intros Hnest Hp Hd Hpr. unfold w_concl.
  assert (E : dec_var (S (S f)) e tag req t prior p = if req then DErr else DOk (absent_val (S f) e t prior) []).
  { destruct Hp as [->|Hh]; [apply dec_var_nil|now apply dec_var_halfhead]. }
  rewrite E. destruct req; [now left|]. right. split; [reflexivity|]. split; [assumption|].
  eexists. split; [reflexivity|]. now apply (absent_prior_ok e k).
Qed.
Ltac not_struct := let s := fresh in let H := fresh in intros s H; first [discriminate H | subst; discriminate].

(* what follows the head of a LIST / MAP member: the count, then the elements *)
Lemma count_cut n body u q : N.of_nat n < 2147483648 -> w_int32 (Z.of_nat n) 0 ++ body = u ++ q -> q <> [] ->
  (exists r', read_count u = CErr r') \/
  exists u2, read_count u = COk (Z.of_nat n) u2 /\ body = u2 ++ q /\ (length u2 < length u)%nat.
Proof.
  intros Hn E Hq. pose proof (headed_length 0 _ (w_int32_headed (Z.of_nat n) 0)) as Hc.
  destruct (app_prefix_cases _ _ _ _ E) as [(t & Ha & Hq')|(t & Hp' & HB)].
  - destruct t as [|t0 t].
    + rewrite app_nil_r in Ha. right. exists []. subst u. rewrite <- (app_nil_r (w_int32 _ _)) at 1.
      rewrite read_count_len by assumption. split; [reflexivity|]. split; [now symmetry|cbn [length]; lia].
    + left. apply (count_prefix n u (t0 :: t)); [assumption|assumption|discriminate].
  - right. exists t. subst u. rewrite read_count_len by assumption. split; [reflexivity|]. split; [assumption|].
    rewrite app_length. lia.
Qed.

Lemma wstep_var_scalar f m tag req t d v prior p q :
  scalar_ty t = true -> sc_typed t v -> tag < 256 -> (d <> None -> scalar_ty t = true) -> prior_ok e t d prior ->
  enc_var e tag req t d v = p ++ q -> q <> [] -> tfin m e t = true -> (tneed m e t + k + 4 * length p + 3 <= S f)%nat ->
  w_concl (S f) tag req t d prior p.
Proof.
  intros Hsc Hty Htag Hd Hpr E Hq Hfin Hf. pose proof (TotalProofs.tneed_ge e m t Hfin). destruct f as [|f0]; [lia|].
  destruct p as [|b p]; [apply w_absent; [intros s0 Hs0; subst t; discriminate|now left|assumption|assumption]|].
  rewrite enc_var_scalar in E by assumption. destruct (omit t req d v); [discriminate|].
  unfold w_concl. rewrite dec_var_scalar by assumption.
  destruct (scalar_prefix f0 tag req t v prior (b :: p) q Hsc Hty Htag E Hq ltac:(discriminate)) as [->|(Hr & Hh & ->)].
  - left. reflexivity.
  - right. split; [assumption|]. split; [now right|]. exists prior. split; [reflexivity|assumption].
Qed.

Lemma wstep_var_bytes f tag req d s prior p q :
  N.of_nat (length s) < 2147483648 -> tag < 256 -> (d <> None -> scalar_ty (TVec TI8) = true) -> prior_ok e (TVec TI8) d prior ->
  enc_var e tag req (TVec TI8) d (VBytes s) = p ++ q -> q <> [] ->
  w_concl (S (S (S f))) tag req (TVec TI8) d prior p.
Proof.
  intros Hs Htag Hd Hpr E Hq. cbn [enc_var] in E.
  destruct (negb req && match s with [] => true | _ => false end); [destruct p; [|discriminate]; cbn [app] in E; congruence|].
  destruct (member_head_cut tSIMPLE tag _ p q ltac:(reflexivity) E) as [Hab|(u & -> & Eu)]; [apply w_absent; [not_struct|assumption..]|].
  left. rewrite dec_var_vec, seek_first by (reflexivity || assumption).
  change (tSIMPLE =? tLIST) with false. rewrite N.eqb_refl. cbn [is_byte].
  destruct (member_head_cut tBYTE 0 _ u q ltac:(reflexivity) Eu) as [[->|(ty & Hty0 & ->)]|(u1 & -> & Eu1)].
  - reflexivity.
  - unfold skip_to. cbn [skip_to_no_check]. rewrite read_head2_partial by assumption. reflexivity.
  - unfold skip_to. rewrite seek_first by (reflexivity || assumption). rewrite N.eqb_refl.
    destruct (count_cut (length s) s u1 q Hs Eu1 Hq) as [(r' & ->)|(u2 & -> & Es & Hlu)]; [reflexivity|].
    assert (Hlen : (length u2 < length s)%nat).
    { assert (length s = length u2 + length q)%nat by (rewrite Es, app_length; reflexivity). destruct q; [congruence|]. cbn [length] in *. lia. }
    unfold read_slice. destruct (Z.of_nat (length s) <? 0)%Z eqn:E0; [lia|].
    destruct (Z.of_nat (length u2) <? Z.of_nat (length s))%Z eqn:E1; [reflexivity|lia].
Qed.

Lemma wstep_var_vec f m tag req d x xs prior p q : W_elems (S (S f)) ->
  x <> TI8 -> N.of_nat (length xs) < 2147483648 -> Forall (has_type e x) xs -> ty_nest k e x = true -> tfin m e x = true ->
  tag < 256 -> (d <> None -> scalar_ty (TVec x) = true) -> prior_ok e (TVec x) d prior ->
  enc_var e tag req (TVec x) d (VList xs) = p ++ q -> q <> [] ->
  (3 + tneed m e x + k + 4 * length p + 3 <= S (S (S f)))%nat ->
  w_concl (S (S (S f))) tag req (TVec x) d prior p.
Proof.
  intros HE Hx Hlen Hty Hn Hfin Htag Hd Hpr E Hq Hf. rewrite enc_var_list in E.
  destruct (negb req && match xs with [] => true | _ => false end); [destruct p; [|discriminate]; cbn [app] in E; congruence|].
  destruct (member_head_cut tLIST tag _ p q ltac:(reflexivity) E) as [Hab|(u & -> & Eu)]; [apply w_absent; [not_struct|assumption..]|].
  left. rewrite dec_var_vec, seek_first by (reflexivity || assumption). rewrite N.eqb_refl.
  destruct (count_cut (length xs) _ u q Hlen Eu Hq) as [(r' & ->)|(u2 & -> & Es & Hlu)]; [reflexivity|].
  destruct (Z.of_nat (length xs) <? 0)%Z eqn:E1; [lia|].
  destruct (Z.of_nat (length u2) <? Z.of_nat (length xs))%Z; [reflexivity|].
  rewrite !app_length in Hf. pose proof (head_length tLIST tag).
  now rewrite (HE m x xs u2 q) by (assumption || lia).
Qed.

Lemma wstep_var_arr f m tag req d n x xs prior p q : W_arr (S (S f)) ->
  length xs = n -> (0 < n)%nat -> N.of_nat n < 2147483648 -> Forall (has_type e x) xs -> ty_nest k e x = true -> tfin m e x = true ->
  tag < 256 -> (d <> None -> scalar_ty (TArr n x) = true) -> prior_ok e (TArr n x) d prior ->
  enc_var e tag req (TArr n x) d (VList xs) = p ++ q -> q <> [] ->
  (3 + tneed m e x + k + 4 * length p + 3 <= S (S (S f)))%nat ->
  w_concl (S (S (S f))) tag req (TArr n x) d prior p.
Proof.
  intros HA Hl Hpos Hlen Hty Hn Hfin Htag Hd Hpr E Hq Hf. rewrite enc_var_arr in E.
  destruct (negb req && match xs with [] => true | _ => false end); [destruct p; [|discriminate]; cbn [app] in E; congruence|].
  destruct (member_head_cut tLIST tag _ p q ltac:(reflexivity) E) as [Hab|(u & -> & Eu)]; [apply w_absent; [not_struct|assumption..]|].
  left. rewrite dec_var_arr, seek_first by (reflexivity || assumption). rewrite N.eqb_refl.
  pose proof (nonscalar_no_default _ d Hd eq_refl). subst d.
  unfold prior_ok in Hpr. inversion Hpr as [? Hb|? ? l Hll Hz|]; subst; [discriminate|].
  destruct (count_cut (length xs) _ u q ltac:(rewrite <- Hll in Hlen; lia) Eu Hq) as [(r' & ->)|(u2 & -> & Es & Hlu)]; [reflexivity|].
  replace ((Z.of_nat (length xs) <? 0)%Z || (Z.of_nat (length xs) <? Z.of_nat (length xs))%Z) with false by lia.
  rewrite !app_length in Hf. pose proof (head_length tLIST tag).
  now rewrite (HA m x (length xs) [] l xs u2 q) by (assumption || reflexivity || lia).
Qed.

Lemma wstep_var_map f m tag req d kt vt kvs prior p q : W_entries (S (S f)) ->
  N.of_nat (length kvs) < 2147483648 -> Forall (fun pr => has_type e kt (fst pr) /\ has_type e vt (snd pr)) kvs ->
  ty_nest k e kt = true -> ty_nest k e vt = true -> tfin m e kt = true -> tfin m e vt = true ->
  tag < 256 -> (d <> None -> scalar_ty (TMap kt vt) = true) -> prior_ok e (TMap kt vt) d prior ->
  enc_var e tag req (TMap kt vt) d (VMap kvs) = p ++ q -> q <> [] ->
  (3 + Nat.max (tneed m e kt) (tneed m e vt) + k + 4 * length p + 3 <= S (S (S f)))%nat ->
  w_concl (S (S (S f))) tag req (TMap kt vt) d prior p.
Proof.
  intros HM Hlen Hty Hnk Hnv Hfk Hfv Htag Hd Hpr E Hq Hf. rewrite enc_var_map in E.
  destruct (negb req && match kvs with [] => true | _ => false end); [destruct p; [|discriminate]; cbn [app] in E; congruence|].
  destruct (member_head_cut tMAP tag _ p q ltac:(reflexivity) E) as [Hab|(u & -> & Eu)]; [apply w_absent; [not_struct|assumption..]|].
  left. rewrite dec_var_map. unfold skip_to. rewrite seek_first by (reflexivity || assumption). rewrite N.eqb_refl.
  destruct (count_cut (length kvs) _ u q Hlen Eu Hq) as [(r' & ->)|(u2 & -> & Es & Hlu)]; [reflexivity|].
  destruct ((Z.of_nat (length kvs) <? 0)%Z || (Z.of_nat (length u2) / 2 <? Z.of_nat (length kvs))%Z); [reflexivity|].
  rewrite !app_length in Hf. pose proof (head_length tMAP tag).
  now rewrite (HM m kt vt kvs u2 q) by (assumption || lia).
Qed.

Lemma wstep_var_struct f m tag req d sid vs prior p q : W_fields (S (S f)) ->
  Forall2 (fun fd x => has_type e (fty fd) x) (fields_of e sid) vs ->
  (forall fd, In fd (fields_of e sid) -> tfin m e (fty fd) = true) ->
  nest_ok k e (TStruct sid) = true ->
  tag < 256 -> (d <> None -> scalar_ty (TStruct sid) = true) -> prior_ok e (TStruct sid) d prior ->
  enc_var e tag req (TStruct sid) d (VStruct vs) = p ++ q -> q <> [] ->
  (4 + length (fields_of e sid) + tmax (tneed m e) (fields_of e sid) + k + 4 * length p + 3 <= S (S (S f)))%nat ->
  w_concl (S (S (S f))) tag req (TStruct sid) d prior p.
Proof.
  intros HF Hty Hfin Hnest Htag Hd Hpr E Hq Hf. rewrite enc_var_struct in E.
  destruct (member_head_cut tSB tag _ p q ltac:(reflexivity) E) as [Hab|(u & -> & Eu)]; [apply w_absent; [intros s0 Hs0; split; [exact Hnest|lia]|assumption..]|].
  left. rewrite dec_var_struct. cbv zeta. unfold skip_to. rewrite seek_first by (reflexivity || assumption). rewrite N.eqb_refl.
  pose proof (nonscalar_no_default _ d Hd eq_refl). subst d.
  destruct (struct_priors e k (S f) sid prior Hwf ltac:(lia)) as (ps & -> & Hps).
  (* u is a prefix of the member bytes: the closing StructEnd is not in it *)
  assert (Hu : exists t', enc_fields e vs (fields_of e sid) = u ++ t').
  { destruct (app_prefix_cases _ _ _ _ Eu) as [(t & Ha & Hq')|(t & Hp' & HB)]; [now exists t|].
    change (head tSE 0) with [11] in HB. destruct t as [|t0 t].
    - exists []. now rewrite app_nil_r in *.
    - cbn [app] in HB. injection HB as _ HB. destruct t; [|discriminate]. cbn [app] in HB. congruence. }
  destruct Hu as (t' & Et).
  destruct (HF m (fields_of e sid) vs ps u t' None Hfin Hty (members_ok e k Hwf sid) (wf_asc k e Hwf sid) Hps Et) as [->|(i & h & ps' & _ & _ & _ & _ & _ & ->)]; [|reflexivity..].
  rewrite !app_length in Hf. pose proof (head_length tSB tag). lia.
Qed.

Lemma wstep_var f : W_elems f -> W_arr f -> W_entries f -> W_fields f -> W_var (S f).
Proof.
  intros HE HA HM HF m t tag req d v prior p q Hfin Hty Hn Htag Hd Hpr E Hq Hf.
  pose proof (TotalProofs.tneed_ge e m t Hfin) as H3.
  inversion Hty; subst.
  - now apply (wstep_var_scalar f m tag req t d v prior p q).
  - destruct f as [|[|f0]]; [lia|lia|]. now apply (wstep_var_bytes f0 tag req d s prior p q).
  - destruct m as [|m']; [discriminate|]. cbn [tfin tneed] in Hfin, Hf.
    destruct f as [|[|f0]]; [lia|lia|]. apply (wstep_var_vec f0 m' tag req d x xs prior p q); try assumption.
    now apply (ty_nest_vec e k).
  - destruct m as [|m']; [discriminate|]. cbn [tfin tneed] in Hfin, Hf.
    destruct f as [|[|f0]]; [lia|lia|]. apply (wstep_var_arr f0 m' tag req d (length xs) x xs prior p q); try assumption; try reflexivity.
    now apply (ty_nest_arr e k) in Hn.
  - destruct m as [|m']; [discriminate|]. cbn [tfin tneed] in Hfin, Hf. apply andb_true_iff in Hfin. destruct Hfin as [Hfk Hfv].
    apply (ty_nest_map e k) in Hn. destruct Hn as [Hnk Hnv].
    destruct f as [|[|f0]]; [lia|lia|]. now apply (wstep_var_map f0 m' tag req d kt vt kvs prior p q).
  - destruct m as [|m']; [discriminate|]. cbn [tfin tneed] in Hfin, Hf. rewrite forallb_forall in Hfin.
    destruct f as [|[|f0]]; [lia|lia|]. apply (wstep_var_struct f0 m' tag req d sid vs prior p q); try assumption.
    now apply (ty_nest_nest e k).
Qed.

Theorem w_all : forall f, W_var f /\ W_elems f /\ W_arr f /\ W_entries f /\ W_fields f.
Proof.
  induction f as [|f (HV & HE & HA & HM & HF)].
  - repeat split; intro; intros; lia.
  - repeat split.
    + now apply wstep_var.
    + now apply wstep_elems.
    + now apply wstep_arr.
    + now apply wstep_entries.
    + now apply wstep_fields.
Qed.
End PrefixGen.

(* C06, every struct type with a finite type graph: every prefix p of the encoding of a well-typed value decodes to
   an error (DErr), or to exactly the first i members - those completely
   present in p; p is their encoding, possibly followed by the lone first byte of a two-byte head - with all later
   members optional and holding admissible reset values (declared default, else zero), nothing left unread *)
Theorem prefix_general e k n sid vs p q :
  wf_schema k e -> (S k <= 64)%nat -> tfin n e (TStruct sid) = true -> (tneed n e (TStruct sid) + k <= 64)%nat ->
  has_type e (TStruct sid) (VStruct vs) -> encode e sid (VStruct vs) = p ++ q ->
  bad (decode e sid p) \/
  exists i h ps, (i <= length (fields_of e sid))%nat /\
    p = enc_fields e (firstn i vs) (firstn i (fields_of e sid)) ++ h /\ (h = [] \/ halfhead h) /\
    optional (skipn i (fields_of e sid)) /\
    Forall2 (fun fd pr => prior_ok e (fty fd) (fdef fd) pr) (fields_of e sid) ps /\
    decode e sid p = DOk (VStruct (firstn i (norm_fields e vs (fields_of e sid)) ++ skipn i ps)) [].
Proof.
  intros Hwf Hk Hfin Hn Hty HE. unfold decode, decode_into.
  replace (4 * length p + 64)%nat with (S (4 * length p + 63)) by lia.
  destruct (struct_priors1 e k (4 * length p + 63) sid (zero_struct e sid) Hwf ltac:(lia)) as (ps & -> & Hps).
  rewrite encode_fields in HE. pose proof (has_type_struct e sid vs Hty) as Hvs.
  destruct n as [|n']; [discriminate|]. cbn [tfin tneed] in Hfin, Hn. rewrite forallb_forall in Hfin.
  destruct (w_all e k Hwf (S (4 * length p + 63))) as (_ & _ & _ & _ & HF).
  destruct (HF n' (fields_of e sid) vs ps p q None Hfin Hvs (members_ok e k Hwf sid) (wf_asc k e Hwf sid) Hps HE ltac:(lia))
    as [->|(i & h & ps' & Hi & Hp & Hh & Ho & Hps' & ->)].
  - left. reflexivity.
  - right. exists i, h, ps'. repeat (split; [assumption|]). reflexivity.
Qed.
Print Assumptions prefix_general.
