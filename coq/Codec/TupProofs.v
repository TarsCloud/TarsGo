(* C05T proofs about the TUP attribute codec model (Tup.v): totality with linear bounds on arbitrary bytes,
   round trip for every attribute list, rejection of truncated and inflated encodings, and the defects of the
   pinned snapshot exhibited on the same model. *)
From Coq Require Import List NArith ZArith Lia Bool Arith.
From Coq Require Import ZifyN ZifyNat ZifyBool.
From TarsV Require Import Gen.Consts Base.Hex Codec.Wire Codec.WireProofs Codec.Skip Codec.SkipProofs Codec.Prim
  Codec.PrimProofs Codec.GenCodec Codec.GenProofs Codec.RoundTripProofs Codec.PrefixGenProofs Codec.TypedProofs Codec.Tup.
Import ListNotations.
Ltac Zify.zify_post_hook ::= Z.div_mod_to_equations.
Open Scope N_scope.

Definition nlen (bs : list N) : N := N.of_nat (length bs).

Lemma fuel_for_ok bs : (2 * length bs + 3 <= fuel_for bs)%nat.
Proof. unfold fuel_for. lia. Qed.
Lemma fuel_for_S bs : fuel_for bs = S (2 * length bs + 3).
Proof. unfold fuel_for. lia. Qed.

(* the value [x] lies in [bs] and is followed by [r] *)
Definition piece (x r bs : list N) : Prop := exists a, bs = a ++ x ++ r.
Lemma piece_here x r : piece x r (x ++ r).
Proof. now exists []. Qed.
Lemma piece_sfx x r bs bs' : piece x r bs -> sfx bs bs' -> piece x r bs'.
Proof. intros [a ->] [b ->]. exists (b ++ a). now rewrite <- app_assoc. Qed.
Lemma piece_len x r bs : piece x r bs -> (length x + length r <= length bs)%nat.
Proof. intros [a ->]. rewrite !app_length. lia. Qed.

Lemma take_str_split l r s r' : take_str l r = Some (s, r') -> r = s ++ r'.
Proof. unfold take_str. destruct (_ <? l); [discriminate|]. intros H; inversion H. symmetry. apply firstn_skipn. Qed.
Lemma read_string_body_piece ty r s r' : read_string_body ty r = Some (s, r') -> piece s r' r.
Proof.
  unfold read_string_body. destruct (ty =? tSTR4).
  - destruct (bread 4 r) as [[l r1]|] eqn:B; [|discriminate]. apply bread_sfx in B.
    intros H. apply take_str_split in H. subst r1. exact (piece_sfx _ _ _ _ (piece_here s r') (proj1 B)).
  - destruct (ty =? tSTR1); [|discriminate]. destruct r as [|l r1]; [discriminate|].
    intros H. apply take_str_split in H. subst r1. now exists [l].
Qed.
(* ReadBytes is the slice reader of the struct codec *)
Lemma read_slice_bytes n r : read_slice n r = read_bytes n r.
Proof. unfold read_slice, read_bytes. destruct (n <? 0)%Z; [reflexivity|]. destruct (Z.of_nat (length r) <? n)%Z; reflexivity. Qed.
Lemma read_bytes_split n r v r' : read_bytes n r = Some (v, r') -> r = v ++ r' /\ Z.of_nat (length v) = n.
Proof. rewrite <- read_slice_bytes. apply read_slice_exact. Qed.
Lemma read_bytes_app v rest : read_bytes (Z.of_nat (length v)) (v ++ rest) = Some (v, rest).
Proof. rewrite <- read_slice_bytes. apply read_slice_app. Qed.
Lemma read_bytes_short (n : nat) r : (length r < n)%nat -> read_bytes (Z.of_nat n) r = None.
Proof. intros H. rewrite <- read_slice_bytes. apply read_slice_truncated. lia. Qed.

(* Each reader is described once: where in its input the value it returns lies, and that finding something costs
   at least one byte.  The bounds of C05 and the "nothing made up" of C06 are both read off these. *)
Lemma r_string_spec tag req bs :
  match r_string (fuel_for bs) tag req bs with
  | ROk k r => piece k r bs /\ (length k + length r < length bs)%nat
  | RAbsent r => sfx r bs /\ req = false
  | RErr => True
  | RFuel => False
  end.
Proof.
  unfold r_string, with_seek. pose proof (seek_fuel _ tag req bs (fuel_for_ok bs)) as H.
  pose proof (seek_suffix (fuel_for bs) tag req bs) as Hs.
  destruct (skip_to_no_check (fuel_for bs) tag req bs) as [ty r|r| |]; cbn [seek_good seek_sfx] in H, Hs; try tauto.
  destruct (read_string_body ty r) as [[s r']|] eqn:E; [|exact I]. apply read_string_body_piece in E.
  split; [exact (piece_sfx _ _ _ _ E Hs)|]. apply piece_len in E. lia.
Qed.

Lemma dec_value_spec vreq k r :
  match dec_value vreq k r with
  | EIns k' v r' => k' = k /\ piece v r' r /\ (length v + length r' < length r)%nat
  | ESkip k' r' => k' = k /\ sfx r' r /\ vreq = false
  | EErr a => a = len k
  | EFuel => False
  end.
Proof.
  unfold dec_value. pose proof (seek_fuel _ 1 vreq r (fuel_for_ok r)) as H. pose proof (seek_suffix (fuel_for r) 1 vreq r) as Hs.
  destruct (skip_to_no_check (fuel_for r) 1 vreq r) as [ty r1|r1| |]; cbn [seek_good seek_sfx] in H, Hs; try tauto.
  destruct (ty =? tSIMPLE); [|reflexivity].
  pose proof (skip_to_fuel _ tBYTE 0 true r1 (fuel_for_ok r1)) as H2. pose proof (skip_to_suffix (fuel_for r1) tBYTE 0 true r1) as Hs2.
  destruct (skip_to (fuel_for r1) tBYTE 0 true r1) as [ty2 r2|r2| |]; cbn [seek_good seek_sfx] in H2, Hs2; try tauto.
  pose proof (read_count_len_ok r2) as H3. pose proof (read_count_sfx r2) as Hs3.
  destruct (read_count r2) as [n r3|r3]; [|reflexivity].
  destruct (read_bytes n r3) as [[v r4]|] eqn:E; [|reflexivity].
  apply read_bytes_split in E. destruct E as [-> _]. rewrite app_length in H3. repeat split; [|lia].
  apply (piece_sfx _ _ _ _ (piece_here v r4)). eauto using sfx_trans.
Qed.

Lemma dec_entry_spec kreq vreq bs :
  match dec_entry kreq vreq bs with
  | EIns k v r => (exists a b, bs = a ++ k ++ b ++ v ++ r) /\ (length k + length v + length r < length bs)%nat
  | ESkip k r => sfx r bs /\ (length k + length r <= length bs)%nat /\ (kreq = true -> (length k + length r < length bs)%nat)
  | EErr a => a <= nlen bs
  | EFuel => False
  end.
Proof.
  (* the key [k] (empty when absent) has been read and [r] follows it *)
  assert (Hv : forall k r, piece k r bs -> match dec_value vreq k r with
    | EIns k' v r' => (exists a b, bs = a ++ k' ++ b ++ v ++ r') /\ (length k' + length v + length r' < length k + length r)%nat
    | ESkip k' r' => sfx r' bs /\ (length k' + length r' <= length k + length r)%nat
    | EErr a => a <= nlen bs
    | EFuel => False
    end).
  { intros k r [a ->]. pose proof (dec_value_spec vreq k r) as H. destruct (dec_value vreq k r) as [k' v r'|k' r'|e|]; [| | |exact H].
    - destruct H as (-> & [b ->] & H). split; [now exists a, b|lia].
    - destruct H as (-> & [b ->] & _). split; [exists (a ++ k ++ b); now rewrite <- !app_assoc|rewrite app_length; lia].
    - subst e. unfold len, nlen. rewrite !app_length. lia. }
  unfold dec_entry. pose proof (r_string_spec 0 kreq bs) as H.
  destruct (r_string (fuel_for bs) 0 kreq bs) as [k r|r| |]; try tauto; [| |unfold nlen; lia].
  - destruct H as [Hp H]. specialize (Hv k r Hp). destruct (dec_value vreq k r); try tauto; intuition lia.
  - destruct H as [Hs ->]. pose proof (sfx_len _ _ Hs). specialize (Hv [] r Hs).
    destruct (dec_value vreq [] r); try tauto; cbn [length] in Hv; intuition (lia || discriminate).
Qed.

(* the loop of the repaired decoder (key required): every iteration that does not fail consumes input *)
Lemma dec_loop_good vreq : forall fuel n bs, (length bs < fuel)%nat ->
  let o := dec_loop true vreq fuel n bs in
  t_stat o <> TSFuel /\ t_iter o <= nlen bs + 1 /\ t_alloc o <= nlen bs /\ (length (t_rest o) <= length bs)%nat.
Proof.
  unfold nlen. induction fuel as [|f IH]; intros n bs Hf; [lia|]. cbn [dec_loop].
  destruct (n <=? 0)%Z. { cbn. repeat split; [discriminate|lia..]. }
  pose proof (dec_entry_spec true vreq bs) as H. unfold nlen in H.
  destruct (dec_entry true vreq bs) as [k v r|k r|a|]; [| | |contradiction].
  - destruct H as [_ H]. destruct (IH (n - 1)%Z r ltac:(lia)) as (A & B & C & D).
    cbn [t_stat t_iter t_alloc t_rest]. unfold len. repeat split; [assumption|lia..].
  - destruct H as (_ & _ & H). specialize (H eq_refl). destruct (IH (n - 1)%Z r ltac:(lia)) as (A & B & C & D).
    cbn [t_stat t_iter t_alloc t_rest]. unfold len. repeat split; [assumption|lia..].
  - cbn. repeat split; [discriminate|lia..].
Qed.

Lemma tup_decode_loop bs :
  tup_decode bs = t_err \/
  exists n r, sfx r bs /\ (length r + 2 <= length bs)%nat /\ tup_decode bs = dec_loop true true (S (length r)) n r.
Proof.
  unfold tup_decode, tup_decode_gen.
  pose proof (skip_to_fuel _ tMAP 0 true bs (fuel_for_ok bs)) as H. pose proof (skip_to_suffix (fuel_for bs) tMAP 0 true bs) as Hs.
  destruct (skip_to (fuel_for bs) tMAP 0 true bs) as [ty r|r| |]; cbn [seek_good seek_sfx] in H, Hs;
    [| destruct H; discriminate | now left | contradiction].
  pose proof (read_count_len_ok r) as Hc. pose proof (read_count_sfx r) as Hcs.
  destruct (read_count r) as [n r1|r1]; [right|now left]. exists n, r1. repeat split; [eauto using sfx_trans|lia].
Qed.

(* C05 for the TUP decoder: on ANY bytes the (repaired) decoder terminates with a value or an error (the model's
   linear fuel never runs out); the number of loop iterations and the bytes allocated for keys and buffers are
   bounded by the input length, and the reader only moves forward. *)
Theorem tup_decode_total bs :
  let o := tup_decode bs in
  t_stat o <> TSFuel /\ t_iter o <= nlen bs /\ t_alloc o <= nlen bs /\ (length (t_rest o) <= length bs)%nat.
Proof.
  cbv zeta. destruct (tup_decode_loop bs) as [->|(n & r & _ & Hl & ->)].
  - cbn. repeat split; [discriminate|lia..].
  - destruct (dec_loop_good true (S (length r)) n r ltac:(lia)) as (A & B & C & D).
    unfold nlen in *. repeat split; [assumption|lia..].
Qed.

(* nothing is made up, on arbitrary bytes (C06): every key and every buffer the decoder adds to the set is a contiguous piece of the input, the buffer after the
   key: no zero padding, no partial strings, whatever the bytes are. *)
Definition lies_in (kv : list N * list N) (bs : list N) : Prop :=
  exists a b c, bs = a ++ fst kv ++ b ++ snd kv ++ c.
Lemma lies_in_sfx kv r bs : lies_in kv r -> sfx r bs -> lies_in kv bs.
Proof. intros (a & b & c & ->) [p ->]. exists (p ++ a), b, c. now rewrite <- app_assoc. Qed.

Lemma dec_loop_pieces kreq vreq : forall fuel n bs kv, In kv (t_ins (dec_loop kreq vreq fuel n bs)) -> lies_in kv bs.
Proof.
  induction fuel as [|f IH]; intros n bs kv; cbn [dec_loop]; destruct (n <=? 0)%Z; try (cbn; tauto).
  pose proof (dec_entry_spec kreq vreq bs) as H.
  destruct (dec_entry kreq vreq bs) as [k v r|k r|a|]; cbn [t_ins]; try (cbn; tauto).
  - destruct H as [(a & b & E) _]. intros [<-|Hin]; [now exists a, b, r|].
    apply (lies_in_sfx _ r); [eauto|]. exists (a ++ k ++ b ++ v). now rewrite E, <- !app_assoc.
  - intros Hin. apply (lies_in_sfx _ r); [eauto|apply H].
Qed.

Theorem tup_nothing_made_up bs kv : In kv (t_ins (tup_decode bs)) -> lies_in kv bs.
Proof.
  destruct (tup_decode_loop bs) as [->|(n & r & Hs & _ & ->)]; [cbn; tauto|].
  intros Hin. apply dec_loop_pieces in Hin. exact (lies_in_sfx _ _ _ Hin Hs).
Qed.
Print Assumptions tup_decode_total.
Print Assumptions tup_nothing_made_up.

Lemma wrap32_small z : (0 <= z < 2 ^ 31)%Z -> wrap32 z = z.
Proof.
  intros H. unfold wrap32. change (2 ^ 32)%Z with 4294967296%Z. change (2 ^ 31)%Z with 2147483648%Z in *.
  rewrite Z.mod_small by lia. destruct (z <? 2147483648)%Z eqn:E; lia.
Qed.

Lemma count_field n : N.of_nat n < 2147483648 -> w_int32 (wrap32 (Z.of_nat n)) 0 = w_len (N.of_nat n).
Proof.
  intros H. rewrite wrap32_small, <- nat_N_Z by (change (2 ^ 31)%Z with 2147483648%Z; lia). now apply w_int32_len.
Qed.

(* a head of the wanted tag met first: found whatever its type, except that StructEnd ends the search *)
Lemma seek_head f ty tag rest : ty < 16 -> tag < 256 ->
  skip_to_no_check (S f) tag true (head ty tag ++ rest) = if ty =? tSE then SeekErr else Found ty rest.
Proof.
  intros Hty Htag. cbn [skip_to_no_check]. rewrite read_head2_head by assumption.
  destruct (ty =? tSE); [reflexivity|]. cbn [orb]. now rewrite N.ltb_irrefl, N.eqb_refl.
Qed.
Lemma skip_to_first f ty tag req r : ty < 16 -> tag < 256 -> (ty =? tSE) = false ->
  skip_to (S f) ty tag req (head ty tag ++ r) = Found ty r.
Proof. intros. unfold skip_to. rewrite seek_first by assumption. now rewrite N.eqb_refl. Qed.
Lemma skip_to_other f want ty tag rest : ty < 16 -> tag < 256 -> ty <> want ->
  skip_to (S f) want tag true (head ty tag ++ rest) = SeekErr.
Proof.
  intros Hty Htag Hne. unfold skip_to. rewrite seek_head by assumption.
  destruct (ty =? tSE); [reflexivity|]. destruct (ty =? want) eqn:E; [lia|reflexivity].
Qed.

Lemma tup_decode_counted mreq kreq vreq lf n rest : n < 2 ^ 31 ->
  tup_decode_gen mreq kreq vreq lf (head tMAP 0 ++ w_len n ++ rest) = dec_loop kreq vreq (lf rest (Z.of_N n)) (Z.of_N n) rest.
Proof. intros Hn. unfold tup_decode_gen. rewrite fuel_for_S, skip_to_first by reflexivity. now rewrite read_count_w_len. Qed.

Definition entry_ok (kv : list N * list N) : Prop := len (fst kv) < 4294967296 /\ len (snd kv) < 2147483648.
Definition attrs_ok (m : attrs) : Prop := N.of_nat (length m) < 2147483648 /\ Forall entry_ok m.

Lemma dec_entry_key kreq vreq k q : len k < 4294967296 -> dec_entry kreq vreq (w_string k 0 ++ q) = dec_value vreq k q.
Proof. intros Hk. unfold dec_entry. now rewrite fuel_for_S, roundtrip_string by (reflexivity || exact Hk). Qed.
Lemma dec_value_list vreq k q : dec_value vreq k (head tSIMPLE 1 ++ head tBYTE 0 ++ q) =
  match read_count q with
  | COk n r => match read_bytes n r with Some (v, r') => EIns k v r' | None => EErr (len k) end
  | CErr _ => EErr (len k)
  end.
Proof.
  unfold dec_value. rewrite fuel_for_S, seek_first by reflexivity. change (tSIMPLE =? tSIMPLE) with true. cbv iota.
  now rewrite fuel_for_S, skip_to_first by reflexivity.
Qed.

Lemma dec_entry_enc kreq vreq k v rest : entry_ok (k, v) ->
  dec_entry kreq vreq (enc_entry (k, v) ++ rest) = EIns k v rest.
Proof.
  intros [Hk Hv]. unfold enc_entry. cbn [fst snd] in *. rewrite <- !app_assoc, dec_entry_key, dec_value_list by assumption.
  rewrite count_field, read_count_w_len, nat_N_Z by (exact Hv). now rewrite read_bytes_app.
Qed.

Lemma enc_entry_nonempty kv : (1 <= length (enc_entry kv))%nat.
Proof.
  unfold enc_entry, w_string. cbv zeta. destruct (255 <? _); repeat rewrite app_length; pose proof (head_length tSTR4 0); pose proof (head_length tSTR1 0); lia.
Qed.
Lemma entries_length m : (length m <= length (flat_map enc_entry m))%nat.
Proof.
  induction m as [|kv m IH]; [cbn; lia|]. cbn [flat_map length]. rewrite app_length. pose proof (enc_entry_nonempty kv). lia.
Qed.

Fixpoint alloc_of (m : attrs) : N := match m with [] => 0 | (k, v) :: r => len k + len v + alloc_of r end.

(* the output of a loop that reads the entries [m] and then goes on as [o] *)
Definition after (m : attrs) (o : tout) : tout :=
  mk_tout (t_stat o) (m ++ t_ins o) (t_rest o) (N.of_nat (length m) + t_iter o) (alloc_of m + t_alloc o).

Lemma dec_loop_entries kreq vreq rest : forall m f n, Forall entry_ok m -> (0 <= n)%Z ->
  dec_loop kreq vreq (length m + f) (Z.of_nat (length m) + n) (flat_map enc_entry m ++ rest) =
  after m (dec_loop kreq vreq f n rest).
Proof.
  induction m as [|[k v] m IH]; intros f n Hok Hn; [cbn; now destruct (dec_loop kreq vreq f n rest)|].
  inversion Hok; subst. cbn [length flat_map Nat.add dec_loop].
  destruct (Z.of_nat (S (length m)) + n <=? 0)%Z eqn:E; [lia|]. rewrite <- app_assoc, dec_entry_enc by assumption.
  replace (Z.of_nat (S (length m)) + n - 1)%Z with (Z.of_nat (length m) + n)%Z by lia. rewrite IH by assumption.
  unfold after. cbn [t_stat t_ins t_rest t_iter t_alloc alloc_of app length]. f_equal; lia.
Qed.

(* Decode of a map that starts with the complete entries [m] and announces [n] more: the loop, with fuel to
   spare, on what follows them *)
Lemma tup_decode_entries m (n : nat) rest : Forall entry_ok m -> N.of_nat (length m + n) < 2147483648 ->
  exists f, (length rest < f)%nat /\
  tup_decode (head tMAP 0 ++ w_int32 (wrap32 (Z.of_nat (length m + n))) 0 ++ flat_map enc_entry m ++ rest) =
  after m (dec_loop true true f (Z.of_nat n) rest).
Proof.
  intros Hok Hl. pose proof (entries_length m) as He.
  exists (S (length (flat_map enc_entry m ++ rest)) - length m)%nat. rewrite app_length. split; [lia|].
  unfold tup_decode. rewrite count_field, tup_decode_counted, nat_N_Z, Nat2Z.inj_add by (exact Hl).
  rewrite <- dec_loop_entries by (assumption || lia). f_equal. rewrite app_length. lia.
Qed.

(* C03 for the TUP codec: for EVERY attribute list (any keys, any buffers, any order, below the format's length
   limits) Decode reads back from Encode's bytes exactly the entries, in order, and stops exactly at their end;
   the iterations and the allocation are those of the entries. *)
Theorem tup_roundtrip m rest : attrs_ok m ->
  tup_decode (tup_encode m ++ rest) = mk_tout TSOk m rest (N.of_nat (length m)) (alloc_of m).
Proof.
  intros [Hl Hok]. rewrite <- (Nat.add_0_r (length m)) in Hl. destruct (tup_decode_entries m 0 rest Hok Hl) as (f & _ & E).
  unfold tup_encode. rewrite Nat.add_0_r in E. rewrite <- !app_assoc, E.
  destruct f; unfold after; cbn; rewrite app_nil_r; f_equal; lia.
Qed.

(* the attribute set after decoding into an empty set is the encoded map (Go map semantics: one binding per
   key, the last one), and GetBuffer finds exactly the encoded bindings *)
Corollary tup_roundtrip_map m : attrs_ok m ->
  decoded_into [] (tup_decode (tup_encode m)) = dedupe m /\
  forall k, get (t_ins (tup_decode (tup_encode m))) k = get m k.
Proof.
  intros H. pose proof (tup_roundtrip m [] H) as E. rewrite app_nil_r in E. rewrite E. split; reflexivity.
Qed.

Print Assumptions tup_roundtrip.

Definition ex_m : attrs := [([97], [1; 2; 3]); ([], []); ([255; 0], repeat 7 300)].
Example ex_m_ok : attrs_ok ex_m.
Proof. split; [cbn; lia|repeat constructor; cbn; lia]. Qed.
Example tup_roundtrip_ex :
  attrs_ok [([97], [1; 2; 3]); ([], []); ([255; 0], repeat 7 300)] /\
  t_ins (tup_decode (tup_encode [([97], [1; 2; 3]); ([], []); ([255; 0], repeat 7 300)])) =
    [([97], [1; 2; 3]); ([], []); ([255; 0], repeat 7 300)].
Proof. split; [exact ex_m_ok|vm_compute; reflexivity]. Qed.

(* Complete entries, fewer than announced, then bytes on which an iteration fails: an error, and exactly the
   complete entries have been added.  Inflated counts and lengths, mistyped fields and truncation are all this. *)
Theorem tup_bad_entry m bad (cnt : nat) a : Forall entry_ok m -> (length m < cnt)%nat -> N.of_nat cnt < 2147483648 ->
  dec_entry true true bad = EErr a ->
  tup_decode (head tMAP 0 ++ w_int32 (wrap32 (Z.of_nat cnt)) 0 ++ flat_map enc_entry m ++ bad) =
  mk_tout TSErr m [] (N.of_nat (length m) + 1) (alloc_of m + a).
Proof.
  intros Hok Hc Hl Hbad. replace cnt with (length m + (cnt - length m))%nat in * by lia.
  destruct (tup_decode_entries m _ bad Hok Hl) as (f & Hf & ->). destruct f as [|f]; [lia|]. cbn [dec_loop].
  destruct (Z.of_nat (cnt - length m) <=? 0)%Z eqn:E; [lia|]. rewrite Hbad. unfold after. cbn. now rewrite app_nil_r.
Qed.

(* a map count larger than the number of entries that follow: error after exactly the entries present *)
Theorem tup_inflated_count m (extra : nat) : Forall entry_ok m -> (0 < extra)%nat -> N.of_nat (length m + extra) < 2147483648 ->
  let o := tup_decode (head tMAP 0 ++ w_int32 (wrap32 (Z.of_nat (length m + extra))) 0 ++ flat_map enc_entry m) in
  t_stat o = TSErr /\ t_ins o = m.
Proof.
  intros Hok Hx Hl. cbv zeta. rewrite <- (app_nil_r (flat_map enc_entry m)).
  rewrite (tup_bad_entry m [] _ 0 Hok) by (reflexivity || lia). split; reflexivity.
Qed.

(* a buffer length larger than the bytes that remain (an entry anywhere: [tail] is whatever follows its bytes):
   error, and only the complete entries before it have been added *)
Theorem tup_inflated_buffer m k v tail (cnt announced : nat) : Forall entry_ok m -> len k < 4294967296 ->
  (length m < cnt)%nat -> N.of_nat cnt < 2147483648 ->
  (length v + length tail < announced)%nat -> N.of_nat announced < 2147483648 ->
  let o := tup_decode (head tMAP 0 ++ w_int32 (wrap32 (Z.of_nat cnt)) 0 ++ flat_map enc_entry m ++
                       w_string k 0 ++ head tSIMPLE 1 ++ head tBYTE 0 ++ w_int32 (wrap32 (Z.of_nat announced)) 0 ++ v ++ tail) in
  t_stat o = TSErr /\ t_ins o = m.
Proof.
  intros Hok Hk Hc Hl Hx Hv. cbv zeta. rewrite (tup_bad_entry m _ cnt (len k) Hok Hc Hl); [split; reflexivity|].
  rewrite dec_entry_key, dec_value_list, count_field, read_count_w_len, nat_N_Z by assumption.
  now rewrite read_bytes_short by (rewrite app_length; exact Hx).
Qed.

Print Assumptions tup_inflated_count.
Print Assumptions tup_inflated_buffer.

(* key optional (before b18cffe): at the end of the input every iteration is a no-op, so the loop runs as often as
   the count says - for every count; the steps are not bounded by the input *)
Lemma pinned_loop_spins (n : Z) : dec_loop false false (Z.to_nat n) n [] = mk_tout TSOk [] [] (Z.to_N n) 0.
Proof.
  destruct (n <=? 0)%Z eqn:E0. { destruct (Z.to_nat n); cbn [dec_loop]; rewrite E0; f_equal; lia. }
  rewrite <- (Z2Nat.id n) at 2 3 by lia. induction (Z.to_nat n) as [|k IH]; [reflexivity|]. cbn [dec_loop].
  destruct (Z.of_nat (S k) <=? 0)%Z eqn:E; [lia|].
  change (dec_entry false false []) with (ESkip [] []). cbv iota.
  replace (Z.of_nat (S k) - 1)%Z with (Z.of_nat k) by lia. rewrite IH.
  cbn [t_stat t_ins t_rest t_iter t_alloc len length]. f_equal; lia.
Qed.

(* six bytes at most, n iterations, no error.  The loop fuel [Z.to_nat n] stays symbolic: nothing here runs the loop. *)
Lemma pinned_decode_count (n : N) : n < 2 ^ 31 -> tup_decode_pinned (head tMAP 0 ++ w_len n) = mk_tout TSOk [] [] n 0.
Proof.
  intros Hn. unfold tup_decode_pinned. rewrite <- (app_nil_r (w_len n)), tup_decode_counted by assumption.
  rewrite pinned_loop_spins. now rewrite N2Z.id.
Qed.

Theorem pinned_decode_spins (n : nat) : N.of_nat n < 2147483648 ->
  let bs := head tMAP 0 ++ w_int32 (wrap32 (Z.of_nat n)) 0 in
  (length bs <= 6)%nat /\ tup_decode_pinned bs = mk_tout TSOk [] [] (N.of_nat n) 0.
Proof.
  intros Hn. cbv zeta. rewrite count_field by assumption. split; [|now apply pinned_decode_count].
  unfold w_len. destruct (_ =? 0); [cbn; lia|]. destruct (_ <? 128); [cbn; lia|]. destruct (_ <? 32768); cbn; lia.
Qed.
(* the totality-with-linear-steps statement is false of the pinned decoder: 6 bytes, 1 000 000 iterations, no error *)
Example pinned_total_refuted :
  exists bs, let o := tup_decode_pinned bs in nlen bs = 6 /\ t_stat o = TSOk /\ t_iter o = 1000000.
Proof. exists (head tMAP 0 ++ w_len 1000000). cbv zeta. rewrite pinned_decode_count by reflexivity. repeat split. Qed.
(* the repaired decoder on the same input *)
Example repaired_rejects_count_bomb : t_stat (tup_decode [8; 2; 127; 255; 255; 255]) = TSErr /\ t_iter (tup_decode [8; 2; 127; 255; 255; 255]) = 1.
Proof. vm_compute. split; reflexivity. Qed.

(* value optional (before 5664fef): an encoding cut right after the last key decodes "successfully" to a set
   without that entry *)
Example value_optional_accepts_truncated :
  let full := tup_encode [([97], [120])] in
  let cut := firstn 6 full in
  (length cut < length full)%nat /\ t_stat (tup_decode_b18cffe cut) = TSOk /\ t_ins (tup_decode_b18cffe cut) = [] /\
  t_stat (tup_decode cut) = TSErr.
Proof. vm_compute. repeat split; lia. Qed.

(* C06, second clause: mistyped fields are rejected, not reinterpreted *)
(* the attribute map itself: any other wire type at tag 0 *)
Theorem tup_mistyped_map ty rest : ty < 16 -> ty <> tMAP -> t_stat (tup_decode (head ty 0 ++ rest)) = TSErr.
Proof.
  intros Hty Hne. unfold tup_decode, tup_decode_gen. now rewrite fuel_for_S, skip_to_other by (reflexivity || assumption).
Qed.
Lemma dec_entry_mistyped_key ty rest : ty < 16 -> ty <> tSTR1 -> ty <> tSTR4 -> dec_entry true true (head ty 0 ++ rest) = EErr 0.
Proof.
  intros Hty H1 H4. unfold dec_entry, r_string, with_seek. rewrite fuel_for_S, seek_head by (reflexivity || assumption).
  destruct (ty =? tSE); [reflexivity|]. unfold read_string_body.
  destruct (ty =? tSTR4) eqn:E4; [lia|]. destruct (ty =? tSTR1) eqn:E1; [lia|reflexivity].
Qed.
Lemma dec_value_mistyped k ty rest : ty < 16 -> ty <> tSIMPLE -> dec_value true k (head ty 1 ++ rest) = EErr (len k).
Proof.
  intros Hty Hne. unfold dec_value. rewrite fuel_for_S, seek_head by (reflexivity || assumption).
  destruct (ty =? tSE); [reflexivity|]. destruct (ty =? tSIMPLE) eqn:E; [lia|reflexivity].
Qed.
Lemma dec_value_mistyped_elem k ty rest : ty < 16 -> ty <> tBYTE ->
  dec_value true k (head tSIMPLE 1 ++ head ty 0 ++ rest) = EErr (len k).
Proof.
  intros Hty Hne. unfold dec_value. rewrite fuel_for_S, seek_first by reflexivity.
  change (tSIMPLE =? tSIMPLE) with true. cbv iota. now rewrite fuel_for_S, skip_to_other by (reflexivity || assumption).
Qed.

(* after any complete entries, a mistyped key / value / element head makes Decode fail with exactly those entries *)
Theorem tup_mistyped m k ty rest (cnt : nat) : Forall entry_ok m -> (length m < cnt)%nat -> N.of_nat cnt < 2147483648 ->
  len k < 4294967296 -> ty < 16 ->
  let dec tail := tup_decode (head tMAP 0 ++ w_int32 (wrap32 (Z.of_nat cnt)) 0 ++ flat_map enc_entry m ++ tail) in
  (ty <> tSTR1 -> ty <> tSTR4 -> t_stat (dec (head ty 0 ++ rest)) = TSErr /\ t_ins (dec (head ty 0 ++ rest)) = m) /\
  (ty <> tSIMPLE -> t_stat (dec (w_string k 0 ++ head ty 1 ++ rest)) = TSErr /\ t_ins (dec (w_string k 0 ++ head ty 1 ++ rest)) = m) /\
  (ty <> tBYTE -> t_stat (dec (w_string k 0 ++ head tSIMPLE 1 ++ head ty 0 ++ rest)) = TSErr /\
                  t_ins (dec (w_string k 0 ++ head tSIMPLE 1 ++ head ty 0 ++ rest)) = m).
Proof.
  intros Hok Hc Hl Hk Hty. cbv zeta. split; [|split].
  - intros H1 H4. rewrite (tup_bad_entry m _ cnt 0 Hok Hc Hl); [split; reflexivity|]. now apply dec_entry_mistyped_key.
  - intros Hne. rewrite (tup_bad_entry m _ cnt (len k) Hok Hc Hl); [split; reflexivity|].
    rewrite dec_entry_key by assumption. now apply dec_value_mistyped.
  - intros Hne. rewrite (tup_bad_entry m _ cnt (len k) Hok Hc Hl); [split; reflexivity|].
    rewrite dec_entry_key by assumption. now apply dec_value_mistyped_elem.
Qed.
Print Assumptions tup_mistyped_map.
Print Assumptions tup_mistyped.

Definition pprefix (p l : list N) : Prop := exists s, s <> [] /\ l = p ++ s.

Lemma pprefix_app a b p : pprefix p (a ++ b) -> pprefix p a \/ (exists q, p = a ++ q /\ pprefix q b).
Proof.
  intros (s & Hs & E). destruct (app_prefix_cases _ _ _ _ E) as [(t & -> & ->)|(t & -> & ->)].
  - destruct t as [|x t]; [right; exists []|left; now exists (x :: t)]. rewrite !app_nil_r. split; [reflexivity|now exists b].
  - right. exists t. split; [reflexivity|now exists s].
Qed.
Lemma pprefix_single x p : pprefix p [x] -> p = [].
Proof. intros (s & Hs & E). destruct p as [|y [|z p]]; [reflexivity|destruct s; [congruence|discriminate]|discriminate]. Qed.
Lemma pprefix_length p l : pprefix p l -> (length p < length l)%nat.
Proof. intros (s & Hs & ->). rewrite app_length. destruct s; [congruence|cbn; lia]. Qed.

Lemma pprefix_flat_map {A} (f : A -> list N) m p : pprefix p (flat_map f m) ->
  exists m1 x m2 q, m = m1 ++ x :: m2 /\ p = flat_map f m1 ++ q /\ pprefix q (f x).
Proof.
  revert p. induction m as [|x m IH]; intros p Hp; [destruct Hp as (s & Hs & E); now destruct p, s|].
  apply pprefix_app in Hp. destruct Hp as [Hp|(q & -> & Hq)]; [now exists [], x, m, p|].
  destruct (IH q Hq) as (m1 & y & m2 & q' & -> & -> & H). exists (x :: m1), y, m2, q'. cbn [flat_map]. now rewrite <- app_assoc.
Qed.

Lemma read_count_nil : read_count [] = CErr [].
Proof. reflexivity. Qed.

Lemma r_string_prefix k p f : len k < 4294967296 -> pprefix p (w_string k 0) -> r_string (S f) 0 true p = RErr.
Proof.
  intros Hk Hp. unfold len in Hk. unfold w_string in Hp. cbv zeta in Hp. unfold r_string, with_seek.
  destruct (255 <? N.of_nat (length k)) eqn:E.
  - apply pprefix_app in Hp. destruct Hp as [Hp|[q [-> Hq]]].
    + apply pprefix_single in Hp. subst p. reflexivity.
    + rewrite seek_first by reflexivity. unfold read_string_body. change (tSTR4 =? tSTR4) with true. cbv iota.
      rewrite N.mod_small in Hq by assumption. apply pprefix_app in Hq. destruct Hq as [Hq|[k' [-> Hk']]].
      * apply pprefix_length in Hq. rewrite be_length in Hq. now rewrite bread_short by lia.
      * rewrite bread_be by (cbn; lia). apply pprefix_length in Hk'. now rewrite take_str_truncated by lia.
  - apply pprefix_app in Hp. destruct Hp as [Hp|[q [-> Hq]]].
    + apply pprefix_single in Hp. subst p. reflexivity.
    + rewrite seek_first by reflexivity. unfold read_string_body. change (tSTR1 =? tSTR4) with false. change (tSTR1 =? tSTR1) with true. cbv iota.
      apply (pprefix_app [_]) in Hq. destruct Hq as [Hq|[k' [-> Hk']]].
      * apply pprefix_single in Hq. subst q. reflexivity.
      * cbn [app]. apply pprefix_length in Hk'. now rewrite take_str_truncated by lia.
Qed.

Lemma dec_entry_prefix k v p : entry_ok (k, v) -> pprefix p (enc_entry (k, v)) -> exists a, dec_entry true true p = EErr a.
Proof.
  intros [Hk Hv] Hp. cbn [fst snd] in Hk, Hv. unfold enc_entry in Hp. cbn [fst snd] in Hp.
  apply pprefix_app in Hp. destruct Hp as [Hp|[q1 [-> Hq1]]].
  { unfold dec_entry. rewrite fuel_for_S, (r_string_prefix k) by assumption. now exists 0. }
  exists (len k). rewrite dec_entry_key by assumption.
  apply pprefix_app in Hq1. destruct Hq1 as [Hq1|[q2 [-> Hq2]]].
  { apply pprefix_single in Hq1. now subst q1. }
  apply pprefix_app in Hq2. destruct Hq2 as [Hq2|[q3 [-> Hq3]]].
  { apply pprefix_single in Hq2. now subst q2. }
  rewrite dec_value_list. apply pprefix_app in Hq3. destruct Hq3 as [(s & Hs & E)|[v' [-> Hv']]].
  { rewrite wrap32_small in E by (change (2 ^ 31)%Z with 2147483648%Z; unfold len in Hv; lia).
    now destruct (count_prefix _ _ _ Hv E Hs) as [r ->]. }
  rewrite count_field, read_count_w_len, nat_N_Z by exact Hv. apply pprefix_length in Hv'. now rewrite read_bytes_short.
Qed.

(* C06 for the TUP decoder: EVERY proper prefix of the encoding of EVERY attribute list is rejected with an error,
   and the entries added before the error are a prefix of the encoded entries - nothing is made up *)
Theorem tup_truncated_rejected m p : attrs_ok m -> pprefix p (tup_encode m) ->
  let o := tup_decode p in t_stat o = TSErr /\ exists m2, m = t_ins o ++ m2.
Proof.
  intros [Hl Hok] Hp. unfold tup_encode in Hp. cbv zeta.
  apply pprefix_app in Hp. destruct Hp as [Hp|[q [-> Hq]]].
  { apply pprefix_single in Hp. subst p. split; [reflexivity|now exists m]. }
  apply pprefix_app in Hq. destruct Hq as [(s & Hs & E)|[q' [-> Hq']]].
  { rewrite wrap32_small in E by (change (2 ^ 31)%Z with 2147483648%Z; lia). destruct (count_prefix _ _ _ Hl E Hs) as [r Hr].
    unfold tup_decode, tup_decode_gen. rewrite fuel_for_S, skip_to_first, Hr by reflexivity. split; [reflexivity|now exists m]. }
  apply pprefix_flat_map in Hq'. destruct Hq' as (m1 & [k v] & m2 & q & -> & -> & Hq).
  apply Forall_app in Hok. destruct Hok as [Hok1 Hok2]. inversion Hok2; subst.
  destruct (dec_entry_prefix k v q) as [a Ha]; [assumption..|]. rewrite app_length in Hl. cbn [length] in Hl.
  rewrite (tup_bad_entry m1 q _ a Hok1) by (assumption || rewrite app_length; cbn [length]; lia).
  split; [reflexivity|now exists ((k, v) :: m2)].
Qed.
Print Assumptions tup_truncated_rejected.

(* concrete instances of the hypotheses of the theorems above *)
Example tup_truncated_ex :
  pprefix (firstn 20 (tup_encode ex_m)) (tup_encode ex_m) /\
  t_stat (tup_decode (firstn 20 (tup_encode ex_m))) = TSErr /\ t_ins (tup_decode (firstn 20 (tup_encode ex_m))) = [([97], [1; 2; 3]); ([], [])].
Proof.
  split; [exists (skipn 20 (tup_encode ex_m)); split; [vm_compute; discriminate|symmetry; apply firstn_skipn]|].
  vm_compute. split; reflexivity.
Qed.
Example tup_inflated_count_ex :
  t_stat (tup_decode (head tMAP 0 ++ w_int32 (wrap32 (Z.of_nat (length ex_m + 2))) 0 ++ flat_map enc_entry ex_m)) = TSErr.
Proof. vm_compute. reflexivity. Qed.
Example tup_mistyped_ex :
  t_stat (tup_decode (head tMAP 0 ++ w_int32 1 0 ++ w_string [97] 0 ++ head tLIST 1 ++ [0; 1; 0; 120])) = TSErr /\
  t_stat (tup_decode (head tLIST 0 ++ w_int32 1 0 ++ enc_entry ([97], [120]))) = TSErr.
Proof. vm_compute. split; reflexivity. Qed.
Example tup_nothing_made_up_ex :   (* an input that is no encoder's output: tag-0 junk between key and value, trailing bytes *)
  t_ins (tup_decode [8; 0; 1; 6; 1; 97; 0; 7; 12; 29; 0; 0; 2; 120; 121; 99]) = [([97], [120; 121])].
Proof. vm_compute. reflexivity. Qed.

(* the attribute map is mandatory (fa80196): Decode succeeds only on an input whose first field is a MAP at tag 0 *)
Theorem tup_strict_map bs : t_stat (tup_decode bs) = TSOk -> exists r two, read_head2 bs = Some (tMAP, 0, r, two).
Proof.
  unfold tup_decode, tup_decode_gen, skip_to. rewrite fuel_for_S. cbn [skip_to_no_check].
  destruct (read_head2 bs) as [[[[ty tg] r] two]|] eqn:E; [|cbn; discriminate].
  destruct ((ty =? tSE) || (0 <? tg)) eqn:E1; [cbn; discriminate|].
  destruct (tg =? 0) eqn:E2; [|lia].
  destruct (ty =? tMAP) eqn:E3; [|cbn; discriminate].
  intros _. assert (ty = tMAP) as -> by lia. assert (tg = 0) as -> by lia. now exists r, two.
Qed.
Print Assumptions tup_strict_map.
(* false of the decoder before fa80196: the lookup's result was ignored, and after a two-byte head with a small
   tag SkipTo steps back one byte only - the tag byte was then read as the head of the count. This input has no
   field at tag 0 (a MAP at tag 2 in a two-byte head) and decoded to {"a": "x"} *)
Example optional_map_reinterprets :
  let bs := [248; 2; 0; 0; 0; 1; 6; 1; 97; 29; 0; 0; 1; 120] in
  read_head2 bs = Some (tMAP, 2, [0; 0; 0; 1; 6; 1; 97; 29; 0; 0; 1; 120], true) /\
  t_stat (tup_decode_5664fef bs) = TSOk /\ t_ins (tup_decode_5664fef bs) = [([97], [120])] /\
  t_stat (tup_decode bs) = TSErr.
Proof. vm_compute. repeat split. Qed.
