(* C04, last clause: "old readers and new writers, and vice versa, interoperate" - two versions of a struct type in one
   schema environment, the new one being the old one with optional members added.
   Part 1, old writer -> new reader: the bytes an old writer produces decode, with the new schema, to the old value
   with every added member at its default.
   Part 2, new writer -> old reader: the bytes a new writer produces decode, with the old schema, to the value
   without the added members. *)
From Coq Require Import List NArith ZArith Lia Bool Arith.
From Coq Require Import ZifyN ZifyNat ZifyBool.
From TarsV Require Import Gen.Consts Base.Hex Codec.Wire Codec.WireProofs Codec.Skip Codec.SkipProofs Codec.Prim
  Codec.PrimProofs Codec.GenCodec Codec.Corr Codec.GenProofs Codec.RoundTrip Codec.RoundTripProofs Codec.NormProofs
  Codec.WireSpec Codec.WireSpecProofs Codec.PrefixGenProofs.
Import ListNotations.
Open Scope N_scope.

(* the value a reader gives a member that is not on the wire *)
Definition dflt (e : env) (fd : field) : val :=
  match fdef fd with Some dv => dv | None => zero_of 1 e (fty fd) end.

(* fn is fo with optional members added; vn is vo with the added members at their defaults. An added member has a
   scalar, string, vector, byte-vector or map type (so that its default is a value the writer leaves out) *)
Inductive evolves (e : env) : schema -> schema -> list val -> list val -> Prop :=
| EV_nil : evolves e [] [] [] []
| EV_same fd fn fo x vo vn : evolves e fn fo vo vn -> evolves e (fd :: fn) (fd :: fo) (x :: vo) (x :: vn)
| EV_new fd fn fo vo vn : freq fd = false -> has_type e (fty fd) (dflt e fd) ->
    left_out (fty fd) false (fdef fd) (dflt e fd) = true ->
    evolves e fn fo vo vn -> evolves e (fd :: fn) fo vo (dflt e fd :: vn).

Lemma evolves_enc e fn fo vo vn : evolves e fn fo vo vn -> enc_fields e vn fn = enc_fields e vo fo.
Proof.
  induction 1 as [|fd fn fo x vo vn _ IH|fd fn fo vo vn Hr Hty Hl _ IH]; [reflexivity| |].
  - cbn [enc_fields]. now rewrite IH.
  - cbn [enc_fields]. rewrite Hr.
    destruct (enc_var_shape e (ftag fd) false (fty fd) (fdef fd) (dflt e fd) Hty) as [(_ & _ & ->)|(Hl' & _)]; [exact IH|congruence].
Qed.
Lemma evolves_typed e fn fo vo vn : evolves e fn fo vo vn ->
  Forall2 (fun fd x => has_type e (fty fd) x) fo vo -> Forall2 (fun fd x => has_type e (fty fd) x) fn vn.
Proof.
  induction 1 as [|fd fn fo x vo vn _ IH|fd fn fo vo vn Hr Hty Hl _ IH]; intros H; [constructor| |].
  - inversion H; subst. constructor; [assumption|now apply IH].
  - constructor; [assumption|now apply IH].
Qed.

(* old writer -> new reader *)
Theorem old_writer_new_reader e k n so sn vo vn :
  wf_schema k e -> (S k <= 64)%nat -> tfin n e (TStruct sn) = true -> (tneed n e (TStruct sn) + k <= 64)%nat ->
  evolves e (fields_of e sn) (fields_of e so) vo vn -> has_type e (TStruct so) (VStruct vo) ->
  decode e sn (encode e so (VStruct vo)) = DOk (norm_struct e sn (VStruct vn)) [].
Proof.
  intros Hwf Hk Hfin Hn Hev Hty.
  assert (Htn : has_type e (TStruct sn) (VStruct vn)).
  { apply HT_struct. apply (evolves_typed e _ _ _ _ Hev). exact (has_type_struct _ _ _ Hty). }
  rewrite encode_fields, <- (evolves_enc e _ _ _ _ Hev), <- encode_fields.
  now apply (roundtrip_struct_static e k n).
Qed.
Print Assumptions old_writer_new_reader.

Lemma mxd_ub fs B : Forall (fun p => wdepth (snd p) <= B) fs -> mxd fs <= B.
Proof.
  induction 1 as [|[t x] r Hx _ IH]; [cbn; lia|]. change (mxd ((t, x) :: r)) with (N.max (wdepth x) (mxd r)). cbn [snd] in Hx. lia.
Qed.
Lemma wire_elems_Forall e x (P : N * wf -> Prop) xs : Forall (fun y => P (0, wire_of e x y)) xs -> Forall P (wire_elems e x xs).
Proof. induction 1; cbn [wire_elems]; constructor; assumption. Qed.
Lemma wire_elems_depth e x B xs : Forall (fun y => wdepth (wire_of e x y) <= B) xs -> mxd (wire_elems e x xs) <= B.
Proof. intros H. apply mxd_ub. now apply wire_elems_Forall. Qed.
Lemma wire_entries_flat_Forall e kt vt (P : N * wf -> Prop) kvs :
  Forall (fun p => P (0, wire_of e kt (fst p)) /\ P (1, wire_of e vt (snd p))) kvs -> Forall P (flat (wire_entries e kt vt kvs)).
Proof.
  induction 1 as [|[ky y] r [H1 H2] _ IH]; [constructor|]. cbn [wire_entries]. unfold flat. cbn [flat_map fst snd app].
  constructor; [exact H1|]. constructor; [exact H2|exact IH].
Qed.
Lemma wire_fields_Forall e (P : N * wf -> Prop) : forall fds vs,
  Forall2 (fun fd x => P (ftag fd, wire_of e (fty fd) x)) fds vs -> Forall P (wire_fields e vs fds).
Proof.
  induction 1 as [|fd x fds vs H _ IH]; cbn [wire_fields]; [constructor|].
  destruct (left_out (fty fd) (freq fd) (fdef fd) x); [exact IH|constructor; assumption].
Qed.
Lemma tmax_ge g fds fd : In fd fds -> (g (fty fd) <= tmax g fds)%nat.
Proof.
  induction fds as [|x r IH]; intros Hin; [contradiction|]. cbn [tmax fold_right]. fold (tmax g r).
  destruct Hin as [->|Hin]; [lia|]. specialize (IH Hin). lia.
Qed.
Lemma Forall2_in_l {A B} (R : A -> B -> Prop) (Q : A -> B -> Prop) l1 l2 :
  Forall2 R l1 l2 -> (forall a b, In a l1 -> R a b -> Q a b) -> Forall2 Q l1 l2.
Proof. induction 1 as [|a b l1 l2 H _ IH]; intros HQ; constructor; [apply HQ; [now left|assumption]|apply IH; intros; apply HQ; [now right|assumption]]. Qed.

(* the nesting depth of a value's wire tree is bounded by its type *)
Lemma wdepth_static e : forall n t v, tfin n e t = true -> has_type e t v -> wdepth (wire_of e t v) <= N.of_nat (tneed n e t).
Proof.
  induction n as [|n IH]; intros t v Hfin Hty; [discriminate|]. inversion Hty; subst; cbn [tfin] in Hfin.
  - rewrite scalar_wire_flat by assumption. lia.
  - cbn. lia.
  - rewrite wire_of_vec. cbn [wdepth tneed]. fold (mxd (wire_elems e x xs)).
    pose proof (wire_elems_depth e x _ xs (Forall_impl _ (fun y Hy => IH x y Hfin Hy) ltac:(eassumption))). lia.
  - rewrite wire_of_arr. cbn [wdepth tneed]. fold (mxd (wire_elems e x xs)).
    pose proof (wire_elems_depth e x _ xs (Forall_impl _ (fun y Hy => IH x y Hfin Hy) ltac:(eassumption))). lia.
  - apply andb_true_iff in Hfin. destruct Hfin as [Hfa Hfb]. rewrite wire_of_map. cbn [wdepth tneed]. rewrite mxd_flat.
    assert (Hb : mxd (flat (wire_entries e kt vt kvs)) <= N.of_nat (Nat.max (tneed n e kt) (tneed n e vt))).
    { apply mxd_ub. apply wire_entries_flat_Forall. eapply Forall_impl; [|eassumption]. intros [ky y] [Hk Hy]. cbn [fst snd] in *.
      pose proof (IH kt ky Hfa Hk). pose proof (IH vt y Hfb Hy). split; lia. }
    lia.
  - rewrite forallb_forall in Hfin. rewrite wire_of_struct. cbn [wdepth tneed]. fold (mxd (wire_fields e vs (fields_of e sid))).
    assert (Hb : mxd (wire_fields e vs (fields_of e sid)) <= N.of_nat (tmax (tneed n e) (fields_of e sid))).
    { apply mxd_ub. apply wire_fields_Forall. eapply Forall2_in_l; [eassumption|]. intros fd x Hin Hx. cbn [snd].
      pose proof (IH (fty fd) x (Hfin fd Hin) Hx). pose proof (tmax_ge (tneed n e) _ fd Hin). lia. }
    lia.
Qed.

(* fn is fo with members added (groups [news] in front of old members and after the last one); vo is vn without the
   added members; Js / Jl are the added members that are on the wire, as wire fields, grouped the same way *)
Inductive projects (e : env) : schema -> schema -> list val -> list val -> list (list (N * wf)) -> list (N * wf) -> Prop :=
| PJ_end news vnews : projects e news [] vnews [] [] (wire_fields e vnews news)
| PJ_old news vnews fd fn fo x vn vo Js Jl : length news = length vnews -> projects e fn fo vn vo Js Jl ->
    projects e (news ++ fd :: fn) (fd :: fo) (vnews ++ x :: vn) (x :: vo) (wire_fields e vnews news :: Js) Jl.

Lemma enc_fields_app e : forall fa a fb b, length fa = length a ->
  enc_fields e (a ++ b) (fa ++ fb) = enc_fields e a fa ++ enc_fields e b fb.
Proof.
  induction fa as [|fd fa IH]; intros [|x a] fb b Hl; try discriminate; [reflexivity|].
  cbn [app enc_fields]. rewrite IH by (cbn [length] in Hl; lia). now rewrite app_assoc.
Qed.
Lemma wire_fields_app e : forall fa a fb b, length fa = length a ->
  wire_fields e (a ++ b) (fa ++ fb) = wire_fields e a fa ++ wire_fields e b fb.
Proof.
  induction fa as [|fd fa IH]; intros [|x a] fb b Hl; try discriminate; [reflexivity|].
  cbn [app wire_fields]. rewrite IH by (cbn [length] in Hl; lia). destruct (left_out _ _ _ x); reflexivity.
Qed.
Lemma ser_fields_app a b : ser_fields (a ++ b) = ser_fields a ++ ser_fields b.
Proof. induction a as [|f a IH]; cbn [app ser_fields]; [reflexivity|]. now rewrite IH, app_assoc. Qed.

Lemma app_len_inj {A} : forall (a a' b b' : list A), length a = length a' -> a ++ b = a' ++ b' -> a = a' /\ b = b'.
Proof.
  induction a as [|x a IH]; intros [|y a'] b b' Hl E; try discriminate; [now split|].
  cbn [app] in E. injection E as -> E. cbn [length] in Hl. destruct (IH a' b b' ltac:(lia) E) as [-> ->]. now split.
Qed.

Lemma projects_enc e fn fo vn vo Js Jl : projects e fn fo vn vo Js Jl ->
  Forall2 (fun fd x => has_type e (fty fd) x) fn vn ->
  enc_fields e vn fn = encx_fields e vo fo Js ++ ser_fields Jl /\ Forall2 (fun fd x => has_type e (fty fd) x) fo vo.
Proof.
  induction 1 as [news vnews|news vnews fd fn fo x vn vo Js Jl Hl _ IH]; intros Hty.
  - split; [|constructor]. cbn [encx_fields app]. now apply enc_fields_wire.
  - apply Forall2_app_inv_l in Hty. destruct Hty as (a & b & Ha & Hb & E).
    assert (a = vnews /\ b = x :: vn) as [-> ->].
    { apply Forall2_len in Ha. symmetry in E. destruct (app_len_inj a vnews b (x :: vn) ltac:(lia) E). now split. }
    inversion Hb as [|? ? ? ? Hx Hvn]; subst. destruct (IH Hvn) as [IH1 IH2].
    split; [|constructor; assumption].
    rewrite enc_fields_app by assumption. cbn [enc_fields encx_fields]. rewrite IH1, (enc_fields_wire e news vnews Ha).
    now rewrite <- !app_assoc.
Qed.

Definition above (lo : option N) (t : N) : Prop := match lo with Some l => l < t | None => True end.
Lemma wire_fields_tags e : forall fds vs, Forall (fun p => exists fd, In fd fds /\ fst p = ftag fd) (wire_fields e vs fds).
Proof.
  induction fds as [|fd fds IH]; intros [|x vs]; cbn [wire_fields]; try constructor.
  assert (Hr : Forall (fun p => exists fd0, In fd0 (fd :: fds) /\ fst p = ftag fd0) (wire_fields e vs fds)).
  { eapply Forall_impl; [|apply IH]. intros p (fd0 & Hin & E). exists fd0. split; [now right|assumption]. }
  destruct (left_out _ _ _ x); [exact Hr|]. constructor; [|exact Hr]. exists fd. split; [now left|reflexivity].
Qed.
Lemma asc_opt_all lo l : asc_opt lo l -> forall fd, In fd l -> above lo (ftag fd) /\ ftag fd < 256.
Proof.
  intros H fd Hin. destruct lo as [p|]; cbn [asc_opt above] in *.
  - split; [now apply (ascending_all_gt p l)|now apply (ascending_lt256 p l)].
  - split; [exact I|now apply (schema_ascending_lt256 l)].
Qed.
Lemma asc_opt_split lo news fd fn : asc_opt lo (news ++ fd :: fn) ->
  (forall fd', In fd' news -> ftag fd' < ftag fd) /\ asc_opt (Some (ftag fd)) fn.
Proof.
  intros H. destruct lo as [p|]; cbn [asc_opt] in *.
  - split; [intros fd' Hin; now apply (ascending_before fd fn fd' news p)|]. apply ascending_app_mid in H. tauto.
  - destruct news as [|y news]; cbn [app schema_ascending] in H.
    + split; [intros ? []|tauto].
    + destruct H as [_ H]. split; [|apply ascending_app_mid in H; tauto].
      intros fd' [<-|Hin]; [apply (ascending_all_gt _ _ H); apply in_or_app; right; now left|now apply (ascending_before fd fn fd' news (ftag y))].
Qed.

Lemma projects_junks e fn fo vn vo Js Jl : projects e fn fo vn vo Js Jl -> forall lo, asc_opt lo fn ->
  fields_ok (wire_fields e vn fn) -> Forall (fun p => wdepth (snd p) <= maxd) (wire_fields e vn fn) ->
  junks_ok lo fo Js /\
  Forall (fun p => fst p < 256 /\ above lo (fst p) /\ forall fd, In fd fo -> ftag fd < fst p) Jl.
Proof.
  induction 1 as [news vnews|news vnews fd fn fo x vn vo Js Jl Hl _ IH]; intros lo Hasc Hok Hdp.
  - split; [exact I|]. pose proof (wire_fields_tags e news vnews) as Ht.
    apply Forall_forall. intros p Hp. rewrite Forall_forall in Ht. destruct (Ht p Hp) as (fd0 & Hin & E).
    destruct (asc_opt_all lo news Hasc fd0 Hin) as [A B]. rewrite E. repeat split; try assumption. intros ? [].
  - rewrite wire_fields_app in Hok, Hdp by assumption. unfold fields_ok in Hok. apply Forall_app in Hok. apply Forall_app in Hdp.
    destruct Hok as [Hok1 Hok2]. destruct Hdp as [Hdp1 Hdp2].
    destruct (asc_opt_split lo news fd fn Hasc) as [Hlt Hasc'].
    assert (Hfd : above lo (ftag fd) /\ ftag fd < 256) by (apply (asc_opt_all lo _ Hasc); apply in_or_app; right; now left).
    assert (Hok' : fields_ok (wire_fields e vn fn) /\ Forall (fun p => wdepth (snd p) <= maxd) (wire_fields e vn fn)).
    { cbn [wire_fields] in Hok2, Hdp2. destruct (left_out _ _ _ x); [split; assumption|].
      inversion Hok2; subst. inversion Hdp2; subst. split; assumption. }
    destruct Hok' as [Hok3 Hdp3]. destruct (IH (Some (ftag fd)) Hasc' Hok3 Hdp3) as [HJs HJl].
    split.
    + cbn [junks_ok]. split; [|exact HJs]. unfold junk_ok. pose proof (wire_fields_tags e news vnews) as Ht.
      apply Forall_forall. intros p Hp. rewrite Forall_forall in Ht, Hok1, Hdp1.
      destruct (Ht p Hp) as (fd0 & Hin & E). destruct (Hok1 p Hp) as [A B]. specialize (Hdp1 p Hp).
      destruct (asc_opt_all lo _ Hasc fd0 ltac:(apply in_or_app; now left)) as [C _].
      repeat split; try assumption; [rewrite E; now apply Hlt|]. rewrite E. destruct lo; exact C.
    + eapply Forall_impl; [|exact HJl]. intros p (A & B & C). cbn [above] in B. repeat split; [assumption| |].
      * destruct lo as [l|]; [|exact I]. cbn [above] in *. destruct Hfd as [Hfd _]. lia.
      * intros fd0 [<-|Hin]; [assumption|now apply C].
Qed.

(* new writer -> old reader: the old reader decodes what a new writer produced to the value without the added members
   (normal form), and stops in front of the added members that follow its last member. The added members may be of
   any type and required or optional; the encoding is shorter than 2^30 bytes *)
Theorem new_writer_old_reader e k n so sn vn vo Js Jl :
  wf_schema k e -> (S k <= 64)%nat ->
  tfin n e (TStruct so) = true -> (tneed n e (TStruct so) + k <= 64)%nat ->
  tfin n e (TStruct sn) = true -> (tneed n e (TStruct sn) <= 512)%nat ->
  projects e (fields_of e sn) (fields_of e so) vn vo Js Jl -> has_type e (TStruct sn) (VStruct vn) ->
  N.of_nat (length (encode e sn (VStruct vn))) < 1073741824 ->
  decode e so (encode e sn (VStruct vn)) = DOk (norm_struct e so (VStruct vo)) (ser_fields Jl).
Proof.
  intros Hwf Hk Hfo Hno Hfn Hnn Hpj Hty Hsz.
  destruct (encode_conforms e k sn vn Hwf Hty Hsz) as (_ & Hok & _ & _).
  pose proof (has_type_struct _ _ _ Hty) as Hvs.
  destruct (projects_enc e _ _ _ _ _ _ Hpj Hvs) as [Henc Hvo].
  assert (Hdp : Forall (fun p => wdepth (snd p) <= maxd) (wire_fields e vn (fields_of e sn))).
  { apply wire_fields_Forall. destruct n as [|n']; [discriminate|]. cbn [tfin tneed] in Hfn, Hnn. rewrite forallb_forall in Hfn.
    eapply Forall2_in_l; [exact Hvs|]. intros fd x Hin Hx. cbn [snd].
    pose proof (wdepth_static e n' (fty fd) x (Hfn fd Hin) Hx). pose proof (tmax_ge (tneed n' e) _ fd Hin).
    unfold maxd, c_maxSkipDepth. lia. }
  destruct (projects_junks e _ _ _ _ _ _ Hpj None (wf_asc k e Hwf sn) Hok Hdp) as [HJs HJl].
  rewrite encode_fields, Henc.
  apply (extras_ignored e k n so vo Js Jl); try assumption.
  - now apply HT_struct.
  - unfold trailing_ok. eapply Forall_impl; [|exact HJl]. intros p (A & _ & C). split; assumption.
Qed.
Print Assumptions new_writer_old_reader.

(* version 1 and version 2 of a struct type in one environment: v2 adds an optional string with a default in the
   middle, an optional map at the end, and (for the second direction) a required nested struct *)
Definition ev_schema : env :=
  [ (* 0: v1 *) [ {| ftag := 0; freq := true; fty := TI32; fdef := None |};
                  {| ftag := 4; freq := false; fty := TVec TStr; fdef := None |} ];
    (* 1: v2 *) [ {| ftag := 0; freq := true; fty := TI32; fdef := None |};
                  {| ftag := 2; freq := false; fty := TStr; fdef := Some (VStr [110; 111]) |};
                  {| ftag := 4; freq := false; fty := TVec TStr; fdef := None |};
                  {| ftag := 9; freq := false; fty := TMap TI32 TI64; fdef := None |} ];
    (* 2: v3 *) [ {| ftag := 0; freq := true; fty := TI32; fdef := None |};
                  {| ftag := 1; freq := true; fty := TStruct 0; fdef := None |};
                  {| ftag := 4; freq := false; fty := TVec TStr; fdef := None |};
                  {| ftag := 200; freq := true; fty := TVec TI8; fdef := None |} ] ].
Definition ev_v1 : list val := [VInt 7; VList [VStr [97]; VStr []]].
Example ev_old_to_new :
  decode ev_schema 1 (encode ev_schema 0 (VStruct ev_v1))
  = DOk (VStruct [VInt 7; VStr [110; 111]; VList [VStr [97]; VStr []]; VMap []]) [].
Proof.
  assert (Hwf : wf_schema 2 ev_schema) by (apply wf_schema_b_sound; vm_compute; reflexivity).
  (* through the theorem, not by evaluation: its hypotheses can be met *)
  rewrite (old_writer_new_reader ev_schema 2 6 0 1 ev_v1 [VInt 7; VStr [110; 111]; VList [VStr [97]; VStr []]; VMap []] Hwf).
  - vm_compute. reflexivity.
  - lia.
  - reflexivity.
  - vm_compute. lia.
  - change (fields_of ev_schema 1) with (nth 1 ev_schema []). change (fields_of ev_schema 0) with (nth 0 ev_schema []). cbn [nth ev_schema].
    apply EV_same.
    apply (EV_new ev_schema {| ftag := 2; freq := false; fty := TStr; fdef := Some (VStr [110; 111]) |});
      [reflexivity|apply (has_type_b_sound ev_schema 4); vm_compute; reflexivity|reflexivity|].
    apply EV_same.
    apply (EV_new ev_schema {| ftag := 9; freq := false; fty := TMap TI32 TI64; fdef := None |});
      [reflexivity|apply (has_type_b_sound ev_schema 4); vm_compute; reflexivity|reflexivity|].
    apply EV_nil.
  - apply (has_type_b_sound ev_schema 6). vm_compute. reflexivity.
Qed.
Definition ev_v3 : list val := [VInt 7; VStruct [VInt 1; VList []]; VList [VStr [98]]; VBytes [1; 2]].
Example ev_new_to_old :
  decode ev_schema 0 (encode ev_schema 2 (VStruct ev_v3))
  = DOk (VStruct [VInt 7; VList [VStr [98]]]) (ser_fields [(200, WSimple [1; 2])]).
Proof.
  assert (Hwf : wf_schema 2 ev_schema) by (apply wf_schema_b_sound; vm_compute; reflexivity).
  rewrite (new_writer_old_reader ev_schema 2 6 0 2 ev_v3 [VInt 7; VList [VStr [98]]]
             [[]; wire_fields ev_schema [VStruct [VInt 1; VList []]] [ {| ftag := 1; freq := true; fty := TStruct 0; fdef := None |} ]]
             (wire_fields ev_schema [VBytes [1; 2]] [ {| ftag := 200; freq := true; fty := TVec TI8; fdef := None |} ]) Hwf).
  - vm_compute. reflexivity.
  - lia.
  - reflexivity.
  - vm_compute. lia.
  - reflexivity.
  - vm_compute. lia.
  - change (fields_of ev_schema 2) with (nth 2 ev_schema []). change (fields_of ev_schema 0) with (nth 0 ev_schema []). cbn [nth ev_schema].
    apply (PJ_old ev_schema [] [] {| ftag := 0; freq := true; fty := TI32; fdef := None |}); [reflexivity|].
    apply (PJ_old ev_schema [ {| ftag := 1; freq := true; fty := TStruct 0; fdef := None |} ] [VStruct [VInt 1; VList []]]
             {| ftag := 4; freq := false; fty := TVec TStr; fdef := None |}); [reflexivity|].
    apply (PJ_end ev_schema [ {| ftag := 200; freq := true; fty := TVec TI8; fdef := None |} ] [VBytes [1; 2]]).
  - apply (has_type_b_sound ev_schema 6). vm_compute. reflexivity.
  - vm_compute. reflexivity.
Qed.
