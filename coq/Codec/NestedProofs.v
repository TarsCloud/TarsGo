(* C04, first clause at full strength: unknown fields at EVERY struct level (the top-level members, and the members of
   every struct value nested in members, vector elements, map keys and values, at any depth) change nothing. The
   theorems are RoundTripProofs.decode_into_nested and extras_nested; here, an instance. *)
From Coq Require Import List NArith ZArith Lia Bool Arith.
From TarsV Require Import Gen.Consts Base.Hex Codec.Wire Codec.Skip Codec.Prim Codec.GenCodec Codec.Corr Codec.RoundTrip.
Import ListNotations.
Open Scope N_scope.

(* non-vacuity: a struct nested in a vector inside a struct, unknown fields at all three levels *)
Example nested_example :
  let e := [ [ {| ftag := 1; freq := true; fty := TVec (TStruct 1); fdef := None |};
               {| ftag := 5; freq := false; fty := TI32; fdef := Some (VInt 9) |} ];
             [ {| ftag := 0; freq := true; fty := TI32; fdef := None |};
               {| ftag := 2; freq := false; fty := TStr; fdef := None |} ] ] in
  let v := [VList [VStruct [VInt 5; VStr []]]; VInt 9] in
  let j0 : list (N * wf) := [(0, WStr1 [7; 7])] in
  let j1 : list (N * wf) := [(1, WList [(0, WInt 70000)])] in
  let jt : list (N * wf) := [(9, WStruct [(200, WZero)])] in
  let inner := head tSB 0 ++ (ser_fields [] ++ w_int32 5 0 ++ ser_fields j1 ++ [] ++ []) ++ ser_fields jt ++ head tSE 0 in
  let body := ser_fields j0 ++ (head tLIST 1 ++ w_int32 1 0 ++ (inner ++ [])) ++ ser_fields [(3, WZero)] ++ [] ++ [] in
  xfields e (fields_of e 0) v [j0; [(3, WZero)]] body /\
  decode e 0 (body ++ ser_fields [(77, WByte 1)]) = DOk (VStruct v) (ser_fields [(77, WByte 1)]) /\
  decode e 0 (encode e 0 (VStruct v)) = DOk (VStruct v) [].
Proof.
  cbv zeta. split; [|split; vm_compute; reflexivity].
  apply XF_cons.
  - apply (XE_vec _ 1 true None (TStruct 1) [VStruct [VInt 5; VStr []]]).
    apply XL_cons; [|apply XL_nil].
    apply (XE_struct _ 0 true None 1 [VInt 5; VStr []] [[]; [(1, WList [(0, WInt 70000)])]] [(9, WStruct [(200, WZero)])]).
    + apply XF_cons; [apply (XE_scalar _ 0 true TI32 None (VInt 5)); reflexivity|].
      apply XF_cons; [apply (XE_scalar _ 2 false TStr None (VStr [])); reflexivity|]. apply XF_nil.
    + cbn [junks_ok fields_of nth]. repeat (first [split | apply Forall_cons | apply Forall_nil]);
        cbn [fst snd]; try exact I; vm_compute; first [reflexivity | discriminate | tauto].
    + repeat (first [split | apply Forall_cons | apply Forall_nil]); cbn [fst snd]; try exact I;
        try (vm_compute; first [reflexivity | discriminate | tauto]).
      cbn [fields_of nth]. intros fd [<-|[<-|[]]]; vm_compute; reflexivity.
  - apply XF_cons; [apply (XE_scalar _ 5 false TI32 (Some (VInt 9)) (VInt 9)); reflexivity|]. apply XF_nil.
Qed.
