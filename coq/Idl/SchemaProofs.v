(* C16: the schema environment of every accepted program is well formed (Codec/Corr.v [wf_env]): the parser
   leaves the members of every struct strictly ascending by tag (checkTag + sortTag), the analysis keeps the
   tags, [env_of_module] keeps them below 256, resolves struct references inside the module and gives fixed
   arrays a positive length.  Hence the generated-codec theorems (C03-C06), stated for well-formed
   environments, apply to the schema of every program the front end accepts and [env_of_module] supports. *)
From Coq Require Import String.
From Coq Require Import List NArith ZArith Bool Lia Sorted.
From TarsV Require Import Base.Hex Idl.Lexer Idl.Parser Idl.ParserProofs Idl.AnalyzeProofs Idl.Schema Codec.GenCodec Codec.Corr.
Import ListNotations.
Open Scope N_scope.

(* safety only: [Q] holds of the value if there is one ([ParserProofs.wp] also excludes running out of fuel) *)
Definition wpp {A} (m : res A) (Q : A -> Prop) : Prop := match m with Ok a => Q a | _ => True end.
Lemma wpp_bind {A B} (m : res A) (k : A -> res B) (Q : B -> Prop) :
  wpp m (fun a => wpp (k a) Q) -> wpp (bind m k) Q.
Proof. destruct m; cbn; auto. Qed.
Lemma wpp_mono {A} (m : res A) (P Q : A -> Prop) : wpp m P -> (forall a, P a -> Q a) -> wpp m Q.
Proof. destruct m; cbn; auto. Qed.
Lemma wpp_true {A} (m : res A) : wpp m (fun _ => True).
Proof. destruct m; cbn; auto. Qed.
Lemma wpp_ok {A} (m : res A) (Q : A -> Prop) a : wpp m Q -> m = Ok a -> Q a.
Proof. intros H E. subst m. exact H. Qed.

Definition tags_sorted (l : list smember) : Prop := StronglySorted Z.lt (map sm_tag l).

Lemma insert_tags_in : forall m l z, In z (map sm_tag (insert_tag m l)) <-> z = sm_tag m \/ In z (map sm_tag l).
Proof.
  intros m l z. induction l as [|x r IH]; cbn [insert_tag map In].
  - intuition.
  - destruct (sm_tag m <? sm_tag x)%Z; cbn [map In]; [intuition|]. rewrite IH. intuition.
Qed.

Lemma insert_sorted : forall m l, tags_sorted l -> ~ In (sm_tag m) (map sm_tag l) -> tags_sorted (insert_tag m l).
Proof.
  unfold tags_sorted. intros m l. induction l as [|x r IH]; intros Hs Hn; cbn [insert_tag map].
  - constructor; [constructor | constructor].
  - destruct (sm_tag m <? sm_tag x)%Z eqn:E; cbn [map].
    + apply Z.ltb_lt in E. constructor; [exact Hs|].
      cbn [map] in Hs. inversion Hs as [|? ? Hr Hall]; subst.
      constructor; [exact E|]. eapply Forall_impl; [|exact Hall]. intros; lia.
    + apply Z.ltb_ge in E. cbn [map] in Hs, Hn. inversion Hs as [|? ? Hr Hall]; subst.
      assert (Hne : sm_tag x <> sm_tag m) by (intro K; apply Hn; left; exact K).
      constructor.
      * apply IH; [exact Hr | intro K; apply Hn; right; exact K].
      * apply Forall_forall. intros z Hz. apply insert_tags_in in Hz. destruct Hz as [-> | Hz]; [lia|].
        rewrite Forall_forall in Hall. apply Hall; exact Hz.
Qed.

Lemma sort_tags_in : forall l z, In z (map sm_tag (sort_tags l)) <-> In z (map sm_tag l).
Proof.
  induction l as [|m r IH]; intros z; cbn [sort_tags fold_right map In]; [tauto|].
  change (fold_right insert_tag [] r) with (sort_tags r). rewrite insert_tags_in, IH. intuition.
Qed.

Lemma existsb_tag_false : forall (r : list smember) t,
  existsb (fun m' => (sm_tag m' =? t)%Z) r = false -> ~ In t (map sm_tag r).
Proof.
  induction r as [|x r IH]; intros t H; cbn [map In existsb] in *; [tauto|].
  apply orb_false_iff in H. destruct H as [H1 H2]. apply Z.eqb_neq in H1. intros [K|K]; [congruence | exact (IH _ H2 K)].
Qed.

Lemma sort_tags_sorted : forall l, tags_nodup l = true -> tags_sorted (sort_tags l).
Proof.
  induction l as [|m r IH]; intros H; cbn [sort_tags fold_right].
  - constructor.
  - change (fold_right insert_tag [] r) with (sort_tags r).
    cbn [tags_nodup] in H. apply andb_true_iff in H. destruct H as [H1 H2]. apply negb_true_iff in H1.
    apply insert_sorted; [apply IH; exact H2|]. rewrite sort_tags_in. apply existsb_tag_false. exact H1.
Qed.

Definition structs_ok (m : module) : Prop := Forall (fun s => tags_sorted (st_mb s)) (m_structs m).

Lemma wpp_bind_all {A B} (m : res A) (k : A -> res B) (Q : B -> Prop) : (forall a, wpp (k a) Q) -> wpp (bind m k) Q.
Proof. destruct m; cbn; auto. Qed.

Lemma parse_struct_ok : forall fuel m ts, structs_ok m ->
  wpp (parse_struct fuel m ts) (fun p => structs_ok (fst p)).
Proof.
  intros fuel m ts Hm. unfold parse_struct.
  apply wpp_bind_all; intros [name ts1]. destruct (existsb _ _); [exact I|].
  apply wpp_bind_all; intros ts2. apply wpp_bind_all; intros [mbs ts3]. apply wpp_bind_all; intros ts4.
  destruct (tags_nodup mbs) eqn:E; [|exact I].
  apply Forall_app. split; [exact Hm|]. constructor; [|constructor]. apply sort_tags_sorted. exact E.
Qed.

Lemma parse_enum_structs : forall r fuel m ts, wpp (parse_enum r fuel m ts) (fun p => m_structs (fst p) = m_structs m).
Proof.
  intros r fuel m ts. unfold parse_enum.
  apply wpp_bind_all; intros [name ts1]. destruct (existsb _ _); [exact I|].
  apply wpp_bind_all; intros ts2. apply wpp_bind_all; intros [mbs ts3]. apply wpp_bind_all; intros ts4. reflexivity.
Qed.

Lemma parse_iface_structs : forall fuel m ts, wpp (parse_iface fuel m ts) (fun p => m_structs (fst p) = m_structs m).
Proof.
  intros fuel m ts. unfold parse_iface.
  apply wpp_bind_all; intros [name ts1]. destruct (existsb _ _); [exact I|].
  apply wpp_bind_all; intros ts2. apply wpp_bind_all; intros [fs ts3]. apply wpp_bind_all; intros ts4. reflexivity.
Qed.

Lemma parse_const_structs : forall fuel m ts, wpp (parse_const fuel m ts) (fun p => m_structs (fst p) = m_structs m).
Proof.
  intros fuel m ts. unfold parse_const.
  apply wpp_bind_all; intros [t ts1]. destruct (negb (const_type_start t)); [exact I|].
  apply wpp_bind_all; intros [ty ts2]. apply wpp_bind_all; intros [name ts3]. apply wpp_bind_all; intros ts4.
  apply wpp_bind_all; intros [t5 ts5]. apply wpp_bind_all; intros v. apply wpp_bind_all; intros ts6. reflexivity.
Qed.

Lemma parse_hashkey_structs : forall fuel m ts, wpp (parse_hashkey fuel m ts) (fun p => m_structs (fst p) = m_structs m).
Proof.
  intros fuel m ts. unfold parse_hashkey.
  apply wpp_bind_all; intros ts1. apply wpp_bind_all; intros [name ts2]. apply wpp_bind_all; intros ts3.
  apply wpp_bind_all; intros [mbs ts4]. reflexivity.
Qed.

Lemma segment_loop_ok : forall r fuel m ts, structs_ok m -> wpp (segment_loop r fuel m ts) (fun p => structs_ok (fst p)).
Proof.
  intros r. induction fuel as [|f IH]; intros m ts Hm; cbn [segment_loop]; [exact I|].
  apply wpp_bind_all; intros [t ts1].
  assert (K : forall p, wpp p (fun q => m_structs (fst q) = m_structs m) ->
                        wpp ('(m', ts2) <- p ;; segment_loop r f m' ts2) (fun q => structs_ok (fst q))).
  { intros p Hp. apply wpp_bind. apply (wpp_mono _ _ _ Hp). intros [m' ts2] E. apply IH. unfold structs_ok. cbn [fst] in E. rewrite E. exact Hm. }
  destruct t as [ |[]| |[]| | | | | | ]; try exact I.
  - apply wpp_bind_all; intros ts2. exact Hm.
  - apply K, parse_enum_structs.
  - apply wpp_bind. apply (wpp_mono _ _ _ (parse_struct_ok (S f) m ts1 Hm)). intros [m' ts2]. apply IH.
  - apply K, parse_iface_structs.
  - apply K, parse_const_structs.
  - apply K, parse_hashkey_structs.
Qed.

Definition file_ok (fl : file) : Prop := match fl_primary fl with Some m => structs_ok m | None => True end.

Lemma parse_module_ok : forall r fuel fl ts, file_ok fl -> wpp (parse_module r fuel fl ts) (fun p => file_ok (fst p)).
Proof.
  intros r fuel fl ts Hf. unfold parse_module, parse_segment.
  apply wpp_bind_all; intros [name ts1]. apply wpp_bind.
  apply wpp_mono with (P := fun p => structs_ok (fst p)).
  - apply wpp_bind_all; intros ts2. apply segment_loop_ok. constructor.
  - intros [m ts2] Hm. unfold file_ok in *. destruct (fl_primary fl); [exact Hf | exact Hm].
Qed.

Lemma file_loop_ok : forall r fuel fl ts, file_ok fl -> wpp (file_loop r fuel fl ts) file_ok.
Proof.
  intros r. induction fuel as [|f IH]; intros fl ts Hf; cbn [file_loop]; [exact I|].
  apply wpp_bind_all; intros [t ts1]. destruct t as [ | | |[]| | | | | | ]; try exact I; [exact Hf | |].
  - apply wpp_bind_all; intros [t2 ts2]. destruct t2; try exact I. apply IH. exact Hf.
  - apply wpp_bind. apply (wpp_mono _ _ _ (parse_module_ok r (S f) fl ts1 Hf)). intros [fl' ts2]. apply IH.
Qed.

Lemma map_res_tags : forall (f : smember -> res smember), (forall x y, f x = Ok y -> sm_tag y = sm_tag x) ->
  forall l l', map_res f l = Ok l' -> map sm_tag l' = map sm_tag l.
Proof.
  intros f Hf l l' H. apply map_res_Forall2 in H. induction H as [|x y r r' E _ IH]; cbn [map]; [reflexivity|].
  rewrite (Hf _ _ E), IH. reflexivity.
Qed.

Lemma analyze_default_tag : forall m x y, analyze_default m x = Ok y -> sm_tag y = sm_tag x.
Proof.
  intros m x y. unfold analyze_default. destruct (sm_deft x); try (intros H; inversion H; reflexivity).
  destruct (sm_def x); [intros H; inversion H; reflexivity|].
  destruct (enum_hits m _) as [|[e mb] [|? ?]]; try discriminate. intros H; inversion H; reflexivity.
Qed.
Lemma analyze_member_tag : forall m x y, analyze_member m x = Ok y -> sm_tag y = sm_tag x.
Proof.
  intros m x y. unfold analyze_member. destruct (check_tname m (sm_ty x)); cbn [bind]; try discriminate.
  intros H; inversion H; reflexivity.
Qed.

Lemma structs_pass_ok : forall (f : smember -> res smember), (forall x y, f x = Ok y -> sm_tag y = sm_tag x) ->
  forall l l', map_res (struct_with f) l = Ok l' ->
  Forall (fun s => tags_sorted (st_mb s)) l -> Forall (fun s => tags_sorted (st_mb s)) l'.
Proof.
  intros f Hf l l' H Hl. apply map_res_Forall2 in H. induction H as [|s s' r r' E _ IH]; [constructor|].
  inversion Hl as [|? ? Hs Hr]; subst. constructor; [|exact (IH Hr)].
  unfold struct_with in E. destruct (map_res f (st_mb s)) as [mbs| |] eqn:K; cbn [bind] in E; try discriminate.
  injection E as <-. unfold tags_sorted. cbn [st_mb]. rewrite (map_res_tags f Hf _ _ K). exact Hs.
Qed.

Lemma analyze_ok : forall m m', structs_ok m -> analyze m = Ok m' -> structs_ok m'.
Proof.
  intros m m' Hm H. rewrite analyze_is_with in H. unfold analyze_with in H.
  destruct (map_res _ (m_structs m)) as [sts1| |] eqn:E1; cbn [bind] in H; try discriminate.
  destruct (map_res _ sts1) as [sts2| |] eqn:E2; cbn [bind] in H; try discriminate.
  destruct (map_res _ (m_ifaces m)) as [ifs| |]; cbn [bind] in H; try discriminate. injection H as <-.
  apply (structs_pass_ok _ (analyze_member_tag m) _ _ E2). exact (structs_pass_ok _ (analyze_default_tag m) _ _ E1 Hm).
Qed.

Lemma parse_bytes_structs_ok : forall input m, parse_bytes input = OOk m -> structs_ok m.
Proof.
  intros input m H. destruct (parse_bytes_ok_inv _ _ H) as (ts & fl & _ & F & _ & _ & P).
  pose proof (file_loop_ok true (parse_fuel ts) empty_file ts I) as G. rewrite F in G. unfold file_ok in G. cbn [wpp] in G.
  destruct (fl_primary fl); [exact (analyze_ok _ _ G P) | subst; constructor].
Qed.

Lemma all_some_forall2 : forall {A B} (f : A -> option B) l l', all_some (map f l) = Some l' -> Forall2 (fun x y => f x = Some y) l l'.
Proof.
  intros A B f. induction l as [|x r IH]; intros l' H; cbn [map all_some] in H.
  - inversion H; constructor.
  - destruct (f x) as [y|] eqn:E; try discriminate. destruct (all_some (map f r)) as [ys|] eqn:E2; try discriminate.
    inversion H; subst. constructor; [exact E | apply IH; reflexivity].
Qed.

Lemma index_of_struct_lt : forall n l i j, index_of_struct n l i = Some j -> (j < i + length l)%nat.
Proof.
  intros n. induction l as [|s r IH]; intros i j H; cbn [index_of_struct] in H; [discriminate|].
  destruct (beq (st_name s) n).
  - inversion H; subst. cbn [length]. lia.
  - apply IH in H. cbn [length]. lia.
Qed.

Lemma ty_of_ok : forall m v t, ty_of m v = Some t -> ty_ok (length (m_structs m)) t = true.
Proof.
  intros m. induction v as [b u | s c | k IHk | k IHk w IHw | k IHk len]; intros t H; cbn [ty_of] in H.
  - destruct b; try destruct u; inversion H; subst; reflexivity.
  - destruct c; try discriminate.
    + destruct (find_enum m s) as [e|]; try discriminate. destruct (en_mb e); inversion H; subst; reflexivity.
    + destruct (index_of_struct s (m_structs m) 0) as [i|] eqn:E; try discriminate. inversion H; subst.
      cbn [ty_ok]. apply index_of_struct_lt in E. apply Nat.ltb_lt. lia.
  - destruct (ty_of m k) as [t0|]; try discriminate. inversion H; subst. cbn [ty_ok]. apply IHk. reflexivity.
  - destruct (ty_of m k) as [a|]; try discriminate. destruct (ty_of m w) as [b|]; try discriminate.
    destruct (key_ok a); inversion H; subst. cbn [ty_ok]. rewrite (IHk _ eq_refl), (IHw _ eq_refl). reflexivity.
  - destruct (ty_of m k) as [t0|]; try discriminate.
    destruct ((0 <? len)%Z && negb (is_byte t0)) eqn:E; inversion H; subst. cbn [ty_ok].
    apply andb_true_iff in E. destruct E as [E _]. apply Z.ltb_lt in E. rewrite (IHk _ eq_refl).
    rewrite andb_true_r. apply Nat.ltb_lt. lia.
Qed.

Lemma field_of_spec : forall m sm f, field_of m sm = Some f ->
  (0 <= sm_tag sm < 256)%Z /\ ftag f = Z.to_N (sm_tag sm) /\ ty_ok (length (m_structs m)) (fty f) = true.
Proof.
  intros m sm f H. unfold field_of in H.
  destruct ((0 <=? sm_tag sm)%Z && (sm_tag sm <? 256)%Z) eqn:E; try discriminate.
  apply andb_true_iff in E. destruct E as [E1 E2]. apply Z.leb_le in E1. apply Z.ltb_lt in E2.
  destruct (ty_of m (sm_ty sm)) as [t|] eqn:Et; try discriminate.
  destruct (def_of m t sm) as [d|]; try discriminate. inversion H; subst. cbn [ftag fty].
  split; [lia|]. split; [reflexivity|]. eapply ty_of_ok; eauto.
Qed.

Lemma schema_ascending : forall m mbs sc prev,
  Forall2 (fun x y => field_of m x = Some y) mbs sc -> StronglySorted Z.lt (map sm_tag mbs) ->
  (match prev with None => True | Some p => forall z, In z (map sm_tag mbs) -> (Z.of_N p < z)%Z end) ->
  tags_ascending prev sc = true.
Proof.
  intros m mbs sc prev F. revert prev. induction F as [|x y r r' Hxy Hr IH]; intros prev Hs Hp; cbn [tags_ascending]; [reflexivity|].
  apply field_of_spec in Hxy. destruct Hxy as [Hrange [Htag _]].
  cbn [map] in Hs. inversion Hs as [|? ? Hs' Hall]; subst.
  apply andb_true_iff; split; [apply andb_true_iff; split|].
  - apply N.ltb_lt. rewrite Htag. lia.
  - destruct prev as [p|]; [|reflexivity]. apply N.ltb_lt. rewrite Htag.
    specialize (Hp (sm_tag x) (or_introl eq_refl)). lia.
  - apply IH; [exact Hs'|]. intros z Hz. rewrite Forall_forall in Hall. specialize (Hall z Hz). rewrite Htag. lia.
Qed.

Lemma forall2_length : forall {A B} (P : A -> B -> Prop) l l', Forall2 P l l' -> length l = length l'.
Proof. intros A B P l l' H. induction H; cbn [length]; congruence. Qed.

Lemma env_of_module_wf : forall m e, structs_ok m -> env_of_module m = Some e -> wf_env e = true.
Proof.
  intros m e Hm H. unfold env_of_module in H. apply all_some_forall2 in H.
  assert (L : length e = length (m_structs m)) by (symmetry; eapply forall2_length; eauto).
  unfold wf_env. rewrite L. clear L. unfold structs_ok in Hm.
  assert (Hty : forall sm f, field_of m sm = Some f -> ty_ok (length (m_structs m)) (fty f) = true)
    by (intros sm f K; apply (field_of_spec _ _ _ K)).
  revert Hty. generalize (length (m_structs m)) as n. intros n Hty.
  revert Hm. induction H as [|s sc r r' Hs Hr IH]; intros Hm; cbn [forallb]; [reflexivity|].
  inversion Hm as [|? ? Hs0 Hr0]; subst. rewrite (IH Hr0), andb_true_r.
  unfold schema_of_struct in Hs. apply all_some_forall2 in Hs.
  apply andb_true_iff; split.
  - eapply schema_ascending; eauto.
  - clear Hs0. induction Hs as [|x y q q' Hxy Hq IHq]; cbn [forallb]; [reflexivity|].
    rewrite (Hty _ _ Hxy), IHq. reflexivity.
Qed.

Theorem schema_wf : forall input m e, parse_bytes input = OOk m -> env_of_module m = Some e -> wf_env e = true.
Proof. intros input m e Hp He. eapply env_of_module_wf; eauto. eapply parse_bytes_structs_ok; eauto. Qed.

(* a concrete program satisfies the hypotheses of [schema_wf], with a non-trivial environment *)
Definition example_idl : bytes :=
  bs "module M { enum E { A, B = 5, C = B, D }; struct In { 0 require int x; }; struct S { 7 require int a; 0 optional E e = D; 2 optional vector<S> k; 3 optional In arr[2]; 4 optional float f = 1.5; }; };".
Definition example_env : env :=
  [ [ {| ftag := 0; freq := true; fty := TI32; fdef := None |} ];
    [ {| ftag := 0; freq := false; fty := TEnum; fdef := Some (VInt 6) |};
      {| ftag := 2; freq := false; fty := TVec (TStruct 1); fdef := None |};
      {| ftag := 3; freq := false; fty := TArr 2 (TStruct 0); fdef := None |};
      {| ftag := 4; freq := false; fty := TF32; fdef := Some (VFlt 1069547520) |};
      {| ftag := 7; freq := true; fty := TI32; fdef := None |} ] ].
Example schema_wf_instance :
  match parse_bytes example_idl with OOk m => env_of_module m | _ => None end = Some example_env.
Proof. vm_compute. reflexivity. Qed.
