(* C16: the lexer maps every rendering of a token sequence (Idl/Render.v) back to that sequence. *)
From Coq Require Import String.
From Coq Require Import List NArith ZArith Bool Lia ZifyBool ZifyN.
From TarsV Require Import Idl.Lexer Idl.LexerProofs Idl.Render.
Import ListNotations.
Open Scope N_scope.

Inductive lexes : bytes -> list tok -> Prop :=
| L_eof : forall st, lex_step st = LEof -> lexes st []
| L_skip : forall st st' l, lex_step st = LSkip st' -> lexes st' l -> lexes st l
| L_tok : forall st st' t l, lex_step st = LTok t st' -> lexes st' l -> lexes st (t :: l).

Lemma lexes_tokenize : forall st l, lexes st l -> forall fuel l', tokenize fuel st = Ok l' -> l' = l.
Proof.
  induction 1 as [st E | st st' l E H IH | st st' t l E H IH]; intros fuel l' T; (destruct fuel as [|f]; [discriminate|]);
    cbn [tokenize] in T; rewrite E in T.
  - inversion T; reflexivity.
  - eapply IH; eauto.
  - destruct (tokenize f st') as [l0| |] eqn:E0; try discriminate. inversion T; subst. f_equal. eapply IH; eauto.
Qed.

Theorem lexes_tokens_of : forall input l, lexes (init_state input) l -> tokens_of input = Ok l.
Proof.
  intros input l H. destruct (tokens_of_ok input) as (l' & E & _). rewrite E. f_equal. exact (lexes_tokenize _ _ H _ _ E).
Qed.

Definition follows (r : bytes) : Prop := match r with [] => True | c :: _ => stops c = true end.

Lemma sep_stops : forall c, stops c = true ->
  is_letter c = false /\ is_number c = false /\ (c =? 58) = false /\ (c =? 46) = false /\ is_x c = false /\ is_hexl c = false.
Proof. intros c. unfold stops, is_letter, is_number, is_digit, is_x, is_hexl. lia. Qed.

(* punct_of is a cascade of eleven comparisons: what it needs to fall through, as one boolean *)
Definition is_punct (c : N) : bool := existsb (N.eqb c) [123; 125; 59; 61; 60; 62; 44; 40; 41; 91; 93].

Lemma punct_of_none : forall c, is_punct c = false -> punct_of c = None.
Proof.
  intros c H. unfold is_punct in H. cbn [existsb] in H. unfold punct_of.
  repeat (apply orb_false_elim in H as [-> H]). reflexivity.
Qed.

Lemma letter_class : forall c, is_letter c = true ->
  (c =? 0) = false /\ (is_blank c || is_newline c) = false /\ (c =? 47) = false /\ punct_of c = None /\
  (c =? 34) = false /\ (c =? 35) = false /\ is_number c = false.
Proof.
  intros c H. repeat split; try apply punct_of_none;
    revert H; unfold is_punct, is_letter, is_blank, is_newline, is_number, is_digit; cbn [existsb]; lia.
Qed.

Lemma number_class : forall c, is_number c = true ->
  (c =? 0) = false /\ (is_blank c || is_newline c) = false /\ (c =? 47) = false /\ punct_of c = None /\
  (c =? 34) = false /\ (c =? 35) = false.
Proof.
  intros c H. repeat split; try apply punct_of_none;
    revert H; unfold is_punct, is_blank, is_newline, is_number, is_digit; cbn [existsb]; lia.
Qed.

Lemma punct_class : forall c p, punct_of c = Some p ->
  (c =? 0) = false /\ (is_blank c || is_newline c) = false /\ (c =? 47) = false.
Proof.
  intros c p H. assert (K : is_punct c = true).
  { destruct (is_punct c) eqn:E; [reflexivity|]. rewrite (punct_of_none c E) in H. discriminate. }
  revert K. unfold is_punct, is_blank, is_newline. cbn [existsb]. lia.
Qed.

Lemma read_ident_scan : forall s last acc r, ident_scan s last = true -> follows r ->
  read_ident (s ++ r) last acc = Some (rev acc ++ s, r).
Proof.
  induction s as [|c s IH]; intros last acc r Hs Hr.
  - cbn [app]. rewrite app_nil_r. destruct r as [|c r]; cbn [read_ident]; [reflexivity|].
    cbn [follows] in Hr. destruct (sep_stops c Hr) as [A [B [C _]]]. rewrite A, B, C. reflexivity.
  - cbn [ident_scan] in Hs. apply andb_true_iff in Hs. destruct Hs as [Hs Hrest]. apply andb_true_iff in Hs. destruct Hs as [H1 H2].
    cbn [app read_ident]. rewrite H1. apply negb_true_iff in H2. rewrite H2.
    rewrite (IH c (c :: acc) r Hrest Hr). cbn [rev]. rewrite <- app_assoc. reflexivity.
Qed.

Lemma has_dot_cons : forall c s, has_dot (c :: s) = (c =? 46) || has_dot s.
Proof. reflexivity. Qed.

Lemma read_number_scan : forall s h d acc r, num_scan s h = true -> follows r ->
  read_number (s ++ r) h d acc = (rev acc ++ s, d || has_dot s, r).
Proof.
  induction s as [|c s IH]; intros h d acc r Hs Hr.
  - cbn [app has_dot existsb]. rewrite app_nil_r, orb_false_r. destruct r as [|c r]; cbn [read_number]; [reflexivity|].
    cbn [follows] in Hr. destruct (sep_stops c Hr) as [_ [B [_ [D [E F]]]]]. rewrite B, D, E, F, andb_false_r. reflexivity.
  - cbn [num_scan] in Hs. apply andb_true_iff in Hs. destruct Hs as [H1 Hrest].
    cbn [app read_number]. rewrite H1. rewrite (IH _ _ _ r Hrest Hr). cbn [rev]. rewrite <- app_assoc. cbn [app].
    rewrite has_dot_cons, orb_assoc. reflexivity.
Qed.

Lemma read_string_scan : forall s acc r, forallb (fun c => negb (c =? 0) && negb (c =? 34)) s = true ->
  read_string (s ++ 34 :: r) acc = Some (rev acc ++ s, r).
Proof.
  induction s as [|c s IH]; intros acc r H.
  - cbn [app read_string]. rewrite app_nil_r. reflexivity.
  - cbn [forallb] in H. apply andb_true_iff in H. destruct H as [H1 H2]. apply andb_true_iff in H1. destruct H1 as [A B].
    apply negb_true_iff in A. apply negb_true_iff in B. cbn [app read_string]. rewrite A, B.
    rewrite (IH (c :: acc) r H2). cbn [rev]. rewrite <- app_assoc. reflexivity.
Qed.

(* the dispatch of lex_step on the first bytes that are fixed in a rendering *)
Lemma lex_step_hash : forall r, lex_step (35 :: r) =
  let '(w, r') := read_letters r [] in if beq w (bs "include") then LTok TInclude r' else LErr.
Proof. reflexivity. Qed.
Lemma lex_step_quote : forall r, lex_step (34 :: r) =
  match read_string r [] with Some (s, r') => LTok (TStr s) r' | None => LErr end.
Proof. reflexivity. Qed.
Lemma lex_step_line : forall r, lex_step (47 :: 47 :: r) = LSkip (skip_line (47 :: r)).
Proof. reflexivity. Qed.
Lemma lex_step_long : forall r, lex_step (47 :: 42 :: r) = match long_comment r with Some r3 => LSkip r3 | None => LErr end.
Proof. reflexivity. Qed.

Lemma read_letters_scan : forall s acc r, forallb is_letter s = true -> follows r ->
  read_letters (s ++ r) acc = (rev acc ++ s, r).
Proof.
  induction s as [|c s IH]; intros acc r Hs Hr; cbn [app read_letters].
  - rewrite app_nil_r. destruct r as [|c r]; cbn [read_letters]; [reflexivity|]. cbn [follows] in Hr. destruct (sep_stops c Hr) as [-> _]. reflexivity.
  - cbn [forallb] in Hs. apply andb_true_iff in Hs as [-> Hs]. rewrite IH by assumption. cbn [rev]. rewrite <- app_assoc. reflexivity.
Qed.

Lemma lookup_kw_not_delim : forall s, self_delimiting (lookup_kw s keywords) = false.
Proof. intros s. apply negb_true_iff, (lookup_kw_all (fun t => negb (self_delimiting t))); reflexivity. Qed.

Lemma lex_tok : forall t txt r, tok_text t txt -> (follows r \/ self_delimiting t = true) -> lex_step (txt ++ r) = LTok t r.
Proof.
  intros t txt r H Hr0.
  assert (Hr : match t with TPunct _ | TStr _ => True | _ => follows r end).
  { destruct Hr0 as [K|K]; [destruct t; auto | destruct t; try discriminate; exact I]. }
  clear Hr0. destruct H as [c p Hp | | c s s' t Hc Hs Hq Hk | c s v Hc Hs Hd Hv | c s Hc Hs Hd Hv | s Hs].
  (* integer and float literals: the same scan, the conversion differs *)
  4,5: destruct (number_class c Hc) as [A [B [C [D [E F]]]]]; cbn [app lex_step]; rewrite A, B, C, D, E, F, Hc;
    change (c :: s ++ r) with ((c :: s) ++ r); rewrite (read_number_scan (c :: s) false false [] r Hs Hr); cbn [rev app orb];
    rewrite Hd, Hv; reflexivity.
  - destruct (punct_class c p Hp) as [A [B C]]. cbn [app lex_step]. rewrite A, B, C, Hp. reflexivity.
  - change (bs "#include" ++ r) with (35 :: bs "include" ++ r).
    rewrite lex_step_hash, (read_letters_scan (bs "include") [] r eq_refl Hr). reflexivity.
  - assert (Hr' : follows r).
    { pose proof (lookup_kw_not_delim s') as K. rewrite Hk in K. destruct t; try discriminate; exact Hr. }
    clear Hr. rename Hr' into Hr.
    destruct (letter_class c Hc) as [A [B [C [D [E [F G]]]]]].
    cbn [app lex_step]. rewrite A, B, C, D, E, F, G, Hc.
    change (c :: s ++ r) with ((c :: s) ++ r). rewrite (read_ident_scan (c :: s) 0 [] r Hs Hr). cbn [rev app].
    rewrite Hq, Hk. reflexivity.
  - cbn [app]. rewrite lex_step_quote, <- app_assoc. cbn [app]. rewrite (read_string_scan s [] r Hs). reflexivity.
Qed.

Lemma skip_line_body : forall b st, forallb (fun c => negb (is_newline c) && negb (c =? 0)) b = true ->
  skip_line (b ++ 10 :: st) = 10 :: st.
Proof.
  induction b as [|c b IH]; intros st H.
  - reflexivity.
  - cbn [forallb] in H. apply andb_true_iff in H. destruct H as [H1 H2]. apply andb_true_iff in H1. destruct H1 as [A B].
    apply negb_true_iff in A. apply negb_true_iff in B. cbn [app skip_line]. rewrite A, B. cbn [orb]. apply IH. exact H2.
Qed.

Lemma long_comment_body : forall b st, forallb (fun c => negb (c =? 0)) b = true -> no_close b = true ->
  long_comment (b ++ 42 :: 47 :: st) = Some st.
Proof.
  induction b as [|c b IH]; intros st H N.
  - reflexivity.
  - cbn [forallb] in H. apply andb_true_iff in H. destruct H as [A H2]. apply negb_true_iff in A.
    cbn [app long_comment]. rewrite A.
    destruct b as [|d b'].
    + cbn [app]. destruct (c =? 42); reflexivity.
    + cbn [no_close] in N. apply andb_true_iff in N. destruct N as [N1 N2].
      pose proof H2 as H2'. cbn [forallb] in H2'. apply andb_true_iff in H2'. destruct H2' as [D _]. apply negb_true_iff in D.
      destruct (c =? 42) eqn:E.
      * cbn [app]. rewrite D. cbn [andb negb] in N1. apply negb_true_iff in N1. rewrite N1.
        change (d :: b' ++ 42 :: 47 :: st) with ((d :: b') ++ 42 :: 47 :: st). apply IH; assumption.
      * apply IH; assumption.
Qed.

Lemma blank_step : forall c st, (is_blank c || is_newline c) = true -> lex_step (c :: st) = LSkip st.
Proof.
  intros c st H. cbn [lex_step]. assert (Z : (c =? 0) = false) by (revert H; unfold is_blank, is_newline; lia).
  rewrite Z, H. reflexivity.
Qed.

Lemma gap_item_lexes : forall g st l, wf_gap_item g = true -> lexes st l -> lexes (gap_bytes g ++ st) l.
Proof.
  intros g st l Hg H. destruct g as [c | b | b]; cbn [gap_bytes wf_gap_item] in *.
  - eapply L_skip; [apply blank_step; exact Hg | exact H].
  - cbn [app]. rewrite <- app_assoc. cbn [app].
    eapply L_skip.
    + apply lex_step_line.
    + cbn [skip_line]. change (is_newline 47 || (47 =? 0)) with false. cbv iota. rewrite (skip_line_body b st Hg).
      eapply L_skip; [apply blank_step; reflexivity | exact H].
  - cbn [app]. rewrite <- app_assoc. cbn [app].
    eapply L_skip; [|exact H].
    rewrite lex_step_long.
    apply andb_true_iff in Hg. destruct Hg as [Hg1 Hg2]. rewrite (long_comment_body b st Hg1 Hg2). reflexivity.
Qed.

Lemma gaps_lexes : forall gs st l, forallb wf_gap_item gs = true -> lexes st l -> lexes (gaps_bytes gs ++ st) l.
Proof.
  induction gs as [|g gs IH]; intros st l Hg H; unfold gaps_bytes in *; cbn [map concat app].
  - exact H.
  - cbn [forallb] in Hg. apply andb_true_iff in Hg. destruct Hg as [H1 H2]. rewrite <- app_assoc.
    apply gap_item_lexes; [exact H1 | apply IH; assumption].
Qed.

Lemma gap_follows : forall gs st, gs <> [] -> forallb wf_gap_item gs = true -> follows (gaps_bytes gs ++ st).
Proof.
  intros gs st Hne Hg. destruct gs as [|g gs]; [congruence|]. cbn [forallb] in Hg. apply andb_true_iff in Hg. destruct Hg as [H1 _].
  unfold gaps_bytes. cbn [map concat]. destruct g as [c | b | b]; cbn [gap_bytes app follows wf_gap_item] in *.
  - revert H1. unfold stops, is_blank, is_newline, is_letter, is_number, is_digit. lia.
  - reflexivity.
  - reflexivity.
Qed.

Definition pieces_bytes (ps : list piece) : bytes := concat (map (fun p => p_txt p ++ gaps_bytes (p_gap p)) ps).

Lemma pieces_lexes : forall ps, wf_pieces ps -> lexes (pieces_bytes ps) (map p_tok ps).
Proof.
  induction ps as [|p ps IH]; intros H; unfold pieces_bytes in *; cbn [map concat].
  - apply L_eof. reflexivity.
  - cbn [wf_pieces] in H. destruct H as [Ht [Hg [Hd Hps]]]. rewrite <- app_assoc.
    eapply L_tok; [|apply gaps_lexes; [exact Hg | apply IH; exact Hps]].
    apply lex_tok; [exact Ht|].
    destruct Hd as [Hne | [Hs | Hn]]; [left; apply gap_follows; assumption | right; exact Hs |].
    destruct (p_gap p) as [|g gs]; [|left; apply gap_follows; [discriminate | exact Hg]].
    left. unfold gaps_bytes. cbn [map concat app].
    destruct ps as [|q qs]; cbn [map concat]; [exact I|].
    cbn [starts_stop] in Hn. destruct (p_txt q) as [|c r]; [discriminate|]. cbn [app follows]. exact Hn.
Qed.

Theorem render_tokens : forall lead ps, forallb wf_gap_item lead = true -> wf_pieces ps ->
  tokens_of (render lead ps) = Ok (map p_tok ps).
Proof.
  intros lead ps Hl Hps. apply lexes_tokens_of. unfold init_state, render.
  eapply L_skip; [apply blank_step; reflexivity|].
  apply gaps_lexes; [exact Hl | apply pieces_lexes; exact Hps].
Qed.
