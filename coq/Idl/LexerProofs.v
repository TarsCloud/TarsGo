(* C16: the lexer makes progress.  Every iteration of lLex's loop that does not end the scan consumes at
   least one byte; a token other than Eof consumes at least one byte; Eof is idempotent; fuel above the length of
   the state suffices ([lex_fuel] = |input|+2, the state being the input behind one blank); the token stream has
   at most |input|+1 tokens. *)
From Coq Require Import String.
From Coq Require Import List NArith ZArith Bool Lia.
From TarsV Require Import Idl.Lexer.
Import ListNotations.
Open Scope N_scope.

Lemma beq_cons : forall x y a b, beq (x :: a) (y :: b) = (x =? y) && beq a b.
Proof. reflexivity. Qed.
Lemma beq_app : forall a b c, beq (a ++ b) (a ++ c) = beq b c.
Proof. induction a as [|x a IH]; intros b c; [reflexivity|]. cbn [app]. rewrite beq_cons, N.eqb_refl, IH. reflexivity. Qed.
Lemma beq_true : forall a b, beq a b = true -> a = b.
Proof.
  induction a as [|x a IH]; destruct b as [|y b]; intros H; try reflexivity; try discriminate.
  rewrite beq_cons in H. apply andb_true_iff in H. destruct H as [H1 H2]. apply N.eqb_eq in H1. subst. f_equal. apply IH. exact H2.
Qed.
Lemma beq_refl : forall a, beq a a = true.
Proof. induction a as [|x a IH]; [reflexivity|]. rewrite beq_cons, N.eqb_refl, IH. reflexivity. Qed.

Lemma skip_line_le : forall l, (length (skip_line l) <= length l)%nat.
Proof. induction l as [|c r IH]; cbn [skip_line]; [lia|]. destruct (is_newline c || (c =? 0)); cbn [length]; lia. Qed.

Lemma long_comment_le : forall l r, long_comment l = Some r -> (length r <= length l)%nat.
Proof.
  induction l as [|c l IH]; intros r H; cbn [long_comment] in H; [discriminate|].
  destruct (c =? 0); [discriminate|].
  destruct (c =? 42).
  - destruct l as [|d r2]; [inversion H; cbn; lia|].
    destruct (d =? 0); [inversion H; subst; cbn; lia|].
    destruct (d =? 47); [inversion H; subst; cbn; lia|].
    apply IH in H. cbn [length] in *. lia.
  - apply IH in H. cbn [length]. lia.
Qed.

Lemma read_string_lt : forall l acc s r, read_string l acc = Some (s, r) -> (length r < length l)%nat.
Proof.
  induction l as [|c l IH]; intros acc s r H; cbn [read_string] in H; [discriminate|].
  destruct (c =? 0); [discriminate|].
  destruct (c =? 34); [inversion H; subst; cbn; lia|].
  apply IH in H. cbn [length]. lia.
Qed.

Lemma read_letters_le : forall l acc w r, read_letters l acc = (w, r) -> (length r <= length l)%nat.
Proof.
  induction l as [|c l IH]; intros acc w r H; cbn [read_letters] in H; [inversion H; cbn; lia|].
  destruct (is_letter c); [apply IH in H; cbn [length]; lia | inversion H; subst; lia].
Qed.

Lemma read_number_le : forall l h d acc s d' r, read_number l h d acc = (s, d', r) -> (length r <= length l)%nat.
Proof.
  induction l as [|c l IH]; intros h d acc s d' r H; cbn [read_number] in H; [inversion H; cbn; lia|].
  destruct (is_number c || (c =? 46) || is_x c || (h && is_hexl c)); [apply IH in H; cbn [length]; lia | inversion H; subst; lia].
Qed.

Lemma read_ident_le : forall l last acc s r, read_ident l last acc = Some (s, r) -> (length r <= length l)%nat.
Proof.
  induction l as [|c l IH]; intros last acc s r H; cbn [read_ident] in H; [inversion H; cbn; lia|].
  destruct (is_letter c || is_number c || (c =? 58)).
  - destruct (is_number c && (last =? 58)); [discriminate|]. apply IH in H. cbn [length]. lia.
  - inversion H; subst; lia.
Qed.

Definition proper (t : tok) : bool := match t with TEof | TLexErr => false | _ => true end.

Lemma lookup_kw_all : forall (P : tok -> bool) s l,
  P (TName s) = true -> forallb (fun p => P (snd p)) l = true -> P (lookup_kw s l) = true.
Proof.
  intros P s l Hn. induction l as [|[k t] l IH]; cbn [lookup_kw forallb snd]; [trivial|].
  intros H. apply andb_true_iff in H as [Ht Hl]. destruct (beq k s); auto.
Qed.

Lemma lex_step_spec : forall st,
  match lex_step st with
  | LSkip st' => (length st' < length st)%nat
  | LTok t st' => (length st' < length st)%nat /\ proper t = true
  | _ => True
  end.
Proof.
  intros [|c r]; cbn [lex_step]; [exact I|].
  destruct (c =? 0); [exact I|].
  destruct (is_blank c || is_newline c); [cbn; lia|].
  destruct (c =? 47).
  { destruct r as [|d r2]; [exact I|].
    destruct (d =? 47).
    - pose proof (skip_line_le (d :: r2)). cbn [length] in *. lia.
    - destruct (d =? 42); [|exact I].
      destruct (long_comment r2) as [r3|] eqn:E; [|exact I].
      apply long_comment_le in E. cbn [length]. lia. }
  destruct (punct_of c); [cbn; auto|].
  destruct (c =? 34).
  { destruct (read_string r []) as [[s r']|] eqn:E; [|exact I]. apply read_string_lt in E. cbn [length]. auto. }
  destruct (c =? 35).
  { destruct (read_letters r []) as [w r'] eqn:E. apply read_letters_le in E.
    destruct (beq w (bs "include")); [cbn [length]; split; [lia | reflexivity] | exact I]. }
  destruct (is_number c) eqn:Hn.
  { cbn [read_number]. rewrite Hn. cbn [orb].
    destruct (read_number r _ _ _) as [[s dot] r'] eqn:E.
    apply read_number_le in E.
    destruct dot; [destruct (parse_float_ok s) | destruct (parse_int s)]; try exact I; cbn [length]; split; (lia || reflexivity). }
  destruct (is_letter c) eqn:Hl; [|exact I].
  cbn [read_ident]. rewrite Hl. cbn [orb].
  replace (is_number c && (0 =? 58)) with false by (rewrite andb_false_r; reflexivity).
  destruct (read_ident r c [c]) as [[s r']|] eqn:E; [|exact I].
  apply read_ident_le in E.
  destruct (qualify s); [|exact I]. cbn [length]. split; [lia | apply (lookup_kw_all proper); reflexivity].
Qed.

Theorem next_token_fuel : forall fuel st, (length st < fuel)%nat -> next_token fuel st <> Fuel.
Proof.
  induction fuel as [|f IH]; intros st H; [lia|].
  cbn [next_token]. pose proof (lex_step_spec st) as P. destruct (lex_step st) as [st'| t st' | |]; try discriminate.
  apply IH. lia.
Qed.

Lemma next_token_spec : forall fuel st t st', next_token fuel st = Ok (t, st') ->
  if proper t then (length st' < length st)%nat
  else t = TEof /\ lex_step st' = LEof /\ (length st' <= length st)%nat.
Proof.
  induction fuel as [|f IH]; intros st t st' H; cbn [next_token] in H; [discriminate|].
  pose proof (lex_step_spec st) as P. destruct (lex_step st) as [st1| t1 st1 | |] eqn:E; try discriminate.
  - apply IH in H. destruct (proper t); [lia | intuition lia].
  - injection H as <- <-. destruct P as [L ->]. exact L.
  - injection H as <- <-. cbn. auto.
Qed.

Theorem next_token_consumes : forall fuel st t st',
  next_token fuel st = Ok (t, st') -> t <> TEof -> (length st' < length st)%nat.
Proof. intros fuel st t st' H Ht. apply next_token_spec in H. destruct (proper t); [exact H | tauto]. Qed.

Theorem next_token_le : forall fuel st t st', next_token fuel st = Ok (t, st') -> (length st' <= length st)%nat.
Proof. intros fuel st t st' H. apply next_token_spec in H. destruct (proper t); [lia | tauto]. Qed.

Theorem next_token_eof_idem : forall fuel st st',
  next_token fuel st = Ok (TEof, st') -> forall fuel', next_token (S fuel') st' = Ok (TEof, st').
Proof. intros fuel st st' H fuel'. apply next_token_spec in H as (_ & E & _). cbn [next_token]. rewrite E. reflexivity. Qed.

Lemma tokenize_ok : forall fuel st, (length st < fuel)%nat ->
  exists l, tokenize fuel st = Ok l /\ (length l <= length st)%nat.
Proof.
  induction fuel as [|f IH]; intros st H; [lia|]. cbn [tokenize].
  pose proof (lex_step_spec st) as P. destruct (lex_step st) as [st'| t st' | |] eqn:E.
  - destruct (IH st') as (l & T & L); [lia|]. exists l. split; [exact T | lia].
  - destruct (IH st') as (l & -> & L); [lia|]. exists (t :: l). cbn [length]. split; [reflexivity | lia].
  - exists []. split; [reflexivity | cbn; lia].
  - exists [TLexErr]. split; [reflexivity|]. destruct st; [discriminate E | cbn; lia].
Qed.

Theorem tokens_of_ok : forall input, exists l, tokens_of input = Ok l /\ (length l <= S (length input))%nat.
Proof. intros input. apply tokenize_ok. unfold lex_fuel, init_state. cbn [length]. lia. Qed.
