(* C16: several files (Idl/Include.v).  NewParse terminates on every finite file system - the chain of including
   files never repeats a name (newParse's circular-reference diagnostic) and every name on it is a file, so it is no
   longer than the number of files; without included files the multi-file front end is the single-file one; a
   successful analysis leaves no user type unresolved, also across files; FindTNameType answers with the module that
   defines the type, and the modules named by the analysed types are those recorded for the imports. *)
From Coq Require Import String.
From Coq Require Import List NArith ZArith Bool Lia Permutation.
From TarsV Require Import Base.Lists Idl.Lexer Idl.LexerProofs Idl.Parser Idl.ParserProofs Idl.Include Idl.AnalyzeProofs.
Import ListNotations.
Open Scope N_scope.

Lemma existsb_beq_false : forall name chain, existsb (beq name) chain = false -> ~ In name chain.
Proof.
  intros name chain H Hin. assert (K : existsb (beq name) chain = true).
  { apply existsb_exists. exists name. split; [exact Hin | apply beq_refl]. }
  congruence.
Qed.

Lemma fs_of_in : forall files name d, fs_of files name = Some d -> In name (map fst files).
Proof.
  induction files as [|[n x] r IH]; intros name d H; cbn [fs_of] in H; [discriminate|].
  destruct (beq n name) eqn:E; cbn [map fst In].
  - left. apply beq_true. exact E.
  - right. eapply IH; eauto.
Qed.


Lemma parse_incs_not_fuel : forall (pf : bytes -> fres) names, (forall n, pf n <> FFuel) -> parse_incs pf names <> inl FFuel.
Proof.
  intros pf. induction names as [|n r IH]; intros H; cbn [parse_incs]; [discriminate|].
  specialize (H n) as Hn. destruct (pf n) eqn:E; try (intros K; inversion K; congruence).
  specialize (IH H). destruct (parse_incs pf r) as [e|ts]; [intros K; inversion K; congruence | discriminate].
Qed.

Lemma parse_file_terminates : forall files fuel name chain,
  NoDup chain -> incl chain (map fst files) -> (length (map fst files) < fuel + length chain)%nat ->
  parse_file (fs_of files) fuel name chain <> FFuel.
Proof.
  intros files. induction fuel as [|f IH]; intros name chain Hnd Hincl Hlen.
  - exfalso. pose proof (NoDup_incl_length Hnd Hincl). lia.
  - cbn [parse_file]. destruct (existsb (beq name) chain) eqn:Ex; [discriminate|].
    destruct (fs_of files name) as [data|] eqn:Ef; [|discriminate].
    destruct (tokens_of_ok data) as [ts [Et _]]. rewrite Et.
    pose proof (file_loop_wp (parse_fuel ts) empty_file ts ltac:(unfold parse_fuel; lia)) as W.
    destruct (file_loop true (parse_fuel ts) empty_file ts) as [fl| |]; [|discriminate|contradiction].
    destruct (fl_more fl); [|discriminate].
    assert (G : parse_incs (fun n => parse_file (fs_of files) f n (chain ++ [name])) (fl_includes fl) <> inl FFuel).
    { apply parse_incs_not_fuel. intros n. apply IH.
      - apply NoDup_snoc; [exact Hnd | apply existsb_beq_false; exact Ex].
      - intros x Hx. apply in_app_or in Hx. destruct Hx as [Hx|[<-|[]]]; [apply Hincl; exact Hx | eapply fs_of_in; eauto].
      - rewrite app_length. cbn [length]. lia. }
    destruct (parse_incs _ (fl_includes fl)) as [e|incs]; [intros K; apply G; congruence|].
    destruct (analyze_t _ incs); discriminate.
Qed.

Theorem parse_fs_terminates : forall input files, parse_fs input files <> FFuel.
Proof.
  intros input files. unfold parse_fs. apply parse_file_terminates.
  - constructor.
  - intros x [].
  - cbn [map fst length]. rewrite map_length. lia.
Qed.

Lemma find_tname_t_nil : forall m full,
  find_tname_t (PT m []) full = match find_tname m full with CNone => None | c => Some (c, m_name m) end.
Proof. intros. cbn [find_tname_t]. destruct (find_tname m full); reflexivity. Qed.

Lemma check_tname_t_descend : forall m incs v, check_tname_t m incs v = descend (fun s c => check_tname_t m incs (VName s c)) v.
Proof. intros m incs. induction v as [| | k IHk | k IHk w IHw | k IHk l]; cbn [descend]; rewrite <- ?IHk, <- ?IHw; reflexivity. Qed.

Lemma check_tname_t_nil : forall m v, check_tname_t m [] v = check_tname m v.
Proof.
  intros m v. rewrite check_tname_t_descend, check_tname_descend. apply descend_ext. intros s c. cbn [check_tname_t check_tname].
  rewrite find_tname_t_nil. destruct (find_tname m _); [reflexivity | rewrite beq_refl; reflexivity | rewrite beq_refl; reflexivity].
Qed.

Lemma analyze_default_t_nil : forall m sm, analyze_default_t m [] sm = analyze_default m sm.
Proof.
  intros m sm. unfold analyze_default_t, analyze_default. destruct (sm_deft sm); try reflexivity.
  destruct (sm_def sm) as [|c r]; [reflexivity|]. cbn [find_enum_t].
  destruct (enum_hits m _) as [|[e mb] [|? ?]]; try reflexivity.
  rewrite beq_refl. cbn [negb andb]. rewrite andb_false_r. reflexivity.
Qed.

Lemma analyze_t_is_with : forall m incs, analyze_t m incs = analyze_with (analyze_default_t m incs) (check_tname_t m incs) m.
Proof. reflexivity. Qed.

Lemma analyze_t_nil : forall m, analyze_t m [] = analyze m.
Proof. intros m. rewrite analyze_t_is_with, analyze_is_with. apply analyze_with_ext; [apply analyze_default_t_nil | apply check_tname_t_nil]. Qed.

Theorem parse_fs_single_file : forall input m, parse_bytes input = OOk m -> parse_fs input [] = FOk (PT m []).
Proof.
  intros input m H. destruct (parse_bytes_ok_inv _ _ H) as (ts & fl & T & F & I1 & I2 & P).
  unfold parse_fs. cbn [length parse_file existsb fs_of]. unfold main_name at 1. rewrite beq_refl, T, F, I2, I1.
  cbn [parse_incs]. rewrite analyze_t_nil. destruct (fl_primary fl); [rewrite P | subst]; reflexivity.
Qed.

Fixpoint tree_modules (t : ptree) : list module :=
  match t with PT m incs => m :: flat_map tree_modules incs end.

(* FindTNameType answers with a module of the tree that has the name, depth first *)
Lemma find_tname_t_hit : forall t full c modn, find_tname_t t full = Some (c, modn) ->
  exists m, In m (tree_modules t) /\ m_name m = modn /\ find_tname m full = c /\ c <> CNone.
Proof.
  fix IH 1. intros [m0 l0] full c modn H. cbn [find_tname_t tree_modules] in *.
  destruct (find_tname m0 full) eqn:Ef; [|injection H as <- <-; exists m0; split; [left; reflexivity|]; split; [reflexivity|]; split; [exact Ef | discriminate] ..].
  induction l0 as [|x r IHr]; [discriminate|]. cbn [flat_map].
  destruct (find_tname_t x full) as [[c1 m1]|] eqn:Ex.
  - injection H as -> ->. destruct (IH x full c modn Ex) as (m & Hin & Hr). exists m. split; [|exact Hr].
    right. apply in_or_app. left. exact Hin.
  - destruct (IHr H) as (m & [<-|Hin] & Hn & Hf & Hc); [congruence|]. exists m. split; [right; apply in_or_app; right; exact Hin | auto].
Qed.

Lemma check_tname_t_resolved : forall m incs v v', check_tname_t m incs v = Ok v' -> resolved v' = true.
Proof.
  intros m incs v v'. rewrite check_tname_t_descend. apply descend_resolved. clear. intros s c v' H. cbn [check_tname_t] in H.
  destruct (find_tname_t (PT m incs) _) as [[c0 modn]|] eqn:E; try discriminate.
  destruct (find_tname_t_hit _ _ _ _ E) as (_ & _ & _ & _ & Hc).
  destruct (beq modn (m_name m)); inversion H; subst; cbn [resolved]; destruct c0; try reflexivity; congruence.
Qed.

Theorem analyze_t_resolves : forall m incs m', analyze_t m incs = Ok m' -> module_resolved m' = true.
Proof. intros m incs m'. rewrite analyze_t_is_with. apply analyze_with_resolves, check_tname_t_resolved. Qed.

Lemma parse_incs_inl_not_ok : forall (pf : bytes -> fres) names t, parse_incs pf names <> inl (FOk t).
Proof.
  intros pf. induction names as [|n r IH]; intros t; cbn [parse_incs]; [discriminate|].
  destruct (pf n); try discriminate. specialize (IH t). destruct (parse_incs pf r); [|discriminate].
  intros K. apply IH. exact K.
Qed.

Lemma parse_file_resolved : forall fs fuel name chain t, parse_file fs fuel name chain = FOk t -> module_resolved (pt_mod t) = true.
Proof.
  intros fs fuel name chain t H. destruct fuel as [|f]; [discriminate|]. cbn [parse_file] in H.
  destruct (existsb (beq name) chain); try discriminate. destruct (fs name); try discriminate.
  destruct (tokens_of b) as [ts| |]; try discriminate.
  destruct (file_loop true (parse_fuel ts) empty_file ts) as [fl| |]; try discriminate.
  destruct (fl_more fl); try discriminate.
  destruct (parse_incs _ (fl_includes fl)) as [e|incs] eqn:Ei.
  - exfalso. subst e. eapply parse_incs_inl_not_ok; eauto.
  - destruct (analyze_t _ incs) as [m'| |] eqn:E; try discriminate. inversion H; subst. cbn [pt_mod]. eapply analyze_t_resolves; eauto.
Qed.

Theorem parse_fs_resolved : forall input files t, parse_fs input files = FOk t -> module_resolved (pt_mod t) = true.
Proof. intros input files t H. eapply parse_file_resolved; exact H. Qed.

(* a concrete file system: two levels of includes, a type and an enum default of an included module *)
Example parse_fs_instance :
  match parse_fs (bs "#include ""d.tars"" module M { struct S { 0 require E::T t; 1 optional D::F f = X; 2 optional map<string, E::T> m; }; };")
          [ (bs "d.tars", bs "#include ""e.tars"" module D { enum F { A, X }; };"); (bs "e.tars", bs "module E { struct T { 0 require int x; }; };") ] with
  | FOk (PT m _) => Some (map (fun mb => (sm_ty mb, sm_def mb)) (st_mb (nth 0 (m_structs m) {| st_name := []; st_mb := [] |})))
  | _ => None
  end = Some [ (VName (bs "E::T") CStruct, []); (VName (bs "D::F") CEnum, bs "D.F_X"); (VMap (VBase BString false) (VName (bs "E::T") CStruct), []) ].
Proof. vm_compute. reflexivity. Qed.
Example parse_fs_circular : parse_fs (bs "#include ""d.tars"" module M { };") [ (bs "d.tars", bs "#include ""in.tars"" module D { };") ] = FErr.
Proof. vm_compute. reflexivity. Qed.

Lemma beq_sym_true : forall a b, beq a b = true -> beq b a = true.
Proof. intros a b H. apply beq_true in H. subst. apply beq_refl. Qed.

(* FindTNameType reports the module that DEFINES the type: the name looked up is that module's name, "::", and the
   name of one of its structs or enums - however deep in the include tree the module sits *)
Theorem find_tname_t_owner : forall t full c modn, find_tname_t t full = Some (c, modn) ->
  exists m n, In m (tree_modules t) /\ m_name m = modn /\ full = modn ++ colons ++ n /\ declared m n = true.
Proof.
  intros t full c modn H. destruct (find_tname_t_hit _ _ _ _ H) as (m & Hin & <- & <- & Hc).
  destruct (find_tname_owner m full Hc) as (n & E & Hd). exists m, n. auto.
Qed.

(* names without ':' (what the IDL files of practice use; the lexer also lets one "::" through in a declared name) *)
Definition no_colon (s : bytes) : bool := forallb (fun c => negb (c =? 58)) s.
Definition module_plain (m : module) : bool :=
  no_colon (m_name m) && forallb (fun s => no_colon (st_name s)) (m_structs m) && forallb (fun e => no_colon (en_name e)) (m_enums m).

Lemma mod_prefix_app : forall a r, no_colon a = true -> mod_prefix (a ++ colons ++ r) = a.
Proof.
  induction a as [|x a IH]; intros r H.
  - reflexivity.
  - cbn [no_colon forallb] in H. apply andb_true_iff in H. destruct H as [Hx Ha]. apply negb_true_iff in Hx.
    cbn [app mod_prefix]. destruct (a ++ colons ++ r) as [|b q] eqn:E.
    + destruct a; discriminate.
    + rewrite Hx. cbn [andb]. rewrite <- E. rewrite (IH r Ha). reflexivity.
Qed.

Lemma count_cc_cons2 : forall a b r, count_cc (a :: b :: r) = if (a =? 58) && (b =? 58) then S (count_cc r) else count_cc (b :: r).
Proof. reflexivity. Qed.
Lemma count_cc_no_colon : forall s, no_colon s = true -> count_cc s = O.
Proof.
  induction s as [|a s IH]; intros H; [reflexivity|]. destruct s as [|b r]; [reflexivity|].
  cbn [no_colon forallb] in H. apply andb_true_iff in H. destruct H as [Ha Hr]. apply negb_true_iff in Ha.
  rewrite count_cc_cons2, Ha. cbn [andb]. apply IH. exact Hr.
Qed.

Lemma has_prefix_cc : forall p s, has_prefix (p ++ colons) s = true -> count_cc s <> O.
Proof.
  induction p as [|a p IH]; intros s H.
  - destruct s as [|x [|y r]]; cbn [app colons has_prefix] in H.
    + discriminate.
    + apply andb_true_iff in H. destruct H as [_ H]. discriminate.
    + apply andb_true_iff in H. destruct H as [H1 H2]. apply andb_true_iff in H2. destruct H2 as [H2 _].
      apply N.eqb_eq in H1. apply N.eqb_eq in H2. subst. rewrite count_cc_cons2. change (58 =? 58) with true. cbn [andb]. discriminate.
  - destruct s as [|x s']; [discriminate|]. cbn [app has_prefix] in H. apply andb_true_iff in H. destruct H as [_ H].
    specialize (IH s' H). destruct s' as [|y r]; [exfalso; apply IH; reflexivity|].
    rewrite count_cc_cons2. destruct ((x =? 58) && (y =? 58)); [discriminate | exact IH].
Qed.

Lemma remove_first_none : forall p s, count_cc s = O -> remove_first (p ++ colons) s = s.
Proof.
  intros p. induction s as [|c r IH]; intros H; [reflexivity|]. cbn [remove_first].
  destruct (has_prefix (p ++ colons) (c :: r)) eqn:E; [exfalso; exact (has_prefix_cc _ _ E H)|].
  f_equal. apply IH. destruct r as [|b q]; [reflexivity|]. rewrite count_cc_cons2 in H. destruct ((c =? 58) && (b =? 58)); [discriminate | exact H].
Qed.

Lemma has_prefix_app : forall p r, has_prefix p (p ++ r) = true.
Proof. induction p as [|a p IH]; intros r; [reflexivity|]. cbn [app has_prefix]. rewrite N.eqb_refl, IH. reflexivity. Qed.
Lemma skipn_app_len : forall (p r : bytes), skipn (length p) (p ++ r) = r.
Proof. induction p as [|a p IH]; intros r; [reflexivity|]. cbn [length app skipn]. apply IH. Qed.
Lemma remove_first_prefix : forall p r, p <> [] -> remove_first p (p ++ r) = r.
Proof.
  intros p r Hp. destruct p as [|a p]; [congruence|]. cbn [app remove_first].
  change (a :: p ++ r) with ((a :: p) ++ r). rewrite has_prefix_app. apply (skipn_app_len (a :: p) r).
Qed.

(* the statement: in a tree of files whose declared names contain no ':', every module that the analysed type names
   (and so the generated code: Mod::T -> Mod.T) is among the modules checkDepTName records for the imports *)
Theorem imports_cover : forall m incs v v', forallb module_plain (tree_modules (PT m incs)) = true ->
  check_tname_t m incs v = Ok v' -> incl (used_modules v') (recorded_deps m incs v).
Proof.
  intros m incs v v' Hp. rewrite check_tname_t_descend.
  apply (descend_rel _ (fun v v' => incl (used_modules v') (recorded_deps m incs v))); cbn [used_modules recorded_deps]; auto.
  - intros b u x [].
  - clear v v'. intros s c v' H. cbn [check_tname_t] in H.
    destruct (find_tname_t (PT m incs) _) as [[c0 modn]|] eqn:E; try discriminate.
    destruct (find_tname_t_owner _ _ _ _ E) as [m1 [n [Hin [Hname [Hfull Hdecl]]]]].
    rewrite forallb_forall in Hp. pose proof (Hp m1 Hin) as Hm1. unfold module_plain in Hm1.
    apply andb_true_iff in Hm1. destruct Hm1 as [Hm1 He]. apply andb_true_iff in Hm1. destruct Hm1 as [Hmn Hs].
    assert (Hn : no_colon n = true).
    { apply orb_true_iff in Hdecl. destruct Hdecl as [D|D]; apply existsb_exists in D; destruct D as [x [Hx Hb]]; apply beq_true in Hb; subst n.
      - rewrite forallb_forall in Hs. apply Hs. exact Hx.
      - rewrite forallb_forall in He. apply He. exact Hx. }
    subst modn. set (mn := m_name m1) in *.
    destruct (count_cc s =? 0)%nat eqn:Ec.
    + (* unqualified in the source: never names a module *)
      pose proof Ec as Ec'. apply Nat.eqb_eq in Ec'.
      destruct (beq mn (m_name m)); inversion H; cbn [used_modules].
      * rewrite (remove_first_none mn s Ec'). rewrite Ec. intros x [].
      * rewrite Ec. intros x [].
    + (* qualified: s = mn ++ "::" ++ n *)
      rewrite Hfull in *. destruct (beq mn (m_name m)) eqn:Eb; inversion H; cbn [used_modules].
      * replace (mn ++ 58 :: 58 :: n) with ((mn ++ colons) ++ n) by (rewrite <- app_assoc; reflexivity).
        rewrite remove_first_prefix by (destruct mn; discriminate).
        rewrite (count_cc_no_colon n Hn). intros x [].
      * change (mn ++ 58 :: 58 :: n) with (mn ++ colons ++ n). rewrite Ec. rewrite (mod_prefix_app mn n Hmn). intros x [<-|[]]. left. reflexivity.
  - intros k k' w w' Hk Hw. apply incl_app; [apply incl_appl | apply incl_appr]; assumption.
Qed.

(* the hypotheses are satisfiable on a chain Top -> Mid -> Leaf where Top names a type of Leaf without including it *)
Example imports_cover_instance :
  let leaf := {| m_name := bs "Leaf"; m_structs := [ {| st_name := bs "Item"; st_mb := [] |} ]; m_hashkeys := []; m_enums := []; m_consts := []; m_ifaces := [] |} in
  let mid := empty_module (bs "Mid") in
  let top := empty_module (bs "Top") in
  forallb module_plain (tree_modules (PT top [PT mid [PT leaf []]])) = true /\
  check_tname_t top [PT mid [PT leaf []]] (VVec (VName (bs "Leaf::Item") CNone)) = Ok (VVec (VName (bs "Leaf::Item") CStruct)) /\
  recorded_deps top [PT mid [PT leaf []]] (VVec (VName (bs "Leaf::Item") CNone)) = [bs "Leaf"].
Proof. cbv zeta. repeat split; vm_compute; reflexivity. Qed.
