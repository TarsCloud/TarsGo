(* C16: the include graph the parser builds for a file with several modules is acyclic - every edge goes to a node
   created earlier - and that is what the termination of FindTNameType / FindEnumName rests on: on an acyclic graph the
   walk ends for every name, found or not; handing the sub-parser the live first-module node instead of a copy makes a
   cycle, and then the walk for a name that is nowhere never ends. *)
From Coq Require Import List Arith Bool Lia.
From TarsV Require Import Idl.IncGraph.
Import ListNotations.

Lemma in_map_idN : forall ninc n v, In v (map (id_N ninc) (seq 1 n)) -> exists j, 1 <= j <= n /\ v = id_N ninc j.
Proof.
  intros ninc n v H. apply in_map_iff in H. destruct H as [j [E Hj]]. apply in_seq in Hj. exists j. split; [lia | symmetry; exact E].
Qed.

Theorem copy_edges_descend : forall k ninc u v, u <= id_P k ninc -> In v (children false k ninc u) -> v < u.
Proof.
  intros k ninc u v Hu H. unfold children in H.
  destruct (u <? ninc) eqn:E1; [destruct H|]. apply Nat.ltb_ge in E1.
  destruct (u =? id_P k ninc) eqn:E2.
  - apply Nat.eqb_eq in E2. subst u. apply in_app_or in H. destruct H as [H|H].
    + destruct (in_map_idN _ _ _ H) as [j [Hj ->]]. unfold id_N, id_P. lia.
    + apply in_seq in H. unfold id_P. lia.
  - apply Nat.eqb_neq in E2.
    destruct (Nat.even (u - ninc)) eqn:Ev.
    + (* S_j: the further modules recorded before *)
      destruct (in_map_idN _ _ _ H) as [j [Hj ->]]. unfold id_N.
      apply Nat.even_spec in Ev. destruct Ev as [q Hq].
      assert (Hd : (u - ninc) / 2 = q) by (rewrite Hq, Nat.mul_comm; apply Nat.div_mul; lia).
      rewrite Hd in Hj. lia.
    + (* N_j: its snapshot and the included files *)
      assert (Ho : Nat.odd (u - ninc) = true) by (rewrite <- Nat.negb_even, Ev; reflexivity).
      apply Nat.odd_spec in Ho. destruct Ho as [q Hq].
      assert (Hd : (u - ninc) / 2 = q).
      { rewrite Hq. replace (2 * q + 1) with (1 + q * 2) by lia. rewrite Nat.div_add by lia. reflexivity. }
      cbn [In] in H. destruct H as [<-|H].
      * unfold id_S. rewrite Hd. lia.
      * apply in_seq in H. lia.
Qed.

Theorem lookup_terminates : forall (g : nat -> list nat) has,
  (forall u v, In v (g u) -> v < u) -> forall fuel u, u < fuel -> lookup fuel g has u <> None.
Proof.
  intros g has Hg. induction fuel as [|f IH]; intros u Hu; [lia|]. cbn [lookup].
  destruct (has u); [discriminate|].
  assert (G : forall l, (forall v, In v l -> v < u) ->
              (fix go (l : list nat) : option (option nat) :=
                 match l with [] => Some None | v :: r => match lookup f g has v with None => None | Some (Some h) => Some (Some h) | Some None => go r end end) l <> None).
  { induction l as [|v r IHr]; intros Hl; [discriminate|].
    assert (Hv : v < f) by (specialize (Hl v (or_introl eq_refl)); lia).
    specialize (IH v Hv). destruct (lookup f g has v) as [[h|]|]; [discriminate | | congruence].
    apply IHr. intros w Hw. apply Hl. right. exact Hw. }
  apply G. intros v Hv. apply (Hg u v Hv).
Qed.

(* the parser's graph (copy): every lookup from the first module's node ends, whatever is declared where *)
Theorem copy_lookup_terminates : forall k ninc has u, u <= id_P k ninc ->
  lookup (S (id_P k ninc)) (fun w => if w <=? id_P k ninc then children false k ninc w else []) has u <> None.
Proof.
  intros k ninc has u Hu. apply lookup_terminates; [|lia].
  intros w v H. destruct (w <=? id_P k ninc) eqn:E; [|destruct H]. apply Nat.leb_le in E. eapply copy_edges_descend; eauto.
Qed.

(* the first child of P is N_1, whose first child is P *)
Lemma alias_children_P : forall k ninc, 1 <= k ->
  children true k ninc (id_P k ninc) = id_N ninc 1 :: map (id_N ninc) (seq 2 (k - 1)) ++ incs ninc.
Proof.
  intros k ninc Hk. unfold children. replace (id_P k ninc <? ninc) with false by (symmetry; apply Nat.ltb_ge; unfold id_P; lia).
  rewrite Nat.eqb_refl. destruct k as [|k']; [lia|]. cbn [seq map app]. replace (S k' - 1) with k' by lia. reflexivity.
Qed.
Lemma alias_children_N1 : forall k ninc, 1 <= k -> children true k ninc (id_N ninc 1) = id_P k ninc :: incs ninc.
Proof.
  intros k ninc Hk. unfold children, id_N. cbn [Nat.sub]. rewrite Nat.mul_0_r, Nat.add_0_r.
  replace (ninc + 1 <? ninc) with false by (symmetry; apply Nat.ltb_ge; lia).
  replace (ninc + 1 =? id_P k ninc) with false by (symmetry; apply Nat.eqb_neq; unfold id_P; lia).
  replace (ninc + 1 - ninc) with 1 by lia. reflexivity.
Qed.

Theorem alias_cycle : forall k ninc, 1 <= k ->
  In (id_N ninc 1) (children true k ninc (id_P k ninc)) /\ In (id_P k ninc) (children true k ninc (id_N ninc 1)).
Proof. intros k ninc Hk. rewrite alias_children_P, alias_children_N1 by exact Hk. split; left; reflexivity. Qed.

(* a name that is declared nowhere, looked up from the first module's node: no bound on the depth suffices *)
Theorem alias_lookup_diverges : forall k ninc fuel, 1 <= k ->
  lookup fuel (children true k ninc) (fun _ => false) (id_P k ninc) = None.
Proof.
  intros k ninc fuel Hk. induction fuel as [fuel IH] using lt_wf_ind.
  destruct fuel as [|[|f]]; [reflexivity | cbn [lookup]; rewrite alias_children_P by exact Hk; reflexivity |].
  cbn [lookup]. rewrite alias_children_P, alias_children_N1 by exact Hk. rewrite (IH f) by lia. reflexivity.
Qed.

(* the hypotheses are satisfiable: two further modules, one included file; the copy graph, and a lookup that ends *)
Example copy_instance :
  map (children false 2 1) [0; 1; 2; 3; 4; 5] = [[]; []; [1; 0]; [2]; [3; 0]; [2; 4; 0]] /\
  lookup 6 (children false 2 1) (fun u => Nat.eqb u 0) 5 = Some (Some 0) /\
  lookup 6 (children false 2 1) (fun _ => false) 5 = Some None.
Proof. repeat split; vm_compute; reflexivity. Qed.
