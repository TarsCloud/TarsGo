(* C16: every rendering (spelling of the tokens, blanks and comments between them) of every well-formed program
   of the grammar is accepted by the front end with the AST the program denotes. *)
From Coq Require Import String.
From Coq Require Import List NArith ZArith Bool.
From TarsV Require Import Idl.Lexer Idl.Parser Idl.Print Idl.PrintProofs Idl.Render Idl.RenderProofs Idl.AnalyzeProofs.
Import ListNotations.
Open Scope N_scope.

Theorem accepts_rendered : forall name ds lead ps,
  wf_decls (empty_module name) ds = true -> map p_tok ps = print_prog name ds ->
  forallb wf_gap_item lead = true -> wf_pieces ps ->
  parse_bytes (render lead ps) = match analyze (module_of name ds) with Ok m' => OOk m' | _ => OErr end.
Proof.
  intros name ds lead ps Hwf Htok Hl Hps. apply parse_bytes_print; [exact Hwf|].
  rewrite <- Htok. apply render_tokens; assumption.
Qed.

(* ... and is accepted (an AST, not a diagnostic) when its user type names are declared in the module and its named
   defaults name exactly one enum member *)
Theorem valid_accepted : forall name ds lead ps,
  wf_decls (empty_module name) ds = true -> module_names_ok (module_of name ds) = true ->
  map p_tok ps = print_prog name ds -> forallb wf_gap_item lead = true -> wf_pieces ps ->
  exists m', analyze (module_of name ds) = Ok m' /\ parse_bytes (render lead ps) = OOk m'.
Proof.
  intros name ds lead ps Hwf Hn Htok Hl Hps. destruct (analyze_succeeds _ Hn) as [m' E]. exists m'. split; [exact E|].
  rewrite (accepts_rendered name ds lead ps Hwf Htok Hl Hps), E. reflexivity.
Qed.

(* a concrete rendering with comments and with tokens that touch *)
Definition ex_decls : list sdecl :=
  [ DStruct (bs "S") [ {| s_tagtxt := bs "0"; s_tag := 0; s_req := true; s_ty := VBase BInt false; s_key := bs "a"; s_tail := STDef (SDInt (bs "-0x1f") (-31)) |} ] ].
Definition ex_pieces : list piece :=
  [ {| p_tok := TKw KModule; p_txt := bs "module"; p_gap := [GBlank 32; GLong (bs " c * d **"); GBlank 9] |};
    {| p_tok := TName (bs "m"); p_txt := bs "m"; p_gap := [] |};
    {| p_tok := TPunct PBraceL; p_txt := bs "{"; p_gap := [GLine (bs " x // y")] |};
    {| p_tok := TKw KStruct; p_txt := bs "struct"; p_gap := [GBlank 13; GBlank 10] |};
    {| p_tok := TName (bs "S"); p_txt := bs "S"; p_gap := [] |};
    {| p_tok := TPunct PBraceL; p_txt := bs "{"; p_gap := [] |};
    {| p_tok := TInt (bs "0") 0; p_txt := bs "0"; p_gap := [GBlank 32] |};
    {| p_tok := TKw KRequire; p_txt := bs "require"; p_gap := [GLong []] |};
    {| p_tok := TTy BInt; p_txt := bs "int"; p_gap := [GBlank 12] |};
    {| p_tok := TName (bs "a"); p_txt := bs "a"; p_gap := [] |};
    {| p_tok := TPunct PEq; p_txt := bs "="; p_gap := [] |};
    {| p_tok := TInt (bs "-0x1f") (-31); p_txt := bs "-0x1f"; p_gap := [] |};
    {| p_tok := TPunct PSemi; p_txt := bs ";"; p_gap := [] |};
    {| p_tok := TPunct PBraceR; p_txt := bs "}"; p_gap := [] |};
    {| p_tok := TPunct PSemi; p_txt := bs ";"; p_gap := [GBlank 10] |};
    {| p_tok := TPunct PBraceR; p_txt := bs "}"; p_gap := [] |};
    {| p_tok := TPunct PSemi; p_txt := bs ";"; p_gap := [] |} ].

Example accepts_rendered_instance :
  render [GLine (bs "file")] ex_pieces =
    bs "//file" ++ [10] ++ bs "module /* c * d ***/" ++ [9] ++ bs "m{// x // y" ++ [10] ++ bs "struct" ++ [13; 10] ++ bs "S{0 require/**/int" ++ [12] ++ bs "a=-0x1f;};" ++ [10] ++ bs "};" /\
  wf_decls (empty_module (bs "m")) ex_decls = true /\ map p_tok ex_pieces = print_prog (bs "m") ex_decls /\
  forallb wf_gap_item [GLine (bs "file")] = true /\ wf_pieces ex_pieces /\ module_names_ok (module_of (bs "m") ex_decls) = true.
Proof.
  split; [vm_compute; reflexivity|]. split; [vm_compute; reflexivity|]. split; [vm_compute; reflexivity|]. split; [reflexivity|].
  unfold ex_pieces. cbn [wf_pieces p_tok p_txt p_gap].
  split; [|vm_compute; reflexivity].
  repeat (split; [econstructor; reflexivity|]; split; [reflexivity|]; split; [first [left; discriminate | right; left; reflexivity | right; right; reflexivity]|]).
  exact I.
Qed.
