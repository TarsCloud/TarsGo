(* C16: the parser terminates on every token stream, hence on every byte string.
   Invariant of every fuelled function: [length ts < fuel] suffices, and what it returns is no longer than
   what it received (strictly shorter where the Go function always consumes a token on success): every
   loop iteration consumes a token or exits. *)
From Coq Require Import String.
From Coq Require Import List NArith ZArith Bool Lia.
From TarsV Require Import Idl.Lexer Idl.LexerProofs Idl.Parser.
Import ListNotations.
Open Scope N_scope.

(* Three readings of a fuelled result. [wp m Q]: m does not run out of fuel, and Q holds of its value if it has one
   (termination). [yields m v]: m is v unless it runs out of fuel (the value, fuel apart; [yields_ok] joins the two).
   [SchemaProofs.wpp m Q]: Q holds of the value if there is one (safety only). *)
Definition wp {A} (m : res A) (Q : A -> Prop) : Prop :=
  match m with Ok a => Q a | Err => True | Fuel => False end.

Lemma wp_bind {A B} (m : res A) (k : A -> res B) (Q : B -> Prop) :
  wp m (fun a => wp (k a) Q) -> wp (bind m k) Q.
Proof. destruct m; cbn; auto. Qed.
Lemma wp_mono {A} (m : res A) (P Q : A -> Prop) : wp m P -> (forall a, P a -> Q a) -> wp m Q.
Proof. destruct m; cbn; auto. Qed.
Lemma wp_seq {A B} (m : res A) (k : A -> res B) (P : A -> Prop) Q :
  wp m P -> (forall a, P a -> wp (k a) Q) -> wp (bind m k) Q.
Proof. intros H K. apply wp_bind. exact (wp_mono _ _ _ H K). Qed.
Lemma wp_if {A} (b : bool) (x y : res A) Q : wp x Q -> wp y Q -> wp (if b then x else y) Q.
Proof. destruct b; trivial. Qed.
Lemma wp_not_fuel {A} (m : res A) (Q : A -> Prop) : wp m Q -> m <> Fuel.
Proof. destruct m; cbn; intros; [discriminate | discriminate | contradiction]. Qed.

Definition yields {A} (m : res A) (v : A) : Prop := match m with Ok a => a = v | Err => False | Fuel => True end.

Lemma yields_bind {A B} (m : res A) (k : A -> res B) v w : yields m v -> yields (k v) w -> yields (bind m k) w.
Proof. destruct m; cbn; [intros -> | intros [] | ]; trivial. Qed.

Lemma yields_ok {A} (m : res A) Q v : wp m Q -> yields m v -> m = Ok v.
Proof. destruct m; cbn; [intros _ -> | intros _ [] | intros []]; reflexivity. Qed.

Notation len := (@List.length tok).

(* what [nx] takes from the input when it delivers [t]: at the end of the input it delivers Eof for nothing *)
Definition cost (t : tok) : nat := match t with TEof => 0 | _ => 1 end.
Lemma cost_le t : (cost t <= 1)%nat.
Proof. destruct t; cbn; lia. Qed.

Definition below {A} (n : nat) (p : A * list tok) : Prop := (len (snd p) < n)%nat.

Lemma wp_ret {A} (a : A) r n : (len r < n)%nat -> wp (Ok (a, r)) (below n).
Proof. exact (fun H => H). Qed.
Lemma below_mono {A} (m : res (A * list tok)) n n' : wp m (below n) -> (n <= n')%nat -> wp m (below n').
Proof. intros H L. apply (wp_mono _ _ _ H). unfold below. intros p. lia. Qed.
Lemma wp_below {A B} (m : res (A * list tok)) n (k : A * list tok -> res B) Q :
  wp m (below n) -> (forall a r, (len r < n)%nat -> wp (k (a, r)) Q) -> wp (bind m k) Q.
Proof. intros H K. apply (wp_seq _ _ _ _ H). intros [a r]. apply K. Qed.

Lemma wp_nx {B} ts (k : tok * list tok -> res B) Q :
  (forall t r, (cost t + len r <= len ts)%nat -> wp (k (t, r)) Q) -> wp (bind (nx ts) k) Q.
Proof.
  intros H. destruct ts as [|t r]; [apply (H TEof []); cbn; lia|].
  destruct t; try exact I; apply H; cbn; lia.
Qed.
Lemma wp_expect_p {B} c ts (k : list tok -> res B) Q :
  (forall r, (len r < len ts)%nat -> wp (k r) Q) -> wp (bind (expect_p c ts) k) Q.
Proof.
  intros H. apply wp_bind. apply wp_nx. intros t r Hr. destruct t; try exact I.
  cbn [is_p]. destruct (pk_eqb p c); [|exact I]. apply H. cbn [cost] in Hr. lia.
Qed.
Lemma wp_expect_name {B} ts (k : bytes * list tok -> res B) Q :
  (forall s r, (len r < len ts)%nat -> wp (k (s, r)) Q) -> wp (bind (expect_name ts) k) Q.
Proof.
  intros H. apply wp_bind. apply wp_nx. intros t r Hr. destruct t; try exact I. apply H. cbn [cost] in Hr. lia.
Qed.
Lemma wp_expect_int {B} ts (k : Z * list tok -> res B) Q :
  (forall v r, (len r < len ts)%nat -> wp (k (v, r)) Q) -> wp (bind (expect_int ts) k) Q.
Proof.
  intros H. apply wp_bind. apply wp_nx. intros t r Hr. destruct t; try exact I. apply H. cbn [cost] in Hr. lia.
Qed.

Lemma parse_type_wp : forall fuel tk ts, (cost tk + len ts < fuel)%nat ->
  wp (parse_type fuel tk ts) (below (S (len ts))).
Proof.
  induction fuel as [|f IH]; intros tk ts H; [lia|]. cbn [parse_type].
  destruct tk as [ | | |[]|[]| | | | | ]; try exact I; try (apply wp_ret; lia); cbn [cost] in H.
  - apply wp_nx; intros t r Hr. eapply wp_below; [apply IH; lia|]; intros u r2 H2.
    destruct u as [[]| | | |]; try exact I; apply wp_ret; lia.
  - apply wp_expect_p; intros r1 H1. apply wp_nx; intros t r2 H2.
    eapply wp_below; [apply IH; lia|]; intros k r3 H3. apply wp_expect_p; intros r4 H4. apply wp_ret; lia.
  - apply wp_expect_p; intros r1 H1. apply wp_nx; intros t r2 H2.
    eapply wp_below; [apply IH; lia|]; intros k r3 H3. apply wp_expect_p; intros r4 H4. apply wp_nx; intros t' r5 H5.
    eapply wp_below; [apply IH; lia|]; intros v r6 H6. apply wp_expect_p; intros r7 H7. apply wp_ret; lia.
Qed.

Lemma enum_loop_wp : forall fuel ts acc, (len ts < fuel)%nat -> wp (enum_loop true fuel ts acc) (below (len ts)).
Proof.
  induction fuel as [|f IH]; intros ts acc H; [lia|]. cbn [enum_loop].
  assert (L : forall r acc', (len r < len ts)%nat -> wp (enum_loop true f r acc') (below (len ts)))
    by (intros; eapply below_mono; [apply IH|]; lia).
  apply wp_nx; intros t r Hr.
  destruct t as [|[]| | | | | | | |]; cbn [cost] in Hr; try exact I; try (apply L; lia); [apply wp_ret; lia|].
  apply wp_nx; intros t2 r2 H2.
  destruct t2 as [|[]| | | | | | | |]; cbn [cost] in H2; try exact I; try (apply L; lia); try (apply wp_ret; lia).
  apply wp_nx; intros t3 r3 H3.
  destruct t3; try exact I; cbn [bind]; apply wp_nx; intros t4 r4 H4;
    (destruct t4 as [|[]| | | | | | | |]; try exact I; [apply wp_ret | apply L]; cbn [cost] in *; lia).
Qed.

Lemma parse_enum_wp : forall fuel m ts, (len ts < fuel)%nat -> wp (parse_enum true fuel m ts) (below (len ts)).
Proof.
  intros fuel m ts H. unfold parse_enum. apply wp_expect_name; intros n r1 H1.
  apply wp_if; [exact I|]. apply wp_expect_p; intros r2 H2.
  eapply wp_below; [apply enum_loop_wp; lia|]; intros mbs r3 H3. apply wp_expect_p; intros r4 H4. apply wp_ret; lia.
Qed.

Lemma member_default_wp ty t : wp (member_default ty t) (fun _ => True).
Proof. destruct t as [| | |[]| | | | | |]; try exact I; apply wp_if; exact I. Qed.

Lemma parse_member_wp : forall fuel ts, (len ts < fuel)%nat -> wp (parse_member fuel ts) (below (len ts)).
Proof.
  intros fuel ts H. unfold parse_member. apply wp_nx; intros t r Hr.
  destruct t as [|[]| | | | | | | |]; try exact I; cbn [cost] in Hr; [apply wp_ret; lia|].
  apply wp_nx; intros t2 r2 H2.
  apply wp_seq with (P := fun _ => True); [destruct t2 as [| | |[]| | | | | |]; exact I|]; intros req _.
  apply wp_nx; intros t3 r3 H3. apply wp_if; [exact I|].
  eapply wp_below; [apply parse_type_wp; lia|]; intros ty r4 H4. apply wp_expect_name; intros key r5 H5.
  apply wp_nx; intros t6 r6 H6. destruct t6 as [|[]| | | | | | | |]; try exact I; cbn [cost] in H6.
  - apply wp_ret; lia.
  - apply wp_nx; intros t7 r7 H7. apply (wp_seq _ _ _ _ (member_default_wp ty t7)); intros [d dt] _.
    apply wp_expect_p; intros r8 H8. apply wp_ret; lia.
  - apply wp_expect_int; intros l r7 H7. apply wp_expect_p; intros r8 H8. apply wp_expect_p; intros r9 H9. apply wp_ret; lia.
Qed.

Lemma member_loop_wp : forall fuel ts acc, (len ts < fuel)%nat -> wp (member_loop fuel ts acc) (below (len ts)).
Proof.
  induction fuel as [|f IH]; intros ts acc H; [lia|]. cbn [member_loop].
  eapply wp_below; [apply parse_member_wp, H|]; intros [m|] r Hr; [|apply wp_ret; lia].
  eapply below_mono; [apply IH|]; lia.
Qed.

Lemma parse_struct_wp : forall fuel m ts, (len ts < fuel)%nat -> wp (parse_struct fuel m ts) (below (len ts)).
Proof.
  intros fuel m ts H. unfold parse_struct. apply wp_expect_name; intros n r1 H1.
  apply wp_if; [exact I|]. apply wp_expect_p; intros r2 H2.
  eapply wp_below; [apply member_loop_wp; lia|]; intros mbs r3 H3. apply wp_expect_p; intros r4 H4.
  apply wp_if; [exact I|]. apply wp_ret; lia.
Qed.

Lemma arg_loop_wp : forall fuel tk ts acc, (S (S (len ts)) < fuel)%nat ->
  wp (arg_loop fuel tk ts acc) (below (S (len ts))).
Proof.
  induction fuel as [|f IH]; intros tk ts acc H; [lia|]. cbn [arg_loop].
  apply wp_seq with (P := fun p => (len (snd p) <= len ts)%nat).
  { destruct tk as [| | |[]| | | | | |]; try (cbn; lia). apply wp_nx; intros t r Hr. cbn; lia. }
  intros [[isout tk1] ts1] H1; cbn [snd] in H1. pose proof (cost_le tk1).
  eapply wp_below; [apply parse_type_wp; lia|]; intros ty r2 H2. apply wp_nx; intros t3 r3 H3.
  apply wp_seq with (P := fun p => (cost (snd (fst p)) + len (snd p) <= cost t3 + len r3)%nat).
  { destruct t3; try (cbn; lia). apply wp_nx; intros t r Hr. cbn; lia. }
  intros [[name t4] r4] H4; cbn [fst snd] in H4.
  destruct t4 as [|[]| | | | | | | |]; try exact I; cbn [cost] in H4.
  - apply wp_nx; intros t5 r5 H5. eapply below_mono; [apply IH|]; lia.
  - apply wp_expect_p; intros r5 H5. apply wp_ret; lia.
Qed.

Lemma wp_braceR {A} t (x y : res A) Q :
  (is_p PBraceR t = true -> wp x Q) -> wp y Q -> wp (match t with TPunct PBraceR => x | _ => y end) Q.
Proof. destruct t as [|[]| | | | | | | |]; auto. Qed.

Lemma parse_fun_wp : forall fuel ts, (len ts < fuel)%nat -> wp (parse_fun fuel ts) (below (len ts)).
Proof.
  intros fuel ts H. unfold parse_fun. apply wp_nx; intros t r Hr.
  apply wp_braceR; [intros E; apply wp_ret; destruct t; try discriminate E; cbn [cost] in Hr; lia|].
  (* the result type is a token of its own: [void], or the first token of a type *)
  apply wp_below with (n := (cost t + len r)%nat).
  { destruct t as [| | |[]| | | | | |]; cbn [starts_type negb cost] in *; try exact I; try (apply wp_ret; lia);
      (eapply wp_below; [apply parse_type_wp; cbn [cost]; lia|]; intros ty r0 H0; apply wp_ret; lia). }
  intros ret r2 H2. apply wp_expect_name; intros n r3 H3. apply wp_expect_p; intros r4 H4. apply wp_nx; intros t5 r5 H5.
  destruct t5 as [|[]| | | | | | | |];
    try (eapply wp_below; [apply arg_loop_wp; lia|]; intros args r6 H6; apply wp_ret; lia).
  - apply wp_ret; lia.
  - apply wp_expect_p; intros r6 H6. apply wp_ret; lia.
Qed.

Lemma fun_loop_wp : forall fuel ts acc, (len ts < fuel)%nat -> wp (fun_loop fuel ts acc) (below (len ts)).
Proof.
  induction fuel as [|f IH]; intros ts acc H; [lia|]. cbn [fun_loop].
  eapply wp_below; [apply parse_fun_wp, H|]; intros [fn|] r Hr; [|apply wp_ret; lia].
  eapply below_mono; [apply IH|]; lia.
Qed.

Lemma parse_iface_wp : forall fuel m ts, (len ts < fuel)%nat -> wp (parse_iface fuel m ts) (below (len ts)).
Proof.
  intros fuel m ts H. unfold parse_iface. apply wp_expect_name; intros n r1 H1.
  apply wp_if; [exact I|]. apply wp_expect_p; intros r2 H2.
  eapply wp_below; [apply fun_loop_wp; lia|]; intros fs r3 H3. apply wp_expect_p; intros r4 H4. apply wp_ret; lia.
Qed.

Lemma parse_const_wp : forall fuel m ts, (len ts < fuel)%nat -> wp (parse_const fuel m ts) (below (len ts)).
Proof.
  intros fuel m ts H. unfold parse_const. apply wp_nx; intros t r Hr. pose proof (cost_le t).
  apply wp_if; [exact I|]. eapply wp_below; [apply parse_type_wp; lia|]; intros ty r2 H2.
  apply wp_expect_name; intros n r3 H3. apply wp_expect_p; intros r4 H4. apply wp_nx; intros t5 r5 H5.
  apply wp_seq with (P := fun _ => True);
    [destruct t5 as [| | |[]| | | | | |]; try exact I; apply wp_if; exact I|]; intros v _.
  apply wp_expect_p; intros r6 H6. apply wp_ret; lia.
Qed.

Lemma hashkey_loop_wp : forall fuel ts acc, (len ts < fuel)%nat -> wp (hashkey_loop fuel ts acc) (below (len ts)).
Proof.
  induction fuel as [|f IH]; intros ts acc H; [lia|]. cbn [hashkey_loop].
  apply wp_expect_name; intros n r1 H1. apply wp_nx; intros t r2 H2.
  destruct t as [|[]| | | | | | | |]; try exact I.
  - eapply below_mono; [apply IH|]; lia.
  - apply wp_expect_p; intros r3 H3. apply wp_ret; lia.
Qed.

Lemma parse_hashkey_wp : forall fuel m ts, (len ts < fuel)%nat -> wp (parse_hashkey fuel m ts) (below (len ts)).
Proof.
  intros fuel m ts H. unfold parse_hashkey. apply wp_expect_p; intros r1 H1. apply wp_expect_name; intros n r2 H2.
  apply wp_expect_p; intros r3 H3. eapply wp_below; [apply hashkey_loop_wp; lia|]; intros mbs r4 H4. apply wp_ret; lia.
Qed.

Lemma segment_loop_wp : forall fuel m ts, (len ts < fuel)%nat -> wp (segment_loop true fuel m ts) (below (len ts)).
Proof.
  induction fuel as [|f IH]; intros m ts H; [lia|]. cbn [segment_loop]. apply wp_nx; intros t r Hr.
  assert (K : forall p, cost t = 1%nat -> wp p (below (len r)) ->
                        wp ('(m', ts2) <- p ;; segment_loop true f m' ts2) (below (len ts))).
  { intros p Ht Hp. apply (wp_below _ _ _ _ Hp). intros m' r2 H2. eapply below_mono; [apply IH|]; lia. }
  destruct t as [|[]| |[]| | | | | |]; try exact I; try (apply K; [reflexivity|]); cbn [cost] in Hr.
  - apply wp_expect_p; intros r2 H2. apply wp_ret; lia.
  - apply parse_enum_wp; lia.
  - apply parse_struct_wp; lia.
  - apply parse_iface_wp; lia.
  - apply parse_const_wp; lia.
  - apply parse_hashkey_wp; lia.
Qed.

Lemma parse_module_wp : forall fuel fl ts, (len ts < fuel)%nat -> wp (parse_module true fuel fl ts) (below (len ts)).
Proof.
  intros fuel fl ts H. unfold parse_module, parse_segment. apply wp_expect_name; intros n r1 H1.
  apply wp_below with (n := len r1).
  - apply wp_expect_p; intros r2 H2. eapply below_mono; [apply segment_loop_wp|]; lia.
  - intros m r3 H3. destruct (fl_primary fl); apply wp_ret; lia.
Qed.

Lemma file_loop_wp : forall fuel fl ts, (len ts < fuel)%nat -> wp (file_loop true fuel fl ts) (fun _ => True).
Proof.
  induction fuel as [|f IH]; intros fl ts H; [lia|]. cbn [file_loop]. apply wp_nx; intros t r Hr.
  destruct t as [| | |[]| | | | | |]; try exact I; cbn [cost] in Hr.
  - apply wp_nx; intros t2 r2 H2. destruct t2; try exact I. apply IH. lia.
  - eapply wp_below; [apply parse_module_wp; lia|]; intros fl' r2 H2. apply IH. lia.
Qed.

Theorem parse_tokens_terminates : forall ts, parse_tokens_gen true (parse_fuel ts) ts <> OFuel.
Proof.
  intros ts. unfold parse_tokens_gen, parse_fuel.
  pose proof (file_loop_wp (S (S (len ts))) empty_file ts ltac:(lia)) as W.
  destruct (file_loop true (S (S (len ts))) empty_file ts) as [fl| |]; cbn [wp] in W; [|discriminate|contradiction].
  destruct (fl_includes fl); [|discriminate].
  destruct (fl_more fl); [|discriminate].
  destruct (fl_primary fl); [|discriminate].
  destruct (analyze m); discriminate.
Qed.

Theorem parse_bytes_terminates : forall input, parse_bytes input <> OFuel.
Proof.
  intros input. unfold parse_bytes, parse_bytes_gen.
  destruct (tokens_of_ok input) as [l [E _]]. rewrite E. apply parse_tokens_terminates.
Qed.

Theorem fuel_linear : forall input l, tokens_of input = Ok l ->
  (lex_fuel input = length input + 2 /\ parse_fuel l <= length input + 3)%nat.
Proof.
  intros input l E. destruct (tokens_of_ok input) as [l' [E' L]]. rewrite E in E'. inversion E'; subst.
  unfold lex_fuel, parse_fuel. lia.
Qed.

Lemma parse_bytes_ok_inv : forall input m, parse_bytes input = OOk m ->
  exists ts fl, tokens_of input = Ok ts /\ file_loop true (parse_fuel ts) empty_file ts = Ok fl /\
    fl_includes fl = [] /\ fl_more fl = [] /\
    match fl_primary fl with Some m0 => analyze m0 = Ok m | None => m = empty_module [] end.
Proof.
  intros input m H. unfold parse_bytes, parse_bytes_gen in H. destruct (tokens_of input) as [ts| |]; try discriminate.
  unfold parse_tokens_gen in H. destruct (file_loop true (parse_fuel ts) empty_file ts) as [fl| |] eqn:F; try discriminate.
  exists ts, fl. destruct (fl_includes fl); try discriminate. destruct (fl_more fl); try discriminate.
  repeat split; trivial. revert H. destruct (fl_primary fl) as [m0|]; [destruct (analyze m0); try discriminate|]; intros [= <-]; reflexivity.
Qed.

(* the pinned snapshot's parseEnum (no case for Eof) spins on an enum left open at the end of the file:
   no amount of fuel suffices.  This is the defect repaired by e39406b; replayed on the code by the check. *)
Definition enum_open_at_eof : list tok := [TKw KModule; TName (bs "m"); TPunct PBraceL; TKw KEnum; TName (bs "E"); TPunct PBraceL].

Lemma enum_loop_unrepaired_spins : forall fuel acc, enum_loop false fuel [] acc = Fuel.
Proof. induction fuel as [|f IH]; intros acc; cbn [enum_loop nx bind]; [reflexivity | apply IH]. Qed.

Theorem unrepaired_hangs : forall fuel, parse_tokens_gen false fuel enum_open_at_eof = OFuel.
Proof.
  intros fuel. unfold parse_tokens_gen, enum_open_at_eof.
  destruct fuel as [|f]; [reflexivity|]. cbn [file_loop nx bind].
  unfold parse_module. cbn [expect_name nx bind]. unfold parse_segment. cbn [expect_p nx bind is_p pk_eqb].
  destruct f as [|f]; [reflexivity|]. cbn [segment_loop nx bind].
  unfold parse_enum. cbn [expect_name nx bind empty_module m_enums existsb expect_p is_p pk_eqb].
  rewrite enum_loop_unrepaired_spins. reflexivity.
Qed.

Example unrepaired_input : tokens_of (bs "module m { enum E {") = Ok enum_open_at_eof.
Proof. vm_compute. reflexivity. Qed.
Example repaired_diagnoses : parse_bytes (bs "module m { enum E {") = OErr.
Proof. vm_compute. reflexivity. Qed.
