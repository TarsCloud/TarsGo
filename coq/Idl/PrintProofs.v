(* C16: the parser accepts every program of the grammar of Idl/Print.v and returns the AST it denotes.
   Each parser function is shown to return the denoted value on the printed tokens unless it runs out of fuel
   ([yields]); that it does not run out is the termination theorem of Idl/ParserProofs.v, used once, for the
   whole file: nothing here counts tokens. *)
From Coq Require Import String.
From Coq Require Import List NArith ZArith Bool Lia.
From TarsV Require Import Idl.Lexer Idl.Parser Idl.ParserProofs Idl.Print.
Import ListNotations.
Open Scope N_scope.

(* parse_type is entered on its first token (Go's p.tk), with the rest still in the stream: a printed type, split that way *)
Definition ty_head (t : vty) : tok := hd TEof (print_ty t).
Definition ty_tail (t : vty) : list tok := tl (print_ty t).

Lemma print_ty_split t : print_ty t = ty_head t :: ty_tail t.
Proof. unfold ty_head, ty_tail. induction t as [b [] | | | |]; cbn [print_ty]; trivial. Qed.

Lemma ty_head_cases t : wf_ty t = true ->
  ty_head t = TKw KUnsigned \/ (exists b, ty_head t = TTy b) \/ exists s, ty_head t = TName s.
Proof. unfold ty_head. destruct t as [b [] | s c | | |]; cbn [print_ty hd]; eauto; discriminate. Qed.

Lemma ty_head_starts t : wf_ty t = true -> starts_type (ty_head t) = true.
Proof. intros H. destruct (ty_head_cases t H) as [E | [[b E] | [s E]]]; rewrite E; reflexivity. Qed.

Lemma nx_ty t rest : wf_ty t = true -> nx (print_ty t ++ rest) = Ok (ty_head t, ty_tail t ++ rest).
Proof. intros H. rewrite print_ty_split. destruct (ty_head_cases t H) as [E | [[b E] | [s E]]]; rewrite E; reflexivity. Qed.

Lemma parse_type_print t : forall fuel rest, wf_ty t = true ->
  yields (parse_type fuel (ty_head t) (ty_tail t ++ rest)) (t, rest).
Proof.
  induction t as [b u | s c | k IHk | k IHk w IHw | k IHk l]; intros [|f] rest Hwf; try exact I;
    cbn [wf_ty] in Hwf; cbn [ty_head ty_tail print_ty hd tl].
  - destruct u.
    + (* [unsigned t]: the keyword, then one more call for t *)
      destruct b; try discriminate Hwf; destruct f; exact I || exact eq_refl.
    + destruct b; try discriminate Hwf; exact eq_refl.
  - destruct c; try discriminate Hwf. exact eq_refl.
  - cbn [app parse_type expect_p nx bind is_p pk_eqb]. rewrite <- app_assoc, nx_ty by assumption. cbn [bind].
    eapply yields_bind; [apply IHk, Hwf|]. exact eq_refl.
  - apply andb_true_iff in Hwf as [Hk Hw].
    cbn [app parse_type expect_p nx bind is_p pk_eqb]. rewrite <- app_assoc, nx_ty by assumption. cbn [bind].
    eapply yields_bind; [apply IHk, Hk|]. cbn [app expect_p nx bind is_p pk_eqb]. rewrite <- app_assoc, nx_ty by assumption. cbn [bind].
    eapply yields_bind; [apply IHw, Hw|]. exact eq_refl.
  - discriminate Hwf.
Qed.

Lemma member_default_print ty d : wf_def ty d = true -> member_default ty (print_def d) = Ok (def_text d).
Proof.
  intros H. destruct d; cbn [print_def member_default def_text wf_def] in *; rewrite <- ?negb_orb, ?H; trivial.
  apply negb_true_iff in H. rewrite H. reflexivity.
Qed.

Lemma nx_ok t r : t <> TLexErr -> nx (t :: r) = Ok (t, r).
Proof. destruct t; trivial. congruence. Qed.

Lemma parse_member_print m fuel rest : wf_mem m = true ->
  yields (parse_member fuel (print_mem m ++ rest)) (Some (member_of m), rest).
Proof.
  destruct m as [tt tg req ty key tail]. unfold wf_mem, print_mem, member_of. cbn [s_tagtxt s_tag s_req s_ty s_key s_tail].
  intros Hwf. apply andb_true_iff in Hwf as [Hty Htail].
  destruct req; cbn [app parse_member nx bind]; rewrite <- app_assoc, nx_ty by assumption; cbn [bind];
    rewrite (ty_head_starts _ Hty); cbn [negb]; (eapply yields_bind; [apply parse_type_print, Hty|]);
    cbn [app expect_name nx bind]; destruct tail as [|s l|d]; cbn [print_tail app]; try exact eq_refl;
    rewrite nx_ok by discriminate; cbn [bind]; rewrite nx_ok by (destruct d; discriminate); cbn [bind];
    rewrite (member_default_print _ _ Htail); destruct (def_text d); exact eq_refl.
Qed.

Lemma member_loop_print ms : forall fuel rest acc, forallb wf_mem ms = true ->
  yields (member_loop fuel (concat (map print_mem ms) ++ TPunct PBraceR :: rest) acc) (rev acc ++ map member_of ms, rest).
Proof.
  induction ms as [|m r IH]; intros [|f] rest acc Hwf; try exact I; cbn [map concat app member_loop].
  - cbn [parse_member nx bind]. rewrite app_nil_r. exact eq_refl.
  - cbn [forallb] in Hwf. apply andb_true_iff in Hwf as [Hm Hr]. rewrite <- app_assoc.
    eapply yields_bind; [apply parse_member_print, Hm|].
    specialize (IH f rest (member_of m :: acc) Hr). cbn [rev] in IH. rewrite <- app_assoc in IH. exact IH.
Qed.

Lemma enum_loop_more x f rest acc :
  enum_loop true (S f) (print_emb x ++ TPunct PComma :: rest) acc = enum_loop true f rest (emb_of x :: acc).
Proof. destruct x; reflexivity. Qed.
Lemma enum_loop_last x f rest acc :
  enum_loop true (S f) (print_emb x ++ TPunct PBraceR :: rest) acc = Ok (rev (emb_of x :: acc), rest).
Proof. destruct x; reflexivity. Qed.

Lemma enum_loop_print l : forall fuel rest acc,
  yields (enum_loop true fuel (print_embs l ++ TPunct PBraceR :: rest) acc) (rev acc ++ map emb_of l, rest).
Proof.
  induction l as [|x [|y r] IH]; intros [|f] rest acc; try exact I.
  - cbn [print_embs app enum_loop nx bind]. rewrite app_nil_r. exact eq_refl.
  - cbn [print_embs]. rewrite enum_loop_last. exact eq_refl.
  - change (print_embs (x :: y :: r)) with (print_emb x ++ TPunct PComma :: print_embs (y :: r)).
    rewrite <- app_assoc. cbn [app]. rewrite enum_loop_more.
    specialize (IH f rest (emb_of x :: acc)). cbn [rev] in IH. rewrite <- app_assoc in IH. exact IH.
Qed.

Lemma hashkey_loop_print more : forall first fuel rest acc,
  yields (hashkey_loop fuel (print_names first more ++ TPunct PSqR :: TPunct PSemi :: rest) acc) (rev acc ++ first :: more, rest).
Proof.
  induction more as [|n r IH]; intros first [|f] rest acc; try exact I;
    cbn [print_names app hashkey_loop expect_name nx bind]; [exact eq_refl|].
  specialize (IH n f rest (first :: acc)). cbn [rev] in IH. rewrite <- app_assoc in IH. exact IH.
Qed.

Lemma not_out tk : starts_type tk = true -> forall A (x y : A), match tk with TKw KOut => x | _ => y end = y.
Proof. destruct tk as [| | |[]| | | | | |]; trivial; discriminate. Qed.

Lemma not_closer tk : tk = TKw KOut \/ starts_type tk = true ->
  forall A (x y z : A), match tk with TPunct PShr => x | TPunct PPtr => y | _ => z end = z.
Proof. intros [-> | H]; [trivial|]. destruct tk; trivial; discriminate. Qed.

Lemma arg_step a fuel d rest acc v : wf_ty (a_ty a) = true ->
  yields (match d with
          | PComma => '(t5, ts5) <- nx rest ;; arg_loop (pred fuel) t5 ts5 (a :: acc)
          | PPtr => ts5 <- expect_p PSemi rest ;; Ok (rev (a :: acc), ts5)
          | _ => Err
          end) v ->
  yields ('(tk, ts) <- nx (print_arg a ++ TPunct d :: rest) ;; arg_loop fuel tk ts acc) v.
Proof.
  destruct a as [n o ty]. unfold print_arg. cbn [a_name a_out a_ty]. intros Hwf H.
  destruct o; cbn [app nx bind];
    [ destruct fuel as [|f]; [exact I|]; cbn [arg_loop nx bind]; rewrite <- app_assoc, nx_ty by assumption
    | rewrite <- app_assoc, nx_ty by assumption; cbn [bind]; destruct fuel as [|f]; [exact I|];
      cbn [arg_loop]; rewrite (not_out _ (ty_head_starts _ Hwf)) ];
    cbn [bind]; (eapply yields_bind; [apply parse_type_print, Hwf|]); cbn [app nx bind]; destruct d; exact H.
Qed.

Lemma arg_loop_print l : forall fuel rest acc, l <> [] -> forallb (fun a => wf_ty (a_ty a)) l = true ->
  yields ('(tk, ts) <- nx (print_args l ++ TPunct PPtr :: TPunct PSemi :: rest) ;; arg_loop fuel tk ts acc) (rev acc ++ l, rest).
Proof.
  induction l as [|a [|b r] IH]; intros fuel rest acc Hne Hwf; [congruence| |];
    cbn [forallb] in Hwf; apply andb_true_iff in Hwf as [Ha Hr].
  - apply arg_step; [exact Ha | exact eq_refl].
  - change (print_args (a :: b :: r)) with (print_arg a ++ TPunct PComma :: print_args (b :: r)).
    rewrite <- app_assoc. cbn [app]. apply arg_step; [exact Ha|].
    specialize (IH (pred fuel) rest (a :: acc) ltac:(discriminate) Hr). cbn [rev] in IH. rewrite <- app_assoc in IH. exact IH.
Qed.

(* a non-empty parameter list as parse_fun meets it: its first token is neither '>' nor ')' *)
Lemma args_print l fuel rest : l <> [] -> forallb (fun a => wf_ty (a_ty a)) l = true ->
  exists tk ts, nx (print_args l ++ TPunct PPtr :: TPunct PSemi :: rest) = Ok (tk, ts) /\
                (tk = TKw KOut \/ starts_type tk = true) /\ yields (arg_loop fuel tk ts []) (l, rest).
Proof.
  intros Hne Hwf. pose proof (arg_loop_print l fuel rest [] Hne Hwf) as P.
  destruct l as [|a r]; [congruence|]. cbn [forallb] in Hwf. apply andb_true_iff in Hwf as [Ha _].
  assert (exists tk ts, nx (print_args (a :: r) ++ TPunct PPtr :: TPunct PSemi :: rest) = Ok (tk, ts) /\
                        (tk = TKw KOut \/ starts_type tk = true)) as (tk & ts & E & Hk).
  { destruct (a_out a) eqn:Eo.
    - (* an [out] parameter: the keyword comes first *)
      exists (TKw KOut). destruct r; cbn [print_args]; unfold print_arg; rewrite Eo; cbn [app nx];
        eexists; (split; [reflexivity | left; reflexivity]).
    - (* otherwise the first token of its type *)
      exists (ty_head (a_ty a)). destruct r; cbn [print_args]; unfold print_arg; rewrite Eo; cbn [app];
        rewrite <- ?app_assoc, nx_ty by assumption; eexists; (split; [reflexivity | right; apply ty_head_starts, Ha]). }
  rewrite E in P. eauto.
Qed.

Lemma parse_fun_print f fuel rest : wf_fun f = true -> yields (parse_fun fuel (print_fun f ++ rest)) (Some f, rest).
Proof.
  destruct f as [name ret args]. unfold wf_fun, print_fun. cbn [f_name f_ret f_args]. intros Hwf.
  apply andb_true_iff in Hwf as [Hret Hargs]. repeat (rewrite <- app_assoc; cbn [app]).
  assert (A : args = [] \/ args <> []) by (destruct args; [left | right]; congruence).
  (* the result type: [void], or a type, whose first token decides the dispatch and which parse_type then reads *)
  destruct ret as [t|].
  1: pose proof (parse_type_print t fuel (TName name :: TPunct PPtl :: print_args args ++ TPunct PPtr :: TPunct PSemi :: rest) Hret) as P;
     rewrite print_ty_split; destruct (ty_head_cases t Hret) as [E | [[b E] | [s E]]]; rewrite E in *;
     cbn [app parse_fun nx bind starts_type negb]; (eapply yields_bind; [eapply yields_bind; [exact P | exact eq_refl] |]).
  (* in each case what follows is the name, '(' and the parameters *)
  all: cbn [app parse_fun expect_name expect_p nx bind is_p pk_eqb]; destruct A as [-> | Hne]; [exact eq_refl|].
  (* a non-empty list does not start with a closing token, so it goes to arg_loop *)
  all: destruct (args_print args fuel rest Hne Hargs) as (tk & ts & E' & Hk & L); rewrite E'; cbn [bind]; rewrite (not_closer tk Hk).
  all: eapply yields_bind; [exact L | exact eq_refl].
Qed.

Lemma fun_loop_print fs : forall fuel rest acc, forallb wf_fun fs = true ->
  yields (fun_loop fuel (concat (map print_fun fs) ++ TPunct PBraceR :: rest) acc) (rev acc ++ fs, rest).
Proof.
  induction fs as [|f r IH]; intros [|n] rest acc Hwf; try exact I; cbn [map concat app fun_loop].
  - cbn [parse_fun nx bind]. rewrite app_nil_r. exact eq_refl.
  - cbn [forallb] in Hwf. apply andb_true_iff in Hwf as [Hf Hr]. rewrite <- app_assoc.
    eapply yields_bind; [apply parse_fun_print, Hf|].
    specialize (IH n rest (f :: acc) Hr). cbn [rev] in IH. rewrite <- app_assoc in IH. exact IH.
Qed.

(* one declaration: the keyword dispatches to the declaration's parser, which returns the module with it added *)
Lemma segment_step d m f rest v : wf_decl m d = true -> yields (segment_loop true f (add_decl m d) rest) v ->
  yields (segment_loop true (S f) m (print_decl d ++ rest)) v.
Proof.
  intros Hd H.
  destruct d as [name l | ty name v' | name ms | name fs | name first more]; cbn [wf_decl] in Hd;
    cbn [print_decl app segment_loop nx bind]; refine (yields_bind _ _ (_, rest) _ _ H); repeat (rewrite <- app_assoc; cbn [app]).
  - apply negb_true_iff in Hd. cbn [parse_enum expect_name expect_p nx bind is_p pk_eqb]. rewrite Hd.
    eapply yields_bind; [apply enum_loop_print|]. exact eq_refl.
  - destruct ty as [b u| | | |]; try discriminate Hd. apply andb_true_iff in Hd as [Hty Hv].
    pose proof (parse_type_print (VBase b u) (S f) (TName name :: TPunct PEq :: print_def v' :: TPunct PSemi :: rest) Hty) as P.
    assert (Hc : const_type_start (ty_head (VBase b u)) = true) by (destruct u, b; try discriminate Hty; reflexivity).
    unfold parse_const. rewrite nx_ty by assumption. cbn [bind]. rewrite Hc. cbn [negb].
    eapply yields_bind; [exact P|].
    destruct v'; cbn [print_def def_text fst expect_name expect_p nx bind is_p pk_eqb] in *; try discriminate Hv;
      rewrite ?Hv; try exact eq_refl.
    apply negb_true_iff in Hv. rewrite Hv. exact eq_refl.
  - apply andb_true_iff in Hd as [Hd Ht]. apply andb_true_iff in Hd as [Hn Hm]. apply negb_true_iff in Hn.
    cbn [parse_struct expect_name expect_p nx bind is_p pk_eqb]. rewrite Hn.
    eapply yields_bind; [apply member_loop_print, Hm|]. cbn [bind expect_p nx is_p pk_eqb rev app]. rewrite Ht. exact eq_refl.
  - apply andb_true_iff in Hd as [Hn Hm]. apply negb_true_iff in Hn.
    cbn [parse_iface expect_name expect_p nx bind is_p pk_eqb]. rewrite Hn.
    eapply yields_bind; [apply fun_loop_print, Hm|]. exact eq_refl.
  - cbn [parse_hashkey expect_name expect_p nx bind is_p pk_eqb].
    eapply yields_bind; [apply hashkey_loop_print|]. exact eq_refl.
Qed.

Lemma segment_loop_print ds : forall m fuel rest, wf_decls m ds = true ->
  yields (segment_loop true fuel m (concat (map print_decl ds) ++ TPunct PBraceR :: TPunct PSemi :: rest)) (fold_left add_decl ds m, rest).
Proof.
  induction ds as [|d r IH]; intros m [|f] rest Hwf; try exact I; cbn [map concat app fold_left]; [exact eq_refl|].
  cbn [wf_decls] in Hwf. apply andb_true_iff in Hwf as [Hd Hr]. rewrite <- app_assoc. exact (segment_step _ _ _ _ _ Hd (IH _ _ _ Hr)).
Qed.

Theorem parse_print : forall name ds, wf_decls (empty_module name) ds = true ->
  parse_tokens (print_prog name ds) = match analyze (module_of name ds) with Ok m' => OOk m' | _ => OErr end.
Proof.
  intros name ds Hwf. unfold parse_tokens, parse_tokens_gen.
  enough (E : file_loop true (parse_fuel (print_prog name ds)) empty_file (print_prog name ds)
              = Ok {| fl_includes := []; fl_primary := Some (module_of name ds); fl_more := [] |}) by (rewrite E; reflexivity).
  eapply yields_ok; [apply file_loop_wp; unfold parse_fuel; lia|].
  unfold parse_fuel, print_prog. cbn [file_loop parse_module parse_segment expect_name expect_p nx bind is_p pk_eqb].
  change [TPunct PBraceR; TPunct PSemi] with (TPunct PBraceR :: TPunct PSemi :: []).
  eapply yields_bind; [eapply yields_bind; [apply segment_loop_print, Hwf | exact eq_refl]|].
  cbn [length]. exact eq_refl.
Qed.

(* a concrete program of the grammar: every declaration form, members out of tag order, an array, defaults,
   an enum default resolved by the analysis *)
Definition example_prog : list sdecl :=
  [ DEnum (bs "E") [SEAuto (bs "A"); SEVal (bs "B") (bs "5") 5; SERef (bs "C") (bs "B"); SEAuto (bs "D")];
    DConst (VBase BInt true) (bs "c") (SDInt (bs "0x10") 16);
    DStruct (bs "In") [ {| s_tagtxt := bs "0"; s_tag := 0; s_req := true; s_ty := VBase BInt false; s_key := bs "x"; s_tail := STNone |} ];
    DStruct (bs "S") [ {| s_tagtxt := bs "7"; s_tag := 7; s_req := true; s_ty := VMap (VBase BString false) (VVec (VName (bs "In") CNone)); s_key := bs "m"; s_tail := STNone |};
                       {| s_tagtxt := bs "0"; s_tag := 0; s_req := false; s_ty := VName (bs "E") CNone; s_key := bs "e"; s_tail := STDef (SDName (bs "D")) |};
                       {| s_tagtxt := bs "3"; s_tag := 3; s_req := false; s_ty := VName (bs "In") CNone; s_key := bs "arr"; s_tail := STArr (bs "2") 2 |};
                       {| s_tagtxt := bs "4"; s_tag := 4; s_req := false; s_ty := VBase BFloat false; s_key := bs "f"; s_tail := STDef (SDFloat (bs "1.5")) |} ];
    DKey (bs "S") (bs "e") [bs "f"];
    DIface (bs "I") [ {| f_name := bs "op"; f_ret := Some (VBase BByte true);
                         f_args := [ {| a_name := bs "a"; a_out := false; a_ty := VName (bs "S") CNone |};
                                     {| a_name := bs "b"; a_out := true; a_ty := VVec (VName (bs "E") CNone) |} ] |};
                      {| f_name := bs "nop"; f_ret := None; f_args := [] |} ] ].

Example parse_print_instance :
  wf_decls (empty_module (bs "M")) example_prog = true /\
  match parse_tokens (print_prog (bs "M") example_prog) with
  | OOk m => (length (m_structs m), length (m_enums m), length (m_ifaces m), map sm_tag (st_mb (nth 1 (m_structs m) {| st_name := []; st_mb := [] |})))
  | _ => (O, O, O, [])
  end = (2%nat, 1%nat, 1%nat, [0; 3; 4; 7]%Z).
Proof. split; vm_compute; reflexivity. Qed.

(* the printed tokens are what the lexer produces from the obvious text *)
Example parse_print_instance_text :
  tokens_of (bs "module M { enum E { A, B = 5, C = B, D }; const unsigned int c = 0x10; struct In { 0 require int x; }; struct S { 7 require map<string, vector<In>> m; 0 optional E e = D; 3 optional In arr[2]; 4 optional float f = 1.5; }; key[S, e, f]; interface I { unsigned byte op(S a, out vector<E> b); void nop(); }; };")
  = Ok (print_prog (bs "M") example_prog).
Proof. vm_compute. reflexivity. Qed.

Theorem parse_bytes_print : forall input name ds,
  wf_decls (empty_module name) ds = true -> tokens_of input = Ok (print_prog name ds) ->
  parse_bytes input = match analyze (module_of name ds) with Ok m' => OOk m' | _ => OErr end.
Proof.
  intros input name ds Hwf Ht. unfold parse_bytes, parse_bytes_gen. rewrite Ht. apply (parse_print name ds Hwf).
Qed.
