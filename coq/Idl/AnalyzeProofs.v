(* C16: the analysis (type-name resolution, named defaults) succeeds on every module whose user type names are
   unqualified names of structs or enums declared in the module and whose named defaults name exactly one enum
   member - so such programs are accepted, not just parsed; and a successful analysis leaves no user type unresolved.
   The analysis exists twice in the model (Parser.v for one file, Include.v across files): [descend] and [analyze_with]
   state its recursion and its passes once, and [analyze_is_with] / [IncludeProofs.analyze_t_is_with] say both are that. *)
From Coq Require Import String.
From Coq Require Import List NArith ZArith Bool Lia.
From TarsV Require Import Idl.Lexer Idl.LexerProofs Idl.Parser Idl.ParserProofs.
Import ListNotations.
Open Scope N_scope.

Definition declared (m : module) (s : bytes) : bool :=
  existsb (fun x => beq (st_name x) s) (m_structs m) || existsb (fun e => beq (en_name e) s) (m_enums m).

Fixpoint names_ok (m : module) (v : vty) : bool :=
  match v with
  | VBase _ _ => true
  | VName s _ => (count_cc s =? 0)%nat && declared m s
  | VVec k => names_ok m k
  | VMap k w => names_ok m k && names_ok m w
  | VArr k _ => names_ok m k
  end.

Definition default_ok (m : module) (sm : smember) : bool :=
  match sm_deft sm with
  | DName => match sm_def sm with
             | [] => true
             | _ => (count_cc (sm_def sm) =? 0)%nat && (length (enum_hits m (sm_def sm)) =? 1)%nat
             end
  | _ => true
  end.

Definition fun_names_ok (m : module) (f : func) : bool :=
  forallb (fun a => names_ok m (a_ty a)) (f_args f) && match f_ret f with None => true | Some t => names_ok m t end.

Definition module_names_ok (m : module) : bool :=
  forallb (fun s => forallb (fun mb => names_ok m (sm_ty mb) && default_ok m mb) (st_mb s)) (m_structs m) &&
  forallb (fun i => forallb (fun_names_ok m) (if_funcs i)) (m_ifaces m).

Lemma existsb_ext' : forall {A} (f g : A -> bool) l, (forall x, f x = g x) -> existsb f l = existsb g l.
Proof. intros A f g l H. induction l as [|x r IH]; [reflexivity|]. cbn [existsb]. rewrite H, IH. reflexivity. Qed.

(* FindTNameType of a module answers exactly for its own name, "::", and the name of one of its structs or enums *)
Lemma find_tname_qualified : forall m s, find_tname m (m_name m ++ colons ++ s) =
  if existsb (fun x => beq (st_name x) s) (m_structs m) then CStruct
  else if existsb (fun e => beq (en_name e) s) (m_enums m) then CEnum else CNone.
Proof.
  intros m s. unfold find_tname.
  rewrite (existsb_ext' _ (fun x => beq (st_name x) s)) by (intros x; rewrite !beq_app; reflexivity).
  rewrite (existsb_ext' _ (fun e => beq (en_name e) s)) by (intros x; rewrite !beq_app; reflexivity). reflexivity.
Qed.
Lemma find_tname_declared : forall m s, declared m s = true -> find_tname m (m_name m ++ colons ++ s) <> CNone.
Proof.
  intros m s H. rewrite find_tname_qualified. unfold declared in H.
  destruct (existsb _ (m_structs m)); [discriminate|]. cbn [orb] in H. rewrite H. discriminate.
Qed.
Lemma find_tname_owner : forall m full, find_tname m full <> CNone -> exists n, full = m_name m ++ colons ++ n /\ declared m n = true.
Proof.
  intros m full H. assert (E : exists n, full = m_name m ++ colons ++ n).
  { unfold find_tname in H. destruct (existsb _ (m_structs m)) eqn:E1.
    - apply existsb_exists in E1 as (s & _ & Hb). apply beq_true in Hb. eauto.
    - destruct (existsb _ (m_enums m)) eqn:E2; [|congruence]. apply existsb_exists in E2 as (e & _ & Hb). apply beq_true in Hb. eauto. }
  destruct E as [n ->]. exists n. split; [reflexivity|]. rewrite find_tname_qualified in H. unfold declared.
  destruct (existsb _ (m_structs m)); [reflexivity|]. destruct (existsb _ (m_enums m)); [reflexivity | congruence].
Qed.

(* checkDepTName goes down through vectors, maps and arrays and rewrites the user type names it meets; [descend leaf] is that
   descent for any treatment of a name, and both front ends' checks are instances of it *)
Section Descent.
  Variable leaf : bytes -> ctype -> res vty.
  Fixpoint descend (v : vty) : res vty :=
    match v with
    | VName s c => leaf s c
    | VVec k => k' <- descend k ;; Ok (VVec k')
    | VMap k w => k' <- descend k ;; w' <- descend w ;; Ok (VMap k' w')
    | VArr k len => k' <- descend k ;; Ok (VArr k' len)
    | _ => Ok v
    end.

  Lemma descend_rel (R : vty -> vty -> Prop) :
    (forall b u, R (VBase b u) (VBase b u)) -> (forall s c v', leaf s c = Ok v' -> R (VName s c) v') ->
    (forall k k', R k k' -> R (VVec k) (VVec k')) -> (forall k k' w w', R k k' -> R w w' -> R (VMap k w) (VMap k' w')) ->
    (forall k k' l, R k k' -> R (VArr k l) (VArr k' l)) ->
    forall v v', descend v = Ok v' -> R v v'.
  Proof.
    intros Hb Hn Hv Hm Ha. induction v as [b u | s c | k IHk | k IHk w IHw | k IHk l]; intros v' H; cbn [descend] in H.
    - injection H as <-. apply Hb.
    - apply Hn, H.
    - destruct (descend k) as [k'| |]; cbn [bind] in H; try discriminate. injection H as <-. auto.
    - destruct (descend k) as [k'| |]; cbn [bind] in H; try discriminate.
      destruct (descend w) as [w'| |]; cbn [bind] in H; try discriminate. injection H as <-. auto.
    - destruct (descend k) as [k'| |]; cbn [bind] in H; try discriminate. injection H as <-. auto.
  Qed.
End Descent.

Lemma descend_ext : forall f g v, (forall s c, f s c = g s c) -> descend f v = descend g v.
Proof. intros f g v H. induction v as [| | k IHk | k IHk w IHw | k IHk l]; cbn [descend]; rewrite ?IHk, ?IHw; auto. Qed.

Lemma check_tname_descend : forall m v, check_tname m v = descend (fun s c => check_tname m (VName s c)) v.
Proof. intros m. induction v as [| | k IHk | k IHk w IHw | k IHk l]; cbn [descend]; rewrite <- ?IHk, <- ?IHw; reflexivity. Qed.

Lemma check_tname_ok : forall m v, names_ok m v = true -> exists v', check_tname m v = Ok v'.
Proof.
  intros m. induction v as [b u | s c | k IHk | k IHk w IHw | k IHk l]; intros H; cbn [names_ok check_tname] in *.
  - eauto.
  - apply andb_true_iff in H. destruct H as [H1 H2]. rewrite H1.
    pose proof (find_tname_declared m s H2) as K. destruct (find_tname m (m_name m ++ colons ++ s)); [congruence | eauto | eauto].
  - destruct (IHk H) as [k' E]. rewrite E. cbn [bind]. eauto.
  - apply andb_true_iff in H. destruct H as [H1 H2]. destruct (IHk H1) as [k' E]. destruct (IHw H2) as [w' E2].
    rewrite E, E2. cbn [bind]. eauto.
  - destruct (IHk H) as [k' E]. rewrite E. cbn [bind]. eauto.
Qed.

Lemma analyze_default_ok : forall m sm, default_ok m sm = true -> exists sm', analyze_default m sm = Ok sm' /\ sm_ty sm' = sm_ty sm.
Proof.
  intros m sm H. unfold default_ok, analyze_default in *. destruct (sm_deft sm); eauto.
  destruct (sm_def sm) as [|c r]; [eauto|].
  apply andb_true_iff in H. destruct H as [H1 H2]. rewrite H1. apply Nat.eqb_eq in H2.
  destruct (enum_hits m (c :: r)) as [|[e mb] [|? ?]]; cbn [length] in H2; try discriminate. eexists. split; reflexivity.
Qed.

(* the generator chooses between enum and struct code by the resolved kind of a user type (CType), for members,
   vector elements, map keys AND values, array elements, parameters and results *)
Fixpoint resolved (v : vty) : bool :=
  match v with
  | VBase _ _ => true
  | VName _ c => match c with CNone => false | _ => true end
  | VVec k => resolved k
  | VMap k w => resolved k && resolved w
  | VArr k _ => resolved k
  end.

Definition fun_resolved (f : func) : bool :=
  forallb (fun a => resolved (a_ty a)) (f_args f) && match f_ret f with None => true | Some t => resolved t end.
Definition module_resolved (m : module) : bool :=
  forallb (fun s => forallb (fun mb => resolved (sm_ty mb)) (st_mb s)) (m_structs m) &&
  forallb (fun i => forallb fun_resolved (if_funcs i)) (m_ifaces m).

Lemma descend_resolved : forall leaf, (forall s c v', leaf s c = Ok v' -> resolved v' = true) ->
  forall v v', descend leaf v = Ok v' -> resolved v' = true.
Proof.
  intros leaf Hl. apply (descend_rel leaf (fun _ v' => resolved v' = true)); cbn [resolved]; auto.
  intros k k' w w' -> ->. reflexivity.
Qed.

Lemma check_tname_resolved : forall m v v', check_tname m v = Ok v' -> resolved v' = true.
Proof.
  intros m v v'. rewrite check_tname_descend. apply descend_resolved. clear. intros s c v' H. cbn [check_tname] in H.
  destruct (find_tname m _); inversion H; reflexivity.
Qed.

Lemma map_res_Forall2 : forall {A B} (f : A -> res B) l l', map_res f l = Ok l' -> Forall2 (fun x y => f x = Ok y) l l'.
Proof.
  intros A B f. induction l as [|x r IH]; intros l' H; cbn [map_res] in H; [injection H as <-; constructor|].
  destruct (f x) as [y| |] eqn:E; cbn [bind] in H; try discriminate.
  destruct (map_res f r) as [ys| |]; cbn [bind] in H; try discriminate. injection H as <-. constructor; auto.
Qed.

Lemma map_res_forallb : forall {A B} (f : A -> res B) (P : B -> bool), (forall x y, f x = Ok y -> P y = true) ->
  forall l l', map_res f l = Ok l' -> forallb P l' = true.
Proof.
  intros A B f P Hf l l' H. apply map_res_Forall2 in H. induction H as [|x y r r' E _ IH]; cbn [forallb]; [reflexivity|].
  rewrite (Hf _ _ E), IH. reflexivity.
Qed.

Lemma map_res_ext : forall {A B} (f g : A -> res B) l, (forall x, f x = g x) -> map_res f l = map_res g l.
Proof. intros A B f g l H. induction l as [|x r IH]; [reflexivity|]. cbn [map_res]. rewrite H, IH. reflexivity. Qed.

(* The two passes of the analysis, over the named defaults [dflt] and over the user type names [chk]: [analyze] runs
   them with the lookups of the file's own module, [Include.analyze_t] with those that also search the included files
   ([analyze_is_with], [IncludeProofs.analyze_t_is_with]). *)
Section Passes.
  Variables (dflt : smember -> res smember) (chk : vty -> res vty).

  Definition member_with (sm : smember) : res smember :=
    ty <- chk (sm_ty sm) ;;
    Ok {| sm_tag := sm_tag sm; sm_req := sm_req sm; sm_ty := ty; sm_key := sm_key sm; sm_def := sm_def sm; sm_deft := sm_deft sm |}.
  Definition arg_with (a : arg) : res arg :=
    ty <- chk (a_ty a) ;; Ok {| a_name := a_name a; a_out := a_out a; a_ty := ty |}.
  Definition fun_with (f : func) : res func :=
    args <- map_res arg_with (f_args f) ;;
    ret <- match f_ret f with None => Ok None | Some t => t' <- chk t ;; Ok (Some t') end ;;
    Ok {| f_name := f_name f; f_ret := ret; f_args := args |}.
  Definition struct_with (f : smember -> res smember) (s : struct) : res struct :=
    mbs <- map_res f (st_mb s) ;; Ok {| st_name := st_name s; st_mb := mbs |}.
  Definition iface_with (i : iface) : res iface :=
    fs <- map_res fun_with (if_funcs i) ;; Ok {| if_name := if_name i; if_funcs := fs |}.
  Definition analyze_with (m : module) : res module :=
    sts1 <- map_res (struct_with dflt) (m_structs m) ;;
    sts2 <- map_res (struct_with member_with) sts1 ;;
    ifs <- map_res iface_with (m_ifaces m) ;;
    Ok {| m_name := m_name m; m_structs := sts2; m_hashkeys := m_hashkeys m; m_enums := m_enums m;
          m_consts := m_consts m; m_ifaces := ifs |}.

  Theorem analyze_with_resolves : (forall v v', chk v = Ok v' -> resolved v' = true) ->
    forall m m', analyze_with m = Ok m' -> module_resolved m' = true.
  Proof.
    intros Hchk m m' H. unfold analyze_with in H.
    destruct (map_res _ (m_structs m)) as [sts1| |] eqn:E1; cbn [bind] in H; try discriminate.
    destruct (map_res _ sts1) as [sts2| |] eqn:E2; cbn [bind] in H; try discriminate.
    destruct (map_res _ (m_ifaces m)) as [ifs| |] eqn:E3; cbn [bind] in H; try discriminate.
    injection H as <-. unfold module_resolved. cbn [m_structs m_ifaces]. apply andb_true_iff; split.
    - eapply map_res_forallb; [|exact E2]. intros s s' K. unfold struct_with in K.
      destruct (map_res member_with (st_mb s)) as [mbs| |] eqn:K1; cbn [bind] in K; try discriminate. injection K as <-. cbn [st_mb].
      eapply map_res_forallb; [|exact K1]. intros x y Q. unfold member_with in Q.
      destruct (chk (sm_ty x)) as [ty| |] eqn:Et; cbn [bind] in Q; try discriminate. injection Q as <-. exact (Hchk _ _ Et).
    - eapply map_res_forallb; [|exact E3]. intros i i' K. unfold iface_with in K.
      destruct (map_res fun_with (if_funcs i)) as [fs| |] eqn:K1; cbn [bind] in K; try discriminate. injection K as <-. cbn [if_funcs].
      eapply map_res_forallb; [|exact K1]. intros f f' Q. unfold fun_with in Q.
      destruct (map_res arg_with (f_args f)) as [args| |] eqn:Ea; cbn [bind] in Q; try discriminate.
      assert (Ha : forallb (fun a => resolved (a_ty a)) args = true).
      { eapply map_res_forallb; [|exact Ea]. intros a a' R. unfold arg_with in R.
        destruct (chk (a_ty a)) as [ty| |] eqn:Et; cbn [bind] in R; try discriminate. injection R as <-. exact (Hchk _ _ Et). }
      unfold fun_resolved. destruct (f_ret f) as [t|]; [destruct (chk t) as [t'| |] eqn:Et; try discriminate|];
        cbn [bind] in Q; injection Q as <-; cbn [f_args f_ret]; rewrite Ha; [exact (Hchk _ _ Et) | reflexivity].
  Qed.
End Passes.

Lemma analyze_is_with : forall m, analyze m = analyze_with (analyze_default m) (check_tname m) m.
Proof. reflexivity. Qed.

Lemma analyze_with_ext : forall d d' chk chk' m, (forall sm, d sm = d' sm) -> (forall v, chk v = chk' v) ->
  analyze_with d chk m = analyze_with d' chk' m.
Proof.
  intros d d' chk chk' m Hd Hc. unfold analyze_with.
  assert (S : forall f g s, (forall x, f x = g x) -> struct_with f s = struct_with g s)
    by (intros f g s E; unfold struct_with; rewrite (map_res_ext f g _ E); reflexivity).
  rewrite (map_res_ext _ _ _ (fun s => S _ _ s Hd)). destruct (map_res _ (m_structs m)) as [sts1| |]; cbn [bind]; trivial.
  rewrite (map_res_ext (struct_with (member_with chk)) (struct_with (member_with chk'))).
  2:{ intros s. apply S. intros x. unfold member_with. rewrite Hc. reflexivity. }
  destruct (map_res _ sts1) as [sts2| |]; cbn [bind]; trivial.
  rewrite (map_res_ext (iface_with chk) (iface_with chk')); [reflexivity|].
  intros i. unfold iface_with. rewrite (map_res_ext (fun_with chk) (fun_with chk')); [reflexivity|].
  intros f. unfold fun_with. rewrite (map_res_ext (arg_with chk) (arg_with chk')).
  - destruct (f_ret f); [rewrite Hc|]; reflexivity.
  - intros a. unfold arg_with. rewrite Hc. reflexivity.
Qed.

Lemma map_res_all : forall {A B} (f : A -> res B) (p : A -> bool) (q : B -> bool),
  (forall x, p x = true -> exists y, f x = Ok y /\ q y = true) ->
  forall l, forallb p l = true -> exists l', map_res f l = Ok l' /\ forallb q l' = true.
Proof.
  intros A B f p q H. induction l as [|x r IH]; cbn [map_res forallb]; intros Hl; [eauto|].
  apply andb_true_iff in Hl as [Hx Hr]. destruct (H x Hx) as (y & -> & Qy). destruct (IH Hr) as (r' & -> & Qr).
  exists (y :: r'). cbn [bind forallb]. rewrite Qy, Qr. auto.
Qed.

Lemma map_res_total : forall {A B} (f : A -> res B) (p : A -> bool), (forall x, p x = true -> exists y, f x = Ok y) ->
  forall l, forallb p l = true -> exists l', map_res f l = Ok l'.
Proof.
  intros A B f p H l Hl. destruct (map_res_all f p (fun _ => true)) with (l := l) as (l' & E & _); eauto.
  intros x Hx. destruct (H x Hx) as [y E]. eauto.
Qed.

Lemma struct_with_all : forall f p q, (forall x, p x = true -> exists y, f x = Ok y /\ q y = true) ->
  forall s, forallb p (st_mb s) = true -> exists s', struct_with f s = Ok s' /\ forallb q (st_mb s') = true.
Proof. intros f p q H s Hs. unfold struct_with. destruct (map_res_all f p q H _ Hs) as (l & -> & Ql). cbn [bind]. eauto. Qed.

Theorem analyze_succeeds : forall m, module_names_ok m = true -> exists m', analyze m = Ok m'.
Proof.
  intros m H. apply andb_true_iff in H as [Hs Hi].
  rewrite analyze_is_with. unfold analyze_with.
  assert (A : forall a, names_ok m (a_ty a) = true -> exists a', arg_with (check_tname m) a = Ok a').
  { intros a Hn. unfold arg_with. destruct (check_tname_ok m _ Hn) as [ty ->]. cbn [bind]. eauto. }
  assert (M : forall mb, names_ok m (sm_ty mb) = true -> exists mb', member_with (check_tname m) mb = Ok mb').
  { intros mb Hn. unfold member_with. destruct (check_tname_ok m _ Hn) as [ty ->]. cbn [bind]. eauto. }
  (* the first pass keeps the member types, so the second meets the same names *)
  assert (D : forall mb, names_ok m (sm_ty mb) && default_ok m mb = true ->
                         exists mb', analyze_default m mb = Ok mb' /\ names_ok m (sm_ty mb') = true).
  { intros mb Hmb. apply andb_true_iff in Hmb as [Hn Hd]. destruct (analyze_default_ok m mb Hd) as (y & E & Et). exists y. rewrite Et. auto. }
  assert (S2 : forall s, forallb (fun mb => names_ok m (sm_ty mb)) (st_mb s) = true -> exists s', struct_with (member_with (check_tname m)) s = Ok s').
  { intros s Hs'. unfold struct_with. destruct (map_res_total _ _ M _ Hs') as [l ->]. cbn [bind]. eauto. }
  assert (F : forall f, fun_names_ok m f = true -> exists f', fun_with (check_tname m) f = Ok f').
  { intros f Hn. apply andb_true_iff in Hn as [Ha Hr]. unfold fun_with. destruct (map_res_total _ _ A _ Ha) as [args ->]. cbn [bind].
    destruct (f_ret f) as [t|]; [destruct (check_tname_ok m t Hr) as [t' ->]|]; cbn [bind]; eauto. }
  assert (I : forall i, forallb (fun_names_ok m) (if_funcs i) = true -> exists i', iface_with (check_tname m) i = Ok i').
  { intros i Hf. unfold iface_with. destruct (map_res_total _ _ F _ Hf) as [fs ->]. cbn [bind]. eauto. }
  destruct (map_res_all _ _ _ (struct_with_all _ _ _ D) _ Hs) as (sts1 & -> & F1). cbn [bind].
  destruct (map_res_total _ _ S2 _ F1) as [sts2 ->]. cbn [bind].
  destruct (map_res_total _ _ I _ Hi) as [ifs ->]. cbn [bind]. eauto.
Qed.

Theorem analyze_resolves : forall m m', analyze m = Ok m' -> module_resolved m' = true.
Proof. intros m m'. rewrite analyze_is_with. apply analyze_with_resolves, check_tname_resolved. Qed.

Theorem parse_bytes_resolved : forall input m, parse_bytes input = OOk m -> module_resolved m = true.
Proof.
  intros input m H. destruct (parse_bytes_ok_inv _ _ H) as (ts & fl & _ & _ & _ & _ & P).
  destruct (fl_primary fl); [exact (analyze_resolves _ _ P) | subst; reflexivity].
Qed.

(* the witness the statement needs: a map whose VALUE is an enum, a vector of a struct, an array of an enum *)
Example resolved_instance :
  match parse_bytes (bs "module M { enum Color { RED }; struct In { 0 require int x; }; struct S { 0 require map<string, Color> m; 1 optional vector<In> v; 2 optional Color a[2]; 3 optional map<Color, vector<In>> d; }; interface I { Color f(map<int, Color> a, out vector<Color> b); }; };") with
  | OOk m => Some (map (fun mb => sm_ty mb) (st_mb (nth 1 (m_structs m) {| st_name := []; st_mb := [] |})))
  | _ => None
  end = Some [ VMap (VBase BString false) (VName (bs "Color") CEnum); VVec (VName (bs "In") CStruct);
               VArr (VName (bs "Color") CEnum) 2; VMap (VName (bs "Color") CEnum) (VVec (VName (bs "In") CStruct)) ].
Proof. vm_compute. reflexivity. Qed.
