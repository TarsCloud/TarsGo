From Coq Require Import List NArith ZArith Bool Lia.
From Coq Require Import DecimalZ DecimalPos.
From Coq Require Decimal.
From TarsV Require Import Base.Hex Endpoint.Parse.
Import ListNotations.
Open Scope Z_scope.

Definition nonspace (t : list N) : Prop := Forall (fun c => is_space c = false) t.
Definition spaces (t : list N) : Prop := Forall (fun c => is_space c = true) t.
Definition token (t : list N) : Prop := t <> [] /\ nonspace t.
Definition blank_run (t : list N) : Prop := t <> [] /\ spaces t.

Fixpoint join (toks : list (list N * list N)) : list N :=
  match toks with [] => [] | (sp, t) :: r => sp ++ t ++ join r end.

Lemma rev_neq_nil {A} (l : list A) : l <> [] -> List.rev l <> [].
Proof. intros H E. apply (f_equal (@List.rev A)) in E. rewrite rev_involutive in E. exact (H E). Qed.

(* on EVERY string the tokenizer yields proper tokens only - no empty field, no blank inside a field - so an option
   letter or value never contains a blank *)
Lemma fields_aux_all_tokens : forall s cur, nonspace cur -> Forall token (fields_aux cur s).
Proof.
  assert (T : forall cur, cur <> [] -> nonspace cur -> token (List.rev cur))
    by (intros cur Hn Hc; split; [apply rev_neq_nil, Hn | apply Forall_rev, Hc]).
  induction s as [|c r IH]; intros cur Hcur; cbn [fields_aux].
  - destruct cur as [|x xs]; [constructor|]. constructor; [apply T; [discriminate | exact Hcur] | constructor].
  - destruct (is_space c) eqn:Hsp.
    + destruct cur as [|x xs]; [apply IH; constructor|]. constructor; [apply T; [discriminate | exact Hcur] | apply IH; constructor].
    + apply IH; constructor; [exact Hsp|exact Hcur].
Qed.
Theorem fields_all_tokens s : Forall token (fields s).
Proof. apply fields_aux_all_tokens; constructor. Qed.

(* trailing blanks never change the field list, whatever precedes them *)
Lemma fields_aux_trailing sp : spaces sp -> forall s cur, fields_aux cur (s ++ sp) = fields_aux cur s.
Proof.
  intro Hsp. induction s as [|c r IH]; intro cur.
  - rewrite app_nil_l. cbn [fields_aux]. revert cur. induction Hsp as [|x xs Hx Hxs IHs]; intro cur; [reflexivity|].
    cbn [fields_aux]. rewrite Hx. destruct cur as [|y ys]; [exact (IHs [])|]. rewrite (IHs []). reflexivity.
  - cbn [app fields_aux]. destruct (is_space c); [|apply IH]. destruct cur; rewrite IH; reflexivity.
Qed.
Theorem fields_trailing s sp : spaces sp -> fields (s ++ sp) = fields s.
Proof. intro H; apply fields_aux_trailing; exact H. Qed.

(* strings.Fields on a rendered string *)
Lemma fields_aux_token t : forall cur s, nonspace t ->
  fields_aux cur (t ++ s) = fields_aux (List.rev t ++ cur) s.
Proof.
  induction t as [|c t IH]; intros cur s H; [reflexivity|].
  inversion H as [|? ? Hc Ht]; subst. cbn [app fields_aux]. rewrite Hc. rewrite IH by assumption.
  cbn [List.rev]. now rewrite <- app_assoc.
Qed.

Lemma fields_aux_spaces sp : forall s, spaces sp -> fields_aux [] (sp ++ s) = fields_aux [] s.
Proof.
  induction sp as [|c sp IH]; intros s H; [reflexivity|].
  inversion H as [|? ? Hc Hs]; subst. cbn [app fields_aux]. rewrite Hc. now apply IH.
Qed.

Lemma fields_aux_blank sp cur s : blank_run sp -> cur <> [] ->
  fields_aux cur (sp ++ s) = List.rev cur :: fields_aux [] s.
Proof.
  intros [Hne Hs] Hc. destruct sp as [|c sp]; [congruence|].
  inversion Hs as [|? ? Hc1 Hs1]; subst. cbn [app fields_aux]. rewrite Hc1.
  destruct cur; [congruence|]. f_equal. now apply fields_aux_spaces.
Qed.

Lemma fields_aux_join toks : forall cur, cur <> [] ->
  Forall (fun st => blank_run (fst st) /\ token (snd st)) toks ->
  fields_aux cur (join toks) = List.rev cur :: map snd toks.
Proof.
  induction toks as [|[sp t] toks IH]; intros cur Hc Ht.
  - cbn. destruct cur; [congruence|reflexivity].
  - inversion Ht as [|? ? [Hsp [Hne Hns]] Hrest]; subst. cbn [fst snd] in *. cbn [join map snd].
    rewrite fields_aux_blank by assumption. f_equal. rewrite fields_aux_token, app_nil_r by assumption.
    rewrite IH; [now rewrite rev_involutive | apply rev_neq_nil, Hne | assumption].
Qed.

Theorem fields_render pr toks : token pr ->
  Forall (fun st => blank_run (fst st) /\ token (snd st)) toks ->
  fields (pr ++ join toks) = pr :: map snd toks.
Proof.
  intros [Hne Hns] Ht. unfold fields. rewrite fields_aux_token, app_nil_r by assumption.
  rewrite fields_aux_join; [now rewrite rev_involutive | apply rev_neq_nil, Hne | assumption].
Qed.

Lemma dec_value_acc d : forall acc, dec_value (Zpos acc) (uint_bytes d) = Some (Zpos (Pos.of_uint_acc d acc)).
Proof.
  induction d; intros acc; cbn [uint_bytes dec_value Pos.of_uint_acc]; try reflexivity;
    unfold digit_of; cbn [N.leb andb]; cbn -[Z.mul Z.add Pos.mul Pos.add];
    (match goal with |- dec_value ?z _ = Some (Zpos (Pos.of_uint_acc _ ?p)) => replace z with (Zpos p) by lia end);
    apply IHd.
Qed.

Lemma dec_value_uint d : dec_value 0 (uint_bytes d) = Some (Z.of_N (Pos.of_uint d)).
Proof.
  induction d; cbn [uint_bytes dec_value Pos.of_uint]; try reflexivity;
    unfold digit_of; cbn [N.leb andb]; cbn -[Z.mul Z.add Pos.mul Pos.add dec_value];
    try apply IHd; apply dec_value_acc.
Qed.

Lemma uint_bytes_digits d : Forall (fun c => (48 <= c <= 57)%N) (uint_bytes d).
Proof. induction d; cbn; constructor; try assumption; lia. Qed.

Lemma uint_bytes_nonnil d : d <> Decimal.Nil -> uint_bytes d <> [].
Proof. destruct d; cbn; congruence. Qed.

(* strconv's sign test, shared by the two decimal parsers of the development (parse_int64 here, Conf.parse_int) *)
Definition sign_split (s : list N) : bool * list N :=
  match s with 45%N :: r => (true, r) | 43%N :: r => (false, r) | _ => (false, s) end.

Lemma sign_split_cons c r :
  sign_split (c :: r) = if (c =? 45)%N then (true, r) else if (c =? 43)%N then (false, r) else (false, c :: r).
Proof. destruct c as [|p]; [reflexivity|]. do 6 (destruct p as [p|p|]; try reflexivity). Qed.

(* the rendering of z is an optional '-' and the digits of |z| *)
Lemma dec_split z : exists ds, sign_split (dec z) = (z <? 0, ds) /\ ds <> [] /\ dec_value 0 ds = Some (Z.abs z).
Proof.
  destruct z as [|p|p]; [exists [48%N]; repeat split; discriminate | |];
    exists (uint_bytes (Pos.to_uint p));
    (split; [|split; [apply uint_bytes_nonnil, DecimalPos.Unsigned.to_uint_nonnil
                     | rewrite dec_value_uint, DecimalPos.Unsigned.of_to; reflexivity]]).
  - unfold dec. cbn [Z.to_int]. pose proof (uint_bytes_digits (Pos.to_uint p)) as Hd.
    destruct (uint_bytes (Pos.to_uint p)) as [|c r]; [reflexivity|]. inversion Hd as [|? ? Hc _]; subst.
    rewrite sign_split_cons. destruct (N.eqb_spec c 45); [lia|]. destruct (N.eqb_spec c 43); [lia|]. reflexivity.
  - reflexivity.
Qed.

Lemma parse_int64_dec z : min64 <= z <= max64 -> parse_int64 (dec z) = (z, true).
Proof.
  intros Hr. unfold parse_int64. fold (sign_split (dec z)). destruct (dec_split z) as (ds & -> & Hne & Hv).
  destruct ds as [|c r]; [contradiction|]. rewrite Hv. cbv zeta.
  replace (if z <? 0 then - Z.abs z else Z.abs z) with z by (destruct (Z.ltb_spec z 0); lia).
  destruct (z >? max64) eqn:E1; [lia|]. destruct (z <? min64) eqn:E2; [lia|reflexivity].
Qed.

Inductive item := IStr (f : fname) (v : list N) | IInt (f : fname) (z : Z).
Definition item_ok (i : item) : Prop :=
  match i with
  | IStr f v => is_str f = true
  | IInt f z => is_str f = false /\ min64 <= z <= max64
  end.
Definition item_tokens (i : item) : list (list N) :=
  match i with
  | IStr f v => [[45%N; fname_char f]; v]
  | IInt f z => [[45%N; fname_char f]; dec z]
  end.
Definition apply_item (st : fstate) (i : item) : fstate :=
  match i with IStr f v => set_str f v st | IInt f z => set_int f z st end.

Lemma flag_token_short f : flag_token [45%N; fname_char f] = Flag [fname_char f] false [].
Proof. destruct f; reflexivity. Qed.
Lemma fname_of_char f : fname_of [fname_char f] = Some f.
Proof. destruct f; reflexivity. Qed.

Lemma flag_loop_items items : forall fuel st rest,
  Forall item_ok items -> (length items <= fuel)%nat ->
  flag_loop fuel (concat (map item_tokens items) ++ rest) st =
  flag_loop (fuel - length items) rest (fold_left apply_item items st).
Proof.
  induction items as [|i items IH]; intros fuel st rest Hok Hf.
  - cbn. now rewrite Nat.sub_0_r.
  - inversion Hok as [|? ? Hi Hrest]; subst.
    cbn [length] in Hf. destruct fuel as [|fuel]; [lia|].
    cbn [map concat fold_left]. destruct i as [f v|f z]; cbn [item_tokens item_ok apply_item] in *.
    + cbn [List.app flag_loop]. rewrite flag_token_short, fname_of_char.
      unfold set_flag. rewrite Hi. rewrite IH by (try assumption; lia).
      reflexivity.
    + destruct Hi as [Hs Hz]. cbn [List.app flag_loop]. rewrite flag_token_short, fname_of_char.
      unfold set_flag. rewrite Hs, (parse_int64_dec _ Hz).
      rewrite IH by (try assumption; lia).
      reflexivity.
Qed.

Theorem flag_parse_items items st : Forall item_ok items ->
  flag_parse (concat (map item_tokens items)) st = fold_left apply_item items st.
Proof.
  intros Hok. unfold flag_parse.
  assert (L : length (concat (map item_tokens items)) = (2 * length items)%nat).
  { clear. induction items as [|i items IH]; [reflexivity|]. cbn [map concat]. rewrite app_length, IH.
    destruct i; cbn; lia. }
  rewrite L. rewrite <- (app_nil_r (concat _)). rewrite flag_loop_items by (try assumption; lia).
  destruct (2 * length items - length items)%nat; reflexivity.
Qed.

Definition rendered (pr : list N) (toks : list (list N * list N)) (trail : list N) : list N :=
  pr ++ join toks ++ trail.

Lemma firstn3 (pr x : list N) : length pr = 3%nat -> firstn 3 (pr ++ x) = pr.
Proof. destruct pr as [|a [|b [|c [|d r]]]]; cbn; intros H; try discriminate. reflexivity. Qed.

(* Every textual form: a three-byte protocol token, then the options as "-x value" pairs in ANY order,
   any subset, duplicates allowed, separated by ANY non-empty blank runs, optional trailing blanks.
   The result is built from the defaults overwritten by the options in order (last occurrence wins). *)
Theorem parse_rendered pr items toks trail :
  length pr = 3%nat -> token pr ->
  Forall item_ok items ->
  map snd toks = concat (map item_tokens items) ->
  Forall (fun st => blank_run (fst st) /\ token (snd st)) toks -> spaces trail ->
  parse (rendered pr toks trail) = Ok (build pr (fold_left apply_item items fdefault)).
Proof.
  intros Hl Htok Hok Hmap Hsp Htr. unfold parse, rendered.
  rewrite app_assoc, (fields_trailing _ trail Htr), (fields_render pr toks Htok Hsp), <- app_assoc. cbn [go_tail1].
  rewrite Hmap, (flag_parse_items _ _ Hok).
  destruct (3 <? length (pr ++ join toks ++ trail))%nat eqn:E; [|].
  - unfold go_slice_to. destruct (3 <=? length (pr ++ join toks ++ trail))%nat eqn:E2.
    + now rewrite firstn3.
    + apply Nat.ltb_lt in E. apply Nat.leb_gt in E2. lia.
  - apply Nat.ltb_ge in E. rewrite app_length in E.
    assert (Z0 : length (join toks ++ trail) = 0%nat) by lia.
    apply length_zero_iff_nil in Z0. rewrite Z0, app_nil_r. reflexivity.
Qed.

Theorem parse_no_panic s : exists e, parse s = Ok e.
Proof.
  unfold parse. destruct (3 <? length s)%nat eqn:E.
  - unfold go_slice_to. apply Nat.ltb_lt in E. destruct (3 <=? length s)%nat eqn:E2; [|apply Nat.leb_gt in E2; lia].
    destruct (fields s); cbn [go_tail1]; eexists; reflexivity.
  - destruct (fields s); cbn [go_tail1]; eexists; reflexivity.
Qed.

(* the code before the repair does panic: the empty string, and three blanks *)
Example parse_unguarded_panics :
  parse_unguarded [] = Panic 1%N /\ parse_unguarded [32;32;32]%N = Panic 2%N.
Proof. split; reflexivity. Qed.

(* on every input on which the unguarded code does not panic the repaired code returns the same endpoint *)
Theorem parse_guard_conservative s e : parse_unguarded s = Ok e -> parse s = Ok e.
Proof.
  unfold parse_unguarded, parse, go_slice_to. destruct (3 <=? length s)%nat eqn:E; [|discriminate].
  apply Nat.leb_le in E. destruct (fields s) as [|f fs] eqn:F; cbn [go_tail1]; [discriminate|].
  intros H. destruct (3 <? length s)%nat eqn:E2.
  - destruct (3 <=? length s)%nat eqn:E3; [exact H|apply Nat.leb_gt in E3; lia].
  - apply Nat.ltb_ge in E2. assert (L : length s = 3%nat) by lia.
    rewrite <- L, firstn_all in H. exact H.
Qed.

Theorem convert_roundtrip e :
  let e' := tars2endpoint (endpoint2tars e) in
  host e' = host e /\ port e' = port e /\ timeout e' = timeout e /\ istcp e' = istcp e /\ grid e' = grid e /\
  qos e' = qos e /\ weight e' = weight e /\ wtype e' = wtype e /\ auth e' = auth e /\ setid e' = setid e.
Proof. cbn. repeat split. Qed.

(* a direct address string and the registry entry for the same endpoint obtain the same cache key *)
Theorem key_agreement pr st : (pr = s_tcp \/ pr = s_udp \/ pr = s_ssl) ->
  key (tars2endpoint (endpoint2tars (build pr st))) = key (build pr st).
Proof. intros [H|[H|H]]; subst pr; reflexivity. Qed.

(* per-field reading of the fold: the value of an option is its last occurrence, else the default *)
Definition get_int (f : fname) (st : fstate) : Z :=
  match f with Fp => f_p st | Ft => f_t st | Fg => f_g st | Fq => f_q st | Fw => f_w st | Fv => f_v st | Fe => f_e st | _ => 0 end.
Definition get_str (f : fname) (st : fstate) : list N :=
  match f with Fh => f_h st | Fb => f_b st | _ => [] end.
Definition fname_eqb (a b : fname) : bool := N.eqb (fname_char a) (fname_char b).

Fixpoint last_int (f : fname) (items : list item) (d : Z) : Z :=
  match items with
  | [] => d
  | IInt g z :: r => last_int f r (if fname_eqb f g then z else d)
  | _ :: r => last_int f r d
  end.
Fixpoint last_str (f : fname) (items : list item) (d : list N) : list N :=
  match items with
  | [] => d
  | IStr g v :: r => last_str f r (if fname_eqb f g then v else d)
  | _ :: r => last_str f r d
  end.

Lemma fold_get_int f items : is_str f = false -> forall st, Forall item_ok items ->
  get_int f (fold_left apply_item items st) = last_int f items (get_int f st).
Proof.
  intros Hf. induction items as [|i items IH]; intros st Hok; [reflexivity|].
  inversion Hok as [|? ? Hi Hr]; subst. cbn [fold_left]. rewrite IH by assumption.
  destruct i as [g v|g z]; cbn [apply_item last_int item_ok] in *.
  - f_equal. destruct f, g; try discriminate; reflexivity.
  - f_equal. destruct Hi as [Hg _]. destruct f, g; try discriminate; reflexivity.
Qed.
Lemma fold_get_str f items : is_str f = true -> forall st, Forall item_ok items ->
  get_str f (fold_left apply_item items st) = last_str f items (get_str f st).
Proof.
  intros Hf. induction items as [|i items IH]; intros st Hok; [reflexivity|].
  inversion Hok as [|? ? Hi Hr]; subst. cbn [fold_left]. rewrite IH by assumption.
  destruct i as [g v|g z]; cbn [apply_item last_str item_ok] in *.
  - f_equal. destruct f, g; try discriminate; reflexivity.
  - f_equal. destruct Hi as [Hg _]. destruct f, g; try discriminate; reflexivity.
Qed.

(* non-vacuity: a concrete endpoint string with reordered options and odd spacing *)
Example parse_example :
  parse (raw "tcp   -t 60000 -p 19386	-h 10.0.0.1 -v 1 -w 250  "%hex) =
  Ok {| host := raw "10.0.0.1"%hex; port := 19386; timeout := 60000; istcp := 1; grid := 0; qos := 0; weight := 100;
        wtype := 1; auth := 0; proto := s_tcp; bind := []; setid := []; key := raw "tcp -h 10.0.0.1 -p 19386 -t 60000"%hex |}.
Proof. vm_compute. reflexivity. Qed.
