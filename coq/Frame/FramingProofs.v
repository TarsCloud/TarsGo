From Coq Require Import List NArith ZArith Lia Bool Arith.
From Coq Require Import ZifyN ZifyNat ZifyBool.
From TarsV Require Import Base.Hex Frame.Framing.
Import ListNotations.
Open Scope N_scope.

Lemma tars_request_full max buf n : tars_request max buf = Full n ->
  (4 <= n <= length buf)%nat /\ hdr buf = Some (N.of_nat n) /\ N.of_nat n <= max.
Proof.
  unfold tars_request. destruct (hdr buf) as [l|] eqn:E; [|discriminate].
  destruct ((l <? 4) || (max <? l)) eqn:E1; [discriminate|].
  destruct (N.of_nat (length buf) <? l) eqn:E2; [discriminate|].
  intros H; inversion H; subst. repeat split; try lia. f_equal. lia.
Qed.

Lemma hdr_app buf more l : hdr buf = Some l -> hdr (buf ++ more) = Some l.
Proof. destruct buf as [|a [|b [|c [|d r]]]]; cbn; try discriminate. auto. Qed.

Lemma drain_fuel f1 : forall f2 max buf, (length buf < f1)%nat -> (length buf < f2)%nat ->
  drain f1 max buf = drain f2 max buf.
Proof.
  induction f1; intros f2 max buf H1 H2; [lia|]. destruct f2; [lia|]. cbn.
  destruct (tars_request max buf) eqn:E; try reflexivity.
  apply tars_request_full in E. destruct E as ([A B] & _).
  rewrite (IHf1 f2); [reflexivity| |]; rewrite skipn_length; lia.
Qed.

(* a complete or an illegal package stays what it is when more input follows *)
Lemma tars_request_app max buf more : tars_request max buf <> Less -> tars_request max (buf ++ more) = tars_request max buf.
Proof.
  unfold tars_request. destruct (hdr buf) as [l|] eqn:Hh; [|congruence]. rewrite (hdr_app _ more _ Hh).
  destruct ((l <? 4) || (max <? l)); [reflexivity|]. rewrite app_length.
  destruct (N.of_nat (length buf) <? l) eqn:E; [congruence|]. intros _.
  destruct (N.of_nat (length buf + length more) <? l) eqn:E2; [lia|reflexivity].
Qed.

(* incrementality: draining a buffer and later its remainder plus more input
   is the same as draining everything at once *)
Lemma drain_app f : forall max buf more, (length buf < f)%nat ->
  drain' max (buf ++ more) =
  match drain f max buf with
  | (ps, None) => (ps, None)
  | (ps, Some r) => let '(ps', r') := drain' max (r ++ more) in (ps ++ ps', r')
  end.
Proof.
  induction f; intros max buf more Hf; [lia|]. cbn [drain].
  destruct (tars_request max buf) eqn:E.
  - cbn [app]. destruct (drain' max (buf ++ more)); reflexivity.
  - pose proof (tars_request_full _ _ _ E) as ([A B] & Hh & Hm).
    unfold drain' at 1. cbn [drain]. rewrite tars_request_app, E by (rewrite E; discriminate).
    rewrite firstn_app, skipn_app.
    replace (n - length buf)%nat with 0%nat by lia. cbn [firstn skipn]. rewrite app_nil_r.
    specialize (IHf max (skipn n buf) more ltac:(rewrite skipn_length; lia)).
    unfold drain' in IHf.
    rewrite (drain_fuel _ (S (length (skipn n buf ++ more)))); [| rewrite !app_length, skipn_length in *; lia | lia].
    rewrite IHf. unfold drain'. destruct (drain f max (skipn n buf)) as [ps [r|]].
    + destruct (drain (S (length (r ++ more))) max (r ++ more)). reflexivity.
    + reflexivity.
  - unfold drain'. cbn [drain]. rewrite tars_request_app, E by (rewrite E; discriminate). reflexivity.
Qed.

Definition stable max cur := drain' max cur = ([], Some cur).

Lemma drain_stable f : forall max buf ps r, drain f max buf = (ps, Some r) -> (length buf < f)%nat -> stable max r.
Proof.
  induction f; intros max buf ps r H Hf; [lia|]. cbn in H.
  destruct (tars_request max buf) eqn:E.
  - inversion H; subst. unfold stable, drain'. cbn. rewrite E. reflexivity.
  - destruct (drain f max (skipn n buf)) as [ps' r'] eqn:D. inversion H; subst.
    apply tars_request_full in E. eapply IHf; [exact D|]. rewrite skipn_length. lia.
  - discriminate.
Qed.

(* Independence of segmentation: whatever the chunking (single bytes, coalesced packets, cuts inside
   the header), the receive loop delivers exactly what one pass over the whole stream delivers, in
   the same order, and ends in the same state (same remainder, or closed) *)
Theorem recv_loop_concat max : forall chunks cur, stable max cur ->
  recv_loop max cur chunks = drain' max (cur ++ concat chunks).
Proof.
  induction chunks as [|c cs IH]; intros cur Hs.
  - cbn. rewrite app_nil_r. symmetry. exact Hs.
  - cbn [recv_loop concat]. rewrite app_assoc.
    rewrite (drain_app (S (length (cur ++ c))) max (cur ++ c) (concat cs)) by lia.
    fold (drain' max (cur ++ c)).
    destruct (drain' max (cur ++ c)) as [ps [r|]] eqn:D; [|reflexivity].
    rewrite IH; [reflexivity|]. unfold drain' in D. eapply drain_stable; [exact D|lia].
Qed.

(* what one pass delivers: exactly the packets that were sent *)
Definition valid (max : N) (pk : list N) : Prop :=
  hdr pk = Some (N.of_nat (length pk)) /\ (4 <= length pk)%nat /\ N.of_nat (length pk) <= max.

Lemma tars_request_valid max pk rest : valid max pk -> tars_request max (pk ++ rest) = Full (length pk).
Proof.
  intros (Hh & H4 & Hm). unfold tars_request. rewrite (hdr_app _ rest _ Hh).
  destruct ((N.of_nat (length pk) <? 4) || (max <? N.of_nat (length pk))) eqn:E1; [lia|].
  rewrite app_length. destruct (N.of_nat (length pk + length rest) <? N.of_nat (length pk)) eqn:E2; [lia|].
  f_equal. lia.
Qed.

Lemma drain_packets max pks : Forall (valid max) pks -> forall tail,
  drain' max (concat pks ++ tail) =
  let '(ps, r) := drain' max tail in (pks ++ ps, r).
Proof.
  induction 1 as [|pk pks Hv _ IH]; intros tail.
  - cbn [concat app]. destruct (drain' max tail). reflexivity.
  - cbn [concat]. rewrite <- app_assoc. unfold drain' at 1. cbn [drain].
    rewrite (tars_request_valid _ _ _ Hv).
    rewrite firstn_app, skipn_app, Nat.sub_diag, firstn_all, skipn_all. cbn [firstn skipn app]. rewrite app_nil_r.
    destruct Hv as (_ & H4 & _).
    rewrite (drain_fuel _ (S (length (concat pks ++ tail)))); [| rewrite !app_length in *; lia | lia].
    fold (drain' max (concat pks ++ tail)). rewrite IH. destruct (drain' max tail). reflexivity.
Qed.

Theorem C07_reassembly max pks chunks : Forall (valid max) pks -> concat chunks = concat pks ->
  recv_loop max [] chunks = (pks, Some []).
Proof.
  intros Hv Hc. rewrite recv_loop_concat by reflexivity. cbn [app]. rewrite Hc.
  rewrite <- (app_nil_r (concat pks)). rewrite drain_packets by assumption. cbn. now rewrite app_nil_r.
Qed.

Theorem C07_partial max pks q chunks : Forall (valid max) pks -> tars_request max q = Less ->
  concat chunks = concat pks ++ q -> recv_loop max [] chunks = (pks, Some q).
Proof.
  intros Hv Hq Hc. rewrite recv_loop_concat by reflexivity. cbn [app]. rewrite Hc.
  rewrite drain_packets by assumption. unfold drain'. cbn [drain]. rewrite Hq. now rewrite app_nil_r.
Qed.

Theorem C07_error max pks bad junk l chunks : Forall (valid max) pks ->
  hdr bad = Some l -> (l < 4 \/ max < l) ->
  concat chunks = concat pks ++ bad ++ junk -> recv_loop max [] chunks = (pks, None).
Proof.
  intros Hv Hh Hl Hc. rewrite recv_loop_concat by reflexivity. cbn [app]. rewrite Hc.
  rewrite drain_packets by assumption. unfold drain'. cbn [drain].
  unfold tars_request. rewrite (hdr_app _ junk _ Hh).
  destruct ((l <? 4) || (max <? l)) eqn:E; [|lia]. now rewrite app_nil_r.
Qed.

(* non-vacuity: a 5-byte packet and a 4-byte packet, max = 5, delivered from single-byte chunks *)
Example C07_example :
  recv_loop 5 [] [[0];[0];[0];[5];[9];[0];[0];[0];[4]] = ([[0;0;0;5;9];[0;0;0;4]], Some []).
Proof. vm_compute. reflexivity. Qed.


(* a proper prefix of a valid packet is never a complete or an illegal packet *)
Lemma proper_prefix_less max pk q t : valid max pk -> pk = q ++ t -> t <> [] -> tars_request max q = Less.
Proof.
  intros (Hh & H4 & Hm) -> Ht. unfold tars_request.
  destruct (hdr q) as [l|] eqn:E; [|reflexivity].
  rewrite (hdr_app _ t _ E) in Hh. inversion Hh; subst l.
  rewrite app_length in *. assert (0 < length t)%nat by (destruct t; [congruence|cbn; lia]).
  destruct ((N.of_nat (length q + length t) <? 4) || (max <? N.of_nat (length q + length t))) eqn:E1; [lia|].
  destruct (N.of_nat (length q) <? N.of_nat (length q + length t)) eqn:E2; [reflexivity|lia].
Qed.

Theorem C07_partial_prefix max pks pk q t chunks : Forall (valid max) pks -> valid max pk ->
  pk = q ++ t -> t <> [] ->
  concat chunks = concat pks ++ q -> recv_loop max [] chunks = (pks, Some q).
Proof. intros Hv Hp E Ht Hc. eapply C07_partial; eauto. eapply proper_prefix_less; eauto. Qed.

(* independence of segmentation: the outcome is a function of the concatenated stream only *)
Theorem C07_segmentation_independent max chunks1 chunks2 :
  concat chunks1 = concat chunks2 -> recv_loop max [] chunks1 = recv_loop max [] chunks2.
Proof. intros E. rewrite !recv_loop_concat by reflexivity. now rewrite E. Qed.

(* packets as the senders build them: 4-byte big-endian total length, then the body *)
Definition be32 (n : N) : list N := [n / 16777216 mod 256; n / 65536 mod 256; n / 256 mod 256; n mod 256].
Definition mk_packet (body : list N) : list N := be32 (4 + N.of_nat (length body)) ++ body.

Lemma be_byte n : n / 256 * 256 + n mod 256 = n.
Proof. rewrite N.mul_comm. symmetry. apply N.div_mod'. Qed.

Lemma hdr_be32 n r : n < 4294967296 -> hdr (be32 n ++ r) = Some n.
Proof.
  intros H. unfold be32, hdr. cbn [app]. f_equal.
  change 16777216 with (256 * 256 * 256). change 65536 with (256 * 256). rewrite <- !N.div_div by discriminate.
  rewrite (N.mod_small (n / 256 / 256 / 256)) by (repeat apply N.div_lt_upper_bound; try discriminate; exact H).
  rewrite !be_byte. reflexivity.
Qed.

Lemma valid_mk_packet max body : 4 + N.of_nat (length body) <= max -> 4 + N.of_nat (length body) < 4294967296 ->
  valid max (mk_packet body).
Proof.
  intros Hm Hr. unfold valid, mk_packet. rewrite app_length. cbn [be32 length].
  replace (N.of_nat (4 + length body)) with (4 + N.of_nat (length body)) by lia.
  split; [apply (hdr_be32 _ body Hr)|]. split; lia.
Qed.

(* a packet of exactly the maximum length is accepted, one byte more is a protocol error *)
Theorem C07_max_accepted max body chunks : 4 + N.of_nat (length body) = max -> max < 4294967296 ->
  concat chunks = mk_packet body -> recv_loop max [] chunks = ([mk_packet body], Some []).
Proof.
  intros Hm Hr Hc. apply C07_reassembly.
  - constructor; [|constructor]. apply valid_mk_packet; lia.
  - cbn [concat]. now rewrite app_nil_r.
Qed.

Theorem C07_max_plus_one_rejected max body junk pks chunks : Forall (valid max) pks ->
  4 + N.of_nat (length body) = max + 1 -> max + 1 < 4294967296 ->
  concat chunks = concat pks ++ mk_packet body ++ junk -> recv_loop max [] chunks = (pks, None).
Proof.
  intros Hv Hm Hr Hc. eapply (C07_error max pks (mk_packet body) junk (max + 1)); eauto.
  - unfold mk_packet. rewrite Hm. apply hdr_be32. lia.
  - right. lia.
Qed.

Theorem C07_short_length_rejected max l junk pks chunks : Forall (valid max) pks -> l < 4 ->
  concat chunks = concat pks ++ be32 l ++ junk -> recv_loop max [] chunks = (pks, None).
Proof.
  intros Hv Hl Hc. eapply (C07_error max pks (be32 l) junk l); eauto.
  - rewrite <- (app_nil_r (be32 l)). apply hdr_be32. lia.
Qed.

Example C07_example_max :
  recv_loop 6 [] [[0;0];[0;6;1];[2;0;0;0;7;1;2;3]] = ([[0;0;0;6;1;2]], None).
Proof. vm_compute. reflexivity. Qed.
