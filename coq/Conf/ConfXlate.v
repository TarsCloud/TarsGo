(* C17: the Go source of the line-level logic of tars/util/conf/conf.go, translated on every run
   (Gen/ConfTranslated.v, harness/c17xlate.go), computes what the hand-written model Conf/Conf.v computes - for all
   inputs. An edit of the source that changes the meaning of the line loop, of analysisPath or of a typed getter
   makes one of these proofs fail (layer L1). *)
From Coq Require Import List NArith ZArith Bool Lia ZifyBool ZifyNat ZifyN Permutation.
From TarsV Require Import Base.Hex Gen.Consts Conf.Conf Conf.ConfSpec Conf.ConfProofs Conf.GoStr Gen.ConfTranslated.
Import ListNotations.
Open Scope bool_scope.
Open Scope Z_scope.

Lemma blanks_same : k_conf_whiteSpaceChars = c_conf_blanks.
Proof. reflexivity. Qed.

Lemma gs_trim_left_conf s : gs_trim_left k_conf_whiteSpaceChars s = trim_left s.
Proof.
  induction s as [|c r IH]; [reflexivity|]. cbn [gs_trim_left trim_left]. rewrite IH. unfold gs_mem, is_conf_blank. rewrite blanks_same. reflexivity.
Qed.
Lemma gs_trim_conf s : gs_trim k_conf_whiteSpaceChars s = trim s.
Proof. unfold gs_trim, gs_trim_right, trim. rewrite !frev_rev, !gs_trim_left_conf. reflexivity. Qed.

Lemma gs_cut_eq : forall l, gs_cut l [61%N] = match cut_eq l with (a, Some b) => Some (a, b) | (_, None) => None end.
Proof.
  induction l as [|c r IH]; [reflexivity|]. cbn [gs_cut cut_eq gs_has_prefix]. unfold c_eq.
  rewrite N.eqb_sym. destruct (c =? 61)%N; cbn [andb].
  - destruct r; reflexivity.
  - rewrite IH. destruct (cut_eq r) as [a [b|]]; reflexivity.
Qed.

Lemma gs_splitn_eq2 l : gs_splitn l [61%N] 2 = match cut_eq l with (a, Some b) => [a; b] | (a, None) => [l] end.
Proof.
  unfold gs_splitn. cbn [Z.eqb gs_splitn_fuel]. rewrite gs_cut_eq. destruct (cut_eq l) as [a [b|]]; [|reflexivity].
  destruct (length l); reflexivity.
Qed.
Lemma cut_eq_none : forall l a, cut_eq l = (a, None) -> a = l.
Proof.
  induction l as [|c r IH]; intros a H; cbn in H; [congruence|]. destruct (c =? c_eq)%N; [discriminate|].
  destruct (cut_eq r) as [a' [b|]]; inversion H; subst. f_equal. apply IH. reflexivity.
Qed.

Lemma gs_eqb_nil k : gs_eqb k [] = match k with [] => true | _ => false end.
Proof. destruct k; reflexivity. Qed.

Definition kind_of (z : Z) : kind := if z =? k_conf_Leaf then KLeaf else KNode.
Definition apply_effect (cur : key) (s : store) (e : conf_effect) : store :=
  match e with
  | EffAddLine l => add_line s cur l
  | EffAddChild k (kd, _, v) => (k :: cur, {| ikind := kind_of kd; ivalue := v; ilines := [] |}) :: remove_under s (k :: cur)
  end.
(* the effects of one scanned line according to the model *)
Definition line_effects (text : bytes) : list conf_effect :=
  match trim text with
  | [] => []
  | c :: _ => if (c =? c_hash)%N then []
              else EffAddLine (trim text) ::
                   (let '(k, v) := line_kv (trim text) in match k with [] => [] | _ => [EffAddChild k (k_conf_Leaf, k, v)] end)
  end.

Theorem tr_conf_line_equiv : forall text, tr_conf_line text = Some (line_effects text).
Proof.
  intros text. unfold tr_conf_line, line_effects. rewrite gs_trim_conf. destruct (trim text) as [|c r] eqn:T; [reflexivity|].
  assert (L : Z.gtb (gs_len (c :: r)) 0 = true) by (unfold gs_len; cbn [length]; lia).
  rewrite L. cbn [gs_in_range gs_nth Z.to_nat nth]. replace (gs_in_range (c :: r) 0) with true by (unfold gs_in_range, gs_len; cbn [length]; lia).
  unfold c_hash. destruct (c =? 35)%N; [reflexivity|]. cbn [gs_eqb list_eqb app].
  rewrite gs_splitn_eq2. unfold line_kv. destruct (cut_eq (c :: r)) as [a [b|]] eqn:CE.
  - replace (gs_in_range [a; b] 0) with true by reflexivity. replace (gs_in_range [a; b] 1) with true by reflexivity.
    cbn [gs_nth Z.to_nat nth Pos.to_nat Pos.iter_op Nat.add]. rewrite !gs_trim_conf, gs_eqb_nil.
    destruct (trim a) as [|k0 kr]; [reflexivity|]. reflexivity.
  - apply cut_eq_none in CE. subst a. replace (gs_in_range [c :: r] 0) with true by reflexivity.
    cbn [gs_nth Z.to_nat nth]. rewrite !gs_trim_conf, gs_eqb_nil.
    destruct (trim (c :: r)) as [|k0 kr]; [reflexivity|]. reflexivity.
Qed.

Lemma apply_line_effects s cur seg :
  fold_left (apply_effect cur) (line_effects (drop_cr seg)) s =
  match content_line seg with Some line => do_line s cur line | None => s end.
Proof.
  unfold line_effects, content_line. destruct (trim (drop_cr seg)) as [|c r]; [reflexivity|].
  destruct (c =? c_hash)%N; [reflexivity|]. unfold do_line. destruct (line_kv (c :: r)) as [k v].
  destruct k; reflexivity.
Qed.

(* the scanner loop over one text run with the translated body in place of the model's step *)
Fixpoint tr_segments (s : store) (cur : key) (segs : list bytes) : option store :=
  match segs with
  | [] => Some s
  | seg :: r => if (max_scan_token <=? N.of_nat (length seg))%N then None
                else match tr_conf_line (drop_cr seg) with
                     | Some effs => tr_segments (fold_left (apply_effect cur) effs s) cur r
                     | None => None
                     end
  end.

Theorem tr_segments_equiv : forall segs s cur, tr_segments s cur segs = do_segments s cur segs.
Proof.
  induction segs as [|seg r IH]; intros s cur; [reflexivity|]. cbn [tr_segments do_segments].
  destruct (max_scan_token <=? N.of_nat (length seg))%N; [reflexivity|].
  rewrite tr_conf_line_equiv, apply_line_effects. destruct (content_line seg); apply IH.
Qed.

Theorem tr_conf_line_frame_pinned : tr_conf_line_frame = true /\ tr_conf_decode_loop_frame = true /\ tr_conf_tag_cases_frame = true.
Proof. repeat split; reflexivity. Qed.

(* the typed getters: c.root.getValue(path) is the model's element lookup (value of the element, "not find") *)
Definition value_of_elem (e : option (key * info)) : bytes * bool :=
  match e with Some (_, i) => (ivalue i, false) | None => ([], true) end.

Lemma gs_atoi_model s : gs_atoi s = gs_of_opt 0 (atoi s).
Proof. reflexivity. Qed.
Lemma gs_parse_int32_model s : gs_parse_int s 10 32 = gs_of_opt 0 (atoi32 s).
Proof. reflexivity. Qed.

Theorem tr_getters_equiv : forall e,
  (forall d, tr_GetStringWithDef (fst (value_of_elem e)) (snd (value_of_elem e)) d =
             Some (match e with Some (_, i) => ivalue i | None => d end)) /\
  (forall d, tr_GetIntWithDef (fst (value_of_elem e)) (snd (value_of_elem e)) d =
             Some (match e with Some (_, i) => match atoi (ivalue i) with Some v => v | None => d end | None => d end)) /\
  (forall d, tr_GetInt32WithDef (fst (value_of_elem e)) (snd (value_of_elem e)) d =
             Some (match e with Some (_, i) => match atoi32 (ivalue i) with Some v => v | None => d end | None => d end)) /\
  (forall d, tr_GetBoolWithDef (fst (value_of_elem e)) (snd (value_of_elem e)) d =
             Some (match e with Some (_, i) => match parse_bool (ivalue i) with Some v => v | None => d end | None => d end)).
Proof.
  intros [[k i]|]; cbn [value_of_elem fst snd]; repeat split; intros d; try reflexivity.
  - unfold tr_GetIntWithDef. cbn [Bool.eqb negb]. rewrite gs_atoi_model. destruct (atoi (ivalue i)); reflexivity.
  - unfold tr_GetInt32WithDef. cbn [Bool.eqb negb]. rewrite gs_parse_int32_model. destruct (atoi32 (ivalue i)); reflexivity.
  - unfold tr_GetBoolWithDef, gs_parse_bool. cbn [Bool.eqb negb]. destruct (parse_bool (ivalue i)); reflexivity.
Qed.

(* ... so the model's getters are the translated bodies applied to the looked-up element *)
Definition lift {A} (o : option A) : outcome A := match o with Some v => Ok v | None => Panic 0 end.
Definition on_elem {A} (s : store) (p : bytes) (f : bytes -> bool -> option A) : outcome A :=
  match get_elem s p with
  | Ok e => lift (f (fst (value_of_elem e)) (snd (value_of_elem e)))
  | Panic n => Panic n | Err n => Err n | Unmodelled => Unmodelled
  end.
Theorem getters_translated s p :
  (forall d, get_string_def s p d = on_elem s p (fun v e => tr_GetStringWithDef v e d)) /\
  (forall d, get_int_def s p d = on_elem s p (fun v e => tr_GetIntWithDef v e d)) /\
  (forall d, get_int32_def s p d = on_elem s p (fun v e => tr_GetInt32WithDef v e d)) /\
  (forall d, get_bool_def s p d = on_elem s p (fun v e => tr_GetBoolWithDef v e d)).
Proof.
  unfold get_string_def, get_int_def, get_int32_def, get_bool_def, typed, with_elem, on_elem.
  destruct (get_elem s p) as [e| | |]; [|repeat split; reflexivity ..].
  destruct (tr_getters_equiv e) as (H1 & H2 & H3 & H4). repeat split; intros d.
  - rewrite H1. reflexivity.
  - rewrite H2. reflexivity.
  - rewrite H3. reflexivity.
  - rewrite H4. reflexivity.
Qed.

Lemma gs_cut_spec c : forall s,
  match gs_cut s [c] with
  | Some (a, b) => s = a ++ c :: b /\ ~ In c a
  | None => ~ In c s
  end.
Proof.
  induction s as [|x r IH]; [intros []|]. cbn [gs_cut gs_has_prefix]. destruct (c =? x)%N eqn:E; cbn [andb].
  - apply N.eqb_eq in E. subst x. destruct r; cbn; split; auto.
  - destruct (gs_cut r [c]) as [[a b]|].
    + destruct IH as [-> Hn]. split; [reflexivity|]. intros [H|H]; [subst; rewrite N.eqb_refl in E; discriminate|contradiction].
    + intros [H|H]; [subst; rewrite N.eqb_refl in E; discriminate|contradiction].
Qed.

Lemma gs_splitn_fuel_split c : forall fuel s n, (length s < fuel)%nat -> n < 0 -> gs_splitn_fuel fuel s [c] n = split_on c s.
Proof.
  induction fuel as [|f IH]; intros s n Hl Hn; [lia|]. cbn [gs_splitn_fuel].
  destruct (n =? 1) eqn:E1; [lia|]. pose proof (gs_cut_spec c s) as H. destruct (gs_cut s [c]) as [[a b]|].
  - destruct H as [-> Hna]. rewrite split_on_sep by assumption. f_equal. apply IH; [|lia].
    rewrite app_length in Hl. cbn in Hl. lia.
  - rewrite split_on_nosep by assumption. reflexivity.
Qed.
Lemma gs_split_byte s c : gs_split s [c] = split_on c s.
Proof. unfold gs_split, gs_splitn. cbn [Z.eqb]. apply gs_splitn_fuel_split; lia. Qed.

Lemma gs_trim_left_c c s : gs_trim_left [c] s = trim_left_c c s.
Proof.
  induction s as [|x r IH]; [reflexivity|]. cbn [gs_trim_left trim_left_c gs_mem existsb]. rewrite IH, orb_false_r. reflexivity.
Qed.
Lemma gs_trim_c c s : gs_trim [c] s = trim_c c s.
Proof. unfold gs_trim, gs_trim_right, trim_c. rewrite !frev_rev, !gs_trim_left_c. reflexivity. Qed.

Lemma filter_fold : forall l acc,
  fold_left (fun (g_st : option (list gstr)) (g_item : gstr) =>
               match g_st with
               | None => None
               | Some g_ret => if negb (gs_eqb g_item []) then (let g_ret := g_ret ++ [g_item] in Some g_ret) else (Some g_ret)
               end) l (Some acc) = Some (acc ++ filter nonempty l).
Proof.
  induction l as [|x l IH]; intros acc; cbn [fold_left filter]; [rewrite app_nil_r; reflexivity|].
  rewrite gs_eqb_nil. destruct x as [|c r]; cbn [negb nonempty]; rewrite IH; [reflexivity|]. rewrite <- app_assoc. reflexivity.
Qed.

Lemma last_slice {A} (l : list A) d : l <> [] ->
  gs_in_range l (gs_len l - 1) = true /\ gs_nth l (gs_len l - 1) d = last l d /\
  gs_slice_ok l 0 (gs_len l - 1) = true /\ gs_slice l 0 (gs_len l - 1) = removelast l.
Proof.
  intros H. destruct (exists_last H) as (init & x & ->). unfold gs_in_range, gs_nth, gs_slice_ok, gs_slice, gs_len.
  rewrite app_length. cbn [length]. replace (Z.of_nat (length init + 1) - 1) with (Z.of_nat (length init)) by lia.
  rewrite Z.sub_0_r, !Nat2Z.id, last_last, removelast_last. cbn [Z.to_nat skipn].
  repeat split; try lia.
  - rewrite app_nth2 by lia. rewrite Nat.sub_diag. reflexivity.
  - rewrite firstn_app, Nat.sub_diag, firstn_all. cbn. apply app_nil_r.
Qed.

Theorem tr_analysisPath_equiv : forall p,
  tr_analysisPath p = match analysis_path p with Ok v => Some v | _ => None end.
Proof.
  intros p. unfold tr_analysisPath, analysis_path. rewrite gs_split_byte, frev_rev.
  assert (NE : split_on c_slash p <> []) by (unfold split_on; apply split_on_aux_nonempty).
  change 47%N with c_slash. set (l := split_on c_slash p) in *.
  destruct (last_slice l [] NE) as (E1 & E2 & E3 & E4). unfold gstr, bytes in *. rewrite E1, E2, E3, E4.
  assert (R : rev l = last l [] :: rev (removelast l)).
  { transitivity (rev (removelast l ++ [last l []])); [f_equal; apply app_removelast_last; exact NE|]. rewrite rev_app_distr. reflexivity. }
  rewrite R, frev_rev, rev_involutive.
  rewrite gs_split_byte. change 60%N with c_lt. set (lp := split_on c_lt (last l [])).
  rewrite !filter_fold. destruct lp as [|a [|b [|c lp']]].
  - reflexivity.
  - reflexivity.
  - replace (gs_len [a; b] =? 2) with true by reflexivity. replace (gs_in_range [a; b] 0) with true by reflexivity.
    replace (gs_in_range [a; b] 1) with true by reflexivity. cbn [gs_nth Z.to_nat nth Pos.to_nat Pos.iter_op Nat.add].
    rewrite gs_trim_c. change 62%N with c_gt. rewrite <- app_assoc. reflexivity.
  - match goal with |- context [?x =? 2] => replace (x =? 2) with false by (unfold gs_len; cbn [length]; lia) end. reflexivity.
Qed.

Theorem tr_elem_methods : forall e name child line value kd,
  tr_addLine e line = Some (ge_set_line e (ge_line e ++ [line])) /\
  tr_setValue e value = Some (ge_set_value e value) /\
  tr_addChild e name child = Some (ge_set_children e (gs_map_set (ge_children e) name child)) /\
  tr_findChild e name = Some (gs_map_get2 (ge_children e) name) /\
  tr_newElem kd name = Some {| ge_kind := kd; ge_name := name; ge_value := []; ge_children := []; ge_line := [] |}.
Proof.
  intros. repeat split; try reflexivity. unfold tr_findChild. destruct (gs_map_get2 (ge_children e) name); reflexivity.
Qed.

(* an element of the model's store as the Go code sees it: its children (in store order) and its lines *)
Definition kind_z (k : kind) : Z := match k with KNode => k_conf_Node | KLeaf => k_conf_Leaf end.
Fixpoint child_view (s : store) (K : key) : list (gstr * gchild) :=
  match s with
  | [] => []
  | e :: r => match child_name K e with
              | Some n => (n, {| gc_kind := kind_z (ikind (snd e)); gc_name := n; gc_value := ivalue (snd e) |}) :: child_view r K
              | None => child_view r K
              end
  end.
Definition elem_view (s : store) (K : key) (i : info) : gelem :=
  {| ge_kind := kind_z (ikind i); ge_name := hd [] K; ge_value := ivalue i; ge_children := child_view s K; ge_line := rev (ilines i) |}.
Definition no_elem : gelem := {| ge_kind := 0; ge_name := []; ge_value := []; ge_children := []; ge_line := [] |}.
(* e.getElem(pathVec) *)
Definition get_elem_view (s : store) (v : list bytes) : gelem * bool :=
  match lookup s (key_of_vec v) with Some i => (elem_view s (key_of_vec v) i, false) | None => (no_elem, true) end.

Definition kind_test (kd : kind) (c : gchild) : option bool :=
  match kd with KNode => tr_isNode c | KLeaf => tr_isLeaf c end.
Lemma kind_test_view kd i n : kind_test kd {| gc_kind := kind_z (ikind i); gc_name := n; gc_value := ivalue i |} = Some (is_kind kd i).
Proof. destruct kd; destruct i as [[|] v l]; reflexivity. Qed.

Lemma fold_names kd : forall s K acc,
  fold_left (fun (g_st : option (list gstr)) (g_child : gchild) =>
     match g_st with
     | None => None
     | Some a => if gs_is_some (kind_test kd g_child)
                 then (if gs_get false (kind_test kd g_child) then (let a := a ++ [gc_name g_child] in Some a) else Some a)
                 else None
     end) (map snd (child_view s K)) (Some acc) = Some (acc ++ map fst (children kd s K)).
Proof.
  induction s as [|e r IH]; intros K acc; cbn [child_view children map fold_left]; [rewrite app_nil_r; reflexivity|].
  destruct (child_name K e) as [n|]; [|apply IH]. cbn [map snd fold_left]. rewrite kind_test_view. cbn [gs_is_some gs_get].
  destruct (is_kind kd (snd e)); cbn [gc_name map fst]; rewrite IH; [rewrite <- app_assoc; reflexivity|reflexivity].
Qed.

Lemma fold_pairs : forall s K acc,
  fold_left (fun (g_st : option (list (gstr * gstr))) (g_child : gchild) =>
     match g_st with
     | None => None
     | Some a => if gs_is_some (tr_isLeaf g_child)
                 then (if gs_get false (tr_isLeaf g_child) then (let a := gs_map_set a (gc_name g_child) (gc_value g_child) in Some a) else Some a)
                 else None
     end) (map snd (child_view s K)) (Some acc) =
  Some (fold_left (fun m kv => gs_map_set m (fst kv) (snd kv)) (children KLeaf s K) acc).
Proof.
  induction s as [|e r IH]; intros K acc; cbn [child_view children map fold_left]; [reflexivity|].
  destruct (child_name K e) as [n|]; [|apply IH]. cbn [map snd fold_left].
  change (tr_isLeaf ?c) with (kind_test KLeaf c). rewrite kind_test_view. cbn [gs_is_some gs_get].
  destruct (is_kind KLeaf (snd e)); cbn [gc_name gc_value fold_left fst snd]; apply IH.
Qed.

Theorem tr_listing_getters_equiv : forall s p v, analysis_path p = Ok v ->
  let nd := get_elem_view s v in
  tr_getDomain p (fst nd) (snd nd) = Some (match get_domain s p with Ok l => l | _ => [] end, snd nd) /\
  tr_getDomainKey p (fst nd) (snd nd) = Some (match get_domain_key s p with Ok l => l | _ => [] end, snd nd) /\
  tr_getDomainLine p (fst nd) (snd nd) = Some (match get_domain_line s p with Ok l => l | _ => [] end, snd nd) /\
  tr_getMap p (fst nd) (snd nd) =
    Some (fold_left (fun m kv => gs_map_set m (fst kv) (snd kv)) (match get_map s p with Ok l => l | _ => [] end) [], snd nd) /\
  (forall d, tr_getValue p (fst nd) (snd nd) = Some (match lookup s (key_of_vec v) with Some i => ivalue i | None => [] end, snd nd)
             /\ get_string_def s p d = Ok (match lookup s (key_of_vec v) with Some i => ivalue i | None => d end)).
Proof.
  intros s p v Hp nd. subst nd. unfold get_elem_view.
  unfold tr_getDomain, tr_getDomainKey, tr_getDomainLine, tr_getMap, tr_getValue, get_domain, get_domain_key, get_domain_line, get_map, get_string_def.
  rewrite !(with_elem_path s p v Hp), tr_analysisPath_equiv, Hp.
  destruct (lookup s (key_of_vec v)) as [i|] eqn:L; cbn [fst snd Bool.eqb negb elem_view ge_children ge_line app].
  - change (tr_isNode ?c) with (kind_test KNode c). change (tr_isLeaf ?c) with (kind_test KLeaf c).
    rewrite !fold_names. change (kind_test KLeaf ?c) with (tr_isLeaf c). rewrite fold_pairs, frev_rev.
    repeat split; try reflexivity. rewrite (with_elem_path s p v Hp), L. reflexivity.
  - repeat split; try reflexivity. rewrite (with_elem_path s p v Hp), L. reflexivity.
Qed.

(* with distinct names (every represented store) the map built by getMap is the list of leaves itself *)
Lemma map_set_fresh {V} : forall (m : list (gstr * V)) k v, ~ In k (map fst m) -> gs_map_set m k v = m ++ [(k, v)].
Proof.
  induction m as [|[k' v'] m IH]; intros k v H; [reflexivity|]. cbn [gs_map_set]. cbn in H.
  destruct (gs_eqb k' k) eqn:E.
  - exfalso. apply H. left. apply (proj1 (bytes_eqb_eq k' k)). exact E.
  - rewrite IH by tauto. reflexivity.
Qed.
Lemma map_set_all {V} : forall (l acc : list (gstr * V)), NoDup (map fst (acc ++ l)) ->
  fold_left (fun m kv => gs_map_set m (fst kv) (snd kv)) l acc = acc ++ l.
Proof.
  induction l as [|[k v] l IH]; intros acc ND; [rewrite app_nil_r; reflexivity|]. cbn [fold_left fst snd].
  assert (F : ~ In k (map fst acc)).
  { rewrite map_app in ND. apply NoDup_remove_2 in ND. intros Hin. apply ND. apply in_or_app. left. exact Hin. }
  rewrite map_set_fresh by exact F. rewrite IH; rewrite <- app_assoc; [reflexivity|exact ND].
Qed.

(* getElem walks the tree from the root, child by child; the model looks the whole path up in its flat store. The two
   agree on every store the parser produces: such a store holds, with every element, all its ancestors. *)
Definition present (s : store) (K : key) : Prop := lookup s K <> None.
Definition closed (s : store) : Prop := forall n K, present s (n :: K) -> K <> [] -> present s K.
Definition find_in (s : store) (K : key) (n : gstr) : option key * bool :=
  match lookup s (n :: K) with Some _ => (Some (n :: K), true) | None => (None, false) end.

Lemma closed_suffix s : closed s -> forall pre X, present s (pre ++ X) -> X <> [] -> present s X.
Proof. exact (up_closed_suffix (present s)). Qed.

Lemma fold_inr {H} (f : H -> gstr -> option H * bool) r : forall v,
  fold_left (fun (g_st : option (option H + (option H * bool))) (g_item : gstr) =>
     match g_st with
     | None => None
     | Some (inr g_r) => Some (inr g_r)
     | Some (inl g_targetNode) =>
         if gs_is_some g_targetNode
         then (let '(g_t, g_ok) := gs_find f g_targetNode g_item in
               if negb g_ok then Some (inr (None, true)) else (let g_targetNode := g_t in Some (inl g_targetNode)))
         else None
     end) v (Some (inr r)) = Some (inr r).
Proof. induction v as [|n v IH]; [reflexivity|]. cbn [fold_left]. exact IH. Qed.

Lemma walk_fold s : closed s -> forall v K, present s K -> K <> [] ->
  fold_left (fun (g_st : option (option key + (option key * bool))) (g_item : gstr) =>
     match g_st with
     | None => None
     | Some (inr g_r) => Some (inr g_r)
     | Some (inl g_targetNode) =>
         if gs_is_some g_targetNode
         then (let '(g_t, g_ok) := gs_find (find_in s) g_targetNode g_item in
               if negb g_ok then Some (inr (None, true)) else (let g_targetNode := g_t in Some (inl g_targetNode)))
         else None
     end) v (Some (inl (Some K))) =
  Some (match lookup s (rev v ++ K) with Some _ => inl (Some (rev v ++ K)) | None => inr (None, true) end).
Proof.
  intros C. induction v as [|n v IH]; intros K HK HN.
  - cbn [fold_left rev app]. destruct (lookup s K) eqn:L; [reflexivity|]. exfalso. exact (HK L).
  - cbn [fold_left gs_is_some gs_find rev]. rewrite <- app_assoc. cbn [app].
    destruct (lookup s (n :: K)) as [i|] eqn:L.
    + assert (FI : find_in s K n = (Some (n :: K), true)) by (unfold find_in; rewrite L; reflexivity).
      rewrite FI. cbv beta iota zeta. cbn [negb]. apply IH; [unfold present; rewrite L; discriminate|discriminate].
    + assert (FI : find_in s K n = (None, false)) by (unfold find_in; rewrite L; reflexivity).
      rewrite FI. cbv beta iota zeta. cbn [negb]. rewrite fold_inr. match goal with |- context [lookup s ?X] => destruct (lookup s X) eqn:L2 end; [|reflexivity].
      exfalso. assert (P : present s (n :: K)).
      { apply (closed_suffix s C (rev v)); [|discriminate]. unfold present. unfold gstr, key, bytes in *. rewrite L2. discriminate. }
      exact (P L).
Qed.

Theorem tr_getElem_walk s v : closed s -> present s [root_name] ->
  tr_getElem (find_in s) (Some [root_name]) v =
  Some (match lookup s (key_of_vec v) with Some _ => (Some (key_of_vec v), false) | None => (None, true) end).
Proof.
  intros C R. unfold tr_getElem, key_of_vec. rewrite frev_rev. pose proof (walk_fold s C v [root_name] R) as W.
  cbv zeta in W |- *. unfold gstr, key, bytes in *. rewrite W by discriminate.
  match goal with |- context [lookup s ?X] => destruct (lookup s X) end; reflexivity.
Qed.

(* the invariant of the loop of InitFromBytes: the store is closed and holds the root and every element of the stack
   ([stack_present s] is [ConfProofs.suffixes (present s)], whose lemmas are used on it) *)
Definition stack_present (s : store) (stk : key) : Prop := forall pre X, stk = pre ++ X -> X <> [] -> present s X.
Definition walk_inv (s : store) (stk : key) : Prop := closed s /\ present s [root_name] /\ stack_present s stk.

Lemma is_suffix_length a K : is_suffix a K = true -> (length a <= length K)%nat.
Proof. intros H. apply is_suffix_iff in H. destruct H as [pre ->]. rewrite app_length. lia. Qed.
Lemma is_suffix_cons_r a n K : is_suffix a K = true -> is_suffix a (n :: K) = true.
Proof. intros H. apply is_suffix_iff in H. destruct H as [pre ->]. apply is_suffix_iff. exists (n :: pre). reflexivity. Qed.

(* A child N of the top of the stack is added, and of the old elements those satisfying [keep] stay: the invariant is
   kept if [keep] holds of everything no longer than the stack and passes from an element to its parent. *)
Lemma walk_inv_add s s' stk n0 (keep : key -> Prop) : stk <> [] -> walk_inv s stk ->
  (forall X, present s' X <-> X = n0 :: stk \/ (keep X /\ present s X)) ->
  (forall X, (length X <= length stk)%nat -> keep X) -> (forall n K, keep (n :: K) -> keep K) ->
  walk_inv s' stk /\ present s' (n0 :: stk).
Proof.
  intros NE (C & R & SP) EQ SHORT UP.
  assert (PS : present s stk) by (apply (suffixes_self (present s)); assumption).
  split; [|apply EQ; left; reflexivity]. repeat split.
  - intros n K H HK. apply EQ. right. apply EQ in H. destruct H as [H|[H1 H2]].
    + injection H as _ ->. split; [apply SHORT; lia|exact PS].
    + split; [exact (UP n K H1)|exact (C n K H2 HK)].
  - apply EQ. right. split; [|exact R]. apply SHORT. destruct stk; [contradiction|]. cbn. lia.
  - intros pre X E HX. apply EQ. right. split; [|apply (SP pre X E HX)]. apply SHORT. subst stk. rewrite app_length. lia.
Qed.

Lemma present_do_line s K1 l1 X : present (do_line s K1 l1) X <->
  match key_of_line l1 with
  | [] => present s X
  | k1 => X = k1 :: K1 \/ (is_suffix (k1 :: K1) X = false /\ present s X)
  end.
Proof.
  unfold present. rewrite lookup_do_line. cbv zeta.
  assert (E : (if key_eqb K1 X then option_map (with_line l1) (lookup s X) else lookup s X) <> None <-> lookup s X <> None).
  { destruct (key_eqb K1 X); [|tauto]. destruct (lookup s X); cbn; split; intros H; try discriminate; assumption. }
  destruct (key_of_line l1) as [|c r]; [exact E|].
  unfold key, bytes in *. destruct (key_eqb ((c :: r) :: K1) X) eqn:E1.
  - apply key_eqb_eq in E1. split; [intros _; left; symmetry; exact E1|intros _; discriminate].
  - destruct (is_suffix ((c :: r) :: K1) X) eqn:E2.
    + split; [intros H; contradiction|]. intros [H|[H _]]; [subst X; rewrite key_eqb_refl in E1; discriminate|discriminate].
    + rewrite E. split; [intros H; right; split; [reflexivity|exact H]|].
      intros [H|[_ H]]; [subst X; rewrite key_eqb_refl in E1; discriminate|exact H].
Qed.

Lemma walk_inv_do_line s stk line : stk <> [] -> walk_inv s stk -> walk_inv (do_line s stk line) stk.
Proof.
  intros NE (C & R & SP). destruct (key_of_line line) as [|c r] eqn:KL.
  - assert (EQ : forall X, present (do_line s stk line) X <-> present s X) by (intros X; rewrite present_do_line, KL; cbv beta iota; split; intro HH; exact HH).
    repeat split.
    + intros n K H HK. apply EQ. apply (C n); [apply EQ; exact H|exact HK].
    + apply EQ. exact R.
    + intros pre X E HX. apply EQ. apply (SP pre X E HX).
  - apply (walk_inv_add s _ stk (c :: r) (fun X => is_suffix ((c :: r) :: stk) X = false) NE (conj C (conj R SP))).
    + intros X. rewrite present_do_line, KL. reflexivity.
    + intros X HL. destruct (is_suffix ((c :: r) :: stk) X) eqn:E; [|reflexivity]. apply is_suffix_length in E. cbn in E. lia.
    + intros n K H. destruct (is_suffix ((c :: r) :: stk) K) eqn:E; [|reflexivity].
      apply (is_suffix_cons_r _ n) in E. unfold key, bytes in *. congruence.
Qed.

Lemma walk_inv_segments : forall segs s stk s', stk <> [] -> walk_inv s stk -> do_segments s stk segs = Some s' -> walk_inv s' stk.
Proof.
  induction segs as [|seg r IH]; intros s stk s' NE I H; cbn [do_segments] in H; [inversion H; subst; exact I|].
  destruct (max_scan_token <=? N.of_nat (length seg))%N; [discriminate|].
  destruct (content_line seg) as [b|]; [|apply (IH s stk s' NE I H)]. apply (IH (do_line s stk b) stk s' NE); [apply walk_inv_do_line; assumption|exact H].
Qed.

Lemma walk_inv_loop : forall ts s stk t, walk_inv s stk -> conf_loop ts s stk = Ok t -> closed t /\ present t [root_name].
Proof.
  induction ts as [|tok ts IH]; intros s stk t I H.
  - destruct stk; cbn in H; [discriminate|]. inversion H; subst. destruct I as (C & R & _). auto.
  - destruct stk as [|top below]; [cbn in H; discriminate|]. destruct I as (C & R & SP).
    destruct tok as [n|n|tx]; cbn [conf_loop] in H.
    + destruct (lookup s (n :: top :: below)) eqn:L.
      * apply (IH s (n :: top :: below) t); [|exact H]. repeat split; try assumption.
        apply suffixes_push; [|exact SP]. unfold present. rewrite L. discriminate.
      * apply (IH ((n :: top :: below, new_node) :: s) (n :: top :: below) t); [|exact H].
        destruct (walk_inv_add s ((n :: top :: below, new_node) :: s) (top :: below) n (fun _ => True))
          as [(C' & R' & SP') PN]; [discriminate | exact (conj C (conj R SP)) | | auto | auto |].
        { intros X. unfold present. cbn [lookup]. destruct (key_eqb (n :: top :: below) X) eqn:E.
          - apply key_eqb_eq in E. split; [intros _; left; symmetry; exact E|intros _; discriminate].
          - split; [intros HH; right; split; [exact I|exact HH]|]. intros [HH|[_ HH]]; [subst X; rewrite key_eqb_refl in E; discriminate|exact HH]. }
        repeat split; try assumption. apply suffixes_push; assumption.
    + destruct (bytes_eqb top n); [|discriminate]. apply (IH s below t); [|exact H]. repeat split; try assumption.
      apply (suffixes_pop _ top), SP.
    + destruct (do_segments s (top :: below) (split_lines tx)) as [s'|] eqn:D; [|discriminate].
      apply (IH s' (top :: below) t); [|exact H]. apply (walk_inv_segments (split_lines tx) s (top :: below) s'); [discriminate| |exact D]. repeat split; assumption.
Qed.

Theorem parse_store_closed bs t : parse bs = Ok t -> closed t /\ present t [root_name].
Proof.
  intros H. unfold parse in H. destruct (raw_status bs); try discriminate.
  destruct (balanced (raw_tokens bs)); [|discriminate].
  apply (walk_inv_loop (raw_tokens bs) init_store [root_name] t); [|exact H]. repeat split.
  - intros n K HP HK. unfold present, init_store in HP. cbn [lookup] in HP.
    destruct (key_eqb [root_name] (n :: K)) eqn:E; [|contradiction]. apply key_eqb_eq in E. injection E as _ E. subst K. contradiction.
  - unfold present. cbn. discriminate.
  - apply suffixes_one. unfold present. cbn. discriminate.
Qed.

(* getElem on every store the parser produces = the model's direct lookup *)
Theorem getElem_translated bs t v : parse bs = Ok t ->
  tr_getElem (find_in t) (Some [root_name]) v =
  Some (match lookup t (key_of_vec v) with Some _ => (Some (key_of_vec v), false) | None => (None, true) end).
Proof. intros H. destruct (parse_store_closed bs t H) as [C R]. apply tr_getElem_walk; assumption. Qed.

(* a Go map iterates in an unspecified order: whatever the order of the children, the listings are the same up to
   order, each child of the kind once, and getMap builds the same map *)
Definition kind_is (kd : kind) (c : gchild) : bool := Z.eqb (gc_kind c) (kind_z kd).
Definition names_of (kd : kind) (cs : list gchild) : list gstr := map gc_name (filter (kind_is kd) cs).

Lemma kind_test_total kd c : kind_test kd c = Some (kind_is kd c).
Proof. destruct kd; reflexivity. Qed.

Lemma fold_names_any kd : forall cs acc,
  fold_left (fun (g_st : option (list gstr)) (g_child : gchild) =>
     match g_st with
     | None => None
     | Some a => if gs_is_some (kind_test kd g_child)
                 then (if gs_get false (kind_test kd g_child) then (let a := a ++ [gc_name g_child] in Some a) else Some a)
                 else None
     end) cs (Some acc) = Some (acc ++ names_of kd cs).
Proof.
  unfold names_of. induction cs as [|c cs IH]; intros acc; cbn [fold_left filter map]; [rewrite app_nil_r; reflexivity|].
  rewrite kind_test_total. cbn [gs_is_some gs_get]. destruct (kind_is kd c); cbn [map]; rewrite IH; [rewrite <- app_assoc; reflexivity|reflexivity].
Qed.

Theorem listing_any_order p v nd : analysis_path p = Ok v ->
  tr_getDomain p nd false = Some (names_of KNode (map snd (ge_children nd)), false) /\
  tr_getDomainKey p nd false = Some (names_of KLeaf (map snd (ge_children nd)), false).
Proof.
  intros Hp. unfold tr_getDomain, tr_getDomainKey. rewrite tr_analysisPath_equiv, Hp. cbn [Bool.eqb negb]. split.
  - change (tr_isNode ?c) with (kind_test KNode c). rewrite fold_names_any. reflexivity.
  - change (tr_isLeaf ?c) with (kind_test KLeaf c). rewrite fold_names_any. reflexivity.
Qed.

Lemma names_of_perm kd cs cs' : Permutation cs cs' -> Permutation (names_of kd cs) (names_of kd cs').
Proof.
  unfold names_of. intros P. apply Permutation_map. induction P as [|x l l' P IH|x y l|l l' l'' P1 IH1 P2 IH2]; cbn [filter].
  - constructor.
  - destruct (kind_is kd x); [constructor; exact IH|exact IH].
  - destruct (kind_is kd x); destruct (kind_is kd y); try apply Permutation_refl. apply perm_swap.
  - eapply Permutation_trans; eassumption.
Qed.

Theorem listing_order_independent p v nd nd' : analysis_path p = Ok v ->
  Permutation (map snd (ge_children nd)) (map snd (ge_children nd')) ->
  exists l l' k k', tr_getDomain p nd false = Some (l, false) /\ tr_getDomain p nd' false = Some (l', false) /\ Permutation l l' /\
                    tr_getDomainKey p nd false = Some (k, false) /\ tr_getDomainKey p nd' false = Some (k', false) /\ Permutation k k'.
Proof.
  intros Hp P. destruct (listing_any_order p v nd Hp) as [A1 A2]. destruct (listing_any_order p v nd' Hp) as [B1 B2].
  do 4 eexists. repeat split; try eassumption; apply names_of_perm; exact P.
Qed.

Example ex_listing_order :
  let c1 := {| gc_kind := k_conf_Node; gc_name := [97%N]; gc_value := [] |} in
  let c2 := {| gc_kind := k_conf_Leaf; gc_name := [98%N]; gc_value := [49%N] |} in
  analysis_path [47%N; 120%N] = Ok [[120%N]] /\ Permutation [c1; c2] [c2; c1].
Proof. split; [reflexivity|apply perm_swap]. Qed.
