(* Proofs about the model Conf/Conf.v (C17), in this order:
   1. the parser as one equation ([parse_eq]);
   2. what its store holds under every key, as a function of the document's events ([lookup_run_events], hence [represents]);
   3. the tokenizer on rendered documents ([lex_rendered]; so a rendered document is accepted and represented); its status
      is sticky, hence the repaired parser is conservative over the old loop ([repair_conservative]);
   4. the line scanner on lines and text runs as the grammar writes them ([kv_line_read], [grammar_lines_read]);
   5. analysisPath and the getters on a represented store; the integer conversions ([parse_int_spec]); end to end in the
      grammar's terms ([grammar_value]);
   6. boolean tests for the side conditions of these theorems; the examples and counterexamples, checked with them. *)
From Coq Require Import List NArith ZArith Bool Lia ZifyBool ZifyNat ZifyN.
From TarsV Require Import Base.Hex Base.Lts Gen.Consts Conf.Conf Conf.ConfSpec.
From TarsV Require Endpoint.Parse Endpoint.ParseProofs.
Import Endpoint.ParseProofs(sign_split, sign_split_cons, dec_split).
Import ListNotations.
Open Scope bool_scope.
Open Scope N_scope.

Lemma frev_rev {A} (l : list A) : frev l = rev l.
Proof. unfold frev. symmetry. apply rev_alt. Qed.

Lemma key_eqb_eq a b : key_eqb a b = true <-> a = b.
Proof. apply list_eqb_eq. apply bytes_eqb_eq. Qed.
Lemma key_eqb_refl a : key_eqb a a = true.
Proof. apply key_eqb_eq. reflexivity. Qed.
Lemma key_eqb_neq a b : a <> b -> key_eqb a b = false.
Proof. intros H. destruct (key_eqb a b) eqn:E; [apply key_eqb_eq in E; contradiction|reflexivity]. Qed.
Lemma bytes_eqb_refl a : bytes_eqb a a = true.
Proof. apply bytes_eqb_eq. reflexivity. Qed.
Lemma bytes_eqb_neq a b : a <> b -> bytes_eqb a b = false.
Proof. intros H. destruct (bytes_eqb a b) eqn:E; [apply bytes_eqb_eq in E; contradiction|reflexivity]. Qed.

Lemma notin_app {A} (x : A) a b : ~ In x a -> ~ In x b -> ~ In x (a ++ b).
Proof. intros Ha Hb H. apply in_app_or in H. tauto. Qed.
Lemma notin_one {A} (x y : A) : x <> y -> ~ In x [y].
Proof. intros H [E|[]]. congruence. Qed.
Lemma notin_cons (x c : N) l : ~ In x (c :: l) -> (c =? x) = false /\ ~ In x l.
Proof. intros H. split; [apply N.eqb_neq; intros ->; apply H; left; reflexivity | intros Hin; apply H; right; exact Hin]. Qed.

Lemma removelast_last_forall {A} (P : A -> Prop) (l : list A) d : Forall P l -> P d -> Forall P (removelast l) /\ P (last l d).
Proof.
  induction 1 as [|x l Hx Hl IH]; intros Hd; [split; [constructor|assumption]|].
  destruct l as [|y l]; [split; [constructor|assumption]|]. destruct (IH Hd) as [I1 I2]. split; [constructor; assumption|assumption].
Qed.

Definition doc_events (bs : bytes) : list event := events (raw_tokens bs) [root_name].

Definition seg_short (seg : bytes) : bool := N.of_nat (length seg) <? max_scan_token.
Definition short (ts : list token) : bool :=
  forallb (fun tok => match tok with TText t => forallb seg_short (split_lines t) | _ => true end) ts.

Lemma short_lines_iff ts : short ts = true <-> short_lines ts.
Proof.
  unfold short, short_lines. rewrite forallb_forall. split.
  - intros H t seg Ht Hs. specialize (H _ Ht). cbn in H. rewrite forallb_forall in H. apply N.ltb_lt, H, Hs.
  - intros H [n|n|t] Ht; try reflexivity. apply forallb_forall. intros seg Hs. apply N.ltb_lt, (H t); assumption.
Qed.

Lemma do_segments_eq stk : forall segs s,
  do_segments s stk segs =
  if forallb seg_short segs then Some (fold_left apply_ev (map (EvLine stk) (flat_map line_content segs)) s) else None.
Proof.
  induction segs as [|seg r IH]; intros s; [reflexivity|]. cbn [do_segments forallb flat_map]. unfold seg_short at 1.
  rewrite N.ltb_antisym. destruct (max_scan_token <=? N.of_nat (length seg)); [reflexivity|].
  unfold line_content at 1. destruct (content_line seg); apply IH.
Qed.

(* the loop of InitFromBytes on a balanced token list: no index panic, no "xml end not match"; it is the fold of the
   document's events unless some line is too long for the scanner *)
Lemma conf_loop_eq : forall ts s names base, base <> [] -> balanced_from names ts = true ->
  conf_loop ts s (names ++ base) = if short ts then Ok (fold_left apply_ev (events ts (names ++ base)) s) else Err 3.
Proof.
  induction ts as [|tok ts IH]; intros s names base NE Hb.
  all: destruct (names ++ base) as [|top below] eqn:E; [destruct names; [contradiction|discriminate]|].
  { reflexivity. }
  destruct tok as [n|n|tx]; cbn in Hb; cbn [conf_loop events short forallb andb fold_left apply_ev tl].
  - rewrite <- E. destruct (lookup s (n :: names ++ base)); apply (IH _ (n :: names)); assumption.
  - destruct names as [|top' names]; [discriminate|]. injection E as -> <-.
    destruct (bytes_eqb top n); [apply IH; assumption|discriminate].
  - rewrite do_segments_eq. destruct (forallb seg_short (split_lines tx)); [|reflexivity].
    rewrite <- E, fold_left_app. apply IH; assumption.
Qed.

Theorem parse_eq bs : parse bs =
  match raw_status bs with
  | Unmod => Unmodelled
  | Failed => Err 1
  | Clean => if balanced (raw_tokens bs)
             then if short (raw_tokens bs) then Ok (run_events (doc_events bs)) else Err 3
             else Err 1
  end.
Proof.
  unfold parse. destruct (raw_status bs); try reflexivity. destruct (balanced (raw_tokens bs)) eqn:B; [|reflexivity].
  apply (conf_loop_eq _ init_store [] [root_name]); [discriminate|exact B].
Qed.

Theorem parse_no_panic bs n : parse bs <> Panic n.
Proof. rewrite parse_eq. destruct (raw_status bs), (balanced (raw_tokens bs)), (short (raw_tokens bs)); discriminate. Qed.

Theorem parse_whole_or_error bs t : parse bs = Ok t ->
  raw_status bs = Clean /\ balanced (raw_tokens bs) = true /\ short_lines (raw_tokens bs) /\ t = run_events (doc_events bs).
Proof.
  rewrite parse_eq, <- short_lines_iff.
  destruct (raw_status bs), (balanced (raw_tokens bs)), (short (raw_tokens bs)); try discriminate. intros [= <-]. auto.
Qed.

Theorem parse_accepts bs :
  raw_status bs = Clean -> balanced (raw_tokens bs) = true -> short_lines (raw_tokens bs) ->
  parse bs = Ok (run_events (doc_events bs)).
Proof. rewrite parse_eq, <- short_lines_iff. intros -> -> ->. reflexivity. Qed.

Theorem parse_error_cases bs :
  (exists t, parse bs = Ok t) \/ parse bs = Unmodelled \/ parse bs = Err 1 \/ parse bs = Err 3.
Proof. rewrite parse_eq. destruct (raw_status bs), (balanced (raw_tokens bs)), (short (raw_tokens bs)); eauto. Qed.

Definition with_line (l : bytes) (i : info) : info := {| ikind := ikind i; ivalue := ivalue i; ilines := l :: ilines i |}.

Lemma lookup_add_line : forall s cur l X,
  lookup (add_line s cur l) X = if key_eqb cur X then option_map (with_line l) (lookup s X) else lookup s X.
Proof.
  induction s as [|[k' i] r IH]; intros cur l X; cbn [add_line lookup].
  - destruct (key_eqb cur X); reflexivity.
  - destruct (key_eqb k' cur) eqn:E1.
    + apply key_eqb_eq in E1. subst k'. cbn [lookup]. destruct (key_eqb cur X) eqn:E2; reflexivity.
    + cbn [lookup]. destruct (key_eqb k' X) eqn:E2.
      * apply key_eqb_eq in E2. subst k'. rewrite key_eqb_neq; [reflexivity|].
        intros ->. rewrite key_eqb_refl in E1. discriminate.
      * apply IH.
Qed.

Lemma map_fst_add_line : forall s cur l, map fst (add_line s cur l) = map fst s.
Proof.
  induction s as [|[k' i] r IH]; intros cur l; cbn [add_line]; [reflexivity|].
  destruct (key_eqb k' cur); cbn [map fst]; [reflexivity|]. rewrite IH. reflexivity.
Qed.

Lemma lookup_filter (f : key -> bool) : forall s X,
  lookup (filter (fun e => f (fst e)) s) X = if f X then lookup s X else None.
Proof.
  induction s as [|[k' i] r IH]; intros X; cbn [filter lookup fst].
  - destruct (f X); reflexivity.
  - destruct (f k') eqn:F; cbn [lookup]; destruct (key_eqb k' X) eqn:E.
    + apply key_eqb_eq in E. subst. rewrite F. reflexivity.
    + apply IH.
    + apply key_eqb_eq in E. subst. rewrite IH, F. reflexivity.
    + apply IH.
Qed.

Lemma lookup_remove_under s k X : lookup (remove_under s k) X = if is_suffix k X then None else lookup s X.
Proof.
  unfold remove_under. rewrite (lookup_filter (fun K => negb (is_suffix k K))). destruct (is_suffix k X); reflexivity.
Qed.

Lemma lookup_none_notin : forall s K, lookup s K = None -> ~ In K (map fst s).
Proof.
  induction s as [|[k' i] r IH]; intros K H; cbn in *; [tauto|].
  destruct (key_eqb k' K) eqn:E; [discriminate|]. intros [->|Hin]; [rewrite key_eqb_refl in E; discriminate | exact (IH _ H Hin)].
Qed.

Lemma lookup_in : forall s K i, lookup s K = Some i -> In (K, i) s.
Proof.
  induction s as [|[k' i'] r IH]; intros K i H; cbn in *; [discriminate|].
  destruct (key_eqb k' K) eqn:E; [apply key_eqb_eq in E; inversion H; subst; left; reflexivity | right; apply IH; assumption].
Qed.

Lemma in_lookup : forall s K i, NoDup (map fst s) -> In (K, i) s -> lookup s K = Some i.
Proof.
  induction s as [|[k' i'] r IH]; intros K i ND Hin; cbn in *; [contradiction|].
  inversion ND as [|? ? Hn ND']; subst. destruct Hin as [E|Hin].
  - inversion E; subst. rewrite key_eqb_refl. reflexivity.
  - destruct (key_eqb k' K) eqn:E; [|apply IH; assumption].
    apply key_eqb_eq in E. subst. exfalso. apply Hn. apply (in_map fst) in Hin. exact Hin.
Qed.

Lemma is_suffix_iff a K : is_suffix a K = true <-> exists pre, K = pre ++ a.
Proof.
  unfold is_suffix. split.
  - intros H. apply andb_true_iff in H. destruct H as [_ H]. apply key_eqb_eq in H.
    exists (firstn (length K - length a) K).
    transitivity (firstn (length K - length a) K ++ skipn (length K - length a) K); [symmetry; apply firstn_skipn | f_equal; exact H].
  - intros [pre ->]. apply andb_true_iff. split.
    + rewrite app_length. apply Nat.leb_le. lia.
    + apply key_eqb_eq. rewrite app_length. replace (length pre + length a - length a)%nat with (length pre) by lia.
      rewrite skipn_app, skipn_all, Nat.sub_diag. reflexivity.
Qed.
Lemma is_suffix_refl a : is_suffix a a = true.
Proof. apply is_suffix_iff. exists []. reflexivity. Qed.
Lemma is_suffix_cons a n K : is_suffix a (n :: K) = true -> a = n :: K \/ is_suffix a K = true.
Proof.
  intros H. apply is_suffix_iff in H. destruct H as [[|m pre] E]; cbn in E.
  - left. congruence.
  - right. inversion E; subst. apply is_suffix_iff. exists pre. reflexivity.
Qed.

(* a property of every non-empty suffix of the element stack, i.e. of every element the loop has open *)
Definition suffixes (P : key -> Prop) (stk : key) : Prop := forall pre X, stk = pre ++ X -> X <> [] -> P X.
Lemma suffixes_self (P : key -> Prop) stk : stk <> [] -> suffixes P stk -> P stk.
Proof. intros N H. exact (H [] stk eq_refl N). Qed.
Lemma suffixes_push (P : key -> Prop) n stk : P (n :: stk) -> suffixes P stk -> suffixes P (n :: stk).
Proof. intros H0 H [|m pre] X E HX; cbn in E; [subst X; exact H0|]. injection E as _ E. exact (H pre X E HX). Qed.
Lemma suffixes_pop (P : key -> Prop) n stk : suffixes P (n :: stk) -> suffixes P stk.
Proof. intros H pre X E HX. apply (H (n :: pre) X); [cbn; rewrite E; reflexivity|exact HX]. Qed.
Lemma suffixes_impl (P Q : key -> Prop) stk : (forall X, P X -> Q X) -> suffixes P stk -> suffixes Q stk.
Proof. intros I H pre X E HX. exact (I X (H pre X E HX)). Qed.
(* a property that passes from an element to its parent holds of every non-empty suffix *)
Lemma up_closed_suffix (P : key -> Prop) : (forall n K, P (n :: K) -> K <> [] -> P K) ->
  forall pre X, P (pre ++ X) -> X <> [] -> P X.
Proof.
  intros C. induction pre as [|n pre IH]; intros X H HX; [exact H|]. apply IH; [|exact HX].
  apply (C n); [exact H|]. destruct pre; [exact HX|discriminate].
Qed.
Lemma suffixes_one (P : key -> Prop) (r : bytes) : P [r] -> suffixes P [r].
Proof.
  intros H. apply suffixes_push; [exact H|]. intros pre X E HX. symmetry in E. apply app_eq_nil in E. destruct E. contradiction.
Qed.

Lemma opens_app a b : opens (a ++ b) = opens a ++ opens b.
Proof. unfold opens. apply flat_map_app. Qed.
Lemma lines_of_app a b K : lines_of (a ++ b) K = lines_of a K ++ lines_of b K.
Proof. unfold lines_of. apply flat_map_app. Qed.
Lemma assigns_app a b K k : assigns (a ++ b) K k = assigns a K k ++ assigns b K k.
Proof. unfold assigns. rewrite lines_of_app, filter_app, map_app. reflexivity. Qed.
Lemma live_app_l a b K : live a K -> live (a ++ b) K.
Proof. intros [H|H]; [left; assumption|right; rewrite opens_app; apply in_or_app; left; assumption]. Qed.

Lemma lines_of_in : forall evs K l, In l (lines_of evs K) -> In (EvLine K l) evs.
Proof.
  induction evs as [|e r IH]; intros K l H; cbn in H; [contradiction|].
  apply in_app_or in H. destruct H as [H|H]; [|right; apply IH; assumption].
  destruct e as [k|k l']; [contradiction|]. destruct (key_eqb k K) eqn:E; [|contradiction].
  apply key_eqb_eq in E. destruct H as [->|[]]. subst. left. reflexivity.
Qed.
Lemma assigns_in evs K k : assigns evs K k <> [] -> exists l, In (EvLine K l) evs /\ key_of_line l = k.
Proof.
  unfold assigns. intros H.
  destruct (filter (fun l => bytes_eqb (key_of_line l) k) (lines_of evs K)) as [|l r] eqn:E; [contradiction|].
  assert (Hin : In l (filter (fun l => bytes_eqb (key_of_line l) k) (lines_of evs K))) by (rewrite E; left; reflexivity).
  apply filter_In in Hin. destruct Hin as [Hin Hk]. apply bytes_eqb_eq in Hk. exists l. split; [apply lines_of_in; assumption|assumption].
Qed.

Lemma ev_wf_app : forall a o b, ev_wf o (a ++ b) <-> ev_wf o a /\ ev_wf (rev (opens a) ++ o) b.
Proof.
  induction a as [|e a IH]; intros o b; cbn [app].
  - cbn. tauto.
  - destruct e as [K|K l]; cbn [ev_wf].
    + rewrite IH. replace (rev (opens (EvOpen K :: a)) ++ o) with (rev (opens a) ++ K :: o); [tauto|].
      change (opens (EvOpen K :: a)) with (K :: opens a). cbn [rev]. rewrite <- app_assoc. reflexivity.
    + rewrite IH. change (opens (EvLine K l :: a)) with (opens a). tauto.
Qed.

Lemma in_opened a K : In K (rev (opens a) ++ [[root_name]]) <-> live a K.
Proof.
  unfold live. rewrite in_app_iff, <- in_rev. cbn. split; [intros [H|[H|[]]]; auto | intros [H|H]; auto].
Qed.

Lemma ev_wf_line_live : forall evs o K l, ev_wf o evs -> In (EvLine K l) evs -> In K o \/ In K (opens evs).
Proof.
  induction evs as [|e r IH]; intros o K l W Hin; [contradiction|].
  destruct e as [K'|K' l']; cbn [ev_wf] in W; destruct W as [W1 W2]; destruct Hin as [E|Hin]; try discriminate.
  - destruct (IH _ _ _ W2 Hin) as [[->|H]|H]; [right; left; reflexivity | left; assumption | right; right; assumption].
  - inversion E; subst. left. assumption.
  - apply (IH _ _ _ W2 Hin).
Qed.

Lemma line_live evs K l : ev_wf [[root_name]] evs -> In (EvLine K l) evs -> live evs K.
Proof. intros W Hin. destruct (ev_wf_line_live _ _ _ _ W Hin) as [[H|[]]|H]; [left; symmetry; exact H|right; exact H]. Qed.

Lemma ev_wf_open_parent : forall evs o K, ev_wf o evs -> In K (opens evs) ->
  exists n K0, K = n :: K0 /\ (In K0 o \/ In K0 (opens evs)).
Proof.
  induction evs as [|e r IH]; intros o K W Hin; [contradiction|].
  destruct e as [K'|K' l']; cbn [ev_wf] in W; destruct W as [W1 W2].
  - change (opens (EvOpen K' :: r)) with (K' :: opens r) in *. destruct Hin as [->|Hin].
    + destruct W1 as (n & K0 & -> & H0). exists n, K0. split; [reflexivity|left; assumption].
    + destruct (IH _ _ W2 Hin) as (n & K0 & -> & [[->|H]|H]); exists n, K0; (split; [reflexivity|]).
      * right. left. reflexivity.
      * left. assumption.
      * right. right. assumption.
  - change (opens (EvLine K' l' :: r)) with (opens r) in *. apply (IH _ _ W2 Hin).
Qed.

Lemma live_suffix evs : ev_wf [[root_name]] evs -> forall pre X, live evs (pre ++ X) -> X <> [] -> live evs X.
Proof.
  intros W. apply up_closed_suffix. intros n K [E|Hin] HK.
  - injection E as _ E. contradiction.
  - destruct (ev_wf_open_parent _ _ _ W Hin) as (n' & K0 & E & H). injection E as _ ->.
    destruct H as [[H|[]]|H]; [left; symmetry; exact H | right; exact H].
Qed.

Lemma run_events_snoc a e : run_events (a ++ [e]) = apply_ev (run_events a) e.
Proof. unfold run_events. rewrite fold_left_app. reflexivity. Qed.

Lemma no_clobber_prefix a b : no_clobber (a ++ b) -> no_clobber a.
Proof.
  intros H K l Hin Hk HL. apply (H K l); [apply in_or_app; left; assumption | assumption | apply live_app_l; assumption].
Qed.

Lemma lookup_do_line s K1 l1 X :
  lookup (do_line s K1 l1) X =
    let s1v := if key_eqb K1 X then option_map (with_line l1) (lookup s X) else lookup s X in
    match key_of_line l1 with
    | [] => s1v
    | k1 => if key_eqb (k1 :: K1) X then Some (new_leaf (value_of_line l1))
            else if is_suffix (k1 :: K1) X then None else s1v
    end.
Proof.
  unfold do_line, key_of_line, value_of_line. destruct (line_kv l1) as [k v]. cbn [fst snd].
  destruct k as [|c r]; [apply lookup_add_line|].
  cbn [lookup]. unfold key, bytes in *. destruct (key_eqb ((c :: r) :: K1) X); [reflexivity|].
  rewrite lookup_remove_under. destruct (is_suffix ((c :: r) :: K1) X); [reflexivity|apply lookup_add_line].
Qed.

Lemma NoDup_map_filter {A C} (g : A -> C) (f : A -> bool) : forall l, NoDup (map g l) -> NoDup (map g (filter f l)).
Proof.
  induction l as [|x l IH]; intros ND; cbn in *; [constructor|].
  inversion ND as [|? ? Hn ND']; subst. destruct (f x); cbn; [|apply IH; assumption].
  constructor; [|apply IH; assumption]. intros Hin. apply Hn. apply in_map_iff in Hin. destruct Hin as (y & E & Hy).
  apply filter_In in Hy. apply in_map_iff. exists y. tauto.
Qed.

Lemma run_events_nodup : forall evs s, NoDup (map fst s) -> NoDup (map fst (fold_left apply_ev evs s)).
Proof.
  induction evs as [|e evs IH]; intros s ND; [exact ND|]. cbn [fold_left]. apply IH. destruct e as [K|K l]; cbn [apply_ev].
  - destruct (lookup s K) eqn:L; [exact ND|]. cbn [map fst]. constructor; [apply lookup_none_notin, L|exact ND].
  - unfold do_line. destruct (line_kv l) as [k v]. destruct k as [|c r]; [rewrite map_fst_add_line; exact ND|].
    cbn [map fst]. constructor.
    + apply lookup_none_notin. rewrite lookup_remove_under, is_suffix_refl. reflexivity.
    + unfold remove_under. apply NoDup_map_filter. rewrite map_fst_add_line. exact ND.
Qed.

(* What the store of a document holds under a key, as a function of its events: a live domain holds its lines; otherwise
   a key holds its last value.  The two cases are kept apart by [no_clobber]. *)
Definition liveb (evs : list event) (K : key) : bool := existsb (fun K' => key_eqb K' K) ([root_name] :: opens evs).
Definition key_value (evs : list event) (X : key) : option info :=
  match X with
  | ((_ :: _) as k) :: K => match assigns evs K k with [] => None | l => Some (new_leaf (last l [])) end
  | _ => None
  end.
Definition holds (evs : list event) (X : key) : option info :=
  if liveb evs X then Some {| ikind := KNode; ivalue := []; ilines := rev (lines_of evs X) |} else key_value evs X.

Lemma liveb_live evs K : liveb evs K = true <-> live evs K.
Proof.
  unfold liveb, live. rewrite existsb_exists. split.
  - intros (X & [<-|Hin] & E); apply key_eqb_eq in E; subst; auto.
  - intros [->|Hin]; [exists [root_name]|exists K]; (split; [cbn; auto|apply key_eqb_refl]).
Qed.
Lemma liveb_snoc_open a K0 X : liveb (a ++ [EvOpen K0]) X = liveb a X || key_eqb K0 X.
Proof. unfold liveb. rewrite opens_app. cbn [existsb]. rewrite existsb_app. cbn. rewrite orb_false_r, orb_assoc. reflexivity. Qed.
Lemma liveb_snoc_line a K l X : liveb (a ++ [EvLine K l]) X = liveb a X.
Proof. unfold liveb. rewrite opens_app. cbn [opens flat_map app]. rewrite app_nil_r. reflexivity. Qed.

Lemma holds_snoc_open a K0 X : holds (a ++ [EvOpen K0]) X =
  if key_eqb K0 X then Some {| ikind := KNode; ivalue := []; ilines := rev (lines_of a X) |} else holds a X.
Proof.
  unfold holds, key_value. rewrite liveb_snoc_open, lines_of_app. cbn [lines_of flat_map]. rewrite app_nil_r.
  destruct (key_eqb K0 X); [rewrite orb_true_r; reflexivity|rewrite orb_false_r].
  destruct X as [|[|c r] K]; try reflexivity. rewrite assigns_app. cbn. rewrite app_nil_r. reflexivity.
Qed.

Lemma lookup_step_open a K0 s : ev_wf [[root_name]] (a ++ [EvOpen K0]) -> no_clobber (a ++ [EvOpen K0]) ->
  (forall X, lookup s X = holds a X) -> forall X, lookup (apply_ev s (EvOpen K0)) X = holds (a ++ [EvOpen K0]) X.
Proof.
  intros W NC IH X. apply ev_wf_app in W. destruct W as [Wa _].
  rewrite holds_snoc_open. cbn [apply_ev]. destruct (key_eqb K0 X) eqn:E.
  - apply key_eqb_eq in E. subst X. rewrite IH. unfold holds. destruct (liveb a K0) eqn:LV.
    + rewrite IH. unfold holds. rewrite LV. reflexivity.
    + (* neither a key (no_clobber) nor a domain with lines (ev_wf) so far *)
      assert (C : key_value a K0 = None).
      { unfold key_value. destruct K0 as [|[|c r] K]; try reflexivity. destruct (assigns a K (c :: r)) eqn:A; [reflexivity|exfalso].
        destruct (assigns_in a K (c :: r)) as (l' & Hin & Hl); [rewrite A; discriminate|].
        apply (NC K l'); [apply in_or_app; left; exact Hin | rewrite Hl; discriminate | rewrite Hl; right; rewrite opens_app; apply in_or_app; right; left; reflexivity]. }
      rewrite C. cbn [lookup]. rewrite key_eqb_refl. destruct (lines_of a K0) as [|l r] eqn:D; [reflexivity|exfalso].
      assert (Hin : In (EvLine K0 l) a) by (apply lines_of_in; rewrite D; left; reflexivity).
      apply not_true_iff_false in LV. apply LV, liveb_live, (line_live a K0 l Wa Hin).
  - destruct (lookup s K0); [apply IH|]. cbn [lookup]. rewrite E. apply IH.
Qed.

(* a key that is not a live domain (it is about to be written) is not above a live domain either *)
Lemma live_not_under a n K Y : ev_wf [[root_name]] a -> ~ live a (n :: K) -> live a Y ->
  key_eqb (n :: K) Y = false /\ is_suffix (n :: K) Y = false.
Proof.
  intros Wa NX HY. split.
  - destruct (key_eqb (n :: K) Y) eqn:E; [|reflexivity]. apply key_eqb_eq in E. subst Y. contradiction.
  - destruct (is_suffix (n :: K) Y) eqn:E; [|reflexivity]. apply is_suffix_iff in E. destruct E as [pre ->].
    destruct NX. apply (live_suffix _ Wa pre); [assumption|discriminate].
Qed.

Lemma assigns_snoc_line a K1 l1 K k : assigns (a ++ [EvLine K1 l1]) K k =
  assigns a K k ++ (if key_eqb K1 K then if bytes_eqb (key_of_line l1) k then [value_of_line l1] else [] else []).
Proof.
  unfold assigns. rewrite lines_of_app, filter_app, map_app. f_equal. cbn [lines_of flat_map]. rewrite app_nil_r.
  destruct (key_eqb K1 K); [|reflexivity]. cbn [filter]. destruct (bytes_eqb (key_of_line l1) k); reflexivity.
Qed.

Lemma lookup_step_line a K1 l1 s : ev_wf [[root_name]] (a ++ [EvLine K1 l1]) -> no_clobber (a ++ [EvLine K1 l1]) ->
  (forall X, lookup s X = holds a X) -> forall X, lookup (do_line s K1 l1) X = holds (a ++ [EvLine K1 l1]) X.
Proof.
  intros W NC IH X. apply ev_wf_app in W. destruct W as [Wa [W1 _]]. apply in_opened in W1.
  pose proof (assigns_snoc_line a K1 l1) as FA.
  remember (key_of_line l1) as k1 eqn:Hk1. remember (value_of_line l1) as v1 eqn:Hv1.
  assert (NC1 : k1 <> [] -> ~ live a (k1 :: K1)).
  { intros Hk HL. apply (NC K1 l1); [apply in_or_app; right; left; reflexivity | rewrite <- Hk1; exact Hk | rewrite <- Hk1; apply live_app_l; exact HL]. }
  assert (OUT : forall Y, live a Y -> k1 <> [] -> key_eqb (k1 :: K1) Y = false /\ is_suffix (k1 :: K1) Y = false)
    by (intros Y HY Hk; exact (live_not_under a k1 K1 Y Wa (NC1 Hk) HY)).
  rewrite lookup_do_line, <- Hk1, <- Hv1. cbv zeta. rewrite IH. unfold holds, key_value. rewrite liveb_snoc_line, lines_of_app.
  cbn [lines_of flat_map]. rewrite app_nil_r. unfold key, bytes in *. destruct (liveb a X) eqn:LV.
  - (* a domain: it gets the line if it is the current one, and is neither the new key nor under it *)
    apply liveb_live in LV.
    destruct k1 as [|c1 r1]; [|destruct (OUT X LV) as [-> ->]; [discriminate|]];
      (destruct (key_eqb K1 X); cbn [option_map with_line ikind ivalue ilines]; [rewrite rev_app_distr|rewrite app_nil_r]; reflexivity).
  - (* not a domain, so not the current one *)
    assert (NK : key_eqb K1 X = false).
    { destruct (key_eqb K1 X) eqn:E; [|reflexivity]. apply key_eqb_eq in E. subst X. apply liveb_live in W1. congruence. }
    rewrite NK. destruct k1 as [|c1 r1].
    + destruct X as [|[|c r] K]; try reflexivity. rewrite FA. destruct (key_eqb K1 K); cbn [bytes_eqb list_eqb]; rewrite app_nil_r; reflexivity.
    + destruct (key_eqb ((c1 :: r1) :: K1) X) eqn:E1.
      * apply key_eqb_eq in E1. subst X. rewrite FA, key_eqb_refl, bytes_eqb_refl.
        destruct (assigns a K1 (c1 :: r1)) as [|b l]; [reflexivity|]. cbn [app]. do 2 f_equal. symmetry. apply (last_last (b :: l)).
      * destruct X as [|[|c r] K]; try (destruct (is_suffix _ _); reflexivity). rewrite FA.
        replace (if key_eqb K1 K then _ else _) with (@nil bytes).
        2:{ destruct (key_eqb K1 K) eqn:A; [|reflexivity]. destruct (bytes_eqb (c1 :: r1) (c :: r)) eqn:B0; [|reflexivity].
            apply key_eqb_eq in A. apply bytes_eqb_eq in B0. rewrite A, B0, key_eqb_refl in E1. discriminate. }
        rewrite app_nil_r. destruct (is_suffix ((c1 :: r1) :: K1) ((c :: r) :: K)) eqn:SF; [|reflexivity].
        (* an older key under the new leaf would be dropped by remove_under: there is none, its domain would be live under the new key *)
        destruct (assigns a K (c :: r)) eqn:A; [reflexivity|exfalso].
        apply is_suffix_cons in SF. destruct SF as [SF|SF]; [rewrite SF, key_eqb_refl in E1; discriminate|].
        destruct (assigns_in a K (c :: r)) as (l' & Hin & _); [rewrite A; discriminate|].
        destruct (OUT K (line_live a K l' Wa Hin)) as [_ O2]; [discriminate|]. congruence.
Qed.

Theorem lookup_run_events : forall evs, ev_wf [[root_name]] evs -> no_clobber evs ->
  forall X, lookup (run_events evs) X = holds evs X.
Proof.
  induction evs as [|e a IH] using rev_ind; intros W NC X.
  - unfold holds, key_value, liveb, run_events, init_store. cbn [fold_left lookup opens flat_map existsb lines_of rev]. rewrite orb_false_r.
    destruct (key_eqb [root_name] X); [reflexivity|]. destruct X as [|[|c r] K]; reflexivity.
  - rewrite run_events_snoc.
    assert (L : forall Y, lookup (run_events a) Y = holds a Y) by (apply IH; [apply ev_wf_app in W; tauto | apply (no_clobber_prefix _ _ NC)]).
    destruct e as [K0|K1 l1]; [apply lookup_step_open | apply lookup_step_line]; assumption.
Qed.

Theorem run_events_represents : forall evs,
  ev_wf [[root_name]] evs -> no_clobber evs -> represents (run_events evs) evs.
Proof.
  intros evs W NC. pose proof (lookup_run_events evs W NC) as L. constructor.
  - intros K HL. rewrite L. unfold holds. rewrite (proj2 (liveb_live _ _) HL). eexists. repeat split.
  - intros K k Hk Ha. rewrite L. unfold holds, key_value.
    assert (NL : liveb evs (k :: K) = false).
    { destruct (liveb evs (k :: K)) eqn:E; [|reflexivity]. apply liveb_live in E. destruct (assigns_in _ _ _ Ha) as (l & Hin & Hl).
      exfalso. apply (NC K l Hin); rewrite Hl; assumption. }
    rewrite NL. destruct k; [contradiction|]. destruct (assigns evs K (n :: k)); [contradiction|reflexivity].
  - intros X i Hi. rewrite L in Hi. unfold holds, key_value in Hi. destruct (liveb evs X) eqn:E; [left; apply liveb_live, E|right].
    destruct X as [|[|c r] K]; try discriminate. exists K, (c :: r). split; [reflexivity|split; [discriminate|]].
    intros A. rewrite A in Hi. discriminate.
  - apply run_events_nodup. cbn. constructor; [intros []|constructor].
Qed.

Lemma opens_lines stk ls : opens (map (EvLine stk) ls) = [].
Proof. induction ls; cbn; auto. Qed.
Lemma ev_wf_lines o stk ls : In stk o -> ev_wf o (map (EvLine stk) ls).
Proof. intros H. induction ls; cbn; auto. Qed.

Lemma events_wf : forall ts names o,
  balanced_from names ts = true -> suffixes (fun X => In X o) (names ++ [root_name]) -> ev_wf o (events ts (names ++ [root_name])).
Proof.
  induction ts as [|tok ts IH]; intros names o Hb HS; [exact I|].
  assert (Hin : In (names ++ [root_name]) o) 
    by (apply (suffixes_self (fun X => In X o)); [destruct names; discriminate|exact HS]).
  destruct tok as [n|n|tx]; cbn in Hb; cbn [events].
  - cbn [ev_wf]. split; [exists n, (names ++ [root_name]); auto|]. apply (IH (n :: names)); [assumption|].
    apply suffixes_push; [left; reflexivity|exact (suffixes_impl _ _ _ (fun X HX => or_intror HX) HS)].
  - destruct names as [|top below]; [discriminate|]. destruct (bytes_eqb top n); [|discriminate].
    cbn [app tl]. apply IH; [assumption|apply (suffixes_pop _ top), HS].
  - apply ev_wf_app. split; [apply ev_wf_lines; assumption|]. rewrite opens_lines. cbn [rev app]. apply IH; assumption.
Qed.

Lemma balanced_events_wf ts : balanced ts = true -> ev_wf [[root_name]] (events ts [root_name]).
Proof. intros B. apply (events_wf ts [] _ B). exact (suffixes_one _ _ (or_introl eq_refl)). Qed.

Theorem parse_represents : forall bs t, parse bs = Ok t -> no_clobber (doc_events bs) -> represents t (doc_events bs).
Proof.
  intros bs t H NC. apply parse_whole_or_error in H. destruct H as (_ & B & _ & ->).
  apply run_events_represents; [apply balanced_events_wf; assumption|assumption].
Qed.

Create HintDb chars discriminated.
#[local] Hint Unfold is_ent_char is_name_char is_name_start is_xml_blank is_letter is_digit in_range is_ctrl
  c_lt c_gt c_amp c_semi c_slash c_eq c_hash c_rb c_cr c_nl c_tab c_sp c_colon c_bang c_qm : chars.

Lemma ent_char_facts b : is_ent_char b = true -> (b =? c_semi) = false /\ b < 128.
Proof. autounfold with chars. lia. Qed.
Lemma name_char_facts b : is_name_char b = true ->
  (b =? c_colon) = false /\ (b =? c_gt) = false /\ (b =? c_slash) = false /\ is_xml_blank b = false /\ b < 128.
Proof. autounfold with chars. lia. Qed.
Lemma name_start_facts b : is_name_start b = true ->
  (b =? c_slash) = false /\ (b =? c_qm) = false /\ (b =? c_bang) = false /\ (b =? c_colon) = false /\ is_name_char b = true /\ b < 128
  /\ (128 <=? b) = false.
Proof. autounfold with chars. lia. Qed.
Lemma blank_facts b : is_xml_blank b = true ->
  is_name_char b = false /\ (b =? c_colon) = false /\ (b =? c_gt) = false /\ (b =? c_slash) = false /\ b < 128
  /\ (128 <=? b) = false.
Proof. autounfold with chars. lia. Qed.
Lemma high_byte_facts c : 128 <= c ->
  c <> c_gt /\ c <> c_lt /\ c <> c_amp /\ c <> c_cr /\ c <> c_nl /\ is_ctrl c = false.
Proof. autounfold with chars. lia. Qed.

Lemma eqb_pair_false a x b y : ~ (a = x /\ b = y) -> (a =? x) && (b =? y) = false.
Proof. intros H. destruct (N.eqb_spec a x), (N.eqb_spec b y); try reflexivity. tauto. Qed.

Lemma fold_left_stay {A C} (f : A -> C -> A) x l : Forall (fun b => f x b = x) l -> fold_left f l x = x.
Proof. induction 1 as [|b l Hb _ IH]; [reflexivity|]. cbn [fold_left]. rewrite Hb. exact IH. Qed.
Lemma fold_left_push {A C} (f : A -> C -> A) (g : list C -> A) (P : C -> Prop) :
  (forall acc b, P b -> f (g acc) b = g (b :: acc)) -> forall l acc, Forall P l -> fold_left f l (g acc) = g (rev l ++ acc).
Proof.
  intros Hf. induction l as [|b l IH]; intros acc HF; [reflexivity|]. inversion HF; subst.
  cbn [fold_left rev]. rewrite Hf, IH, <- app_assoc by assumption. reflexivity.
Qed.

(* B mode txt b0 b1 out st.  [flushed t o]: the output if the pending text t were delivered now; what lex_piece and
   lex_pieces keep is stated on it.  The lemmas end in "exists p'": b0, the byte before the last, is read only by the
   "]]>" test, which [atom_ok] keeps from firing on these documents, so its value is of no interest. *)
Notation B := Build_lstate.
Definition flushed (t : bytes) (o : list token) : list token := match t with [] => o | t' => TText (frev t') :: o end.

(* one byte of text in a clean state, once the "]]>" test is out of the way *)
Lemma lex_text t p q o c : (q =? c_rb) && (c =? c_gt) = false ->
  lex_step (B MText t p q o Clean) c =
  if c =? c_lt then set_mode MLt (flush (B MText t p q o Clean))
  else if c =? c_amp then B (MEnt []) t p q o Clean
  else if c =? c_cr then B MText (c_nl :: t) q c o Clean
  else if (q =? c_cr) && (c =? c_nl) then B MText t q c o Clean
  else B MText (c :: t) q c o (if is_ctrl c then Failed else Clean).
Proof.
  intros H. unfold lex_step, text_step. cbn [mode b0 b1]. rewrite <- andb_assoc, H, andb_false_r.
  destruct (is_ctrl c); reflexivity.
Qed.

Lemma lex_raw t p q o c : ~ (q = c_rb /\ c = c_gt) -> c <> c_lt -> c <> c_amp -> c <> c_cr -> ~ (q = c_cr /\ c = c_nl) ->
  is_ctrl c = false -> lex_step (B MText t p q o Clean) c = B MText (c :: t) q c o Clean.
Proof.
  intros H1 H2 H3 H4 H5 H6. rewrite lex_text by (apply eqb_pair_false, H1).
  apply N.eqb_neq in H2, H3, H4. rewrite H2, H3, H4, (eqb_pair_false _ _ _ _ H5), H6. reflexivity.
Qed.
Lemma lex_cr t p q o : lex_step (B MText t p q o Clean) c_cr = B MText (c_nl :: t) q c_cr o Clean.
Proof. rewrite lex_text by apply andb_false_r. reflexivity. Qed.
Lemma lex_amp t p q o : lex_step (B MText t p q o Clean) c_amp = B (MEnt []) t p q o Clean.
Proof. rewrite lex_text by apply andb_false_r. reflexivity. Qed.

Lemma lex_ent_chars raw acc t p q o : Forall (fun b => is_ent_char b = true) raw ->
  fold_left lex_step raw (B (MEnt acc) t p q o Clean) = B (MEnt (rev raw ++ acc)) t p q o Clean.
Proof.
  apply (fold_left_push lex_step (fun a => B (MEnt a) t p q o Clean)). intros a b Hb.
  unfold lex_step. cbn [mode]. rewrite (proj1 (ent_char_facts b Hb)), Hb. reflexivity.
Qed.
(* & raw ; is read up to the ';' *)
Lemma lex_entity raw t p q o : Forall (fun b => is_ent_char b = true) raw ->
  fold_left lex_step (c_amp :: raw ++ [c_semi]) (B MText t p q o Clean) = lex_step (B (MEnt (rev raw)) t p q o Clean) c_semi.
Proof. intros H. cbn [fold_left]. rewrite lex_amp, fold_left_app, lex_ent_chars, app_nil_r by assumption. reflexivity. Qed.

Lemma last_nonnil {A} (l : list A) d d' : l <> [] -> last l d = last l d'.
Proof.
  induction l as [|x l IH]; intros H; [contradiction|]. destruct l as [|y l]; [reflexivity|]. cbn [last] in *. apply IH. discriminate.
Qed.

Lemma lex_high_bytes : forall bs t p q o, Forall (fun c => 128 <= c) bs ->
  exists p', fold_left lex_step bs (B MText t p q o Clean) = B MText (rev bs ++ t) p' (last bs q) o Clean.
Proof.
  induction bs as [|c bs IH]; intros t p q o HF; [exists p; reflexivity|].
  inversion HF as [|? ? Hc HF']; subst. destruct (high_byte_facts c Hc) as (F1 & F2 & F3 & F4 & F5 & F6).
  cbn [fold_left]. rewrite lex_raw by tauto. destruct (IH (c :: t) q c o HF') as [p' ->]. exists p'.
  cbn [rev]. rewrite <- app_assoc. destruct bs as [|n bs]; [reflexivity|].
  rewrite (last_nonnil (n :: bs) c q) by discriminate. reflexivity.
Qed.

Lemma lex_atom a t p q o : atom_ok q a ->
  exists p', fold_left lex_step (atom_bytes a) (B MText t p q o Clean) = B MText (rev (atom_chars a) ++ t) p' (atom_last a) o Clean.
Proof.
  destruct a as [c|raw c|raw bs|bs| |]; cbn [atom_ok atom_bytes atom_chars atom_last rev app].
  - intros (_ & H2 & H3 & H4 & H5 & H6 & H7). exists q. apply lex_raw; assumption.
  - intros (H1 & H2 & H3 & _). exists 0. rewrite lex_entity by assumption.
    unfold lex_step. cbn [mode]. rewrite frev_rev, rev_involutive, H2, H3. reflexivity.
  - intros (H1 & H2 & _). exists 0. rewrite lex_entity by assumption.
    unfold lex_step. cbn [mode]. rewrite frev_rev, rev_involutive, H2. unfold puts. rewrite frev_rev. reflexivity.
  - intros (H1 & H2 & _). destruct (lex_high_bytes bs t p q o H2) as [p' ->]. exists p'.
    rewrite (last_nonnil bs q 0 H1). reflexivity.
  - intros _. exists q. apply lex_cr.
  - intros _. exists c_cr. cbn [fold_left]. rewrite lex_cr, lex_text by reflexivity. reflexivity.
Qed.

Lemma lex_atoms : forall l t p q o, atoms_ok q l ->
  exists p' q', fold_left lex_step (text_bytes l) (B MText t p q o Clean) = B MText (rev (text_chars l) ++ t) p' q' o Clean.
Proof.
  induction l as [|a l IH]; intros t p q o H.
  - exists p, q. reflexivity.
  - destruct H as [Ha Hl]. destruct (lex_atom a t p q o Ha) as [p1 E1].
    destruct (IH (rev (atom_chars a) ++ t) p1 (atom_last a) o Hl) as (p' & q' & E2).
    exists p', q'. unfold text_bytes in *. cbn [map concat]. rewrite fold_left_app, E1, E2.
    unfold text_chars. cbn [map concat]. rewrite rev_app_distr, <- app_assoc. reflexivity.
Qed.

Lemma utf8_from_run : forall s u, utf8_from u s = match Lts.run utf8_step u s with Some U0 => true | _ => false end.
Proof.
  induction s as [|c r IH]; intros u; cbn [utf8_from Lts.run]; [destruct u; reflexivity|].
  destruct (utf8_step u c); [apply IH|reflexivity].
Qed.
Lemma utf8_valid_run s : utf8_valid s = true <-> Lts.run utf8_step U0 s = Some U0.
Proof.
  unfold utf8_valid. rewrite utf8_from_run. destruct (Lts.run utf8_step U0 s) as [[| | |]|]; split; intros H; try discriminate; reflexivity.
Qed.
Lemma utf8_valid_app a b : utf8_valid a = true -> utf8_valid b = true -> utf8_valid (a ++ b) = true.
Proof. rewrite !utf8_valid_run. intros Ha Hb. rewrite Lts.run_app, Ha. exact Hb. Qed.
Lemma utf8_valid_ascii1 c : c < 128 -> utf8_valid [c] = true.
Proof. intros H. unfold utf8_valid. cbn. destruct (c <? 128) eqn:E; [reflexivity|lia]. Qed.

(* the pending (reversed) text of a run is valid so far *)
Definition uvalid (t : bytes) : Prop := utf8_valid (rev t) = true.
Lemma uvalid_nil : uvalid [].
Proof. reflexivity. Qed.
Lemma uvalid_push t s : uvalid t -> utf8_valid s = true -> uvalid (rev s ++ t).
Proof. unfold uvalid. intros Ht Hs. rewrite rev_app_distr, rev_involutive. apply utf8_valid_app; assumption. Qed.

Lemma flush_valid t p q o : uvalid t -> flush (B MText t p q o Clean) = B MText [] 0 0 (flushed t o) Clean.
Proof.
  intros H. unfold flush, flushed. cbn [mode txt b0 b1 out st]. rewrite frev_rev, H.
  destruct t; [reflexivity|]. rewrite <- frev_rev. reflexivity.
Qed.

Lemma lex_lt t p q o : uvalid t -> lex_step (B MText t p q o Clean) c_lt = B MLt [] 0 0 (flushed t o) Clean.
Proof. intros H. rewrite lex_text by apply andb_false_r. cbn [N.eqb Pos.eqb c_lt]. rewrite flush_valid by assumption. reflexivity. Qed.

Lemma lex_name_chars m r acc t p q o : (m = MStartName \/ m = MEndName) -> Forall (fun b => is_name_char b = true) r ->
  fold_left lex_step r (B (m acc) t p q o Clean) = B (m (rev r ++ acc)) t p q o Clean.
Proof.
  intros Hm. apply (fold_left_push lex_step (fun a => B (m a) t p q o Clean)). intros a b Hb.
  unfold lex_step. destruct Hm as [-> | ->]; cbn [mode]; rewrite Hb; reflexivity.
Qed.
Lemma lex_tag_ws m ws t p q o : (m = MStartWs \/ m = MEndWs) -> ws_ok ws -> forall n,
  fold_left lex_step ws (B (m n) t p q o Clean) = B (m n) t p q o Clean.
Proof.
  intros Hm HW n. apply fold_left_stay. eapply Forall_impl; [|exact HW]. intros b Hb.
  unfold lex_step. destruct Hm as [-> | ->]; cbn [mode]; rewrite Hb; reflexivity.
Qed.

Lemma lex_name_blank m m' acc b o : (m = MStartName /\ m' = MStartWs \/ m = MEndName /\ m' = MEndWs) -> is_xml_blank b = true ->
  lex_step (B (m acc) [] 0 0 o Clean) b = B (m' (frev acc)) [] 0 0 o Clean.
Proof.
  intros Hm Hb. destruct (blank_facts _ Hb) as (F1 & F2 & F3 & F4 & _ & F6). unfold lex_step.
  destruct Hm as [[-> ->]|[-> ->]]; cbn [mode]; rewrite F1, F2, F6, F3, ?F4, Hb; reflexivity.
Qed.

Lemma lex_start_tail acc ws o : ws_ok ws ->
  fold_left lex_step (ws ++ [c_gt]) (B (MStartName acc) [] 0 0 o Clean) = B MText [] 0 0 (TStart (frev acc) :: o) Clean
  /\ fold_left lex_step (ws ++ [c_slash; c_gt]) (B (MStartName acc) [] 0 0 o Clean)
     = B MText [] 0 0 (TEnd (frev acc) :: TStart (frev acc) :: o) Clean.
Proof.
  intros HW. destruct ws as [|b ws]; [split; reflexivity|]. inversion HW as [|? ? Hb HW']; subst. cbn [app fold_left].
  rewrite (lex_name_blank MStartName MStartWs), !fold_left_app, (lex_tag_ws MStartWs) by auto. split; reflexivity.
Qed.

Lemma lex_end_tail acc ws o : ws_ok ws ->
  fold_left lex_step (ws ++ [c_gt]) (B (MEndName acc) [] 0 0 o Clean) = B MText [] 0 0 (TEnd (frev acc) :: o) Clean.
Proof.
  intros HW. destruct ws as [|b ws]; [reflexivity|]. inversion HW as [|? ? Hb HW']; subst. cbn [app fold_left].
  rewrite (lex_name_blank MEndName MEndWs), fold_left_app, (lex_tag_ws MEndWs) by auto. reflexivity.
Qed.

Lemma lex_name_start c o : is_name_start c = true -> lex_step (B MLt [] 0 0 o Clean) c = B (MStartName [c]) [] 0 0 o Clean.
Proof.
  intros Hc. destruct (name_start_facts _ Hc) as (G1 & G2 & G3 & G4 & _ & _ & G7).
  unfold lex_step. cbn [mode]. rewrite G1, G2, G3, G4, G7, Hc. reflexivity.
Qed.

(* the name accumulated in reverse, as the tag tails deliver it *)
Lemma frev_name (c : N) r : frev (rev r ++ [c]) = c :: r.
Proof. rewrite frev_rev, rev_app_distr, rev_involutive. reflexivity. Qed.

Lemma lex_piece_tag pc t p q o : piece_ok pc -> is_text pc = false -> uvalid t ->
  fold_left lex_step (piece_bytes pc) (B MText t p q o Clean) = B MText [] 0 0 (rev (piece_tokens pc) ++ flushed t o) Clean.
Proof.
  intros Hok HT HA. destruct pc as [l|n ws|n ws|n ws]; [discriminate HT| | |].
  all: destruct Hok as [HN HW]; destruct n as [|c r]; [destruct HN|]; destruct HN as [Hc Hr].
  all: cbn [piece_bytes piece_tokens rev app fold_left]; rewrite lex_lt by assumption.
  - rewrite lex_name_start, fold_left_app, (lex_name_chars MStartName) by auto.
    rewrite <- (frev_name c r). exact (proj1 (lex_start_tail _ ws _ HW)).
  - cbn [fold_left]. change (lex_step (B MLt [] 0 0 (flushed t o) Clean) c_slash) with (B MLtSlash [] 0 0 (flushed t o) Clean).
    replace (lex_step (B MLtSlash [] 0 0 (flushed t o) Clean) c) with (B (MEndName [c]) [] 0 0 (flushed t o) Clean)
      by (unfold lex_step; cbn [mode]; rewrite Hc; reflexivity).
    rewrite fold_left_app, (lex_name_chars MEndName) by auto. rewrite <- (frev_name c r). apply lex_end_tail, HW.
  - rewrite lex_name_start, fold_left_app, (lex_name_chars MStartName) by auto.
    rewrite <- (frev_name c r). exact (proj2 (lex_start_tail _ ws _ HW)).
Qed.

Lemma atom_chars_facts prev a : atom_ok prev a -> atom_chars a <> [] /\ utf8_valid (atom_chars a) = true.
Proof.
  destruct a as [c|raw c|raw bs|bs| |]; cbn [atom_ok atom_chars].
  - intros (H1 & _). split; [discriminate|apply utf8_valid_ascii1; assumption].
  - intros (_ & _ & _ & H). split; [discriminate|apply utf8_valid_ascii1; assumption].
  - intros (_ & _ & H1 & H2). auto.
  - intros (H1 & _ & H2). auto.
  - intros _. split; [discriminate|reflexivity].
  - intros _. split; [discriminate|reflexivity].
Qed.

Lemma text_chars_facts : forall l prev, atoms_ok prev l -> (l <> [] -> text_chars l <> []) /\ utf8_valid (text_chars l) = true.
Proof.
  induction l as [|a l IH]; intros prev H; [split; [intros C; contradiction|reflexivity]|].
  destruct H as [Ha Hl]. destruct (atom_chars_facts _ _ Ha) as [N1 V1]. destruct (IH _ Hl) as [_ V2].
  unfold text_chars in *. cbn [map concat]. split.
  - intros _ E. apply app_eq_nil in E. destruct E. contradiction.
  - apply utf8_valid_app; assumption.
Qed.

(* a text piece is lexed from an empty pending text (it follows a tag or the start); a tag leaves one *)
Lemma lex_piece pc t p q o : piece_ok pc -> uvalid t -> (is_text pc = true -> t = [] /\ q = 0) ->
  exists t' p' q' o', fold_left lex_step (piece_bytes pc) (B MText t p q o Clean) = B MText t' p' q' o' Clean
     /\ rev (flushed t' o') = rev (flushed t o) ++ piece_tokens pc /\ uvalid t' /\ (is_text pc = false -> t' = [] /\ q' = 0).
Proof.
  intros Hpc HAS HT. destruct (is_text pc) eqn:T.
  - destruct pc as [l| | |]; try discriminate. destruct Hpc as [Hne Hok]. destruct (HT eq_refl) as [-> ->].
    destruct (lex_atoms l [] p 0 o Hok) as (p1 & q1 & E1). destruct (text_chars_facts l 0 Hok) as [NE V].
    exists (rev (text_chars l) ++ []), p1, q1, o. split; [exact E1|].
    split; [|split; [apply uvalid_push; [apply uvalid_nil|exact V] | discriminate]].
    cbn [piece_tokens app flushed rev]. rewrite app_nil_r. destruct (rev (text_chars l)) as [|c r] eqn:ER.
    + destruct (NE Hne). apply (f_equal (@rev _)) in ER. rewrite rev_involutive in ER. exact ER.
    + cbn [flushed rev]. rewrite <- ER, frev_rev, rev_involutive. reflexivity.
  - exists [], 0, 0, (rev (piece_tokens pc) ++ flushed t o). split; [apply lex_piece_tag; assumption|].
    split; [cbn [flushed]; rewrite rev_app_distr, rev_involutive; reflexivity|]. split; [apply uvalid_nil|auto].
Qed.

Lemma lex_pieces : forall ps t p q o,
  Forall piece_ok ps -> no_adjacent_text ps -> uvalid t ->
  (match ps with pc :: _ => is_text pc = true -> t = [] /\ q = 0 | [] => True end) ->
  exists t' p' q' o', fold_left lex_step (render ps) (B MText t p q o Clean) = B MText t' p' q' o' Clean
     /\ rev (flushed t' o') = rev (flushed t o) ++ tokens_of ps /\ uvalid t'.
Proof.
  induction ps as [|pc ps IH]; intros t p q o HP HA HAS HT.
  - exists t, p, q, o. split; [reflexivity|]. split; [|assumption]. cbn. rewrite app_nil_r. reflexivity.
  - inversion HP as [|? ? Hpc HP']; subst.
    destruct (lex_piece pc t p q o Hpc HAS HT) as (t1 & p1 & q1 & o1 & E1 & R1 & V1 & F1).
    destruct (IH t1 p1 q1 o1 HP') as (t' & p' & q' & o' & E2 & R2 & V2); [destruct ps; [exact I|apply HA] | exact V1 | |].
    { destruct ps as [|pc2 ps]; [exact I|]. destruct HA as [HA _]. intros T2. apply F1.
      rewrite T2, andb_true_r in HA. exact HA. }
    exists t', p', q', o'. unfold render, tokens_of in *. cbn [map concat]. rewrite fold_left_app, E1.
    split; [exact E2|]. split; [rewrite R2, R1, <- app_assoc; reflexivity|exact V2].
Qed.

Theorem lex_rendered ps : Forall piece_ok ps -> no_adjacent_text ps ->
  raw_tokens (render ps) = tokens_of ps /\ raw_status (render ps) = Clean.
Proof.
  intros HP HA.
  destruct (lex_pieces ps [] 0 0 [] HP HA) as (t' & p' & q' & o' & E & ET & EA).
  { apply uvalid_nil. }
  { destruct ps; [exact I|]. intros _. split; reflexivity. }
  unfold raw_tokens, raw_status, lex_run, lex_init. rewrite E.
  unfold lex_finish. cbn [mode]. rewrite flush_valid by assumption. cbn [out st]. split; [|reflexivity].
  rewrite frev_rev. cbn in ET. rewrite <- ET. reflexivity.
Qed.

Definition piece_events (ps : list piece) : list event := events (tokens_of ps) [root_name].

Theorem parse_rendered ps : doc_ok ps -> short_lines (tokens_of ps) ->
  parse (render ps) = Ok (run_events (piece_events ps)).
Proof.
  intros (HP & HA & HB) HS. destruct (lex_rendered ps HP HA) as [ET EC].
  rewrite parse_accepts; [unfold doc_events, piece_events; rewrite ET; reflexivity|assumption|rewrite ET; assumption|rewrite ET; assumption].
Qed.

Theorem rendered_represented ps : doc_ok ps -> short_lines (tokens_of ps) -> no_clobber (piece_events ps) ->
  exists t, parse (render ps) = Ok t /\ represents t (piece_events ps).
Proof.
  intros HD HS NC. exists (run_events (piece_events ps)). split; [apply parse_rendered; assumption|].
  apply run_events_represents; [|assumption]. apply balanced_events_wf. apply HD.
Qed.

(* The status is sticky.  [keeps x y]: [y] has the status of [x] unless that is Clean.  Every primitive of the tokenizer
   preserves this in its state argument, so a step does, whatever path it takes. *)
Definition keeps (x y : lstate) : Prop := st x <> Clean -> st y = st x.
Lemma keeps_refl x : keeps x x.
Proof. intros _. reflexivity. Qed.
Lemma keeps_set_mode x m y : keeps x y -> keeps x (set_mode m y). Proof. exact (fun H => H). Qed.
Lemma keeps_emit x ts y : keeps x y -> keeps x (emit ts y). Proof. exact (fun H => H). Qed.
Lemma keeps_put x c y : keeps x y -> keeps x (put c y). Proof. exact (fun H => H). Qed.
Lemma keeps_puts x cs y : keeps x y -> keeps x (puts cs y). Proof. exact (fun H => H). Qed.
Lemma keeps_shift x c y : keeps x y -> keeps x (shift c y). Proof. exact (fun H => H). Qed.
Lemma keeps_reset_b x y : keeps x y -> keeps x (reset_b y). Proof. exact (fun H => H). Qed.
Lemma keeps_drop2 x y : keeps x y -> keeps x (drop2 y). Proof. exact (fun H => H). Qed.
Lemma keeps_mark x s y : keeps x y -> keeps x (mark s y).
Proof. intros H N. specialize (H N). unfold mark. destruct (st y) eqn:E; cbn [st]; congruence. Qed.
Lemma keeps_flush x y : keeps x y -> keeps x (flush y).
Proof. intros H N. specialize (H N). unfold flush. cbn [st]. destruct (st y) eqn:E; congruence. Qed.
Lemma keeps_if x (b : bool) y z : keeps x y -> keeps x z -> keeps x (if b then y else z).
Proof. destruct b; auto. Qed.
Lemma keeps_ent x e f g h : (forall b, keeps x (f b)) -> (forall bs, keeps x (g bs)) -> keeps x h ->
  keeps x (match e with EntText b => f b | EntBytes bs => g bs | EntBad => h end).
Proof. destruct e; auto. Qed.
Lemma keeps_list x (l : bytes) y f : keeps x y -> (forall c r, keeps x (f c r)) ->
  keeps x (match l with [] => y | c :: r => f c r end).
Proof. destruct l; auto. Qed.
Create HintDb sticky discriminated.
#[local] Hint Resolve keeps_refl keeps_set_mode keeps_emit keeps_put keeps_puts keeps_shift keeps_reset_b keeps_drop2
  keeps_mark keeps_flush keeps_if keeps_ent keeps_list : sticky.

(* the depths given to [auto] are the deepest nesting of primitives in text_step, cdata_step and lex_step *)
Lemma keeps_text_step x y c : keeps x y -> keeps x (text_step y c).
Proof. intros H. unfold text_step. cbv zeta. auto 12 with sticky. Qed.
Lemma keeps_cdata_step x y c : keeps x y -> keeps x (cdata_step y c).
Proof. intros H. unfold cdata_step. auto 10 with sticky. Qed.
#[local] Hint Resolve keeps_text_step keeps_cdata_step : sticky.

Lemma st_sticky x c : st x <> Clean -> st (lex_step x c) = st x.
Proof. change (keeps x (lex_step x c)). unfold lex_step, junk. destruct (mode x); auto 14 with sticky. Qed.

Lemma run_sticky : forall bs x, st x <> Clean -> st (lex_finish (fold_left lex_step bs x)) = st x.
Proof.
  induction bs as [|c r IH]; intros x H; cbn [fold_left].
  - revert H. change (keeps x (lex_finish x)). unfold lex_finish. destruct (mode x); auto with sticky.
  - rewrite IH by (rewrite st_sticky; assumption). apply st_sticky, H.
Qed.

Lemma lex_prefix_clean : forall bs x, st (lex_finish (fold_left lex_step bs x)) = Clean ->
  lex_prefix x bs = frev (out (lex_finish (fold_left lex_step bs x))).
Proof.
  induction bs as [|c r IH]; intros x H; cbn [lex_prefix fold_left] in *.
  - rewrite H. reflexivity.
  - (* a step that left Clean would show at the end *)
    assert (C : st (lex_step x c) = Clean).
    { destruct (st (lex_step x c)) eqn:E; [reflexivity | rewrite run_sticky, E in H by (rewrite E; discriminate); discriminate H ..]. }
    rewrite C. apply IH, H.
Qed.

Lemma balanced_prefix_id : forall ts stk, balanced_from stk ts = true -> balanced_prefix stk ts = ts.
Proof.
  induction ts as [|tok ts IH]; intros stk H; [reflexivity|]. destruct tok as [n|n|tx]; cbn in *.
  - rewrite IH by assumption. reflexivity.
  - destruct stk as [|top stk']; [discriminate|]. destruct (bytes_eqb top n); [|discriminate]. rewrite IH by assumption. reflexivity.
  - rewrite IH by assumption. reflexivity.
Qed.

Lemma conf_loop_old_same : forall ts s stk t, conf_loop ts s stk = Ok t -> conf_loop_old ts s stk = Ok t.
Proof.
  induction ts as [|tok ts IH]; intros s stk t H.
  - destruct stk; cbn in *; [discriminate|assumption].
  - destruct stk as [|top below]; [cbn in H; discriminate|].
    destruct tok as [n|n|tx]; cbn [conf_loop conf_loop_old] in *.
    + destruct (lookup s (n :: top :: below)); apply IH; assumption.
    + destruct (bytes_eqb top n); [apply IH; assumption|discriminate].
    + destruct (do_segments s (top :: below) (split_lines tx)) as [s'|] eqn:D; [|discriminate].
      apply IH in H. revert s D. induction (split_lines tx) as [|seg l IHl]; intros s D; cbn [do_segments] in D.
      * inversion D; subst. exact H.
      * destruct (max_scan_token <=? N.of_nat (length seg)); [discriminate|].
        destruct (content_line seg); apply IHl; assumption.
Qed.

Theorem repair_conservative : forall bs t, parse bs = Ok t -> parse_old bs = Ok t.
Proof.
  intros bs t H. unfold parse in H. destruct (raw_status bs) eqn:S; try discriminate.
  destruct (balanced (raw_tokens bs)) eqn:B; [|discriminate].
  unfold parse_old. unfold raw_status, lex_run in S. rewrite (lex_prefix_clean bs lex_init S).
  fold (lex_run bs). fold (raw_tokens bs). rewrite balanced_prefix_id by exact B.
  apply conf_loop_old_same. exact H.
Qed.

(* [c_conf_blanks] is regenerated from conf.go: the line scanner lemmas need that '=' and '#' are not among the blanks *)
Lemma conf_nonblank_consts : is_conf_blank c_eq = false /\ is_conf_blank c_hash = false.
Proof. split; reflexivity. Qed.

Lemma trim_left_blanks w x : Forall (fun c => is_conf_blank c = true) w -> trim_left (w ++ x) = trim_left x.
Proof. induction 1 as [|c w Hc Hw IH]; [reflexivity|]. cbn [app trim_left]. rewrite Hc. exact IH. Qed.
Lemma trim_left_head c r : is_conf_blank c = false -> trim_left (c :: r) = c :: r.
Proof. intros H. cbn [trim_left]. rewrite H. reflexivity. Qed.
Lemma trim_left_snoc c : is_conf_blank c = false -> forall x, exists y, trim_left (x ++ [c]) = y ++ [c].
Proof.
  intros H. induction x as [|a x IH]; cbn [app trim_left].
  - rewrite H. exists []. reflexivity.
  - destruct (is_conf_blank a); [exact IH|]. exists (a :: x). reflexivity.
Qed.
Lemma blanks_conf w : blanks w -> Forall (fun c => is_conf_blank c = true) w.
Proof. intros H. eapply Forall_impl; [|exact H]. intros c Hc. apply Hc. Qed.

Lemma trim_edges w0 m w1 : blanks w0 -> blanks w1 -> edges_ok m -> trim (w0 ++ m ++ w1) = m.
Proof.
  intros H0 H1 [(c & r & E1 & Hc) (r' & c' & E2 & Hc')]. unfold trim.
  rewrite trim_left_blanks by (apply blanks_conf; assumption).
  rewrite E1 at 1. cbn [app]. rewrite trim_left_head by assumption.
  change (c :: r ++ w1) with ((c :: r) ++ w1). rewrite <- E1. rewrite !frev_rev, rev_app_distr.
  rewrite trim_left_blanks by (apply Forall_rev, blanks_conf; assumption).
  rewrite E2, rev_app_distr. cbn [rev app]. rewrite trim_left_head by assumption.
  change (c' :: rev r') with (rev [c'] ++ rev r'). rewrite <- rev_app_distr. apply rev_involutive.
Qed.

Lemma trim_blanks w : blanks w -> trim w = [].
Proof.
  intros H. unfold trim. rewrite <- (app_nil_r w), trim_left_blanks by (apply blanks_conf; assumption). reflexivity.
Qed.

Lemma trim_head w c r : blanks w -> is_conf_blank c = false -> exists y, trim (w ++ c :: r) = c :: y.
Proof.
  intros Hw Hc. unfold trim. rewrite trim_left_blanks by (apply blanks_conf; assumption).
  rewrite trim_left_head by assumption. rewrite !frev_rev. cbn [rev].
  destruct (trim_left_snoc c Hc (rev r)) as [y ->]. exists (rev y). rewrite rev_app_distr. reflexivity.
Qed.

Lemma drop_cr_nocr l : ~ In c_cr l -> drop_cr l = l.
Proof.
  intros H. unfold drop_cr. rewrite frev_rev. destruct (rev l) as [|c r] eqn:E; [reflexivity|].
  destruct (c =? c_cr) eqn:Ec; [|reflexivity]. exfalso. apply H. apply N.eqb_eq in Ec. subst c.
  apply in_rev. rewrite E. left. reflexivity.
Qed.

Lemma drop_cr_form a c r : c <> c_cr -> exists r', drop_cr (a ++ c :: r) = a ++ c :: r'.
Proof.
  intros Hc. unfold drop_cr. rewrite frev_rev, rev_app_distr. cbn [rev]. rewrite <- app_assoc. cbn [app].
  destruct (rev r) as [|z zs] eqn:E; cbn [app].
  - destruct (c =? c_cr) eqn:Ec; [apply N.eqb_eq in Ec; contradiction|]. exists r. reflexivity.
  - destruct (z =? c_cr); [|exists r; reflexivity].
    exists (rev zs). rewrite frev_rev, rev_app_distr. cbn [rev]. rewrite rev_involutive, <- app_assoc. reflexivity.
Qed.

Lemma cut_eq_app : forall a b, ~ In c_eq a -> cut_eq (a ++ c_eq :: b) = (a, Some b).
Proof.
  induction a as [|c a IH]; intros b H; cbn [app cut_eq].
  - rewrite N.eqb_refl. reflexivity.
  - destruct (notin_cons _ _ _ H) as [-> H']. rewrite IH by exact H'. reflexivity.
Qed.

Lemma blanks_notin w x : blanks w -> (is_conf_blank x = false \/ x = c_nl) -> ~ In x w.
Proof.
  intros Hw Hx Hin. unfold blanks in Hw. rewrite Forall_forall in Hw. destruct (Hw _ Hin) as [H1 H2]. destruct Hx as [Hx| ->]; [congruence|contradiction].
Qed.

Theorem kv_line_read w0 k w1 w2 v w3 :
  blanks w0 -> blanks w1 -> blanks w2 -> blanks w3 -> clean_key k -> clean_value v ->
  content_line (kv_line w0 k w1 w2 v w3) = Some (kv_text k w1 w2 v) /\ line_kv (kv_text k w1 w2 v) = (k, v)
  /\ ~ In c_nl (kv_line w0 k w1 w2 v w3).
Proof.
  intros B0 B1 B2 B3 (KE & Keq & Knl & Kcr & Kh) HV.
  assert (Vnl : ~ In c_nl v /\ ~ In c_cr v) by (destruct HV as [->|(_ & H1 & H2)]; [split; intros []|tauto]).
  assert (HM : edges_ok (kv_text k w1 w2 v)).
  { destruct KE as [(c & r & E1 & Hc) _]. unfold kv_text. split.
    - exists c, (r ++ w1 ++ [c_eq] ++ match v with [] => [] | _ => w2 ++ v end). rewrite E1. split; [reflexivity|assumption].
    - destruct HV as [->|([_ (r' & c' & E2 & Hc')] & _)].
      + exists (k ++ w1), c_eq. split; [rewrite <- app_assoc; reflexivity|apply conf_nonblank_consts].
      + exists (k ++ w1 ++ [c_eq] ++ w2 ++ r'), c'. split; [|assumption].
        rewrite E2. destruct (r' ++ [c']) eqn:E; [destruct r'; discriminate|]. rewrite <- E. rewrite <- !app_assoc. reflexivity. }
  assert (SEG : exists w', blanks w' /\ kv_line w0 k w1 w2 v w3 = w0 ++ kv_text k w1 w2 v ++ w').
  { unfold kv_line, kv_text. destruct v as [|c v'].
    - exists (w2 ++ w3). split; [apply Forall_app; split; assumption|]. rewrite <- !app_assoc. reflexivity.
    - exists w3. split; [assumption|]. rewrite <- !app_assoc. reflexivity. }
  (* a byte that is in no part of the line: LF and CR here *)
  assert (NL : forall x, is_conf_blank x = false \/ x = c_nl -> x <> c_eq -> ~ In x k -> ~ In x v ->
               ~ In x (kv_line w0 k w1 w2 v w3)).
  { intros x Hx He Hk Hv. unfold kv_line. repeat apply notin_app; auto using blanks_notin, notin_one. }
  split; [|split].
  - unfold content_line. rewrite drop_cr_nocr by (apply NL; [left; reflexivity|discriminate|tauto..]).
    destruct SEG as (w' & Bw' & ->). rewrite trim_edges by assumption.
    destruct KE as [(c & r & E1 & Hc) _]. unfold kv_text at 1. rewrite E1 at 1. cbn [app].
    rewrite E1 in Kh. cbn in Kh. destruct (c =? c_hash) eqn:E; [apply N.eqb_eq in E; contradiction|reflexivity].
  - unfold line_kv, kv_text. rewrite app_assoc. cbn [app].
    rewrite cut_eq_app.
    + f_equal.
      * rewrite <- (app_nil_l (k ++ w1)). apply trim_edges; [constructor|assumption|assumption].
      * destruct HV as [->|(VE & _)]; [reflexivity|]. destruct v as [|c v']; [destruct VE as [(? & ? & E & _) _]; discriminate|].
        rewrite <- (app_nil_r (w2 ++ c :: v')), <- app_assoc. apply trim_edges; [assumption|constructor|assumption].
    + intros Hin. apply in_app_or in Hin. destruct Hin as [Hin|Hin]; [contradiction|]. exact (blanks_notin _ c_eq B1 (or_introl (proj1 conf_nonblank_consts)) Hin).
  - apply NL; [right; reflexivity|discriminate|tauto..].
Qed.

Theorem comment_line_read w rest : blanks w -> content_line (w ++ c_hash :: rest) = None.
Proof.
  intros Bw. unfold content_line. destruct (drop_cr_form w c_hash rest) as [r' ->]; [discriminate|].
  destruct (trim_head w c_hash r' Bw (proj2 conf_nonblank_consts)) as [y ->]. reflexivity.
Qed.

Theorem blank_line_read w : blanks w -> content_line w = None.
Proof.
  intros Bw. unfold content_line. rewrite drop_cr_nocr by (apply (blanks_notin w c_cr Bw); left; reflexivity).
  rewrite trim_blanks by assumption. reflexivity.
Qed.

Lemma split_lines_aux_line : forall l cur rest, ~ In c_nl l ->
  split_lines_aux cur (l ++ c_nl :: rest) = (rev cur ++ l) :: split_lines_aux [] rest.
Proof.
  induction l as [|c l IH]; intros cur rest H; cbn [app split_lines_aux].
  - rewrite N.eqb_refl, frev_rev, app_nil_r. reflexivity.
  - destruct (notin_cons _ _ _ H) as [-> H']. rewrite IH by exact H'. cbn [rev]. rewrite <- app_assoc. reflexivity.
Qed.

Definition one_line (x : bytes) : list bytes := match x with [] => [] | c :: r => [c :: r] end.
Lemma split_lines_aux_end : forall x cur, ~ In c_nl x -> split_lines_aux cur x = one_line (rev cur ++ x).
Proof.
  induction x as [|c x IH]; intros cur H; cbn [split_lines_aux].
  - rewrite app_nil_r, frev_rev. destruct cur as [|a cur]; [reflexivity|]. destruct (rev (a :: cur)) eqn:E; [|reflexivity].
    apply (f_equal (@rev _)) in E. rewrite rev_involutive in E. discriminate.
  - destruct (notin_cons _ _ _ H) as [-> H']. rewrite IH by exact H'. cbn [rev]. rewrite <- app_assoc. reflexivity.
Qed.

Lemma split_lines_join_open ls x : Forall (fun l => ~ In c_nl l) ls -> ~ In c_nl x ->
  split_lines (join_lines ls ++ x) = ls ++ one_line x.
Proof.
  unfold split_lines, join_lines. intros H Hx. induction H as [|l ls Hl Hls IH]; cbn [map concat app].
  - rewrite split_lines_aux_end by assumption. reflexivity.
  - rewrite <- !app_assoc. cbn [app]. rewrite split_lines_aux_line by assumption. rewrite IH. reflexivity.
Qed.

Theorem content_lines_join_open ls x : Forall (fun l => ~ In c_nl l) ls -> ~ In c_nl x ->
  content_lines (join_lines ls ++ x) = flat_map line_content (ls ++ [x]).
Proof.
  intros H Hx. unfold content_lines. rewrite split_lines_join_open, !flat_map_app by assumption. f_equal. destruct x; reflexivity.
Qed.

Theorem content_lines_join ls : Forall (fun l => ~ In c_nl l) ls -> content_lines (join_lines ls) = flat_map line_content ls.
Proof.
  intros H. rewrite <- (app_nil_r (join_lines ls)). unfold content_lines.
  rewrite split_lines_join_open, app_nil_r by (assumption || intros []). reflexivity.
Qed.

Lemma tokens_of_app a b : tokens_of (a ++ b) = tokens_of a ++ tokens_of b.
Proof. unfold tokens_of. rewrite map_app, concat_app. reflexivity. Qed.

Fixpoint node_balanced (n : node) : forall stk rest,
  balanced_from stk (tokens_of (flatten n) ++ rest) = balanced_from stk rest.
Proof.
  destruct n as [l|nm w1 w2 body|nm w]; intros stk rest.
  - reflexivity.
  - cbn [flatten]. change (POpen nm w1 :: flat_map flatten body ++ [PClose nm w2]) with ([POpen nm w1] ++ flat_map flatten body ++ [PClose nm w2]).
    rewrite !tokens_of_app, <- !app_assoc. cbn [tokens_of map concat piece_tokens app balanced_from].
    assert (L : forall b r, balanced_from (nm :: stk) (tokens_of (flat_map flatten b) ++ r) = balanced_from (nm :: stk) r).
    { induction b as [|x b IHb]; intros r; [reflexivity|]. cbn [flat_map]. rewrite tokens_of_app, <- app_assoc, node_balanced. apply IHb. }
    rewrite L. cbn [app balanced_from]. rewrite bytes_eqb_refl. reflexivity.
  - cbn. rewrite bytes_eqb_refl. reflexivity.
Qed.

Theorem flatten_doc_balanced d : balanced (tokens_of (flatten_doc d)) = true.
Proof.
  unfold balanced, flatten_doc. rewrite <- (app_nil_r (tokens_of _)).
  induction d as [|n d IH]; [reflexivity|]. cbn [flat_map]. rewrite tokens_of_app, <- app_assoc, node_balanced. exact IH.
Qed.

Lemma gline_read g : gline_ok g ->
  ~ In c_nl (gline_bytes g) /\ line_content (gline_bytes g) = gline_text g /\ map line_kv (gline_text g) = gline_kv g.
Proof.
  unfold line_content. destruct g as [w0 k w1 w2 v w3|w rest|w]; cbn [gline_ok gline_bytes gline_text gline_kv map].
  - intros (B0 & B1 & B2 & B3 & HK & HV). destruct (kv_line_read w0 k w1 w2 v w3) as (-> & -> & H); auto.
  - intros [Bw Hr]. rewrite comment_line_read by assumption. repeat split.
    apply notin_app; [apply (blanks_notin w c_nl Bw); auto|]. intros [Hin|Hin]; [discriminate|contradiction].
  - intros Bw. rewrite blank_line_read by assumption. repeat split. apply (blanks_notin w c_nl Bw). auto.
Qed.

Lemma glines_no_nl ls : Forall gline_ok ls -> Forall (fun l => ~ In c_nl l) (map gline_bytes ls).
Proof. intros H. apply Forall_map. eapply Forall_impl; [|exact H]. intros g Hg. apply (gline_read g Hg). Qed.

Lemma flat_content ls : Forall gline_ok ls -> flat_map line_content (map gline_bytes ls) = flat_map gline_text ls.
Proof.
  induction 1 as [|g ls Hg Hls IH]; [reflexivity|]. cbn [map flat_map]. rewrite (proj1 (proj2 (gline_read g Hg))), IH. reflexivity.
Qed.

Theorem gtext_read ls b : Forall gline_ok ls -> content_lines (gtext ls b) = flat_map gline_text ls.
Proof.
  intros H. rewrite <- (flat_content ls H). destruct b; [apply content_lines_join, glines_no_nl, H|]. unfold gtext, glines_text_open.
  destruct (removelast_last_forall gline_ok ls (GBlank []) H) as [H1 H2]; [constructor|].
  rewrite content_lines_join_open by (apply glines_no_nl, H1 || apply (gline_read _ H2)).
  destruct ls as [|g0 ls0]; [reflexivity|]. rewrite (app_removelast_last (GBlank []) (l:=g0 :: ls0)) at 3 by discriminate.
  rewrite map_app. reflexivity.
Qed.

Theorem grammar_lines_read : forall ls b, Forall gline_ok ls ->
  content_lines (gtext ls b) = flat_map gline_text ls /\ map line_kv (flat_map gline_text ls) = flat_map gline_kv ls.
Proof.
  intros ls b H. split; [apply gtext_read, H|].
  induction H as [|g ls Hg Hls IH]; [reflexivity|]. cbn [flat_map]. rewrite map_app, IH, (proj2 (proj2 (gline_read g Hg))). reflexivity.
Qed.

Lemma lines_of_map stk K ls : lines_of (map (EvLine stk) ls) K = if key_eqb stk K then ls else [].
Proof.
  unfold lines_of. induction ls as [|l ls IH]; cbn [map flat_map]; [|rewrite IH]; destruct (key_eqb stk K); reflexivity.
Qed.

(* the values assigned to a key by a text run are those of its key = value lines with that key, in order *)
Theorem glines_assigns K k ls b : Forall gline_ok ls ->
  lines_of (map (EvLine K) (content_lines (gtext ls b))) K = flat_map gline_text ls /\
  assigns (map (EvLine K) (content_lines (gtext ls b))) K k = flat_map (gline_val k) ls.
Proof.
  intros H. unfold assigns. rewrite (gtext_read ls b H), lines_of_map, key_eqb_refl. split; [reflexivity|].
  induction H as [|g ls Hg Hls IH]; [reflexivity|]. cbn [flat_map]. rewrite filter_app, map_app, IH. f_equal.
  pose proof (proj2 (proj2 (gline_read g Hg))) as E. destruct g as [w0 k' w1 w2 v w3|w rest|w]; try reflexivity.
  cbn [gline_text gline_kv gline_val map filter] in *. injection E as E. unfold key_of_line, value_of_line. rewrite E. cbn [fst snd].
  destruct (bytes_eqb k' k); cbn [map]; rewrite ?E; reflexivity.
Qed.

Lemma split_on_aux_nosep sep : forall s cur, ~ In sep s -> split_on_aux sep cur s = [rev cur ++ s].
Proof.
  induction s as [|c r IH]; intros cur H; cbn [split_on_aux].
  - rewrite frev_rev, app_nil_r. reflexivity.
  - destruct (notin_cons _ _ _ H) as [-> H']. rewrite IH by exact H'. cbn [rev]. rewrite <- app_assoc. reflexivity.
Qed.
Lemma split_on_aux_sep sep : forall a cur b, ~ In sep a ->
  split_on_aux sep cur (a ++ sep :: b) = (rev cur ++ a) :: split_on_aux sep [] b.
Proof.
  induction a as [|c r IH]; intros cur b H; cbn [app split_on_aux].
  - rewrite N.eqb_refl, frev_rev, app_nil_r. reflexivity.
  - destruct (notin_cons _ _ _ H) as [-> H']. rewrite IH by exact H'. cbn [rev]. rewrite <- app_assoc. reflexivity.
Qed.
Lemma split_on_nosep sep s : ~ In sep s -> split_on sep s = [s].
Proof. intros H. unfold split_on. rewrite split_on_aux_nosep by assumption. reflexivity. Qed.
Lemma split_on_sep sep a b : ~ In sep a -> split_on sep (a ++ sep :: b) = a :: split_on sep b.
Proof. intros H. unfold split_on. rewrite split_on_aux_sep by assumption. reflexivity. Qed.

Lemma split_path_rest tl : ~ In c_slash tl -> forall l n,
  ~ In c_slash n -> Forall (fun m => ~ In c_slash m) l ->
  split_on c_slash (n ++ concat (map (fun m => c_slash :: m) l) ++ tl) = removelast (n :: l) ++ [last (n :: l) [] ++ tl].
Proof.
  intros Ht. induction l as [|m l IH]; intros n Hn Hl.
  - cbn [map concat app]. rewrite split_on_nosep; [reflexivity|]. intros Hin. apply in_app_or in Hin. tauto.
  - inversion Hl as [|? ? Hm Hl']; subst. cbn [map concat].
    replace (n ++ ((c_slash :: m) ++ concat (map (fun m0 => c_slash :: m0) l)) ++ tl)
      with (n ++ c_slash :: (m ++ concat (map (fun m0 => c_slash :: m0) l) ++ tl)) by (cbn [app]; rewrite <- app_assoc; reflexivity).
    rewrite split_on_sep by assumption. rewrite (IH m Hm Hl'). reflexivity.
Qed.

Lemma trim_left_c_head ch c r : c <> ch -> trim_left_c ch (c :: r) = c :: r.
Proof. intros H. cbn. destruct (c =? ch) eqn:E; [apply N.eqb_eq in E; contradiction|reflexivity]. Qed.

Lemma trim_c_key k : (exists c r, k = c :: r /\ c <> c_gt) -> (exists r c, k = r ++ [c] /\ c <> c_gt) ->
  trim_c c_gt (k ++ [c_gt]) = k.
Proof.
  intros H1 (r' & c' & E2 & H2). unfold trim_c.
  assert (S1 : trim_left_c c_gt (k ++ [c_gt]) = k ++ [c_gt]).
  { destruct H1 as (c & r & -> & H1). cbn [app]. apply trim_left_c_head. assumption. }
  rewrite S1, !frev_rev, rev_app_distr. cbn [rev app trim_left_c]. rewrite N.eqb_refl.
  assert (S2 : trim_left_c c_gt (rev k) = rev k).
  { rewrite E2, rev_app_distr. cbn [rev app]. apply trim_left_c_head. assumption. }
  rewrite S2. apply rev_involutive.
Qed.

Lemma filter_nonempty_names l : Forall path_name l -> filter nonempty l = l.
Proof.
  induction 1 as [|n l Hn Hl IH]; [reflexivity|]. cbn. destruct n; [destruct Hn as [Hn _]; contradiction|]. cbn. rewrite IH. reflexivity.
Qed.

Lemma last_name_no_lt v : Forall path_name v -> ~ In c_lt (last ([] :: v) []).
Proof.
  intros HV. apply (removelast_last_forall (fun n => ~ In c_lt n) ([] :: v) []); [constructor; [intros []|]|intros []].
  eapply Forall_impl; [|exact HV]. intros m Hm. apply Hm.
Qed.

(* a path is the names, each after a '/', then a tail without '/' (nothing, or <key>): analysisPath splits at the
   slashes (the piece before the first one is empty and filtered out) and looks for a '<' in the last piece only *)
Lemma analysis_path_string v tail (x := last ([] :: v) []) : Forall path_name v -> ~ In c_slash tail ->
  analysis_path (concat (map (fun n => c_slash :: n) v) ++ tail) =
  Ok (filter nonempty match split_on c_lt (x ++ tail) with
                      | [a; b] => removelast ([] :: v) ++ [a; trim_c c_gt b]
                      | _ => removelast ([] :: v) ++ [x ++ tail]
                      end).
Proof.
  intros HV Ht. unfold analysis_path.
  assert (S : Forall (fun m => ~ In c_slash m) v) by (eapply Forall_impl; [|exact HV]; intros m Hm; apply Hm).
  apply (split_path_rest tail Ht v [] (fun H => H)) in S. cbn [app] in S.
  rewrite S, frev_rev, rev_app_distr. cbn [rev app]. rewrite frev_rev, rev_involutive. reflexivity.
Qed.

Theorem analysis_path_domain v : Forall path_name v -> analysis_path (path_string v None) = Ok v.
Proof.
  intros HV. unfold path_string. rewrite analysis_path_string by (assumption || intros []). rewrite app_nil_r.
  pose proof (last_name_no_lt v HV) as HL.
  rewrite split_on_nosep, <- app_removelast_last by (assumption || discriminate). cbn [filter nonempty].
  rewrite filter_nonempty_names by assumption. reflexivity.
Qed.

Theorem analysis_path_key v k : Forall path_name v -> path_key k -> analysis_path (path_string v (Some k)) = Ok (v ++ [k]).
Proof.
  intros HV (K1 & K2 & K3 & K4). unfold path_string.
  assert (Hgt : forall c, ~ In c k -> c <> c_gt -> ~ In c (k ++ [c_gt]))
    by (intros c Hc Hn Hin; apply in_app_or in Hin; destruct Hin as [Hin|[Hin|[]]]; [contradiction|congruence]).
  rewrite analysis_path_string; [|assumption|intros [H|H]; [discriminate|exact (Hgt _ K1 ltac:(discriminate) H)]].
  pose proof (last_name_no_lt v HV) as HL.
  rewrite split_on_sep, split_on_nosep, trim_c_key by first [assumption | apply Hgt; [assumption|discriminate]].
  change [last ([] :: v) []; k] with ([last ([] :: v) []] ++ [k]). rewrite app_assoc, <- app_removelast_last by discriminate.
  cbn [app filter nonempty]. rewrite filter_app, filter_nonempty_names by assumption. destruct K3 as (c & r & -> & _). reflexivity.
Qed.

(* the getters: strings.Split never returns an empty slice, so pathVec[len(pathVec)-1] is in range *)
Lemma split_on_aux_nonempty sep : forall s cur, split_on_aux sep cur s <> [].
Proof. induction s as [|c r IH]; intros cur; cbn; [discriminate|]. destruct (c =? sep); [discriminate|apply IH]. Qed.

Lemma analysis_path_ok p : exists v, analysis_path p = Ok v.
Proof.
  unfold analysis_path. rewrite frev_rev.
  destruct (rev (split_on c_slash p)) eqn:E.
  - exfalso. apply (f_equal (@rev _)) in E. rewrite rev_involutive in E. cbn in E.
    unfold split_on in E. exact (split_on_aux_nonempty _ _ _ E).
  - eexists; reflexivity.
Qed.

Lemma with_elem_ok {A} s p (f : option (key * info) -> A) : exists v, with_elem s p f = Ok v.
Proof. unfold with_elem, get_elem. destruct (analysis_path_ok p) as [v ->]. eexists; reflexivity. Qed.

Theorem getters_no_panic : forall s p,
  (forall d, exists v, get_string_def s p d = Ok v) /\ (forall d, exists v, get_int_def s p d = Ok v) /\
  (forall d, exists v, get_int32_def s p d = Ok v) /\ (forall d, exists v, get_bool_def s p d = Ok v) /\
  (exists v, get_domain s p = Ok v) /\ (exists v, get_domain_key s p = Ok v) /\
  (exists v, get_domain_line s p = Ok v) /\ (exists v, get_map s p = Ok v).
Proof. intros s p. repeat split; intros; apply with_elem_ok. Qed.

Lemma key_of_vec_snoc v k : key_of_vec (v ++ [k]) = k :: key_of_vec v.
Proof. unfold key_of_vec. rewrite !frev_rev, rev_app_distr. reflexivity. Qed.

Definition absent (evs : list event) (X : key) : Prop :=
  ~ live evs X /\ forall K k, X = k :: K -> k <> [] -> assigns evs K k = [].

Lemma absent_lookup s evs X : represents s evs -> absent evs X -> lookup s X = None.
Proof.
  intros R [H1 H2]. destruct (lookup s X) as [i|] eqn:L; [|reflexivity]. exfalso.
  destruct (rep_only _ _ R _ _ L) as [H|(K & k & E & Hk & Ha)]; [exact (H1 H)|]. exact (Ha (H2 K k E Hk)).
Qed.

Section Getters.
  Variable s : store.
  Variable evs : list event.
  Hypothesis R : represents s evs.
  Variable p : bytes.
  Variable v : list bytes.
  Hypothesis Hp : analysis_path p = Ok v.

  Lemma with_elem_path {A} (f : option (key * info) -> A) :
    with_elem s p f = Ok (f (match lookup s (key_of_vec v) with Some i => Some (key_of_vec v, i) | None => None end)).
  Proof. unfold with_elem, get_elem. rewrite Hp. reflexivity. Qed.

  Theorem lines_exact : live evs (key_of_vec v) -> get_domain_line s p = Ok (lines_of evs (key_of_vec v)).
  Proof.
    intros HL. destruct (rep_domain _ _ R _ HL) as (i & Li & _ & Hl).
    unfold get_domain_line. rewrite with_elem_path, Li, frev_rev, Hl, rev_involutive. reflexivity.
  Qed.

  Theorem value_exact : forall v0 k, v = v0 ++ [k] -> k <> [] -> assigns evs (key_of_vec v0) k <> [] ->
    let x := last (assigns evs (key_of_vec v0) k) [] in
    (forall d, get_string_def s p d = Ok x) /\
    (forall d, get_int_def s p d = Ok (match atoi x with Some z => z | None => d end)) /\
    (forall d, get_int32_def s p d = Ok (match atoi32 x with Some z => z | None => d end)) /\
    (forall d, get_bool_def s p d = Ok (match parse_bool x with Some b => b | None => d end)).
  Proof.
    intros v0 k Ev Hk Ha x. pose proof (rep_key _ _ R _ _ Hk Ha) as L. rewrite <- key_of_vec_snoc, <- Ev in L.
    unfold get_string_def, get_int_def, get_int32_def, get_bool_def, typed. repeat split; intros d; rewrite with_elem_path, L; reflexivity.
  Qed.

  Theorem absent_defaults : absent evs (key_of_vec v) ->
    (forall d, get_string_def s p d = Ok d) /\ (forall d, get_int_def s p d = Ok d) /\
    (forall d, get_int32_def s p d = Ok d) /\ (forall d, get_bool_def s p d = Ok d) /\
    get_domain s p = Ok [] /\ get_domain_key s p = Ok [] /\ get_domain_line s p = Ok [] /\ get_map s p = Ok [].
  Proof.
    intros HA. pose proof (absent_lookup _ _ _ R HA) as L.
    unfold get_string_def, get_int_def, get_int32_def, get_bool_def, typed, get_domain, get_domain_key, get_domain_line, get_map.
    repeat split; intros; rewrite with_elem_path, L; reflexivity.
  Qed.
End Getters.

Lemma child_name_some K e n : child_name K e = Some n <-> fst e = n :: K.
Proof.
  unfold child_name. destruct (fst e) as [|m K']; [split; discriminate|].
  destruct (key_eqb K' K) eqn:E.
  - apply key_eqb_eq in E. subst. split; [intros H; inversion H; reflexivity|intros H; inversion H; reflexivity].
  - split; [discriminate|]. intros H. inversion H; subst. rewrite key_eqb_refl in E. discriminate.
Qed.

Lemma children_flat kd K : forall s, children kd s K =
  flat_map (fun e => match child_name K e with Some n => if is_kind kd (snd e) then [(n, ivalue (snd e))] else [] | None => [] end) s.
Proof.
  induction s as [|e r IH]; [reflexivity|]. cbn [children flat_map]. rewrite IH.
  destruct (child_name K e); [destruct (is_kind kd (snd e))|]; reflexivity.
Qed.

Lemma children_in kd s K n val :
  In (n, val) (children kd s K) <-> exists i, In (n :: K, i) s /\ is_kind kd i = true /\ val = ivalue i.
Proof.
  rewrite children_flat, in_flat_map. split.
  - intros ([k i] & Hin & He). destruct (child_name K (k, i)) as [m|] eqn:C; [|contradiction]. apply child_name_some in C.
    cbn [fst snd] in *. subst k. destruct (is_kind kd i) eqn:Kd; [|contradiction]. destruct He as [[= <- <-]|[]]. exists i. auto.
  - intros (i & Hin & Hk & ->). exists (n :: K, i). split; [exact Hin|].
    rewrite (proj2 (child_name_some K (n :: K, i) n) eq_refl). cbn [snd]. rewrite Hk. left. reflexivity.
Qed.

Lemma children_nodup kd : forall s K, NoDup (map fst s) -> NoDup (map fst (children kd s K)).
Proof.
  induction s as [|e r IH]; intros K ND; cbn [children]; [constructor|].
  inversion ND as [|? ? Hn ND']; subst.
  destruct (child_name K e) as [m|] eqn:C; [|apply IH; assumption].
  destruct (is_kind kd (snd e)); [|apply IH; assumption].
  cbn [map fst]. constructor; [|apply IH; assumption].
  intros Hin. apply in_map_iff in Hin. destruct Hin as ([m' val] & E & Hin). cbn in E. subst m'.
  apply children_in in Hin. destruct Hin as (i & Hin & _). apply child_name_some in C.
  apply Hn. rewrite C. apply (in_map fst) in Hin. exact Hin.
Qed.

Section Listings.
  Variable s : store.
  Variable evs : list event.
  Hypothesis R : represents s evs.
  Variable K : key.

  Lemma children_lookup kd n val :
    In (n, val) (children kd s K) <-> exists i, lookup s (n :: K) = Some i /\ is_kind kd i = true /\ val = ivalue i.
  Proof.
    rewrite children_in. split; intros (i & H & H'); exists i; (split; [|exact H']).
    - apply in_lookup; [apply (rep_nodup _ _ R)|assumption].
    - apply lookup_in. assumption.
  Qed.

  Theorem subdomains_exact : forall n, In n (map fst (children KNode s K)) <-> live evs (n :: K).
  Proof.
    intros n. rewrite in_map_iff. split.
    - intros ([n' val] & E & Hin). cbn in E. subst n'. apply children_lookup in Hin. destruct Hin as (i & L & Kd & _).
      destruct (rep_only _ _ R _ _ L) as [H|(K' & k & E & Hk & Ha)]; [exact H|].
      injection E as E1 E2. subst k K'. pose proof (rep_key _ _ R _ _ Hk Ha) as L2. unfold key, bytes in *. rewrite L2 in L. inversion L; subst. discriminate.
    - intros H. destruct (rep_domain _ _ R (n :: K) H) as (i & L & Kd & _).
      exists (n, ivalue i). split; [reflexivity|]. apply children_lookup. exists i. unfold is_kind. rewrite Kd. auto.
  Qed.

  Theorem keys_exact : forall k val, In (k, val) (children KLeaf s K) <->
    k <> [] /\ assigns evs K k <> [] /\ val = last (assigns evs K k) [].
  Proof.
    intros k val. rewrite children_lookup. split.
    - intros (i & L & Kd & ->). destruct (rep_only _ _ R _ _ L) as [H|(K' & k' & E & Hk & Ha)].
      + destruct (rep_domain _ _ R _ H) as (i' & L' & Kd' & _). unfold key, bytes in *. rewrite L in L'. inversion L'; subst. unfold is_kind in Kd. rewrite Kd' in Kd. discriminate.
      + injection E as E1 E2. subst k' K'. pose proof (rep_key _ _ R _ _ Hk Ha) as L2. unfold key, bytes in *. rewrite L2 in L. inversion L; subst. auto.
    - intros (Hk & Ha & ->). exists (new_leaf (last (assigns evs K k) [])). split; [apply (rep_key _ _ R); assumption|]. auto.
  Qed.

  Theorem listings_nodup : NoDup (map fst (children KNode s K)) /\ NoDup (map fst (children KLeaf s K)).
  Proof. split; apply children_nodup; apply (rep_nodup _ _ R). Qed.
End Listings.

Theorem listing_getters : forall s p v i, analysis_path p = Ok v -> lookup s (key_of_vec v) = Some i ->
  get_domain s p = Ok (map fst (children KNode s (key_of_vec v))) /\
  get_domain_key s p = Ok (map fst (children KLeaf s (key_of_vec v))) /\
  get_map s p = Ok (children KLeaf s (key_of_vec v)).
Proof.
  intros s p v i Hp L. unfold get_domain, get_domain_key, get_map.
  rewrite !(with_elem_path s p v Hp), L. auto.
Qed.

(* typed getters.  strconv.Atoi / ParseInt read a sign and digits ([int_value], independent of the width) and then test
   the range: the decimal rendering of an integer (fmt %d / strconv.Itoa form) reads as that integer, and what is read
   at all is exactly [+-]?[0-9]+ *)
Definition int_value (s : bytes) : option Z :=
  let '(neg, body) := sign_split s in
  match body with [] => None | _ => option_map (fun v => if neg then (- v)%Z else v) (dec_z 0 body) end.

Lemma parse_int_split lo hi s :
  parse_int lo hi s =
  let '(neg, body) := sign_split s in
  match body with
  | [] => None
  | _ => match dec_z 0 body with
         | None => None
         | Some v => let v := if neg then (- v)%Z else v in if ((lo <=? v) && (v <=? hi))%Z then Some v else None
         end
  end.
Proof. reflexivity. Qed.   (* Conf.parse_int spells this match out; [fold (sign_split s)] does not find it (bytes vs list N in the return type) *)

Lemma parse_int_value lo hi s :
  parse_int lo hi s = match int_value s with Some v => if ((lo <=? v) && (v <=? hi))%Z then Some v else None | None => None end.
Proof.
  rewrite parse_int_split. unfold int_value. destruct (sign_split s) as [neg [|c r]]; [reflexivity|].
  destruct (dec_z 0 (c :: r)); reflexivity.
Qed.

Lemma dec_z_value : forall s acc, dec_z acc s = Endpoint.Parse.dec_value acc s.
Proof.
  induction s as [|c r IH]; intros acc; cbn [dec_z Endpoint.Parse.dec_value]; [reflexivity|].
  unfold Endpoint.Parse.digit_of, is_digit, in_range. destruct (N.leb 48 c && N.leb c 57) eqn:E; [|reflexivity].
  rewrite IH. f_equal. lia.
Qed.

Lemma int_value_dec z : int_value (Endpoint.Parse.dec z) = Some z.
Proof.
  unfold int_value. destruct (dec_split z) as (ds & -> & Hne & Hv). destruct ds as [|c r]; [contradiction|].
  rewrite dec_z_value, Hv. cbn [option_map]. f_equal. destruct (Z.ltb_spec z 0); lia.
Qed.

Theorem parse_int_dec lo hi z :
  parse_int lo hi (Endpoint.Parse.dec z) = if ((lo <=? z) && (z <=? hi))%Z then Some z else None.
Proof. rewrite parse_int_value, int_value_dec. reflexivity. Qed.

Theorem int_parsed : forall z,
  ((-9223372036854775808 <= z <= 9223372036854775807)%Z -> atoi (Endpoint.Parse.dec z) = Some z) /\
  ((-2147483648 <= z <= 2147483647)%Z -> atoi32 (Endpoint.Parse.dec z) = Some z) /\
  (~ (-2147483648 <= z <= 2147483647)%Z -> atoi32 (Endpoint.Parse.dec z) = None) /\
  (~ (-9223372036854775808 <= z <= 9223372036854775807)%Z -> atoi (Endpoint.Parse.dec z) = None).
Proof.
  intros z. unfold atoi, atoi32. rewrite !parse_int_dec.
  repeat split; intros H; match goal with |- (if ?b then _ else _) = _ => destruct b eqn:E end; try reflexivity; lia.
Qed.

Fixpoint dval (acc : Z) (ds : bytes) : Z :=
  match ds with [] => acc | c :: r => dval (acc * 10 + Z.of_N (c - 48))%Z r end.
Definition decimal_shape (s sign ds : bytes) : Prop :=
  s = sign ++ ds /\ (sign = [] \/ sign = [43] \/ sign = [45]) /\ ds <> [] /\ Forall (fun c => is_digit c = true) ds.

Lemma dec_z_spec : forall s acc v, dec_z acc s = Some v <-> Forall (fun c => is_digit c = true) s /\ v = dval acc s.
Proof.
  induction s as [|c r IH]; intros acc v; cbn [dec_z dval].
  - split; [intros [= <-]; auto | intros [_ ->]; reflexivity].
  - destruct (is_digit c) eqn:E.
    + rewrite IH. split; intros [H1 H2]; (split; [|assumption]); [constructor; assumption | inversion H1; assumption].
    + split; [discriminate|]. intros [H _]. inversion H; congruence.
Qed.

Lemma sign_split_shape sign ds : sign = [] \/ sign = [43] \/ sign = [45] -> ds <> [] -> Forall (fun c => is_digit c = true) ds ->
  sign_split (sign ++ ds) = (bytes_eqb sign [45], ds).
Proof.
  intros [->|[->| ->]] Hne HF; try reflexivity. destruct ds as [|c r]; [contradiction|]. inversion HF as [|? ? Hc _]; subst.
  cbn [app]. rewrite sign_split_cons. unfold is_digit, in_range in Hc.
  destruct (N.eqb_spec c 45); [lia|]. destruct (N.eqb_spec c 43); [lia|]. reflexivity.
Qed.

Lemma int_value_spec s z : int_value s = Some z <->
  exists sign ds, decimal_shape s sign ds /\ z = (if bytes_eqb sign [45%N] then - dval 0 ds else dval 0 ds)%Z.
Proof.
  assert (BODY : forall (neg : bool) body,
    match body with [] => None | _ => option_map (fun v => if neg then (- v)%Z else v) (dec_z 0 body) end = Some z <->
    body <> [] /\ Forall (fun c => is_digit c = true) body /\ z = (if neg then - dval 0 body else dval 0 body)%Z).
  { intros neg [|c r]; [split; [discriminate|intros [[] _]; reflexivity]|].
    destruct (dec_z 0 (c :: r)) as [v|] eqn:D; cbn [option_map].
    - apply dec_z_spec in D. destruct D as [DF ->].
      split; [intros [= <-]; repeat split; [discriminate|assumption] | intros (_ & _ & ->); reflexivity].
    - split; [discriminate|]. intros (_ & DF & _). rewrite (proj2 (dec_z_spec _ _ _) (conj DF eq_refl)) in D. discriminate. }
  unfold int_value. split.
  - destruct (sign_split s) as [neg body] eqn:SS. rewrite BODY. intros (Hne & HF & ->).
    destruct s as [|c r]; [injection SS as _ <-; contradiction|]. rewrite sign_split_cons in SS.
    destruct (N.eqb_spec c 45) as [->|]; [|destruct (N.eqb_spec c 43) as [->|]]; injection SS as <- <-.
    + exists [45], r. repeat split; auto.
    + exists [43], r. repeat split; auto.
    + exists [], (c :: r). repeat split; auto.
  - intros (sign & ds & (-> & Hs & Hne & HF) & ->). rewrite sign_split_shape by assumption. apply BODY. auto.
Qed.

(* "malformed" at full strength: the conversion succeeds exactly on [+-]?[0-9]+ whose value lies inside the width *)
Theorem parse_int_spec lo hi s z :
  parse_int lo hi s = Some z <->
  exists sign ds, decimal_shape s sign ds /\ z = (if bytes_eqb sign [45%N] then - dval 0 ds else dval 0 ds)%Z /\ (lo <= z <= hi)%Z.
Proof.
  rewrite parse_int_value. split.
  - destruct (int_value s) as [v|] eqn:V; [|discriminate]. destruct ((lo <=? v) && (v <=? hi))%Z eqn:R; [|discriminate].
    intros [= <-]. apply int_value_spec in V. destruct V as (sign & ds & Hs & Hz). exists sign, ds. split; [exact Hs|split; [exact Hz|lia]].
  - intros (sign & ds & Hs & Hz & Hr). rewrite (proj2 (int_value_spec s z)) by eauto.
    destruct ((lo <=? z) && (z <=? hi))%Z eqn:R; [reflexivity|lia].
Qed.

Section GrammarProofs.
  Variable dec : list atom -> list gline * bool.

  Lemma grammar_events : forall ps stk K k, grammar_text dec ps ->
    lines_of (events (tokens_of ps) stk) K = glines dec ps stk K /\
    assigns (events (tokens_of ps) stk) K k = gassigns dec ps stk K k.
  Proof.
    induction ps as [|pc ps IH]; intros stk K k HG; [split; reflexivity|].
    assert (HG' : grammar_text dec ps) by (intros l Hl; apply HG; right; assumption).
    change (tokens_of (pc :: ps)) with (piece_tokens pc ++ tokens_of ps).
    destruct pc as [l|n ws|n ws|n ws]; cbn [piece_tokens app events gassigns glines tl].
    - destruct (HG l (or_introl eq_refl)) as [Hok Htx]. rewrite lines_of_app, assigns_app, Htx.
      destruct (IH stk K k HG') as [-> ->]. destruct (key_eqb stk K) eqn:E.
      + apply key_eqb_eq in E. subst K. destruct (glines_assigns stk k (fst (dec l)) (snd (dec l)) Hok) as [-> ->]. split; reflexivity.
      + unfold assigns. rewrite lines_of_map, E. split; reflexivity.
    - apply (IH (n :: stk) K k HG').
    - apply (IH (tl stk) K k HG').
    - apply (IH stk K k HG').
  Qed.

  (* end to end, in the grammar's terms: the document is accepted; /path<key> is the value of the last
     key = value line with that key in the domains of that path; the lines are the written lines *)
  Theorem grammar_value ps v k :
    doc_ok ps -> short_lines (tokens_of ps) -> no_clobber (piece_events ps) -> grammar_text dec ps ->
    Forall path_name v -> path_key k -> gassigns dec ps [root_name] (key_of_vec v) k <> [] ->
    exists t, parse (render ps) = Ok t /\
      let x := last (gassigns dec ps [root_name] (key_of_vec v) k) [] in
      (forall d, get_string_def t (path_string v (Some k)) d = Ok x) /\
      (forall d, get_int_def t (path_string v (Some k)) d = Ok (match atoi x with Some z => z | None => d end)) /\
      (forall d, get_int32_def t (path_string v (Some k)) d = Ok (match atoi32 x with Some z => z | None => d end)) /\
      (forall d, get_bool_def t (path_string v (Some k)) d = Ok (match parse_bool x with Some b => b | None => d end)).
  Proof.
    intros HD HS NC HG HV HK HA.
    destruct (rendered_represented ps HD HS NC) as (t & Hp & R). exists t. split; [exact Hp|].
    destruct (grammar_events ps [root_name] (key_of_vec v) k HG) as [_ EA]. fold (piece_events ps) in EA. rewrite <- EA in *.
    assert (Hk : k <> []) by (destruct HK as (_ & _ & (c & r & -> & _) & _); discriminate).
    apply (value_exact t _ R _ _ (analysis_path_key v k HV HK) v k eq_refl Hk HA).
  Qed.

  Theorem grammar_lines ps v :
    doc_ok ps -> short_lines (tokens_of ps) -> no_clobber (piece_events ps) -> grammar_text dec ps ->
    Forall path_name v -> live (piece_events ps) (key_of_vec v) ->
    exists t, parse (render ps) = Ok t /\ get_domain_line t (path_string v None) = Ok (glines dec ps [root_name] (key_of_vec v)).
  Proof.
    intros HD HS NC HG HV HL.
    destruct (rendered_represented ps HD HS NC) as (t & Hp & R). exists t. split; [exact Hp|].
    destruct (grammar_events ps [root_name] (key_of_vec v) [] HG) as [EL _]. fold (piece_events ps) in EL. rewrite <- EL.
    apply (lines_exact t _ R _ _ (analysis_path_domain v HV) HL).
  Qed.
End GrammarProofs.

(* The side conditions of the theorems above are decidable; the examples below check them by evaluating these tests. *)
Definition notinb (x : N) (l : bytes) : bool := negb (existsb (N.eqb x) l).
Definition blanksb (w : bytes) : bool := forallb (fun c => is_conf_blank c && negb (c =? c_nl)) w.
Definition endsb (P : N -> bool) (s : bytes) : bool :=
  match s, rev s with c :: _, d :: _ => P c && P d | _, _ => false end.
Definition edgesb : bytes -> bool := endsb (fun c => negb (is_conf_blank c)).
Definition clean_keyb (k : bytes) : bool :=
  edgesb k && notinb c_eq k && notinb c_nl k && notinb c_cr k && negb (hd 0 k =? c_hash).
Definition clean_valueb (v : bytes) : bool :=
  match v with [] => true | _ => edgesb v && notinb c_nl v && notinb c_cr v end.
Definition gline_okb (g : gline) : bool :=
  match g with
  | GKV w0 k w1 w2 v w3 => blanksb w0 && blanksb w1 && blanksb w2 && blanksb w3 && clean_keyb k && clean_valueb v
  | GComment w rest => blanksb w && notinb c_nl rest
  | GBlank w => blanksb w
  end.
Definition grammar_textb (dec : list atom -> list gline * bool) (ps : list piece) : bool :=
  forallb (fun p => match p with
                    | PText l => forallb gline_okb (fst (dec l)) && bytes_eqb (text_chars l) (gtext (fst (dec l)) (snd (dec l)))
                    | _ => true
                    end) ps.
Definition no_clobberb (evs : list event) : bool :=
  forallb (fun e => match e with
                    | EvLine K l => match key_of_line l with
                                    | [] => true
                                    | k => negb (liveb evs (k :: K))
                                    end
                    | EvOpen _ => true
                    end) evs.
Definition path_nameb (n : bytes) : bool := nonempty n && notinb c_slash n && notinb c_lt n.
Definition path_keyb (k : bytes) : bool := notinb c_slash k && notinb c_lt k && endsb (fun c => negb (c =? c_gt)) k.

Lemma forallb_Forall {A} (f : A -> bool) l : forallb f l = true -> Forall (fun x => f x = true) l.
Proof. rewrite forallb_forall. apply Forall_forall. Qed.

Definition atom_okb (prev : N) (a : atom) : bool :=
  match a with
  | ARaw c => (c <? 128) && negb (c =? c_lt) && negb (c =? c_amp) && negb (c =? c_cr) && negb (is_ctrl c)
              && negb ((prev =? c_rb) && (c =? c_gt)) && negb ((prev =? c_cr) && (c =? c_nl))
  | AEnt raw c => forallb is_ent_char raw && match decode_entity raw with EntText c' => c' =? c | _ => false end
                  && negb (is_ctrl c) && (c <? 128)
  | AEntU raw bs => forallb is_ent_char raw && match decode_entity raw with EntBytes bs' => bytes_eqb bs' bs | _ => false end
                    && nonempty bs && utf8_valid bs
  | AUtf8 bs => nonempty bs && forallb (N.leb 128) bs && utf8_valid bs
  | ACr | ACrLf => true
  end.
Fixpoint atoms_okb (prev : N) (l : list atom) : bool :=
  match l with [] => true | a :: r => atom_okb prev a && atoms_okb (atom_last a) r end.
Definition name_okb (n : bytes) : bool :=
  match n with [] => false | c :: r => is_name_start c && forallb is_name_char r end.
Definition piece_okb (p : piece) : bool :=
  match p with
  | PText l => match l with [] => false | _ => atoms_okb 0 l end
  | POpen n ws | PClose n ws | PEmpty n ws => name_okb n && forallb is_xml_blank ws
  end.
Fixpoint no_adjacent_textb (ps : list piece) : bool :=
  match ps with p :: ((q :: _) as r) => negb (is_text p && is_text q) && no_adjacent_textb r | _ => true end.
Definition doc_okb (ps : list piece) : bool := forallb piece_okb ps && no_adjacent_textb ps && balanced (tokens_of ps).

Lemma nonempty_sound b : nonempty b = true -> b <> [].
Proof. destruct b; [discriminate|]. intros _. discriminate. Qed.
Lemma atom_okb_sound prev a : atom_okb prev a = true -> atom_ok prev a.
Proof.
  destruct a as [c|raw c|raw bs|bs| |]; cbn [atom_okb atom_ok]; intros H; [| | | |exact I ..].
  - autounfold with chars in *. lia.
  - apply andb_prop in H as [H H4]. apply andb_prop in H as [H H3]. apply andb_prop in H as [H1 H2].
    destruct (decode_entity raw) as [c'| |]; try discriminate H2. apply N.eqb_eq in H2 as ->.
    repeat split; [apply forallb_Forall, H1 | apply negb_true_iff, H3 | apply N.ltb_lt, H4].
  - apply andb_prop in H as [H H4]. apply andb_prop in H as [H H3]. apply andb_prop in H as [H1 H2].
    destruct (decode_entity raw) as [|bs'|]; try discriminate H2. apply bytes_eqb_eq in H2 as ->.
    repeat split; [apply forallb_Forall, H1 | apply nonempty_sound, H3 | exact H4].
  - apply andb_prop in H as [H H3]. apply andb_prop in H as [H1 H2].
    repeat split; [apply nonempty_sound, H1 | | exact H3].
    eapply Forall_impl; [|apply forallb_Forall, H2]. intros c Hc. apply N.leb_le, Hc.
Qed.
Lemma atoms_okb_sound : forall l prev, atoms_okb prev l = true -> atoms_ok prev l.
Proof.
  induction l as [|a l IH]; intros prev H; [exact I|]. apply andb_prop in H as [H1 H2].
  split; [apply atom_okb_sound, H1|apply IH, H2].
Qed.
Lemma piece_okb_sound p : piece_okb p = true -> piece_ok p.
Proof.
  assert (TAG : forall n ws, name_okb n && forallb is_xml_blank ws = true -> name_ok n /\ ws_ok ws).
  { intros [|c r] ws H; [discriminate|]. apply andb_prop in H as [H1 H2]. apply andb_prop in H1 as [H0 H1].
    split; [split; [exact H0|apply forallb_Forall, H1]|apply forallb_Forall, H2]. }
  destruct p as [l|n ws|n ws|n ws]; cbn [piece_okb piece_ok]; auto.
  destruct l; [discriminate|]. intros H. split; [discriminate|apply atoms_okb_sound, H].
Qed.
Lemma no_adjacent_textb_sound : forall ps, no_adjacent_textb ps = true -> no_adjacent_text ps.
Proof.
  induction ps as [|p [|q r] IH]; intros H; try exact I. apply andb_prop in H as [H1 H2].
  split; [apply negb_true_iff, H1|apply IH, H2].
Qed.
Lemma doc_okb_sound ps : doc_okb ps = true -> doc_ok ps.
Proof.
  intros H. repeat (apply andb_prop in H as [H ?]). repeat split; [|apply no_adjacent_textb_sound|]; try assumption.
  eapply Forall_impl; [|apply forallb_Forall, H]. apply piece_okb_sound.
Qed.

Lemma neqb_sound a b : negb (a =? b) = true -> a <> b.
Proof. intros H ->. rewrite N.eqb_refl in H. discriminate. Qed.
Lemma notinb_sound x l : notinb x l = true -> ~ In x l.
Proof.
  unfold notinb. intros H Hin. apply negb_true_iff in H.
  rewrite (proj2 (existsb_exists _ _) (ex_intro _ x (conj Hin (N.eqb_refl x)))) in H. discriminate.
Qed.
Lemma blanksb_sound w : blanksb w = true -> blanks w.
Proof.
  intros H. eapply Forall_impl; [|apply forallb_Forall, H]. intros c Hc. apply andb_prop in Hc as [H1 H2].
  split; [exact H1|apply neqb_sound, H2].
Qed.
Lemma endsb_sound P s : endsb P s = true ->
  (exists c r, s = c :: r /\ P c = true) /\ (exists r d, s = r ++ [d] /\ P d = true).
Proof.
  unfold endsb. destruct s as [|c r]; [discriminate|]. destruct (rev (c :: r)) as [|d r'] eqn:E; [discriminate|].
  intros H. apply andb_prop in H as [H1 H2]. split; [exists c, r; auto|]. exists (rev r'), d. split; [|exact H2].
  rewrite <- (rev_involutive (c :: r)), E. reflexivity.
Qed.
Lemma edgesb_sound s : edgesb s = true -> edges_ok s.
Proof.
  intros H. destruct (endsb_sound _ _ H) as [(c & r & E & Hc) (r' & d & E' & Hd)]. apply negb_true_iff in Hc, Hd.
  split; eauto.
Qed.
Lemma clean_keyb_sound k : clean_keyb k = true -> clean_key k.
Proof.
  unfold clean_keyb. intros H. repeat (apply andb_prop in H as [H ?]).
  repeat split; auto using notinb_sound, neqb_sound; apply (edgesb_sound _ H).
Qed.
Lemma clean_valueb_sound v : clean_valueb v = true -> clean_value v.
Proof.
  destruct v as [|c v]; intros H; [left; reflexivity|right]. cbn [clean_valueb] in H. repeat (apply andb_prop in H as [H ?]).
  repeat split; auto using notinb_sound; apply (edgesb_sound _ H).
Qed.
Lemma gline_okb_sound g : gline_okb g = true -> gline_ok g.
Proof.
  destruct g as [w0 k w1 w2 v w3|w rest|w]; cbn [gline_okb gline_ok]; intros H; repeat (apply andb_prop in H as [H ?]);
    repeat (split; [solve [auto using blanksb_sound, clean_keyb_sound]|]);
    auto using blanksb_sound, notinb_sound, clean_valueb_sound.
Qed.
Lemma grammar_textb_sound dec ps : grammar_textb dec ps = true -> grammar_text dec ps.
Proof.
  unfold grammar_textb. rewrite forallb_forall. intros H l Hl. destruct (andb_prop _ _ (H _ Hl)) as [H1 H2].
  split; [|apply bytes_eqb_eq, H2]. eapply Forall_impl; [|apply forallb_Forall, H1]. apply gline_okb_sound.
Qed.
Lemma no_clobberb_sound evs : no_clobberb evs = true -> no_clobber evs.
Proof.
  unfold no_clobberb. rewrite forallb_forall. intros H K l Hin Hk HL. specialize (H _ Hin). cbn beta iota in H.
  destruct (key_of_line l) as [|c r]; [contradiction|]. apply negb_true_iff, not_true_iff_false in H. apply H, liveb_live, HL.
Qed.
Lemma path_namesb_sound v : forallb path_nameb v = true -> Forall path_name v.
Proof.
  intros H. eapply Forall_impl; [|apply forallb_Forall, H]. intros n Hn. unfold path_nameb in Hn.
  repeat (apply andb_prop in Hn as [Hn ?]). repeat split; auto using notinb_sound, nonempty_sound.
Qed.
Lemma path_keyb_sound k : path_keyb k = true -> path_key k.
Proof.
  unfold path_keyb. intros H. repeat (apply andb_prop in H as [H ?]).
  destruct (endsb_sound _ _ H0) as [(c & r & E & Hc) (r' & d & E' & Hd)].
  repeat split; eauto using notinb_sound, neqb_sound.
Qed.

(* a concrete document satisfying every hypothesis of the theorems above, and the theorems applied to it *)
Definition ex_text : list atom :=
  map ARaw (raw " k = v1 "%hex) ++ [ACrLf] ++ map ARaw (raw "#c"%hex) ++ [AUtf8 [230; 151; 165]; AEntU (raw "#233"%hex) [195; 169]; ARaw 10] ++
  map ARaw (raw "k=a"%hex) ++ [AEnt (raw "amp"%hex) 38] ++ map ARaw (raw "b=c ]"%hex) ++ [AEnt (raw "gt"%hex) 62; ARaw 10].
Definition ex_doc : list piece :=
  [POpen (raw "a"%hex) [32]; PText ex_text; PEmpty (raw "b.1"%hex) []; PClose (raw "a"%hex) [10];
   PText (map ARaw (raw "top=1"%hex))].

Example ex_doc_ok : doc_ok ex_doc.
Proof. apply doc_okb_sound. reflexivity. Qed.

Example ex_short : short_lines (tokens_of ex_doc).
Proof. apply short_lines_iff. reflexivity. Qed.

Example ex_no_clobber : no_clobber (piece_events ex_doc).
Proof. apply no_clobberb_sound. reflexivity. Qed.

(* end to end through the theorems: the document is accepted and /a<k> is the last written value "a&b=c ]>" *)
Example ex_end_to_end : exists t, parse (render ex_doc) = Ok t /\
  get_string_def t (raw "/a<k>"%hex) [] = Ok (raw "a&b=c ]>"%hex) /\
  get_domain_line t (raw "/a"%hex) = Ok [raw "k = v1"%hex; raw "k=a&b=c ]>"%hex] /\
  get_int_def t (raw "<top>"%hex) 7%Z = Ok 1%Z.
Proof.
  destruct (rendered_represented ex_doc ex_doc_ok ex_short ex_no_clobber) as (t & Hp & R). exists t. split; [exact Hp|].
  assert (P1 : analysis_path (raw "/a<k>"%hex) = Ok [raw "a"%hex; raw "k"%hex])
    by (apply (analysis_path_key [raw "a"%hex] (raw "k"%hex)); [apply path_namesb_sound|apply path_keyb_sound]; reflexivity).
  assert (P2 : analysis_path (raw "/a"%hex) = Ok [raw "a"%hex])
    by (apply (analysis_path_domain [raw "a"%hex]), path_namesb_sound; reflexivity).
  assert (P3 : analysis_path (raw "<top>"%hex) = Ok [raw "top"%hex]) by reflexivity.
  split; [|split].
  - destruct (value_exact _ _ R _ _ P1 [raw "a"%hex] (raw "k"%hex) eq_refl) as (H & _); [discriminate|vm_compute; discriminate|].
    rewrite H. vm_compute. reflexivity.
  - rewrite (lines_exact _ _ R _ _ P2); [vm_compute; reflexivity|]. right. vm_compute. left. reflexivity.
  - destruct (value_exact _ _ R _ _ P3 [] (raw "top"%hex) eq_refl) as (_ & H & _); [discriminate|vm_compute; discriminate|].
    rewrite H. vm_compute. reflexivity.
Qed.

Example ex_kv_line : content_line (raw "  locator = tars.tarsregistry.QueryObj@tcp -h 10.0.0.1 -p 17890	 "%hex)
   = Some (raw "locator = tars.tarsregistry.QueryObj@tcp -h 10.0.0.1 -p 17890"%hex)
  /\ line_kv (raw "locator = tars.tarsregistry.QueryObj@tcp -h 10.0.0.1 -p 17890"%hex)
   = (raw "locator"%hex, raw "tars.tarsregistry.QueryObj@tcp -h 10.0.0.1 -p 17890"%hex).
Proof.
  destruct (gline_okb_sound (GKV (raw "  "%hex) (raw "locator"%hex) (raw " "%hex) (raw " "%hex)
    (raw "tars.tarsregistry.QueryObj@tcp -h 10.0.0.1 -p 17890"%hex) [9; 32]) eq_refl) as (B0 & B1 & B2 & B3 & HK & HV).
  destruct (kv_line_read _ _ _ _ _ _ B0 B1 B2 B3 HK HV) as (H1 & H2 & _). split; assumption.
Qed.

(* the same document read as grammar lines *)
Definition ex_dec (l : list atom) : list gline * bool :=
  if (length l =? 5)%nat then ([GKV [] (raw "top"%hex) [] [] (raw "1"%hex) []], false)
  else ([GKV [32] (raw "k"%hex) [32] [32] (raw "v1"%hex) [32]; GComment [] (raw "c"%hex ++ [230; 151; 165; 195; 169]);
         GKV [] (raw "k"%hex) [] [] (raw "a&b=c ]>"%hex) []], true).

Example ex_grammar_text : grammar_text ex_dec ex_doc.
Proof. apply grammar_textb_sound. reflexivity. Qed.

Example ex_grammar_value : exists t, parse (render ex_doc) = Ok t /\
  get_string_def t (path_string [raw "a"%hex] (Some (raw "k"%hex))) [] = Ok (raw "a&b=c ]>"%hex) /\
  get_int32_def t (path_string [] (Some (raw "top"%hex))) 5%Z = Ok 1%Z.
Proof.
  destruct (grammar_value ex_dec ex_doc [raw "a"%hex] (raw "k"%hex) ex_doc_ok ex_short ex_no_clobber ex_grammar_text) as (t & Hp & H1 & _);
    [apply path_namesb_sound; reflexivity | apply path_keyb_sound; reflexivity | vm_compute; discriminate |].
  destruct (grammar_value ex_dec ex_doc [] (raw "top"%hex) ex_doc_ok ex_short ex_no_clobber ex_grammar_text) as (t' & Hp' & _ & _ & H3 & _);
    [constructor | apply path_keyb_sound; reflexivity | vm_compute; discriminate |].
  rewrite Hp in Hp'. injection Hp' as <-. exists t. rewrite H1, H3. repeat split; [exact Hp|vm_compute; reflexivity..].
Qed.

(* without the disjointness of key and sub-domain names the statement is false of the model (and of the code):
   a key line named like an earlier sub-domain of the same domain replaces the whole sub-domain *)
Definition complete_full_statement : Prop := forall ps,
  doc_ok ps -> short_lines (tokens_of ps) -> exists t, parse (render ps) = Ok t /\ represents t (piece_events ps).

Definition col_doc : list piece :=
  [POpen (raw "a"%hex) []; POpen (raw "b"%hex) []; PText (map ARaw (raw "c=2"%hex)); PClose (raw "b"%hex) [];
   PText (map ARaw (raw "b=1"%hex)); PClose (raw "a"%hex) []].

Example col_doc_ok : doc_ok col_doc.
Proof. apply doc_okb_sound. reflexivity. Qed.
Example col_short : short_lines (tokens_of col_doc).
Proof. apply short_lines_iff. reflexivity. Qed.

Theorem complete_full_refuted : ~ complete_full_statement.
Proof.
  intros H. destruct (H col_doc col_doc_ok col_short) as (t & Hp & R).
  rewrite (parse_rendered col_doc col_doc_ok col_short) in Hp. injection Hp as <-.
  assert (K : lookup (run_events (piece_events col_doc)) [raw "c"%hex; raw "b"%hex; raw "a"%hex; root_name] = Some (new_leaf (raw "2"%hex))).
  { apply (rep_key _ _ R [raw "b"%hex; raw "a"%hex; root_name] (raw "c"%hex)); [discriminate|vm_compute; discriminate]. }
  vm_compute in K. discriminate.
Qed.

(* observable through the getters: /a/b<c> was written as 2 and reads as the default *)
Example col_observable : exists t, parse (render col_doc) = Ok t /\
  get_string_def t (raw "/a/b<c>"%hex) (raw "?"%hex) = Ok (raw "?"%hex) /\ get_string_def t (raw "/a<b>"%hex) [] = Ok (raw "1"%hex)
  /\ get_domain t (raw "/a"%hex) = Ok [].
Proof. eexists. split; [apply parse_rendered; [apply col_doc_ok|apply col_short]|]. vm_compute. repeat split. Qed.

(* the loop as it was before the repair accepts a document and returns a tree that does not represent it: the rest of
   the document after "a&b" is dropped *)

Definition old_witness : bytes := raw "<a>
k1=v1
k2=a&b
k3=v3
</a>"%hex.
Definition old_result : store := match parse_old old_witness with Ok t => t | _ => [] end.
Theorem parse_old_refuted : exists bs t, parse_old bs = Ok t /\ no_clobber (doc_events bs) /\ ~ represents t (doc_events bs).
Proof.
  exists old_witness, old_result. split; [vm_compute; reflexivity|]. split; [apply no_clobberb_sound; vm_compute; reflexivity|].
  intros R. assert (K : lookup old_result [[107; 51]; [97]; root_name] = Some (new_leaf [118; 51])).
  { apply (rep_key _ _ R [[97]; root_name] [107; 51]); [discriminate|vm_compute; discriminate]. }
  vm_compute in K. discriminate.
Qed.

(* a re-opened domain and a repeated key, through the grammar theorems: the lines of both blocks in order, the last value *)
Definition ex2_doc : list piece :=
  [POpen (raw "a"%hex) []; PText (map ARaw (raw "k=1"%hex) ++ [ARaw 10]); PClose (raw "a"%hex) [];
   POpen (raw "b"%hex) []; PClose (raw "b"%hex) [];
   POpen (raw "a"%hex) [32]; PText (map ARaw (raw "k = 2"%hex) ++ [ARaw 10] ++ map ARaw (raw "k=3"%hex)); PClose (raw "a"%hex) []].
Definition ex2_dec (l : list atom) : list gline * bool :=
  if (length l =? 4)%nat then ([GKV [] (raw "k"%hex) [] [] (raw "1"%hex) []], true)
  else ([GKV [] (raw "k"%hex) [32] [32] (raw "2"%hex) []; GKV [] (raw "k"%hex) [] [] (raw "3"%hex) []], false).

Example ex2_doc_ok : doc_ok ex2_doc.
Proof. apply doc_okb_sound. reflexivity. Qed.
Example ex2_short : short_lines (tokens_of ex2_doc).
Proof. apply short_lines_iff. reflexivity. Qed.
Example ex2_no_clobber : no_clobber (piece_events ex2_doc).
Proof. apply no_clobberb_sound. reflexivity. Qed.
Example ex2_grammar_text : grammar_text ex2_dec ex2_doc.
Proof. apply grammar_textb_sound. reflexivity. Qed.

Example ex2_reopened_domain : exists t, parse (render ex2_doc) = Ok t /\
  get_int_def t (path_string [raw "a"%hex] (Some (raw "k"%hex))) 0%Z = Ok 3%Z /\
  get_domain_line t (path_string [raw "a"%hex] None) = Ok [raw "k=1"%hex; raw "k = 2"%hex; raw "k=3"%hex].
Proof.
  assert (HV : Forall path_name [raw "a"%hex]) by (apply path_namesb_sound; reflexivity).
  destruct (grammar_value ex2_dec ex2_doc [raw "a"%hex] (raw "k"%hex) ex2_doc_ok ex2_short ex2_no_clobber ex2_grammar_text HV) as (t & Hp & _ & H2 & _);
    [apply path_keyb_sound; reflexivity | vm_compute; discriminate |].
  destruct (grammar_lines ex2_dec ex2_doc [raw "a"%hex] ex2_doc_ok ex2_short ex2_no_clobber ex2_grammar_text HV) as (t' & Hp' & HL);
    [right; vm_compute; left; reflexivity|].
  rewrite Hp in Hp'. injection Hp' as <-. exists t. rewrite H2, HL. repeat split; [exact Hp|vm_compute; reflexivity..].
Qed.
