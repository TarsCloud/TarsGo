(* C08 — responses are delivered to the caller of the matching request id; ids are non-zero and not shared by
   outstanding calls.  Statements only; every proof hands over to a lemma proved elsewhere.  Where a statement asks the start
   value of the counter to be in range ([in_i32 c0]) and the lemma holds for every start value, the hypothesis is dropped first. *)
From Coq Require Import List ZArith NArith Bool.
From TarsV Require Import Gen.Consts Rpc.ReqId Rpc.ReqIdProofs Conc.Pending Conc.PendingProofs Conc.C08Corr Conc.C08Sys Conc.C08SysProofs.
(* no statement below names them: they are required so that the closure of this file, which is what gets built and
   checked for C08, holds the equivalence proofs of genRequestID and of the receive loops *)
From TarsV Require Xlate.ReqIdEquiv.
From TarsV Require Xlate.RecvEventsEquiv.
Import ListNotations.
Open Scope Z_scope.

(* the wrap threshold of the code (regenerated from the tree); the proofs need exactly this value *)
Definition maxi : Z := Z.of_N c_maxInt32.

(* genRequestID, any number of threads, any interleaving, any start value: 0 is never handed out *)
Theorem C08_id_nonzero : forall c0 n ls s, ReqId.run maxi (ReqId.init c0 n) ls = Some s ->
  (forall v, In v (ids s) -> v <> 0) /\ (forall t v, nth_error (pcs s) t = Some (TDone v) -> v <> 0).
Proof. exact (ReqIdProofs.id_nonzero maxi). Qed.

(* two allocations (Add steps) that return the same value have at least 2^31-3 other allocations between them *)
Theorem C08_id_distance : forall c0 n ls s l1 x l2 l3, in_i32 c0 -> ReqId.run maxi (ReqId.init c0 n) ls = Some s ->
  rev (hist s) = l1 ++ x :: l2 ++ x :: l3 -> 2147483648 - 2 <= Z.of_nat (length l2) + 1.
Proof. intros c0 n ls s l1 x l2 l3 _. apply (ReqIdProofs.id_distance maxi eq_refl). Qed.

(* the bound is tight: from counter 1, the Add that follows 2^31-2 Adds and the Cas of the next call returns 2 again *)
Theorem C08_id_distance_tight : exists l2, adds 2147483647 1 tight_ops = 2 :: l2 ++ [2] /\ Z.of_nat (length l2) + 1 = 2147483648 - 2.
Proof. exact ReqIdProofs.id_distance_tight. Qed.

(* hence any stretch of fewer than 2^31-2 consecutive allocations is pairwise distinct: two calls can share an id only if
   2^31-2 or more allocations happen while the first is still outstanding (the per-proxy in-flight limit is 10^5) *)
Theorem C08_id_window_distinct : forall c0 n ls s pre w post, in_i32 c0 -> ReqId.run maxi (ReqId.init c0 n) ls = Some s ->
  rev (hist s) = pre ++ w ++ post -> Z.of_nat (length w) < 2147483648 - 1 -> NoDup w.
Proof. intros c0 n ls s pre w post _. apply (ReqIdProofs.id_window_nodup maxi eq_refl). Qed.

(* pending table, all label sequences (peer emits any packets at any time; any schedule): a call only ever holds a packet
   carrying its own id, non-zero, two-way, and really sent by the peer and handed over by one receiver *)
Theorem C08_routing : forall ls s k c p, Pending.run Pending.init ls = Some s ->
  nth_error (calls s) k = Some c -> (c_pc c = CGot p \/ c_pc c = CRet (OReply p)) ->
  p_id p = c_id c /\ p_id p <> 0 /\ p_oneway p = false /\
  exists r rc, nth_error (recvs s) r = Some rc /\ r_pkt rc = p /\ r_pc rc = RDone k.
Proof. exact PendingProofs.routing. Qed.

(* id 0, one-way type, or an id no call registered: the receiver never finds a channel (reaches nobody) *)
Theorem C08_unknown_reaches_nobody : forall ls s r rc, Pending.run Pending.init ls = Some s -> nth_error (recvs s) r = Some rc ->
  (p_id (r_pkt rc) = 0 \/ p_oneway (r_pkt rc) = true \/ (forall k c, nth_error (calls s) k = Some c -> c_id c <> p_id (r_pkt rc))) ->
  chan_of (r_pc rc) = None.
Proof. exact PendingProofs.unknown_reaches_nobody. Qed.

(* duplicates: at most one receiver hands a packet to a given call *)
Theorem C08_delivered_once : forall ls s r1 r2 rc1 rc2 ch, Pending.run Pending.init ls = Some s ->
  nth_error (recvs s) r1 = Some rc1 -> nth_error (recvs s) r2 = Some rc2 ->
  r_pc rc1 = RDone ch -> r_pc rc2 = RDone ch -> r1 = r2.
Proof. exact PendingProofs.delivered_once. Qed.

(* a reply arriving when no outstanding call holds its id (late, already completed) is dropped and changes nothing *)
Theorem C08_late_reply_inert : forall ls s r rc, Pending.run Pending.init ls = Some s ->
  nth_error (recvs s) r = Some rc -> r_pc rc = RStart ->
  (forall k c, nth_error (calls s) k = Some c -> c_id c = p_id (r_pkt rc) -> active c = false) ->
  exists s', Pending.step s (LLookup r) = Some s' /\ calls s' = calls s /\ table s' = table s /\
    (forall rc', nth_error (recvs s') r = Some rc' -> r_pc rc' = RPush \/ r_pc rc' = RDropped) /\
    Pending.step s' (LLookup r) = None /\ Pending.step s' (LHandoff r) = None /\ Pending.step s' (LGiveUp r) = None.
Proof. exact PendingProofs.late_reply_inert. Qed.

(* cleanup: table entries exist only for outstanding calls under their own id; a returned call has none; quiescent = empty *)
Theorem C08_cleanup : forall ls s, Pending.run Pending.init ls = Some s ->
  forall id ch, lookup id (table s) = Some ch ->
  exists c, nth_error (calls s) ch = Some c /\ c_id c = id /\ active c = true.
Proof. exact PendingProofs.cleanup. Qed.

Theorem C08_cleanup_quiescent : forall ls s, Pending.run Pending.init ls = Some s ->
  (forall k c, nth_error (calls s) k = Some c -> active c = false) -> table s = [].
Proof. exact PendingProofs.table_empty_when_quiet. Qed.

(* with ids fresh among outstanding calls (what C08_id_window_distinct provides): the entry of every outstanding call is
   intact, and outstanding calls have pairwise distinct non-zero ids *)
Theorem C08_own_entry : forall ls s k c, good_run Pending.init ls = true -> Pending.run Pending.init ls = Some s ->
  nth_error (calls s) k = Some c -> active c = true -> c_id c <> 0 /\ lookup (c_id c) (table s) = Some k.
Proof. exact PendingProofs.own_entry. Qed.

Theorem C08_outstanding_distinct : forall ls s k1 k2 c1 c2, good_run Pending.init ls = true -> Pending.run Pending.init ls = Some s ->
  nth_error (calls s) k1 = Some c1 -> nth_error (calls s) k2 = Some c2 -> active c1 = true -> active c2 = true ->
  c_id c1 = c_id c2 -> k1 = k2.
Proof. exact PendingProofs.outstanding_distinct. Qed.

(* a caller comes back with the reply carrying its own id, or the timeout, or a send error, or (one-way) nothing *)
Theorem C08_outcome : forall ls s k c o, Pending.run Pending.init ls = Some s -> nth_error (calls s) k = Some c -> c_pc c = CRet o ->
  o = OTimeout \/ o = OErr \/ o = OOneWay \/ exists p, o = OReply p /\ p_id p = c_id c /\ p_id p <> 0 /\ p_oneway p = false.
Proof. exact PendingProofs.outcome_cases. Qed.

(* trace validation: every connection of a trace accepted by [maccepts] (what the harness asks on every run) is a good run
   of the pending-table machine from [init] — the theorems above apply to what was observed *)
Theorem C08_accepted_trace_components : forall n ls obs snaps lft pu, maccepts (n, ls, obs, snaps, lft, pu) = true ->
  exists ms, mrun (repeat Pending.init n) ls = Some ms /\
    forall a s', nth_error ms a = Some s' -> exists pls, Pending.run Pending.init pls = Some s' /\ good_run Pending.init pls = true.
Proof. exact PendingProofs.maccepts_components. Qed.

(* ---- the process: one id generator, any number of threads, any number of adapters (connections) each with its own
   table; a call is registered under the id its own genRequestID call returned (Conc/C08Sys.v).  All label sequences. ---- *)

(* every adapter is a run of the pending-table machine: the theorems above hold of every connection of the process *)
Theorem C08_sys_adapter_is_run : forall c0 nt na ls s, srun maxi (sinit c0 nt na) ls = Some s ->
  forall a ad, nth_error (ads s) a = Some ad -> exists pls, Pending.run Pending.init pls = Some ad.
Proof. exact (C08SysProofs.sys_adapter_is_run maxi). Qed.

(* and the adapters of the process evolve by steps of the product machine the recorded traces are validated against *)
Theorem C08_sys_adapters_step : forall s l s', sstep maxi s l = Some s' ->
  ads s' = ads s \/ exists al, mstep (ads s) al = Some (ads s').
Proof. exact (C08SysProofs.sstep_ads_mstep maxi). Qed.

(* no call is ever registered under id 0 *)
Theorem C08_sys_ids_nonzero : forall c0 nt na ls s, srun maxi (sinit c0 nt na) ls = Some s ->
  forall a k c p, call_at s a k c p -> c_id c <> 0.
Proof. exact (C08SysProofs.sys_ids_nonzero maxi). Qed.

(* two different calls of the process (any adapters, outstanding or not) with the same id: their ids were allocated at
   least 2^31-2 allocations apart *)
Theorem C08_sys_shared_id_far : forall c0, in_i32 c0 -> forall nt na ls s, srun maxi (sinit c0 nt na) ls = Some s ->
  forall a1 k1 c1 p1 a2 k2 c2 p2, call_at s a1 k1 c1 p1 -> call_at s a2 k2 c2 p2 -> (a1 <> a2 \/ k1 <> k2) ->
  c_id c1 = c_id c2 -> 2147483648 - 2 <= Z.abs (Z.of_nat p1 - Z.of_nat p2).
Proof. intros c0 _. exact (C08SysProofs.sys_shared_id_far maxi eq_refl c0). Qed.

(* no two concurrently outstanding calls of the process share an id — in every state in which no outstanding call has been
   overtaken by 2^31-2 or more later allocations ([all_young]; without that proviso the statement is false of the code:
   the counter is 32 bits wide and C08_sys_shared_id_far is tight) *)
Theorem C08_sys_outstanding_distinct : forall c0, in_i32 c0 -> forall nt na ls s, srun maxi (sinit c0 nt na) ls = Some s ->
  forall a1 k1 c1 p1 a2 k2 c2 p2, all_young s -> call_at s a1 k1 c1 p1 -> call_at s a2 k2 c2 p2 ->
  active c1 = true -> active c2 = true -> c_id c1 = c_id c2 -> a1 = a2 /\ k1 = k2.
Proof. intros c0 _. exact (C08SysProofs.sys_outstanding_distinct maxi eq_refl c0). Qed.

(* the clause as literally worded ("no two concurrently outstanding calls of a process share an id", no proviso) *)
Definition C08_outstanding_never_share_statement : Prop :=
  forall c0 nt na ls s a1 k1 c1 p1 a2 k2 c2 p2, in_i32 c0 -> srun 2147483647 (sinit c0 nt na) ls = Some s ->
    call_at s a1 k1 c1 p1 -> call_at s a2 k2 c2 p2 -> active c1 = true -> active c2 = true -> c_id c1 = c_id c2 ->
    a1 = a2 /\ k1 = k2.

(* ... is false of the model and of the code (32-bit counter): a call that stays outstanding while 2^31-2 further ids are
   allocated meets a second call with its id (witness: C08SysProofs.wrap_labels, 2^31-1 calls of genRequestID at three
   labels each, proved symbolically;
   replayed on the code by the thorough tier's "wrap" scenario) *)
Theorem C08_outstanding_never_share_refuted : ~ C08_outstanding_never_share_statement.
Proof. exact C08SysProofs.unconditional_distinct_refuted. Qed.

(* the reply a call holds carries the call's own id, and no other outstanding call of the process, on this or any other
   connection, has that id: never a response addressed to another call *)
Theorem C08_sys_no_foreign_reply : forall c0, in_i32 c0 -> forall nt na ls s, srun maxi (sinit c0 nt na) ls = Some s ->
  forall a k c p pk, all_young s -> call_at s a k c p -> c_pc c = CGot pk ->
  p_id pk = c_id c /\ p_id pk <> 0 /\
  forall a' k' c' p', call_at s a' k' c' p' -> active c' = true -> (a' <> a \/ k' <> k) -> c_id c' <> p_id pk.
Proof. intros c0 _. exact (C08SysProofs.sys_no_foreign_reply maxi eq_refl c0). Qed.

(* the generator discharges the hypothesis [good_run] of C08_own_entry / C08_outstanding_distinct: whenever a thread
   registers a call, the id is non-zero and (young calls) no outstanding call on any adapter of the process holds it *)
Theorem C08_sys_registration_good : forall c0, in_i32 c0 -> forall nt na ls s t a ow s',
  srun maxi (sinit c0 nt na) ls = Some s -> sstep maxi s (SReg t a ow) = Some s' -> all_young s' ->
  exists v, nth_error (pcs (gen s)) t = Some (TDone v) /\ mgoodb (ads s) (a, LRegister v ow) = true.
Proof. intros c0 _. exact (C08SysProofs.sys_registration_good maxi eq_refl c0). Qed.

(* [all_young] holds in particular while the process has performed fewer than 2^31-1 allocations in all *)
Theorem C08_sys_young_if_few : forall s, Z.of_nat (allocs s) < 2147483648 - 1 -> all_young s.
Proof. exact C08SysProofs.young_if_few. Qed.

(* ---- the CURRENT source of ServantProxy.TarsInvoke: the id on the wire is genRequestID's result ----
   The request literal and the timeout statements after it are regenerated from tars/servant.go on every run
   (Xlate/TarsInvokeEquiv.v): whatever the call kind, the per-call timeout, the caller's deadline - the request that leaves
   TarsInvoke carries the id genRequestID returned (whose steps are Xlate/ReqIdEquiv.v), ITimeout is the effective timeout. *)
From TarsV Require Import Xlate.GoSem Gen.Translated Xlate.TarsInvokeEquiv.
Theorem C08_source_request_id : forall cType fn status ctx mtype name proxy_ms version id sbuf has_dl until ct,
  int31 proxy_ms -> int31 (snd (fst ct)) -> int63 until ->
  exists armed t req, go_tarsinvoke cType fn status ctx mtype name proxy_ms version id sbuf has_dl until ct = Next (armed, t, req) /\
    go_requestf_RequestPacket_IRequestId req = id /\
    go_requestf_RequestPacket_ITimeout req = eff_itimeout proxy_ms (per_call ct) (if has_dl then Some until else None) /\
    t = eff_timeout proxy_ms (per_call ct) (if has_dl then Some until else None) /\
    armed = (if has_dl then []%list else [t]%list).
Proof. exact TarsInvokeEquiv.tarsinvoke_request_id. Qed.

Print Assumptions C08_id_nonzero.
Print Assumptions C08_id_distance.
Print Assumptions C08_id_distance_tight.
Print Assumptions C08_id_window_distinct.
Print Assumptions C08_routing.
Print Assumptions C08_unknown_reaches_nobody.
Print Assumptions C08_delivered_once.
Print Assumptions C08_late_reply_inert.
Print Assumptions C08_cleanup.
Print Assumptions C08_cleanup_quiescent.
Print Assumptions C08_own_entry.
Print Assumptions C08_outstanding_distinct.
Print Assumptions C08_outcome.
Print Assumptions C08_accepted_trace_components.
Print Assumptions C08_sys_adapter_is_run.
Print Assumptions C08_sys_adapters_step.
Print Assumptions C08_sys_ids_nonzero.
Print Assumptions C08_sys_shared_id_far.
Print Assumptions C08_sys_outstanding_distinct.
Print Assumptions C08_outstanding_never_share_refuted.
Print Assumptions C08_sys_no_foreign_reply.
Print Assumptions C08_sys_registration_good.
Print Assumptions C08_sys_young_if_few.
Print Assumptions C08_source_request_id.
(* ---- the CURRENT source of AdapterProxy.Recv is the model's lookup step ----
   regenerated from tars/adapter.go on every run (Xlate/AdapterRecvEquiv.v): id 0 -> push callback, one-way -> dropped, else the
   pending table is looked up BY THE PACKET'S ID and the packet offered to that entry's channel only (with a timer of
   conf.ReadTimeout), nothing when there is no entry - the actions of the model's LLookup outcome. *)
From TarsV Require Import Xlate.AdapterRecvEquiv.
Theorem C08_source_recv_lookup : forall (p : packet) (t : list (Z * nat)) ptype read_timeout sel out,
  (ptype =? k_basef_TARSONEWAY)%Z = p_oneway p ->
  out_of (tr_adapter_Recv read_timeout (match lookup (p_id p) t with Some _ => true | None => false end) ptype (p_id p) sel out)
  = Some (out ++ acts_of (lookup_pc p t) read_timeout)%list.
Proof. exact AdapterRecvEquiv.tr_adapter_Recv_equiv. Qed.
Theorem C08_source_recv_lookup_is_step : forall s r rc, nth_error (recvs s) r = Some rc -> r_pc rc = RStart ->
  step s (LLookup r) = Some {| table := table s; calls := calls s; recvs := upd r (set_rpc rc (lookup_pc (r_pkt rc) (table s))) (recvs s) |}.
Proof. exact AdapterRecvEquiv.lookup_pc_is_step. Qed.
Print Assumptions C08_source_recv_lookup.
Print Assumptions C08_source_recv_lookup_is_step.
