(* C04 — schema evolution: unknown fields are skipped exactly, absent optionals take defaults. Statements only. *)
From Coq Require Import List NArith ZArith.
From TarsV Require Import Base.Hex Codec.Wire Codec.Skip Codec.SkipProofs Codec.Prim Codec.GenCodec Codec.Corr Codec.GenProofs
  Codec.RoundTrip Codec.RoundTripProofs Codec.NestedProofs Codec.WireSpec Codec.EvolveProofs Codec.Evolve2Proofs Codec.RoundTripExamples Codec.CorrT Gen.Schemas.
From TarsV Require Xlate.ReaderEquiv.
Import ListNotations.
Open Scope N_scope.

(* the reader consumes each skipped field exactly: every well-formed wire tree (all 13 wire types, any nesting
   within the depth limit, extended tags, any lengths the format can express), any suffix, linear fuel *)
Theorem C04_skip_exact : forall w, wf_ok w -> forall d fuel rest,
  d + wdepth w <= maxd -> (2 * length (ser_body w ++ rest) + 2 <= fuel)%nat ->
  skip_field fuel d (ty_of w) (ser_body w ++ rest) = (SOk, rest).
Proof. exact SkipProofs.skip_exact. Qed.

(* decoder level, every wf_schema environment, every struct type with a finite type graph, every well-typed
   value: a group of well-formed unknown fields (any wire type, nesting, length; tags strictly between the
   neighbouring member tags) in front of every member and after the last member changes neither the decoded
   value nor success (same result as the clean encoding), and the cursor stops in front of the trailing ones *)
Theorem C04_extras_ignored : forall e k n sid vs Js Jl,
  wf_schema k e -> (S k <= 64)%nat -> tfin n e (TStruct sid) = true -> (tneed n e (TStruct sid) + k <= 64)%nat ->
  has_type e (TStruct sid) (VStruct vs) ->
  junks_ok None (fields_of e sid) Js -> trailing_ok (fields_of e sid) Jl ->
  decode e sid (encx_fields e vs (fields_of e sid) Js ++ ser_fields Jl) = DOk (norm_struct e sid (VStruct vs)) (ser_fields Jl)
  /\ decode e sid (encode e sid (VStruct vs)) = DOk (norm_struct e sid (VStruct vs)) [].
Proof. exact RoundTripProofs.extras_ignored. Qed.

(* the same into ANY target (used or fresh), explicit fuel condition, any struct type *)
Theorem C04_extras_ignored_into : forall e k sid vs prior Js tail,
  wf_schema k e -> has_type e (TStruct sid) (VStruct vs) ->
  junks_ok None (fields_of e sid) Js ->
  (forall fd, In fd (fields_of e sid) -> follows (ftag fd) tail) ->
  (need_list vs + k + 3 <= 2 * length (encx_fields e vs (fields_of e sid) Js ++ tail) + 64)%nat ->
  decode_into e sid prior (encx_fields e vs (fields_of e sid) Js ++ tail) = DOk (norm_struct e sid (VStruct vs)) tail.
Proof. exact RoundTripProofs.decode_into_extras. Qed.

(* an absent required member is an error: member level (any type, behind any unknown fields) ... *)
Theorem C04_member_absent_required : forall e f tag t prior lo J rest, junk_ok lo tag J -> follows tag rest ->
  (2 * length (ser_fields J ++ rest) + 3 <= f)%nat ->
  dec_var (S f) e tag true t prior (ser_fields J ++ rest) = DErr.
Proof. exact RoundTripProofs.member_absent_required. Qed.
(* ... and struct level: an input written without a member that the reader's schema requires is rejected *)
Theorem C04_required_absent : forall e k n sid fds1 fd fds2 vs1 vs2,
  wf_schema k e -> (S k <= 64)%nat -> fields_of e sid = fds1 ++ fd :: fds2 -> freq fd = true ->
  Forall2 (fun fd x => has_type e (fty fd) x) fds1 vs1 -> Forall2 (fun fd x => has_type e (fty fd) x) fds2 vs2 ->
  tfin n e (TStruct sid) = true -> (tneed n e (TStruct sid) + k <= 64)%nat ->
  decode e sid (enc_fields e vs1 fds1 ++ enc_fields e vs2 fds2) = DErr.
Proof. exact RoundTripProofs.required_absent. Qed.

(* an absent optional member keeps the target's value and consumes nothing; after ResetDefault the target
   holds the declared default where one is declared (next theorem), the zero value in a fresh target *)
Theorem C04_member_absent_optional : forall e f tag t prior lo J rest, junk_ok lo tag J -> follows tag rest ->
  (match t with TStruct _ => False | _ => True end) ->
  (2 * length (ser_fields J ++ rest) + 3 <= f)%nat ->
  dec_var (S f) e tag false t prior (ser_fields J ++ rest) = DOk prior rest.
Proof. exact RoundTripProofs.member_absent_optional. Qed.
Theorem C04_declared_default : forall f e sid vs i fd d,
  nth_error (fields_of e sid) i = Some fd -> fdef fd = Some d -> (i < length vs)%nat ->
  match reset_default (S f) e sid (VStruct vs) with
  | VStruct l => nth_error l i = Some d
  | _ => False
  end.
Proof. exact GenProofs.reset_default_declared. Qed.

(* every member is assigned by ResetDefault - its declared default or, where none is declared, the zero value of
   its type (struct members recursively) - whatever the target held *)
Theorem C04_reset_every_member : forall f e sid v i fd,
  nth_error (fields_of e sid) i = Some fd ->
  match reset_default (S f) e sid v with
  | VStruct l => nth_error l i = Some (match fdef fd with
                                       | Some d => d
                                       | None => match fty fd with TStruct s => reset_default f e s v | t => zero_of f e t end
                                       end)
  | _ => False
  end.
Proof. exact GenProofs.reset_default_member. Qed.

(* REUSED TARGETS, FULL STRENGTH: the result of decoding does not depend on what the target held before - any
   schema environment, any struct type, ANY two prior targets (of any shape), any bytes (valid, extended,
   truncated, hostile). Decoding into a used target is decoding into a fresh one. (Codec/Pinned.v
   C04_reuse_pinned_refuted / C04_empty_bytes_pinned_refuted: the pinned code kept stale optional members and
   stale bytes of an empty byte vector.) *)
Theorem C04_reuse : forall e sid p1 p2 bs, decode_into e sid p1 bs = decode_into e sid p2 bs.
Proof. exact GenProofs.decode_into_prior_indep. Qed.
Theorem C04_reuse_fresh : forall e sid prior bs, decode_into e sid prior bs = decode e sid bs.
Proof. exact GenProofs.decode_into_fresh. Qed.
(* nested struct members and struct-typed elements likewise (ReadBlock resets first), at any fuel *)
Theorem C04_reuse_member : forall fuel e tag req sid p1 p2 bs,
  dec_var fuel e tag req (TStruct sid) p1 bs = dec_var fuel e tag req (TStruct sid) p2 bs.
Proof. exact GenProofs.dec_var_struct_prior_indep. Qed.
(* the witness of the former finding on the repaired model *)
Theorem C04_reuse_witness :
  let e := [[ {| ftag := 0; freq := true; fty := TI32; fdef := None |};
              {| ftag := 1; freq := false; fty := TStr; fdef := None |} ]] in
  decode_into e 0 (VStruct [VInt 7; VStr [98; 111; 111; 109]]) (w_int32 5 0)
  = DOk (VStruct [VInt 5; VStr []]) [].
Proof. exact GenProofs.reuse_witness. Qed.

(* FIRST CLAUSE AT FULL STRENGTH: unknown fields at EVERY struct level. xfields e fds vs Js body (RoundTrip.v: xenc)
   says that body encodes the members vs with the groups Js of unknown fields in front of the members, and that
   every struct value nested in them - as a member, vector/array element, map key or value, at any depth - again
   carries arbitrary groups of well-formed unknown fields in front of its members and after its last member. For
   every wf_schema environment, every struct type with a finite type graph and every well-typed value, such an
   encoding followed by trailing unknown fields decodes to the same value as the clean encoding, and the cursor
   stops in front of the trailing top-level unknown fields. *)
Theorem C04_extras_nested : forall e k n sid vs Js body Jl,
  wf_schema k e -> (S k <= 64)%nat -> tfin n e (TStruct sid) = true -> (tneed n e (TStruct sid) + k <= 64)%nat ->
  has_type e (TStruct sid) (VStruct vs) ->
  xfields e (fields_of e sid) vs Js body -> junks_ok None (fields_of e sid) Js -> trailing_ok (fields_of e sid) Jl ->
  decode e sid (body ++ ser_fields Jl) = DOk (norm_struct e sid (VStruct vs)) (ser_fields Jl)
  /\ decode e sid (encode e sid (VStruct vs)) = DOk (norm_struct e sid (VStruct vs)) [].
Proof. exact RoundTripProofs.extras_nested. Qed.
(* instantiated on the schemas regenerated from the tree *)
Theorem C04_code_schemas_extras_nested : forall sid vs Js body Jl, fits_model sid = true ->
  has_type env0 (TStruct sid) (VStruct vs) ->
  xfields env0 (fields_of env0 sid) vs Js body -> junks_ok None (fields_of env0 sid) Js -> trailing_ok (fields_of env0 sid) Jl ->
  decode env0 sid (body ++ ser_fields Jl) = DOk (norm_struct env0 sid (VStruct vs)) (ser_fields Jl)
  /\ decode env0 sid (encode env0 sid (VStruct vs)) = DOk (norm_struct env0 sid (VStruct vs)) [].
Proof. exact RoundTripExamples.env0_extras_nested. Qed.
(* the same for any struct type (recursive ones included) and ANY target, with the explicit fuel hypothesis *)
Theorem C04_extras_nested_into : forall e k sid vs prior Js body tail,
  wf_schema k e -> has_type e (TStruct sid) (VStruct vs) ->
  xfields e (fields_of e sid) vs Js body -> junks_ok None (fields_of e sid) Js ->
  (forall fd, In fd (fields_of e sid) -> follows (ftag fd) tail) ->
  (need_list vs + k + 3 <= 2 * length (body ++ tail) + 64)%nat ->
  decode_into e sid prior (body ++ tail) = DOk (norm_struct e sid (VStruct vs)) tail.
Proof. exact RoundTripProofs.decode_into_nested. Qed.

(* THE LAST CLAUSE, "so old readers and new writers, and vice versa, interoperate", between two versions of a struct type
   kept in one schema environment (Codec/EvolveProofs.v).
   Old writer -> new reader. evolves e fn fo vo vn: the new member list fn is the old one fo with OPTIONAL members added
   anywhere (of scalar, string, vector, byte-vector or map type, whose default is a value the writer leaves out), and vn
   is vo with every added member at its default (dflt: the declared default, else the zero value). The bytes the old
   writer produces for vo decode, with the new schema, everything consumed, to vn (normal form). *)
Theorem C04_old_writer_new_reader : forall e k n so sn vo vn,
  wf_schema k e -> (S k <= 64)%nat -> tfin n e (TStruct sn) = true -> (tneed n e (TStruct sn) + k <= 64)%nat ->
  evolves e (fields_of e sn) (fields_of e so) vo vn -> has_type e (TStruct so) (VStruct vo) ->
  decode e sn (encode e so (VStruct vo)) = DOk (norm_struct e sn (VStruct vn)) [].
Proof. exact EvolveProofs.old_writer_new_reader. Qed.
(* The same direction for added optional members of ANY type (fixed arrays and nested structs included), i.e. "an absent
   optional field decodes to its IDL default" at struct level for every member type: grows fn fo - fn is fo with optional
   members added; merged - the decoded members are the writer's values (normal forms) at the old positions and, at every
   added position, an admissible reset value of the member's type (prior_ok: the declared default, else the Go zero
   value - for a nested struct its own members reset the same way) *)
Theorem C04_old_writer_new_reader_any : forall e k, wf_schema k e -> forall n so sn vo,
  (S k <= 64)%nat -> tfin n e (TStruct sn) = true -> (tneed n e (TStruct sn) + k <= 64)%nat ->
  grows (fields_of e sn) (fields_of e so) -> has_type e (TStruct so) (VStruct vo) ->
  exists vs, decode e sn (encode e so (VStruct vo)) = DOk (VStruct vs) [] /\ merged e (fields_of e sn) (fields_of e so) vo vs.
Proof. exact Evolve2Proofs.old_writer_new_reader_any. Qed.
Theorem C04_old_writer_new_reader_any_example :
  grows (fields_of gr_schema 1) (fields_of gr_schema 0) /\
  decode gr_schema 1 (encode gr_schema 0 (VStruct [VInt 7])) = DOk (VStruct [VInt 7; VList [VInt 0; VInt 0]; VStruct [VInt 0]; VInt 9]) [].
Proof. exact Evolve2Proofs.gr_example. Qed.
(* New writer -> old reader. projects e fn fo vn vo Js Jl: fn is fo with members added (of ANY type, optional or
   required), vo is vn without them, Js / Jl are the added members that are on the wire, as wire fields. The bytes the
   new writer produces for vn (shorter than 2^30) decode, with the old schema, to vo (normal form), and the cursor stops
   exactly in front of the added members that follow the old schema's last member. *)
Theorem C04_new_writer_old_reader : forall e k n so sn vn vo Js Jl,
  wf_schema k e -> (S k <= 64)%nat ->
  tfin n e (TStruct so) = true -> (tneed n e (TStruct so) + k <= 64)%nat ->
  tfin n e (TStruct sn) = true -> (tneed n e (TStruct sn) <= 512)%nat ->
  projects e (fields_of e sn) (fields_of e so) vn vo Js Jl -> has_type e (TStruct sn) (VStruct vn) ->
  N.of_nat (length (encode e sn (VStruct vn))) < 1073741824 ->
  decode e so (encode e sn (VStruct vn)) = DOk (norm_struct e so (VStruct vo)) (ser_fields Jl).
Proof. exact EvolveProofs.new_writer_old_reader. Qed.
(* the hypotheses are satisfiable: three versions of a struct type (an optional string with a default added in the
   middle and an optional map at the end; a required nested struct and a required byte vector added) *)
Theorem C04_evolution_examples :
  decode ev_schema 1 (encode ev_schema 0 (VStruct ev_v1))
    = DOk (VStruct [VInt 7; VStr [110; 111]; VList [VStr [97]; VStr []]; VMap []]) [] /\
  decode ev_schema 0 (encode ev_schema 2 (VStruct ev_v3))
    = DOk (VStruct [VInt 7; VList [VStr [98]]]) (ser_fields [(200, WSimple [1; 2])]).
Proof. exact (conj EvolveProofs.ev_old_to_new EvolveProofs.ev_new_to_old). Qed.

Print Assumptions C04_skip_exact.
Print Assumptions C04_extras_ignored.
Print Assumptions C04_extras_ignored_into.
Print Assumptions C04_extras_nested.
Print Assumptions C04_code_schemas_extras_nested.
Print Assumptions C04_extras_nested_into.
Print Assumptions C04_member_absent_required.
Print Assumptions C04_required_absent.
Print Assumptions C04_member_absent_optional.
Print Assumptions C04_declared_default.
Print Assumptions C04_reset_every_member.
Print Assumptions C04_reuse.
Print Assumptions C04_reuse_fresh.
Print Assumptions C04_reuse_member.
Print Assumptions C04_reuse_witness.
Print Assumptions C04_old_writer_new_reader.
Print Assumptions C04_new_writer_old_reader.
Print Assumptions C04_evolution_examples.
Print Assumptions C04_old_writer_new_reader_any.
Print Assumptions C04_old_writer_new_reader_any_example.
