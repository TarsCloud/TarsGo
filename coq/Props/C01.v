(* C01 - end-to-end call transparency through generated proxy and dispatcher. Statements only.

   [call e sid_req sid_rsp max impl Fc Fs iface f args opts oneway id servant timeout] is the model of one call
   (Rpc/EndToEnd.v): generated proxy -> TarsInvoke + client filters -> packet codec, frame, receive loop ->
   Protocol.Invoke + server filters -> generated Dispatch -> implementation -> and back. It returns what the call
   site observes and the event log. [impl], the schema environment [e] and the filters are universally quantified.

   Filter clause: proved for every interface, every argument list, every implementation, every combination of
   pass-through filters, with no hypothesis on the codec (the C01_filters theorems).
   Value, error and one-way clauses:
     - C01_transparent_ok, C01_transparent_err, C01_oneway: proved with NO codec hypothesis (argument list, results and
       both packets go through C03's struct-level round trip, the encoded out arguments between in arguments are passed
       over by C04's skip_exact, the frames go through C07's reassembly theorem) for every well-formed schema
       environment, EVERY signature (in and out parameters in any order), every well-typed argument and result value
       of every IDL type, ANY content of the caller's out variables. Side conditions, all explicit: static size conditions [sig_fine],
       out arguments within the skipping reader's size limits [outs_small] (containers < 2^30), packets in their Go field ranges and within maxPackageLength. Values are exact
       up to [norm] (identity except an optional scalar struct member equal to its default: -0.0 comes back as +0.0).
     - C01_..._partial: the same clauses under the named per-call hypotheses [wire_ok_req], [wire_ok_rsp],
       [args_roundtrip], [results_roundtrip] instead of typing (any values, pre-filled out variables; evaluated on every
       sampled call by the correspondence).
     - C01_transparent_ok_any_outs: the value clause with EXACT values for ANY content of the caller's out variables
       (C01_transparent_ok_any_outs_statement, now a theorem). At the pinned revision it was refuted by a pre-filled out
       variable keeping stale content; the generator template (ResetDefault assigns every member) and
       ReadSliceInt8/Uint8 (an empty byte vector is assigned) were repaired since, C04_reuse_member made nested structs
       independent of their target, and Rpc/PriorIndep.v extends this to every required non-array member. None of the
       closed theorems asks for fresh out variables any more. Remaining side conditions and why:
         [sig_fine]       static and about types only: every parameter/return type has a finite type graph (no
                          recursive struct) with by-value struct nesting <= k <= 40 and static depth bound (tneed, which
                          counts struct members) + k + 5 within the constant 64 of the generated decoders' fuel formula
                          4*len+64; the number of parameters does not matter (need_fields_bound2). A limit of the
                          proof's static fuel bound, not of the code: the correspondence samples the recursive type
                          Node and functions with 22 parameters and the model agrees with the code there;
         [outs_small]     the request carries the out arguments; the dispatcher passes over those in front of an in
                          argument with skipField, whose counts are int32 products: strings < 2^31 bytes, containers
                          < 2^30 elements (more than a packet can carry anyway; not derived from sendability because
                          omitted defaults are not in the packet). The DEPTH part of skippability (nesting <= the skip
                          depth limit 512 regenerated from the code) follows from [sig_fine] for finite types
                          (vdepth_bound, outs_skippable_static); for a recursive type it can fail and then the CODE
                          fails the call (C01_deep_out_argument_witness; known finding);
         [no_array_params] fixed-size arrays keep elements beyond the count on the wire; the IDL grammar has array
                          types for struct members only, never for parameters or return values (parse.go);
         [canonical_call] only for EXACT values: an optional scalar struct member that equals its default without being
                          identical to it (-0.0 against +0.0) is not written and comes back as the default - on the
                          code as well (C01_minus_zero_witness); C01_transparent_ok states the clause up to [norm]
                          without this condition;
         typing and sendable packets (Go value ranges, maxPackageLength). *)
From Coq Require Import List NArith ZArith Bool.
From TarsV Require Import Gen.Consts Gen.Schemas Base.Hex Codec.GenCodec Codec.RoundTrip Rpc.Filters Rpc.FiltersProofs
  Rpc.EndToEnd Rpc.EndToEndProofs Rpc.EndToEndConc Rpc.EndToEndCorr Rpc.EndToEndFull Rpc.EndToEndInvoke Rpc.EndToEndExamples.
Import ListNotations.
Open Scope N_scope.

(* the value clause for any content of the caller's out variables, exact values *)
Definition C01_transparent_ok_any_outs_statement : Prop :=
  forall e k n sid_req sid_rsp max impl (Pc Ps : pfilters ev unit) i f args o id sv t ret outs rc rs,
    wf_schema k e -> (k <= 40)%nat ->
    fields_of e sid_req = schema_requestf_RequestPacket -> fields_of e sid_rsp = schema_requestf_ResponsePacket ->
    max < 4294967296 ->
    let q := mkreq e f args o false id sv t in
    find_fn i (fs_name f) = Some f -> sig_fine e k n f -> args_typed e (fs_args f) args -> outs_small f args ->
    no_array_params f ->
    impl (fs_name f) (ins_of f args) (ctx_of o) (status_of o) = IOk ret outs rc rs -> ret_shape f ret ->
    results_typed e f (results ret outs) -> canonical_call e f args ret outs ->
    req_sendable e sid_req max q -> rsp_sendable e sid_rsp max (ok_reply e f q ret outs rc rs) ->
    fst (call e sid_req sid_rsp max impl (filters_of inv_res Pc) (filters_of disp_res Ps) i f args o false id sv t)
    = COk ret outs (maps_after o rc rs).
Theorem C01_transparent_ok_any_outs : C01_transparent_ok_any_outs_statement.
Proof.
  intros e k n sid_req sid_rsp max impl Pc Ps i f args o id sv t ret outs rc rs Hwf Hk Hq Hp Hm q Hf Hsig Hty Hsm Hna Himpl Hshape Hrty Hcan Hqs Hps.
  exact (f_equal fst (EndToEndFull.transparent_ok_any_outs e k Hwf Hk sid_req sid_rsp Hq Hp max Hm n impl Pc Ps i f args o id sv t ret outs rc rs
                        Hf Hsig Hty Hsm Hna Himpl Hshape Hrty Hcan Hqs Hps)).
Qed.

(* the instance that refuted the statement at the pinned revision (the caller's out variable of type Item holds
   nums = [1; -5000000000], the implementation sets nums = []; the caller read the old nums) satisfies all its
   hypotheses and, on the repaired model and code, its conclusion: the caller reads nums = [] *)
Theorem C01_prefilled_out_witness :
  find_fn [fx_sig] (fs_name fx_sig) = Some fx_sig /\ sig_fine env0 8 4 fx_sig /\ args_typed env0 (fs_args fx_sig) fx_args_prefilled /\
  outs_small fx_sig fx_args_prefilled /\ results_typed env0 fx_sig (results ex_ret fx_outs_empty) /\
  req_sendable env0 SR MAXP fx_qp /\ rsp_sendable env0 SP MAXP (ok_reply env0 fx_sig fx_qp ex_ret fx_outs_empty ex_rc ex_rs) /\
  fst (call env0 SR SP MAXP fx_impl_empty (filters_of inv_res ex_pc) (filters_of disp_res ex_ps) [fx_sig] fx_sig fx_args_prefilled ex_opts false 41 [79; 98; 106] 3000)
  = COk ex_ret fx_outs_empty [ex_rc; ex_rs].
Proof. exact EndToEndExamples.prefilled_out_witness. Qed.

(* why exact values need [canonical_call]: -0.0 in an optional double member without a declared default reaches the
   implementation as +0.0 (the encoder compares with ==) *)
Theorem C01_minus_zero_witness :
  filter is_obs (snd (call env0 SR SP MAXP nz_impl (filters_of inv_res no_filters) (filters_of disp_res no_filters) [nz_sig] nz_sig nz_args [] false 41 [79] 3000))
  = [EImpl (fs_name nz_sig) [VStruct [VStr [120]; VInt 7; VFlt 0; VFlt 0]] [] []]
  /\ ins_seen env0 nz_sig nz_args <> ins_of nz_sig nz_args.
Proof. exact EndToEndExamples.nz_minus_zero_arrives_as_plus_zero. Qed.

(* why skippable out arguments are needed (for finite types [sig_fine] gives the depth; recursive types are outside) (and what the code does without it): int deep(out Node o, int a) with the caller's o
   nested 256 structs deep succeeds, with 257 structs (513 nesting levels on the wire, skip limit 512) the call fails
   before the implementation is reached - on the model and on the code (known finding
   e2e/spurious-error/prefilled-out-argument-deeper-than-skip-limit) *)
Theorem C01_deep_out_argument_witness :
  args_typed env0 (fs_args dp_sig) [dp_chain 256 1; VInt 7] /\
  dp_call 256 = COk (Some (VInt 5)) [VStruct [VInt 1; VList []]] [] /\ dp_call 257 = CErr 1 sys_msg false.
Proof. exact (conj EndToEndExamples.dp_257_typed (conj EndToEndExamples.dp_256_structs_pass EndToEndExamples.dp_257_structs_fail)). Qed.

(* THE ERROR CLAUSE AT CODE 0 IS REFUTED: the full-strength error clause "whatever (code, message) the implementation
   fails with, the caller gets an error with that code and message" holds for every code except 0 (C01_transparent_err:
   any c <> 0 - negative, 1, MaxInt32, MinInt32 ..., any message, a plain error being (1, message)); with code 0, the
   protocol's success marker, the caller of a void function gets SUCCESS and the caller of a function with results a
   decode error with code 1 - on the model and on the code (known findings e2e/error-code-zero/...) *)
Definition C01_error_clause_statement : Prop :=
  forall impl f args c m, impl (fs_name f) (ins_of f args) [] [] = IFail c m ->
    exists m' sys, fst (call env0 SR SP MAXP impl (filters_of inv_res no_filters) (filters_of disp_res no_filters) [f] f args [] false 41 [79] 3000)
                   = CErr c m' sys.
Theorem C01_error_code_zero_refuted :
  fst (call env0 SR SP MAXP z_impl (filters_of inv_res no_filters) (filters_of disp_res no_filters) [z_void] z_void [] [] false 41 [79] 3000) = COk None [] []
  /\ fst (call env0 SR SP MAXP z_impl (filters_of inv_res no_filters) (filters_of disp_res no_filters) [z_int] z_int [VInt 5; VInt 0] [] false 41 [79] 3000) = CErr 1 sys_msg true
  /\ ~ C01_error_clause_statement.
Proof.
  split; [exact EndToEndExamples.z_code_zero_void_succeeds|]. split; [exact EndToEndExamples.z_code_zero_results_decode_error|].
  intros H. destruct (H z_impl z_void [] 0%Z [98; 111; 111; 109] eq_refl) as (m' & sys & Hm). rewrite EndToEndExamples.z_code_zero_void_succeeds in Hm. discriminate Hm.
Qed.

(* THE SERVER SIDE OF THIS MODEL IS THE C10 MODEL OF Protocol.Invoke: for every request that is not a ping, without handle
   timeout and queueing delay, C10's server_step (Rpc/Invoke.v; its response construction is tied to the source of
   Protocol.Invoke by the translator, Props/C10.v) run with this model's dispatcher + implementation writes exactly the
   reply of this model - the same packet, zero (one-way) or one, after one dispatcher call. With server_handle_pass
   (pass-through filters) this covers [server_handle]. *)
Theorem C01_server_side_is_C10_invoke : forall e impl i (cfg : I.config) (q : reqpkt),
    I.c_ht cfg = 0 -> bytes_eqb (q_func q) I.ping_name = false ->
    I.server_step (dispatch10 e impl i q) cfg (to10 q) 0 =
    (map (fun p => (I.FromHandler, rsp10 p)) (olist (srv_reply e impl i q)), 1%nat).
Proof. exact EndToEndInvoke.server_is_invoke. Qed.

(* success, no codec hypothesis: well-formed schemas (tags ascending, defaults on scalars, by-value nesting <= k), the
   two packet schemas as regenerated from the code, any signature within the static size conditions, out arguments the
   dispatcher can pass over,
   well-typed arguments and results, ANY content of the caller's out variables, packets in range and within
   maxPackageLength. The call site
   gets the implementation's return value and out parameters (normalised), each map the caller passed holds exactly the
   response context/status; the implementation is called exactly once with the caller's in arguments (normalised),
   context and status; each selected filter runs once, in registration order; one reply. *)
Theorem C01_transparent_ok :
  forall e k n sid_req sid_rsp max impl (Pc Ps : pfilters ev unit) i f args o id sv t ret outs rc rs,
    wf_schema k e -> (k <= 40)%nat ->
    fields_of e sid_req = schema_requestf_RequestPacket -> fields_of e sid_rsp = schema_requestf_ResponsePacket ->
    max < 4294967296 ->
    let q := mkreq e f args o false id sv t in
    find_fn i (fs_name f) = Some f -> sig_fine e k n f ->
    args_typed e (fs_args f) args -> outs_small f args -> no_array_params f ->
    impl (fs_name f) (ins_seen e f args) (ctx_of o) (status_of o) = IOk ret outs rc rs ->
    results_typed e f (results ret outs) ->
    req_sendable e sid_req max q -> rsp_sendable e sid_rsp max (ok_reply e f q ret outs rc rs) ->
    call e sid_req sid_rsp max impl (filters_of inv_res Pc) (filters_of disp_res Ps) i f args o false id sv t =
    (COk (ret_of f (results_seen e f ret outs)) (outs_from f (results_seen e f ret outs)) (maps_after o rc rs),
     before Pc ++ [EInvoke] ++ before Ps ++ [EDispatch; EImpl (fs_name f) (ins_seen e f args) (ctx_of o) (status_of o)]
       ++ after Ps ++ [EReply] ++ after Pc).
Proof. intros e k n sid_req sid_rsp max impl Pc Ps i f args o id sv t ret outs rc rs Hwf Hk Hq Hp Hm. exact (EndToEndFull.transparent_ok_closed e k Hwf Hk sid_req sid_rsp Hq Hp max Hm n impl Pc Ps i f args o id sv t ret outs rc rs). Qed.

(* failure, no codec hypothesis: code exact, message exact unless empty ([err_seen]) *)
Theorem C01_transparent_err :
  forall e k n sid_req sid_rsp max impl (Pc Ps : pfilters ev unit) i f args o id sv t c m,
    wf_schema k e -> (k <= 40)%nat ->
    fields_of e sid_req = schema_requestf_RequestPacket -> fields_of e sid_rsp = schema_requestf_ResponsePacket ->
    max < 4294967296 ->
    let q := mkreq e f args o false id sv t in
    find_fn i (fs_name f) = Some f -> sig_fine e k n f -> args_typed e (fs_args f) args -> outs_small f args ->
    impl (fs_name f) (ins_seen e f args) (ctx_of o) (status_of o) = IFail c m -> c <> 0%Z ->
    req_sendable e sid_req max q -> rsp_sendable e sid_rsp max (err_reply q c m) ->
    call e sid_req sid_rsp max impl (filters_of inv_res Pc) (filters_of disp_res Ps) i f args o false id sv t =
    (err_seen c m,
     before Pc ++ [EInvoke] ++ before Ps ++ [EDispatch; EImpl (fs_name f) (ins_seen e f args) (ctx_of o) (status_of o)]
       ++ after Ps ++ [EReply] ++ after Pc).
Proof. intros e k n sid_req sid_rsp max impl Pc Ps i f args o id sv t c m Hwf Hk Hq Hp Hm. exact (EndToEndFull.transparent_err_closed e k Hwf Hk sid_req sid_rsp Hq Hp max Hm n impl Pc Ps i f args o id sv t c m). Qed.

(* one-way, no codec hypothesis: the implementation runs exactly once on the caller's inputs, no reply is written *)
Theorem C01_oneway :
  forall e k n sid_req sid_rsp max impl (Pc Ps : pfilters ev unit) i f args o id sv t,
    wf_schema k e -> (k <= 40)%nat ->
    fields_of e sid_req = schema_requestf_RequestPacket -> fields_of e sid_rsp = schema_requestf_ResponsePacket ->
    max < 4294967296 ->
    let q := mkreq e f args o true id sv t in
    find_fn i (fs_name f) = Some f -> sig_fine e k n f -> args_typed e (fs_args f) args -> outs_small f args ->
    req_sendable e sid_req max q ->
    call e sid_req sid_rsp max impl (filters_of inv_res Pc) (filters_of disp_res Ps) i f args o true id sv t =
    (CSent,
     before Pc ++ [EInvoke] ++ before Ps ++ [EDispatch; EImpl (fs_name f) (ins_seen e f args) (ctx_of o) (status_of o)]
       ++ after Ps ++ [] ++ after Pc).
Proof. intros e k n sid_req sid_rsp max impl Pc Ps i f args o id sv t Hwf Hk Hq Hp Hm. exact (EndToEndFull.oneway_closed e k Hwf Hk sid_req sid_rsp Hq max Hm n impl Pc Ps i f args o id sv t). Qed.

(* success, every signature and any out variables, under the per-call codec hypotheses: the call site gets exactly the
   implementation's return value and out parameters, each map the caller passed holds exactly the response
   context/status afterwards (a nil map stays nil); the implementation is called exactly once, with exactly the
   caller's in arguments, context and status; each selected filter runs once, in registration order; one reply *)
Theorem C01_transparent_ok_partial : forall e sid_req sid_rsp max impl (Pc Ps : pfilters ev unit) i f args o id sv t ret outs rc rs,
    let q := mkreq e f args o false id sv t in
    find_fn i (fs_name f) = Some f ->
    wire_ok_req e sid_req max q -> args_roundtrip e f args ->
    impl (fs_name f) (ins_of f args) (ctx_of o) (status_of o) = IOk ret outs rc rs ->
    ret_shape f ret -> results_roundtrip e f args (results ret outs) ->
    wire_ok_rsp e sid_rsp max (ok_reply e f q ret outs rc rs) ->
    call e sid_req sid_rsp max impl (filters_of inv_res Pc) (filters_of disp_res Ps) i f args o false id sv t =
    (COk ret outs (maps_after o rc rs),
     before Pc ++ [EInvoke] ++ before Ps ++ [EDispatch; EImpl (fs_name f) (ins_of f args) (ctx_of o) (status_of o)]
       ++ after Ps ++ [EReply] ++ after Pc).
Proof. exact EndToEndProofs.transparent_ok. Qed.

(* failure: the error code arrives exactly, and so does the message; an empty message is replaced by a
   framework-made text ([err_seen]). Code 0 is the protocol's success marker. *)
Theorem C01_transparent_err_partial : forall e sid_req sid_rsp max impl (Pc Ps : pfilters ev unit) i f args o id sv t c m,
    let q := mkreq e f args o false id sv t in
    find_fn i (fs_name f) = Some f ->
    wire_ok_req e sid_req max q -> args_roundtrip e f args ->
    impl (fs_name f) (ins_of f args) (ctx_of o) (status_of o) = IFail c m ->
    c <> 0%Z ->
    wire_ok_rsp e sid_rsp max (err_reply q c m) ->
    call e sid_req sid_rsp max impl (filters_of inv_res Pc) (filters_of disp_res Ps) i f args o false id sv t =
    (err_seen c m,
     before Pc ++ [EInvoke] ++ before Ps ++ [EDispatch; EImpl (fs_name f) (ins_of f args) (ctx_of o) (status_of o)]
       ++ after Ps ++ [EReply] ++ after Pc).
Proof. exact EndToEndProofs.transparent_err. Qed.

(* one-way: the implementation is called exactly once with the caller's inputs whatever it does, and no reply is written *)
Theorem C01_oneway_partial : forall e sid_req sid_rsp max impl (Pc Ps : pfilters ev unit) i f args o id sv t,
    let q := mkreq e f args o true id sv t in
    find_fn i (fs_name f) = Some f ->
    wire_ok_req e sid_req max q -> args_roundtrip e f args ->
    call e sid_req sid_rsp max impl (filters_of inv_res Pc) (filters_of disp_res Ps) i f args o true id sv t =
    (CSent,
     before Pc ++ [EInvoke] ++ before Ps ++ [EDispatch; EImpl (fs_name f) (ins_of f args) (ctx_of o) (status_of o)]
       ++ after Ps ++ [] ++ after Pc).
Proof. exact EndToEndProofs.oneway. Qed.

(* filters, full generality (no codec hypothesis): any combination of pass-through filters on both sides leaves the
   outcome of every call - success, error, one-way, lost - unchanged ... *)
Theorem C01_filters_transparent : forall e sid_req sid_rsp max impl (Pc Ps : pfilters ev unit) i f args o ow id sv t,
    fst (call e sid_req sid_rsp max impl (filters_of inv_res Pc) (filters_of disp_res Ps) i f args o ow id sv t) =
    fst (call e sid_req sid_rsp max impl (filters_of inv_res no_filters) (filters_of disp_res no_filters) i f args o ow id sv t).
Proof. exact EndToEndProofs.filters_transparent. Qed.

(* ... and the selected filters act exactly once each around the unfiltered events: client filters around doInvoke,
   server filters around Dispatch *)
Theorem C01_filters_log : forall e sid_req sid_rsp max impl (Pc Ps : pfilters ev unit) i f args o ow id sv t,
    let q := mkreq e f args o ow id sv t in
    snd (call e sid_req sid_rsp max impl (filters_of inv_res Pc) (filters_of disp_res Ps) i f args o ow id sv t) =
    before Pc ++ [EInvoke] ++
      match wire_req e sid_req max q with
      | None => []
      | Some q' => before Ps ++ (EDispatch :: snd (dispatch e impl i q')) ++ after Ps ++ (if is_oneway q' then [] else [EReply])
      end ++ after Pc.
Proof. exact EndToEndProofs.filters_log. Qed.

(* selection and order for recording filters: legacy filter > middleware chain (first registered outermost,
   unwinding in reverse) > pre filters, call, post filters; each selected filter exactly once *)
Theorem C01_filters_order_before : forall (Ev : Type) (inj : fev -> Ev) (c : fconf),
    before (recording inj tt c) = expected_before inj c.
Proof. intros. apply FiltersProofs.recording_before. Qed.
Theorem C01_filters_order_after : forall (Ev : Type) (inj : fev -> Ev) (c : fconf),
    after (recording inj tt c) = expected_after inj c.
Proof. intros. apply FiltersProofs.recording_after. Qed.
Theorem C01_filters_once : forall (Ev : Type) (inj : fev -> Ev) (c : fconf), (forall a b, inj a = inj b -> a = b) ->
    NoDup (expected_before inj c) /\ NoDup (expected_after inj c).
Proof. intros Ev inj c H. split; [apply FiltersProofs.recording_once_before | apply FiltersProofs.recording_once_after]; exact H. Qed.

(* the general form of the filter clause: any filters that act before/after and call their continuation once *)
Theorem C01_filters_run : forall (Ev R E : Type) (P : pfilters Ev E) (r : R) (c : list Ev) (s : list Ev),
    run (filters_of R P) (fun s => (r, s ++ c)) s = (r, s ++ before P ++ c ++ after P).
Proof. exact FiltersProofs.run_pass_result. Qed.

(* concurrent callers sharing one connection: for any set of requests with distinct ids, sent in any order and cut
   into any TCP segments, answered in any order and cut into any segments, every caller receives the reply the
   server computed for its own request (its sequential result) - under the packet-codec hypotheses *)
Theorem C01_concurrent_partial : forall e sid_req sid_rsp max impl (Ps : pfilters ev unit) i
    (qs sent : list reqpkt) (chunks_q : list bytes) (written : list rsppkt) (chunks_p : list bytes),
    Permutation.Permutation sent qs -> NoDup (map q_id qs) ->
    Forall (fun q => req_codec_ok e sid_req max q) sent ->
    concat chunks_q = concat (map (enc_req e sid_req) sent) ->
    Permutation.Permutation written (server_conn e sid_req max impl (filters_of disp_res Ps) i chunks_q) ->
    Forall (fun p => rsp_codec_ok e sid_rsp max p) written ->
    concat chunks_p = concat (map (enc_rsp e sid_rsp) written) ->
    forall q, In q qs -> client_conn e sid_rsp max chunks_p (q_id q) = srv_reply e impl i q.
Proof. exact EndToEndConc.concurrent. Qed.

(* the same without codec hypotheses: requests and replies only have to be in range and within maxPackageLength *)
Theorem C01_concurrent_any_order : forall e k sid_req sid_rsp max impl (Ps : pfilters ev unit) i
    (qs sent : list reqpkt) (chunks_q : list bytes) (written : list rsppkt) (chunks_p : list bytes),
    wf_schema k e -> (k <= 40)%nat ->
    fields_of e sid_req = schema_requestf_RequestPacket -> fields_of e sid_rsp = schema_requestf_ResponsePacket ->
    max < 4294967296 ->
    Permutation.Permutation sent qs -> NoDup (map q_id qs) ->
    Forall (req_sendable e sid_req max) sent ->
    concat chunks_q = concat (map (enc_req e sid_req) sent) ->
    Permutation.Permutation written (server_conn e sid_req max impl (filters_of disp_res Ps) i chunks_q) ->
    Forall (rsp_sendable e sid_rsp max) written ->
    concat chunks_p = concat (map (enc_rsp e sid_rsp) written) ->
    forall q, In q qs -> client_conn e sid_rsp max chunks_p (q_id q) = srv_reply e impl i q.
Proof. intros e k sid_req sid_rsp max impl Ps i qs sent cq written cp Hwf Hk Hq Hp Hm. exact (EndToEndFull.concurrent_closed e k Hwf Hk sid_req sid_rsp Hq Hp max Hm impl Ps i qs sent cq written cp). Qed.

(* CONCURRENT CALLERS AT THE LEVEL OF CALL RESULTS: for any set of calls of the generated proxy whose requests (distinct
   ids) share one connection - sent in any order, cut into any TCP segments, served and answered in any order, the reply
   stream cut into any segments - what each caller gets ([conc_result]: its own decoded reply through the error mapping
   and the proxy's decoder, nothing for a one-way call) is exactly what the same call returns when it is made alone. With
   C01_transparent_ok / C01_transparent_err / C01_oneway: every concurrent caller gets the values, error or nothing its
   own call of the implementation produced. What this does NOT cover (monitored only: concurrent batches and the 64 x 300
   burst with byte-exact unique payloads): the goroutines, the pending-call table (C08) and the byte buffers of the real
   client and server (sharing/pooling of buffers) - the model has values, not buffers. *)
Theorem C01_concurrent_calls : forall e k sid_req sid_rsp max impl (Pc Ps : pfilters ev unit) i
    (qs sent : list reqpkt) (chunks_q : list bytes) (written : list rsppkt) (chunks_p : list bytes),
    wf_schema k e -> (k <= 40)%nat ->
    fields_of e sid_req = schema_requestf_RequestPacket -> fields_of e sid_rsp = schema_requestf_ResponsePacket ->
    max < 4294967296 ->
    Permutation.Permutation sent qs -> NoDup (map q_id qs) ->
    Forall (req_sendable e sid_req max) sent ->
    concat chunks_q = concat (map (enc_req e sid_req) sent) ->
    Permutation.Permutation written (server_conn e sid_req max impl (filters_of disp_res Ps) i chunks_q) ->
    Forall (rsp_sendable e sid_rsp max) written ->
    concat chunks_p = concat (map (enc_rsp e sid_rsp) written) ->
    forall f args o ow id sv t, In (mkreq e f args o ow id sv t) qs ->
      conc_result e sid_rsp max chunks_p f args o (mkreq e f args o ow id sv t) =
      fst (call e sid_req sid_rsp max impl (filters_of inv_res Pc) (filters_of disp_res Ps) i f args o ow id sv t).
Proof. intros e k sid_req sid_rsp max impl Pc Ps i qs sent cq written cp Hwf Hk Hq Hp Hm. exact (EndToEndFull.concurrent_calls e k Hwf Hk sid_req sid_rsp Hq Hp max Hm impl Pc Ps i qs sent cq written cp). Qed.
(* ---- the CURRENT source of ServantProxy.doInvoke maps the reply to the caller's error as the model's map_reply ----
   Gen/Translated.v is regenerated from tars/servant.go and tars/errors.go on every run: the statement that turns
   IRet / SResultDesc of the reply into nil, a plain error or a tars.Error pointer, GetErrorCode and the Error method. The
   caller continues with the reply exactly when map_reply hands it on; otherwise GetErrorCode of the returned error is the
   model's code and its text the model's (for an empty SResultDesc: Sprintf("basef error code %d", IRet)). *)
From TarsV Require Import Xlate.GoSem Gen.Translated Xlate.ReplyEquiv.
Theorem C01_source_error_mapping : forall (p : rsppkt) (sprintf : list N -> Z -> list N),
  match tr_doInvoke_reply (p_ret p) (p_desc p) k_basef_TARSSERVERSUCCESS sprintf with
  | Next _ => map_reply p = VResp p
  | Return e => exists code msg sys, map_reply p = VErr code msg sys /\
      go_err_code e = Return code /\
      (if sys then p_desc p = []%list /\ go_err_text e = sprintf code_fmt (p_ret p) else go_err_text e = msg)
  | Panic => False
  end.
Proof. exact ReplyEquiv.tr_doInvoke_reply_equiv. Qed.
Theorem C01_source_error_kind : forall (p : rsppkt) sprintf e,
  tr_doInvoke_reply (p_ret p) (p_desc p) k_basef_TARSSERVERSUCCESS sprintf = Return e ->
  p_ret p <> 0%Z /\ match e with
                  | GoErrVal v => p_ret p <> 1%Z /\ go_tars_Error_Code v = p_ret p
                  | GoErrNew _ => p_ret p = 1%Z
                  | GoErrNil => False
                  end.
Proof. exact ReplyEquiv.tr_doInvoke_reply_kind. Qed.

(* ---- the CURRENT source of ServantProxy.TarsInvoke builds the model's request ----
   the composite literal req := requestf.RequestPacket{..} is regenerated on every run: every member but the body (a cast
   of the argument bytes) is the member of the model's mkreq. *)
From TarsV Require Import Xlate.TarsInvokeEquiv.
Theorem C01_source_request : forall e f args o (oneway : bool) id servant timeout sbuf,
  (-2147483648 <= timeout <= 2147483647)%Z ->
  exists g, tr_TarsInvoke_req (if oneway then c_c01_TARSONEWAY else c_c01_TARSNORMAL) (fs_name f) (status_of o) (ctx_of o) 0%Z
              servant timeout c_c01_TARSVERSION id sbuf = Next g /\
            req_is g (mkreq e f args o oneway id servant timeout) /\ go_requestf_RequestPacket_SBuffer g = sbuf.
Proof. exact TarsInvokeEquiv.tr_TarsInvoke_req_equiv. Qed.

Print Assumptions C01_transparent_ok_any_outs.
Print Assumptions C01_prefilled_out_witness.
Print Assumptions C01_minus_zero_witness.
Print Assumptions C01_deep_out_argument_witness.
Print Assumptions C01_error_code_zero_refuted.
Print Assumptions C01_server_side_is_C10_invoke.
Print Assumptions C01_transparent_ok.
Print Assumptions C01_transparent_err.
Print Assumptions C01_oneway.
Print Assumptions C01_transparent_ok_partial.
Print Assumptions C01_transparent_err_partial.
Print Assumptions C01_oneway_partial.
Print Assumptions C01_filters_transparent.
Print Assumptions C01_filters_log.
Print Assumptions C01_filters_order_before.
Print Assumptions C01_filters_order_after.
Print Assumptions C01_filters_once.
Print Assumptions C01_filters_run.
Print Assumptions C01_concurrent_partial.
Print Assumptions C01_concurrent_any_order.
Print Assumptions C01_concurrent_calls.
Print Assumptions C01_source_error_mapping.
Print Assumptions C01_source_error_kind.
Print Assumptions C01_source_request.
