(* C02 (extra) — the IEEE-754 meaning of the FLOAT -> double widening read (ReadFloat64 of a 4-byte FLOAT field).
   Statements only.  [widen32] is the bit-pattern function of Codec/Prim.v that C02_widen_float (Props/C02.v) proves
   ReadFloat64 returns; here it is related to Flocq's IEEE-754 formalisation: [b32_of_bits]/[b64_of_bits] decode a
   pattern into a binary32/binary64 datum, [B2R] is its real value, [Bsign] its sign bit.
   Unlike Props/C02.v these theorems depend on the axioms of the standard library's real numbers (through Flocq);
   see the Print Assumptions output at the end.  Nothing here is in the closure of Props/C02.v. *)
From Coq Require Import List NArith ZArith Reals Bool.
From Flocq Require Import Core IEEE754.Binary IEEE754.Bits.
From TarsV Require Import Codec.Prim Codec.FloatWiden.
Import ListNotations.
Open Scope N_scope.

(* the result is a 64-bit pattern *)
Theorem C02_float_range : forall b, b < 4294967296 -> widen32 b < 18446744073709551616.
Proof. exact FloatWiden.widen32_range. Qed.

(* the whole classification in integer arithmetic, on the patterns as Flocq's decoder [binary_float_of_bits_aux] splits
   them (sign, integer significand, exponent), before any real number is involved: zero -> zero, infinity -> infinity,
   NaN -> NaN with the stated fraction, finite m*2^e -> finite m'*2^e' with m' = m * 2^(e-e') (same rational value),
   m' of full 53-bit width; always the same sign.  This one is axiom-free. *)
Theorem C02_float_structural : forall b, b < 4294967296 ->
  match binary_float_of_bits_aux 23 8 (Z.of_N b) with
  | F754_zero s => binary_float_of_bits_aux 52 11 (Z.of_N (widen32 b)) = F754_zero s
  | F754_infinity s => binary_float_of_bits_aux 52 11 (Z.of_N (widen32 b)) = F754_infinity s
  | F754_nan s pl => exists pl', binary_float_of_bits_aux 52 11 (Z.of_N (widen32 b)) = F754_nan s pl' /\
      Zpos pl' = (2^51 + (Zpos pl mod 2^22) * 2^29)%Z
  | F754_finite s m e => exists m' e', binary_float_of_bits_aux 52 11 (Z.of_N (widen32 b)) = F754_finite s m' e' /\
      (e' <= e)%Z /\ Zpos m' = (Zpos m * 2 ^ (e - e'))%Z /\ (2^52 <= Zpos m' < 2^53)%Z
  end.
Proof. exact FloatWiden.widen32_widens. Qed.
(* the value clause on the same pre-floats ([FF2R radix2] is their real value): needs only the axioms behind R *)
Theorem C02_float_value_prefloat : forall b, b < 4294967296 ->
  is_finite_FF (binary_float_of_bits_aux 23 8 (Z.of_N b)) = true ->
  is_finite_FF (binary_float_of_bits_aux 52 11 (Z.of_N (widen32 b))) = true /\
  FF2R radix2 (binary_float_of_bits_aux 52 11 (Z.of_N (widen32 b))) = FF2R radix2 (binary_float_of_bits_aux 23 8 (Z.of_N b)) /\
  sign_FF (binary_float_of_bits_aux 52 11 (Z.of_N (widen32 b))) = sign_FF (binary_float_of_bits_aux 23 8 (Z.of_N b)).
Proof. exact FloatWiden.widen32_value_FF. Qed.

(* (1) finite float32 (zero, subnormal, normal): the double is finite with EXACTLY the same real value and the same
   sign bit (so -0 -> -0), and it is non-zero iff the single is *)
Theorem C02_float_finite : forall b, b < 4294967296 ->
  is_finite 24 128 (b32_of_bits (Z.of_N b)) = true ->
  is_finite 53 1024 (b64_of_bits (Z.of_N (widen32 b))) = true /\
  B2R 53 1024 (b64_of_bits (Z.of_N (widen32 b))) = B2R 24 128 (b32_of_bits (Z.of_N b)) /\
  Bsign 53 1024 (b64_of_bits (Z.of_N (widen32 b))) = Bsign 24 128 (b32_of_bits (Z.of_N b)) /\
  is_finite_strict 53 1024 (b64_of_bits (Z.of_N (widen32 b))) = is_finite_strict 24 128 (b32_of_bits (Z.of_N b)).
Proof. exact FloatWiden.widen32_finite. Qed.

Theorem C02_float_zero : forall b s, b < 4294967296 ->
  b32_of_bits (Z.of_N b) = B754_zero 24 128 s -> b64_of_bits (Z.of_N (widen32 b)) = B754_zero 53 1024 s.
Proof. exact FloatWiden.widen32_zero. Qed.

(* every non-zero finite single — subnormal ones included — becomes a NORMAL double: full-width (53-bit) integer
   significand in Flocq's representation, i.e. biased exponent field of the pattern in 874..1150 (never 0 or 2047) *)
Theorem C02_float_normal : forall b, b < 4294967296 ->
  is_finite_strict 24 128 (b32_of_bits (Z.of_N b)) = true ->
  (exists s m e, B2FF 53 1024 (b64_of_bits (Z.of_N (widen32 b))) = F754_finite s m e /\ (2^52 <= Zpos m < 2^53)%Z) /\
  874 <= (widen32 b / 4503599627370496) mod 2048 <= 1150.
Proof. exact FloatWiden.widen32_normal. Qed.

(* (2) infinities map to the infinity of the same sign *)
Theorem C02_float_infinity : forall b s, b < 4294967296 ->
  b32_of_bits (Z.of_N b) = B754_infinity 24 128 s -> b64_of_bits (Z.of_N (widen32 b)) = B754_infinity 53 1024 s.
Proof. exact FloatWiden.widen32_infinity. Qed.

(* (3) NaNs map to NaNs of the same sign.  [nan_pl] is the fraction field (payload incl. quiet bit) of a NaN.
   Fraction p (23 bits) becomes 2^51 + (p mod 2^22) * 2^29: payload bits 0..21 move to bits 29..50, the quiet bit
   (bit 22 of a single, bit 51 of a double) is set whatever it was, bits 0..28 are zero. *)
Theorem C02_float_nan : forall b, b < 4294967296 ->
  is_nan 24 128 (b32_of_bits (Z.of_N b)) = true ->
  is_nan 53 1024 (b64_of_bits (Z.of_N (widen32 b))) = true /\
  Bsign 53 1024 (b64_of_bits (Z.of_N (widen32 b))) = Bsign 24 128 (b32_of_bits (Z.of_N b)) /\
  nan_pl (b64_of_bits (Z.of_N (widen32 b))) = (2^51 + (nan_pl (b32_of_bits (Z.of_N b)) mod 2^22) * 2^29)%Z.
Proof. exact FloatWiden.widen32_nan. Qed.
(* equivalently: a quiet NaN keeps its fraction (shifted left by 29); a signalling NaN is quieted, nothing else changes;
   the result is always quiet *)
Theorem C02_float_nan_quiet : forall b, b < 4294967296 ->
  is_nan 24 128 (b32_of_bits (Z.of_N b)) = true ->
  nan_pl (b64_of_bits (Z.of_N (widen32 b))) =
    (if Z.testbit (nan_pl (b32_of_bits (Z.of_N b))) 22 then nan_pl (b32_of_bits (Z.of_N b)) * 2^29
     else nan_pl (b32_of_bits (Z.of_N b)) * 2^29 + 2^51)%Z /\
  Z.testbit (nan_pl (b64_of_bits (Z.of_N (widen32 b)))) 51 = true.
Proof. exact FloatWiden.widen32_nan_quiet. Qed.

(* (4) injective on non-NaN inputs *)
Theorem C02_float_injective : forall b1 b2, b1 < 4294967296 -> b2 < 4294967296 ->
  is_nan 24 128 (b32_of_bits (Z.of_N b1)) = false -> is_nan 24 128 (b32_of_bits (Z.of_N b2)) = false ->
  widen32 b1 = widen32 b2 -> b1 = b2.
Proof. exact FloatWiden.widen32_inj. Qed.
(* the same with the NaN test on the bit pattern (exponent field 255, fraction non-zero); this one uses no reals *)
Theorem C02_float_nan_test : forall b, b < 4294967296 ->
  is_nan 24 128 (b32_of_bits (Z.of_N b)) = ((b / 8388608) mod 256 =? 255) && negb (b mod 8388608 =? 0).
Proof. exact FloatWiden.is_nan32_spec. Qed.
Theorem C02_float_injective_bits : forall b1 b2, b1 < 4294967296 -> b2 < 4294967296 ->
  ((b1 / 8388608) mod 256 =? 255) && negb (b1 mod 8388608 =? 0) = false ->
  ((b2 / 8388608) mod 256 =? 255) && negb (b2 mod 8388608 =? 0) = false ->
  widen32 b1 = widen32 b2 -> b1 = b2.
Proof. exact FloatWiden.widen32_inj_non_nan. Qed.
(* on NaNs it is not injective: exactly the quiet bit of the input is forgotten *)
Theorem C02_float_nan_not_injective :
  is_nan 24 128 (b32_of_bits 2139095041) = true /\ is_nan 24 128 (b32_of_bits 2143289345) = true /\
  widen32 2139095041 = widen32 2143289345.
Proof. destruct FloatWiden.widen32_nan_collision as (A & B & C). rewrite <- is_nan32_spec in A, B by reflexivity. auto. Qed.
Theorem C02_float_nan_eq_iff : forall b1 b2, b1 < 4294967296 -> b2 < 4294967296 ->
  ((b1 / 8388608) mod 256 =? 255) && negb (b1 mod 8388608 =? 0) = true ->
  ((b2 / 8388608) mod 256 =? 255) && negb (b2 mod 8388608 =? 0) = true ->
  (widen32 b1 = widen32 b2 <->
   b1 / 2147483648 = b2 / 2147483648 /\ (b1 mod 8388608) mod 4194304 = (b2 mod 8388608) mod 4194304).
Proof. exact FloatWiden.widen32_nan_eq_iff. Qed.

(* composed with the reader (C02_widen_float): a finite float32 written as a FLOAT field and read by ReadFloat64 yields
   a double of exactly the same real value and sign, with the reader exactly at the suffix *)
Theorem C02_float_read_value : forall f tag req b rest, tag < 256 -> b < 4294967296 ->
  is_finite 24 128 (b32_of_bits (Z.of_N b)) = true ->
  exists d, r_f64 (S f) tag req (w_f32 b tag ++ rest) = ROk d rest /\ d < 18446744073709551616 /\
    is_finite 53 1024 (b64_of_bits (Z.of_N d)) = true /\
    B2R 53 1024 (b64_of_bits (Z.of_N d)) = B2R 24 128 (b32_of_bits (Z.of_N b)) /\
    Bsign 53 1024 (b64_of_bits (Z.of_N d)) = Bsign 24 128 (b32_of_bits (Z.of_N b)).
Proof. exact FloatWiden.read_f32_as_f64_value. Qed.

(* the hypotheses are satisfiable; known IEEE-754 answers *)
Theorem C02_float_examples :
  forallb (fun b => is_finite 24 128 (b32_of_bits (Z.of_N b)))
    [1; 8388607; 8388608; 1065353216; 2139095039; 2147483648; 3226013659] = true /\
  forallb (fun b => is_nan 24 128 (b32_of_bits (Z.of_N b))) [2139095041; 2143289344; 4290772992; 4294967295] = true /\
  b32_of_bits 2139095040 = B754_infinity 24 128 false /\ b32_of_bits 4286578688 = B754_infinity 24 128 true /\
  b32_of_bits 0 = B754_zero 24 128 false /\ b32_of_bits 2147483648 = B754_zero 24 128 true.
Proof. exact FloatWiden.instances. Qed.
Theorem C02_float_known_answers :
  widen32 1 = 3936146074321813504 /\              (* 00000001 -> 36A0000000000000 : 2^-149 *)
  widen32 8388607 = 4039728864677593088 /\        (* 007FFFFF -> 380FFFFFC0000000 : largest subnormal *)
  widen32 8388608 = 4039728865751334912 /\        (* 00800000 -> 3810000000000000 : 2^-126 *)
  widen32 1065353216 = 4607182418800017408 /\     (* 3F800000 -> 3FF0000000000000 : 1.0 *)
  widen32 2139095039 = 5183643170566569984 /\     (* 7F7FFFFF -> 47EFFFFFE0000000 : max float32 *)
  widen32 2147483648 = 9223372036854775808 /\     (* 80000000 -> 8000000000000000 : -0 *)
  widen32 4286578688 = 18442240474082181120 /\    (* FF800000 -> FFF0000000000000 : -inf *)
  widen32 2143289344 = 9221120237041090560 /\     (* 7FC00000 -> 7FF8000000000000 : default quiet NaN *)
  widen32 2139095041 = 9221120237577961472 /\     (* 7F800001 -> 7FF8000020000000 : signalling NaN, quieted *)
  widen32 3226013659 = 13837628693603680256.      (* C0490FDB -> C00921FB60000000 : -pi as float32 *)
Proof. exact FloatWiden.known_answers. Qed.

Print Assumptions C02_float_range. Print Assumptions C02_float_structural.
Print Assumptions C02_float_value_prefloat. Print Assumptions C02_float_finite. Print Assumptions C02_float_zero.
Print Assumptions C02_float_normal. Print Assumptions C02_float_infinity. Print Assumptions C02_float_nan.
Print Assumptions C02_float_nan_quiet. Print Assumptions C02_float_injective. Print Assumptions C02_float_nan_test.
Print Assumptions C02_float_injective_bits. Print Assumptions C02_float_nan_not_injective.
Print Assumptions C02_float_nan_eq_iff. Print Assumptions C02_float_read_value. Print Assumptions C02_float_examples.
Print Assumptions C02_float_known_answers.
