(* C15 — failover: failing endpoints leave rotation, are probed, and come back. Statements only.
   Model: Select/Failover.v (state machine of one registry-backed servant; time, call outcomes, reachability at
   ReConnect, selector picks, the moment the reinstating goroutine runs and registry answers are label data).
   "run init ls = Some s" / "reachable s": s is the state after ANY label sequence ls the machine accepts.
   History vocabulary (Failover.v): fails_since ai ls = failed calls on adapter ai since it was created / last
   reinstated; streak ai ls = failed calls in a row; clock ls = now; last_ok ai ls = time of the last answered call (or one-way call handed to the transport).
   Thresholds are the regenerated constants of Gen/Consts.v (2, 5, 5 s, 30 s appear literally below; a changed
   constant breaks the proofs). *)
From Coq Require Import List NArith ZArith Bool.
From TarsV Require Import Gen.Consts Select.Failover Select.FailoverProofs Select.FailoverInv Select.FailoverThms
  Select.FailoverExamples Select.FailoverQueue Select.FailoverBack.
From TarsV Require Xlate.CheckActiveEquiv.
Import ListNotations.
Open Scope Z_scope.

(* the health record IS the history: what checkActive reads are the property's own quantities *)
Theorem C15_record_is_history : forall ls s ai a, run init ls = Some s -> get ai s = Some a ->
  gfail a = fails_since ai ls /\ lfc a = streak ai ls /\ tS a = last_ok ai ls /\ now s = clock ls.
Proof. exact FailoverThms.history_record. Qed.
Print Assumptions C15_record_is_history.

(* clause 1a: an endpoint of the registry list with no adapter yet, or fewer than two failed calls since it was
   (re)instated - in particular none - is in the selectors *)
Theorem C15_no_fail_no_block : forall ls s e, run init ls = Some s -> In e (reg s) ->
  (lookup e (att s) = None \/ exists ai, lookup e (att s) = Some ai /\ fails_since ai ls < 2) -> In e (sel s).
Proof. exact FailoverThms.no_fail_in_rotation_hist. Qed.
Print Assumptions C15_no_fail_no_block.

(* clause 1b: whoever is out of the selectors has a blocked adapter with at least two failed calls since (re)instatement *)
Theorem C15_two_failures : forall ls s e, run init ls = Some s -> In e (reg s) -> ~ In e (sel s) ->
  exists ai a, lookup e (att s) = Some ai /\ get ai s = Some a /\ ast a = false /\ 2 <= fails_since ai ls.
Proof. exact FailoverThms.out_of_rotation_two_failures_hist. Qed.
Print Assumptions C15_two_failures.

(* ... and only a status check takes an adapter out *)
Theorem C15_blocked_only_by_check : forall s l s' ai a a', reachable s -> step s l = Some s' ->
  get ai s = Some a -> ast a = true -> get ai s' = Some a' -> ast a' = false ->
  (exists r, l = Check r) /\ gfail a' = gfail a /\ 2 <= gfail a.
Proof. exact FailoverThms.blocked_only_by_check. Qed.
Print Assumptions C15_blocked_only_by_check.

(* clause 2: >= 5 failed calls in a row and no answered call for >= 5 s: after the next status check the adapter is
   blocked and the endpoint is in no selector; if any endpoint is left in the selectors, a normal (non-probe) selection
   never returns it.  Scope: histories in which no registry refresh has dropped an endpoint that had an adapter
   (shrunk = false: dropped from BOTH registry lists; see C15_shrunk_only_by_dropping_refresh and the refutation below). *)
Theorem C15_blocked_after_streak : forall ls s e ai r s', run init ls = Some s -> shrunk s = false ->
  In e (reg s) -> lookup e (att s) = Some ai ->
  5 <= streak ai ls -> 5 <= clock ls - last_ok ai ls ->
  step s (Check r) = Some s' ->
  exists a', get ai s' = Some a' /\ ast a' = false /\ ~ In e (sel s') /\
             (sel s' <> [] -> forall aj, step s' (SelPick e aj) = None).
Proof. exact FailoverThms.blocked_after_streak_hist. Qed.
Print Assumptions C15_blocked_after_streak.

Theorem C15_shrunk_only_by_dropping_refresh : forall s l s', step s l = Some s' -> shrunk s = false -> shrunk s' = true ->
  exists r i e ai, l = Refresh r i /\ lookup e (att s) = Some ai /\ ~ In e r /\ ~ In e i.
Proof. exact FailoverThms.shrunk_only_by_dropping_refresh. Qed.
Print Assumptions C15_shrunk_only_by_dropping_refresh.

(* in terms of the history: the scope is left exactly by a refresh that drops an endpoint which has an adapter then *)
Theorem C15_scope_left_only_by_dropping_refresh : forall ls s0 s, run s0 ls = Some s -> shrunk s0 = false -> shrunk s = true ->
  exists pre r i post s1 e ai, ls = pre ++ Refresh r i :: post /\ run s0 pre = Some s1 /\
    lookup e (att s1) = Some ai /\ ~ In e r /\ ~ In e i.
Proof. exact FailoverThms.scope_left_only_by_dropping_refresh. Qed.
Print Assumptions C15_scope_left_only_by_dropping_refresh.

(* without that scope the clause is false of the model (and of the code: the witness history is replayed on the
   implementation by the harness, corpus case "stale-probe-after-readd") *)
Theorem C15_blocked_after_streak_any_refresh_refuted :
  exists s e ai a r s', reachable s /\ In e (reg s) /\ lookup e (att s) = Some ai /\ get ai s = Some a /\
    5 <= lfc a /\ 5 <= now s - tS a /\ step s (Check r) = Some s' /\
    In e (sel s') /\ (exists s'', step s' (SelPick e ai) = Some s'').
Proof. exact FailoverExamples.streak_clause_refuted_after_refresh. Qed.
Print Assumptions C15_blocked_after_streak_any_refresh_refuted.

(* slow endpoints: a reply that arrives after its caller's deadline (label Late) changes nothing, and the history
   quantities above do not see it: the timed-out call stays a failed call, the streak is not reset, the time of the last
   answered call does not move - so C15_blocked_after_streak takes a slow endpoint out exactly as a silent one *)
Theorem C15_late_reply_no_effect : forall s ai s', step s (Late ai) = Some s' -> s' = s.
Proof. exact FailoverQueue.late_reply_no_effect. Qed.
Print Assumptions C15_late_reply_no_effect.

Theorem C15_late_replies_do_not_count : forall ai ls,
  let ls' := filter (fun l => negb (is_late l)) ls in
  fails_since ai ls' = fails_since ai ls /\ streak ai ls' = streak ai ls /\ last_ok ai ls' = last_ok ai ls /\ clock ls' = clock ls.
Proof. exact FailoverQueue.late_replies_do_not_count. Qed.
Print Assumptions C15_late_replies_do_not_count.

(* one-way calls: the outcome of a call is what counts, whatever its packet type. A call that fails at Send is the label
   Out _ false _ (one-way or two-way alike: fails_since and streak above count it); a one-way call handed to the transport
   (label Sent) is booked as a success, awaits nothing and - being no answer - reinstates nothing (C15_stays_blocked
   quantifies over histories with Sent labels too) *)
Theorem C15_one_way_sent_effect : forall s ai p s', step s (Sent ai p) = Some s' ->
  exists a, get ai s = Some a /\ get ai s' = Some (succ_add (now s) a) /\
            reinst s' = reinst s /\ sel s' = sel s /\ active s' = active s /\ probeq s' = probeq s.
Proof. exact FailoverThms.one_way_sent_effect. Qed.
Print Assumptions C15_one_way_sent_effect.

(* registry changes while an endpoint is blocked: a refresh keeps the health record of every endpoint it lists, as
   active or as inactive; in scope a blocked endpoint is in no selector, and it stays out - record attached - through
   every history without an answered probe of it (active -> inactive -> active included) *)
Theorem C15_refresh_keeps_listed : forall s l i s' e ai, step s (Refresh l i) = Some s' ->
  lookup e (att s) = Some ai -> In e (l ++ i) -> lookup e (att s') = Some ai.
Proof. exact FailoverThms.refresh_keeps_listed. Qed.
Print Assumptions C15_refresh_keeps_listed.

Theorem C15_blocked_out_of_rotation : forall s e ai a, reachable s -> shrunk s = false ->
  lookup e (att s) = Some ai -> get ai s = Some a -> ast a = false -> ~ In e (sel s).
Proof. exact FailoverThms.blocked_out_of_rotation. Qed.
Print Assumptions C15_blocked_out_of_rotation.

Theorem C15_blocked_stays_out_without_probe : forall ls s s' e ai a, reachable s -> run s ls = Some s' -> shrunk s' = false ->
  lookup e (att s) = Some ai -> get ai s = Some a -> ast a = false -> memN ai (reinst s) = false ->
  ~ In (Out ai true true) ls ->
  lookup e (att s') = Some ai /\ (exists a', get ai s' = Some a' /\ ast a' = false) /\ ~ In e (sel s').
Proof. exact FailoverThms.blocked_stays_out_without_probe. Qed.
Print Assumptions C15_blocked_stays_out_without_probe.

(* clause 3a: probe requests for the same adapter object (reqlog is newest first) are at least 30 s apart ... *)
Theorem C15_probe_rate : forall s pre e2 e1 ai t2 t1 mid post, reachable s ->
  reqlog s = pre ++ (e2, ai, t2) :: mid ++ (e1, ai, t1) :: post -> 30 <= t2 - t1.
Proof. exact FailoverThms.probe_rate. Qed.
Print Assumptions C15_probe_rate.

(* ... hence for the same endpoint, in the scope above *)
Theorem C15_probe_rate_endpoint : forall s pre e ai2 ai1 t2 t1 mid post, reachable s -> shrunk s = false ->
  reqlog s = pre ++ (e, ai2, t2) :: mid ++ (e, ai1, t1) :: post -> 30 <= t2 - t1.
Proof. exact FailoverThms.probe_rate_endpoint. Qed.
Print Assumptions C15_probe_rate_endpoint.

(* clause 3b: single call: probe calls made plus probes still queued never exceed the requests *)
Theorem C15_probe_single : forall s ai, reachable s ->
  (countN ai (probelog s) + countN ai (probeq s) <= req_count ai (reqlog s))%nat.
Proof. exact FailoverThms.probe_single. Qed.
Print Assumptions C15_probe_single.

(* clause 3c: the probe queue never holds two probes for one endpoint, and the dedupe set is exactly the set of endpoints
   with a queued probe (an endpoint whose probe has been handed out can be requested again; none is locked out) *)
Theorem C15_probe_queue_dedupe : forall s, reachable s ->
  NoDup (qeps s) /\ forall e, In e (pset s) <-> In e (qeps s).
Proof. exact FailoverQueue.InvQ_reachable. Qed.
Print Assumptions C15_probe_queue_dedupe.

(* clause 4a: once a probe is answered, the reinstatement is enabled and stays enabled whatever else happens, and when
   it runs the adapter is active with cleared counters and its endpoint is back in the selectors and the active list *)
Theorem C15_reinstated : forall s ai s1 ls s2, step s (Out ai true true) = Some s1 ->
  run s1 ls = Some s2 -> ~ In (Reinstate ai) ls ->
  exists s3 a, step s2 (Reinstate ai) = Some s3 /\ get ai s3 = Some a /\ ast a = true /\
               fc a = 0 /\ lfc a = 0 /\ sc a = 0 /\ gfail a = 0 /\ In (aep a) (sel s3) /\ In (aep a) (active s3).
Proof. exact FailoverThms.probe_success_reinstates. Qed.
Print Assumptions C15_reinstated.

(* clause 4b: a blocked adapter with no answered probe pending stays blocked through every history that contains no
   answered probe of it (failed probes, answered normal calls, time, checks, refreshes included) *)
Theorem C15_stays_blocked : forall ls s s' ai a, run s ls = Some s' ->
  get ai s = Some a -> ast a = false -> memN ai (reinst s) = false -> ~ In (Out ai true true) ls ->
  exists a', get ai s' = Some a' /\ ast a' = false /\ memN ai (reinst s') = false.
Proof. exact FailoverThms.stays_blocked. Qed.
Print Assumptions C15_stays_blocked.

(* clause 4c - no lock-out ("... and come back"): in scope, once the probe interval of a blocked endpoint has elapsed, a status
   check that finds it reachable queues the probe of its adapter (whatever else is queued, whatever the dedupe set holds) ... *)
Theorem C15_probe_requested_when_due : forall s e ai a r s', reachable s -> shrunk s = false ->
  In e (reg s) -> lookup e (att s) = Some ai -> get ai s = Some a -> ast a = false ->
  30 <= now s - tB a -> In e r -> step s (Check r) = Some s' ->
  In ai (probeq s') /\ exists a', get ai s' = Some a' /\ ast a' = false.
Proof. exact FailoverBack.probe_requested_when_due. Qed.
Print Assumptions C15_probe_requested_when_due.

(* ... and from EVERY reachable in-scope state with a blocked endpoint there is a way back that needs nothing but the
   environment's cooperation: 30 s pass, a status check finds it reachable, selections take the queued probes (drain: only
   SelProbe steps), its probe is answered, the reinstatement runs - and it is back in the selectors, active, counters clear *)
Theorem C15_can_come_back : forall s e ai a, reachable s -> shrunk s = false ->
  In e (reg s) -> lookup e (att s) = Some ai -> get ai s = Some a -> ast a = false ->
  exists drain s', all_selprobe drain /\
    run s ([Advance 30; Check [e]] ++ drain ++ [Out ai true true; Reinstate ai]) = Some s' /\
    In e (sel s') /\ exists a', get ai s' = Some a' /\ ast a' = true /\ gfail a' = 0.
Proof. exact FailoverBack.can_come_back. Qed.
Print Assumptions C15_can_come_back.

(* clause 5: with a non-empty registry list the selection never returns nil: the head of the probe queue if there is
   one, otherwise a member of the selectors, otherwise (every endpoint blocked) an endpoint of the registry list *)
Theorem C15_never_none : forall s, reachable s -> reg s <> [] ->
  step s SelNone = None /\
  (forall q rest, probeq s = q :: rest -> exists s', step s (SelProbe q) = Some s') /\
  (probeq s = [] -> exists e ai s', step s (SelPick e ai) = Some s' /\
     (sel s = [] -> In e (reg s)) /\ (sel s <> [] -> In e (sel s))).
Proof. exact FailoverThms.never_none. Qed.
Print Assumptions C15_never_none.
