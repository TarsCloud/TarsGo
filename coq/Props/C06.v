(* C06 — truncated or mistyped input is rejected, never decoded into made-up data. Statements only. *)
From Coq Require Import List NArith ZArith.
From TarsV Require Import Base.Hex Codec.Wire Codec.Skip Codec.Prim Codec.GenCodec Codec.GenProofs Codec.RoundTrip
  Codec.PrefixProofs Codec.PrefixGenProofs Codec.RoundTripExamples Codec.Damage Codec.DamageProofs Codec.TypedProofs
  Codec.CanonExamples Gen.Schemas.
From TarsV Require Xlate.ReaderSliceEquiv.
(* (the readers translated from the current Go source are part of this file's closure) *)
Import ListNotations.
Open Scope N_scope.

(* fixed-width reads: all n bytes are there and are the value, or the read fails; never zero-padded *)
Theorem C06_fixed_width_exact : forall n bs v r, bread n bs = Some (v, r) ->
  bs = firstn n bs ++ r /\ length (firstn n bs) = n /\ v = be_val 0 (firstn n bs).
Proof. exact GenProofs.bread_exact. Qed.
Theorem C06_fixed_width_truncated : forall n bs, (length bs < n)%nat -> bread n bs = None.
Proof. exact GenProofs.bread_truncated. Qed.
(* strings and byte vectors: the announced length is all there, or an error; never partial, never zero-filled *)
Theorem C06_string_exact : forall l r s r', take_str l r = Some (s, r') -> r = s ++ r' /\ N.of_nat (length s) = l.
Proof. exact GenProofs.take_str_exact. Qed.
Theorem C06_string_truncated : forall l r, N.of_nat (length r) < l -> take_str l r = None.
Proof. exact GenProofs.take_str_truncated. Qed.
Theorem C06_bytes_exact : forall n r s r', read_slice n r = Some (s, r') -> r = s ++ r' /\ Z.of_nat (length s) = n.
Proof. exact GenProofs.read_slice_exact. Qed.
Theorem C06_bytes_truncated : forall n r, (Z.of_nat (length r) < n)%Z -> read_slice n r = None.
Proof. exact GenProofs.read_slice_truncated. Qed.
Theorem C06_bytes_negative : forall n r, (n < 0)%Z -> read_slice n r = None.
Proof. exact GenProofs.read_slice_negative. Qed.

(* member level, every scalar member type (bool, all integer widths, floats, strings, enums), any tag, required or
   optional: a non-empty proper prefix of the member's encoding is an error - with the single exception that
   the first byte of a two-byte head on its own makes an OPTIONAL member absent (nothing is made up: the
   member keeps the target's value and the stray byte is dropped) *)
Theorem C06_scalar_prefix : forall f tag req t v prior p q, scalar_ty t = true -> sc_typed t v -> tag < 256 ->
  w_scalar t v tag = p ++ q -> q <> [] -> p <> [] ->
  dec_scalar (S f) tag req t prior p = DErr \/ (req = false /\ halfhead p /\ dec_scalar (S f) tag req t prior p = DOk prior []).
Proof. exact PrefixProofs.scalar_prefix. Qed.

(* struct level, every wf_schema environment, every FLAT struct type (all members scalar), every well-typed
   value, EVERY prefix p of its encoding: decoding p fails, or succeeds with exactly the first i members - those
   whose encodings are completely contained in p - and all later members optional and at their reset values
   (prior_ok: the declared default, else the zero value); nothing is left unread *)
Theorem C06_prefix_flat : forall e k sid vs p q,
  wf_schema k e -> (S k <= 64)%nat -> flat (fields_of e sid) -> (length (fields_of e sid) + 4 <= 64)%nat ->
  has_type e (TStruct sid) (VStruct vs) -> encode e sid (VStruct vs) = p ++ q ->
  decode e sid p = DErr \/
  exists i h ps, (i <= length (fields_of e sid))%nat /\
    p = enc_fields e (firstn i vs) (firstn i (fields_of e sid)) ++ h /\ (h = [] \/ halfhead h) /\
    optional (skipn i (fields_of e sid)) /\
    Forall2 (fun fd p => prior_ok e (fty fd) (fdef fd) p) (fields_of e sid) ps /\
    decode e sid p = DOk (VStruct (firstn i (norm_fields e vs (fields_of e sid)) ++ skipn i ps)) [].
Proof. exact PrefixProofs.prefix_flat. Qed.
Theorem C06_code_schemas_prefix_flat : forall sid vs p q, flat_b (fields_of env0 sid) = true ->
  (length (fields_of env0 sid) + 4 <= 64)%nat ->
  has_type env0 (TStruct sid) (VStruct vs) -> encode env0 sid (VStruct vs) = p ++ q ->
  decode env0 sid p = DErr \/
  exists i h ps, (i <= length (fields_of env0 sid))%nat /\
    p = enc_fields env0 (firstn i vs) (firstn i (fields_of env0 sid)) ++ h /\ (h = [] \/ halfhead h) /\
    optional (skipn i (fields_of env0 sid)) /\
    Forall2 (fun fd p => prior_ok env0 (fty fd) (fdef fd) p) (fields_of env0 sid) ps /\
    decode env0 sid p = DOk (VStruct (firstn i (norm_fields env0 vs (fields_of env0 sid)) ++ skipn i ps)) [].
Proof. exact RoundTripExamples.env0_prefix_flat. Qed.
Theorem C06_code_schemas_flat_examples :
  forallb (fun sid => flat_b (fields_of env0 sid) && (length (fields_of env0 sid) + 4 <=? 64)%nat)
          [sid_verifidl_Scalars; sid_endpointf_EndpointF; sid_authf_BasicAuthInfo; sid_authf_TokenKey] = true.
Proof. exact RoundTripExamples.env0_flat_examples. Qed.

(* a present field whose wire type is not admissible for the IDL type of its tag is rejected: member level, every
   type constructor (scalars, vectors, byte vectors, arrays, maps, structs), behind any unknown fields ... *)
Theorem C06_inadmissible_member : forall e f tag req t prior lo J ty r,
  junk_ok lo tag J -> ty < 16 -> tag < 256 -> (ty =? tSE) = false -> adm t ty = false ->
  (2 * length (ser_fields J ++ head ty tag ++ r) + 3 <= f)%nat ->
  dec_var (S f) e tag req t prior (ser_fields J ++ head ty tag ++ r) = DErr.
Proof. exact PrefixProofs.inadmissible_member. Qed.
(* ... and struct level, any struct type with a finite type graph: the members before it encoded normally,
   then a field of an inadmissible wire type under the member's tag, then anything *)
Theorem C06_inadmissible_rejected : forall e k n sid fds1 fd fds2 vs1 ty r,
  wf_schema k e -> (S k <= 64)%nat -> fields_of e sid = fds1 ++ fd :: fds2 ->
  Forall2 (fun fd x => has_type e (fty fd) x) fds1 vs1 ->
  ty < 16 -> (ty =? tSE) = false -> adm (fty fd) ty = false ->
  tfin n e (TStruct sid) = true -> (tneed n e (TStruct sid) + k <= 64)%nat ->
  decode e sid (enc_fields e vs1 fds1 ++ head ty (ftag fd) ++ r) = DErr.
Proof. exact PrefixProofs.inadmissible_rejected. Qed.

(* THE PREFIX CLAUSE AT STRUCT LEVEL FOR ALL MEMBER TYPES: every wf_schema environment, every struct type with a
   finite type graph (members of string, byte-vector, vector, fixed-array, map and nested struct types included),
   every well-typed value, EVERY prefix p of its encoding: decoding p fails with an error, or succeeds
   with exactly the first i members, whose encodings are completely contained in p (p is their encoding,
   possibly followed by the lone first byte of a two-byte head), all later members being optional and holding
   admissible reset values (declared default, else zero), and nothing left unread. A cut inside a string, byte
   vector, list, map or nested struct therefore always fails: no partial strings, no zero-filled buffers, no
   shortened containers. *)
(* the clause for every struct type, recursive ones included, kept visible; proved below for finite type graphs *)
Definition C06_prefix_statement : Prop := forall e k sid vs p q,
  wf_schema k e -> has_type e (TStruct sid) (VStruct vs) -> encode e sid (VStruct vs) = p ++ q ->
  decode e sid p = DErr \/
  exists i h ps, (i <= length (fields_of e sid))%nat /\
    p = enc_fields e (firstn i vs) (firstn i (fields_of e sid)) ++ h /\ (h = [] \/ halfhead h) /\
    optional (skipn i (fields_of e sid)) /\
    Forall2 (fun fd pr => prior_ok e (fty fd) (fdef fd) pr) (fields_of e sid) ps /\
    decode e sid p = DOk (VStruct (firstn i (norm_fields e vs (fields_of e sid)) ++ skipn i ps)) [].
Theorem C06_prefix_general_partial : forall e k n sid vs p q,
  wf_schema k e -> (S k <= 64)%nat -> tfin n e (TStruct sid) = true -> (tneed n e (TStruct sid) + k <= 64)%nat ->
  has_type e (TStruct sid) (VStruct vs) -> encode e sid (VStruct vs) = p ++ q ->
  decode e sid p = DErr \/
  exists i h ps, (i <= length (fields_of e sid))%nat /\
    p = enc_fields e (firstn i vs) (firstn i (fields_of e sid)) ++ h /\ (h = [] \/ halfhead h) /\
    optional (skipn i (fields_of e sid)) /\
    Forall2 (fun fd pr => prior_ok e (fty fd) (fdef fd) pr) (fields_of e sid) ps /\
    decode e sid p = DOk (VStruct (firstn i (norm_fields e vs (fields_of e sid)) ++ skipn i ps)) [].
Proof. exact PrefixGenProofs.prefix_general. Qed.
Theorem C06_code_schemas_prefix_general : forall sid vs p q, fits_model sid = true ->
  has_type env0 (TStruct sid) (VStruct vs) -> encode env0 sid (VStruct vs) = p ++ q ->
  decode env0 sid p = DErr \/
  exists i h ps, (i <= length (fields_of env0 sid))%nat /\
    p = enc_fields env0 (firstn i vs) (firstn i (fields_of env0 sid)) ++ h /\ (h = [] \/ halfhead h) /\
    optional (skipn i (fields_of env0 sid)) /\
    Forall2 (fun fd pr => prior_ok env0 (fty fd) (fdef fd) pr) (fields_of env0 sid) ps /\
    decode env0 sid p = DOk (VStruct (firstn i (norm_fields env0 vs (fields_of env0 sid)) ++ skipn i ps)) [].
Proof. exact RoundTripExamples.env0_prefix_general. Qed.
(* member level, every type: a proper prefix of a member's encoding is an error (or, optional member and nothing /
   the lone first head byte present: the member is absent) *)
Theorem C06_member_prefix : forall e k, wf_schema k e -> forall f m t tag req d v prior p q,
  tfin m e t = true -> has_type e t v -> ty_nest k e t = true -> tag < 256 ->
  (d <> None -> scalar_ty t = true) -> prior_ok e t d prior ->
  enc_var e tag req t d v = p ++ q -> q <> [] -> (tneed m e t + k + 4 * length p + 3 <= f)%nat ->
  dec_var f e tag req t prior p = DErr \/
  (req = false /\ (p = [] \/ halfhead p) /\ exists x, dec_var f e tag req t prior p = DOk x [] /\ prior_ok e t d x).
Proof. exact (fun e k Hwf f => proj1 (PrefixGenProofs.w_all e k Hwf f)). Qed.

(* EMBEDDED LENGTHS that announce more than remains, member level, behind any unknown fields, whatever the rest of
   the input is: a string length (1-byte and 4-byte form) -> error; a byte-vector (SimpleList) count -> error;
   a LIST count beyond the bytes left, a MAP count beyond half the bytes left -> error before anything is allocated
   or decoded; a fixed-array count above the array's length -> error (the pinned code indexed past the end:
   Codec/Pinned.v C06_array_count_pinned_refuted) *)
Theorem C06_inflated_string_member : forall e f tag req prior lo J (four : bool) l r,
  junk_ok lo tag J -> tag < 256 -> N.of_nat (length r) < l -> l < (if four then 4294967296 else 256) ->
  let field := (if four then head tSTR4 tag ++ be 4 l else head tSTR1 tag ++ [l]) ++ r in
  (2 * length (ser_fields J ++ field) + 3 <= f)%nat ->
  dec_var (S f) e tag req TStr prior (ser_fields J ++ field) = DErr.
Proof. exact PrefixProofs.inflated_string_member. Qed.
Theorem C06_inflated_bytes_member : forall e f tag req x prior lo J n r,
  junk_ok lo tag J -> tag < 256 -> is_byte x = true -> (length r < n)%nat -> N.of_nat n < 2147483648 ->
  let field := head tSIMPLE tag ++ head tBYTE 0 ++ w_int32 (Z.of_nat n) 0 ++ r in
  (2 * length (ser_fields J ++ field) + 3 <= f)%nat ->
  dec_var (S f) e tag req (TVec x) prior (ser_fields J ++ field) = DErr.
Proof. exact PrefixProofs.inflated_bytes_member. Qed.
Theorem C06_inflated_list_member : forall e f tag req x prior lo J n r,
  junk_ok lo tag J -> tag < 256 -> (length r < n)%nat -> N.of_nat n < 2147483648 ->
  let field := head tLIST tag ++ w_int32 (Z.of_nat n) 0 ++ r in
  (2 * length (ser_fields J ++ field) + 3 <= f)%nat ->
  dec_var (S f) e tag req (TVec x) prior (ser_fields J ++ field) = DErr.
Proof. exact PrefixProofs.inflated_list_member. Qed.
Theorem C06_inflated_map_member : forall e f tag req kt vt prior lo J n r,
  junk_ok lo tag J -> tag < 256 -> (length r < 2 * n)%nat -> N.of_nat n < 2147483648 ->
  let field := head tMAP tag ++ w_int32 (Z.of_nat n) 0 ++ r in
  (2 * length (ser_fields J ++ field) + 3 <= f)%nat ->
  dec_var (S f) e tag req (TMap kt vt) prior (ser_fields J ++ field) = DErr.
Proof. exact PrefixProofs.inflated_map_member. Qed.
Theorem C06_array_count_member : forall e f tag req len x prior lo J n r,
  junk_ok lo tag J -> tag < 256 -> (len < n)%nat -> N.of_nat n < 2147483648 ->
  let field := head tLIST tag ++ w_int32 (Z.of_nat n) 0 ++ r in
  (2 * length (ser_fields J ++ field) + 3 <= f)%nat ->
  dec_var (S f) e tag req (TArr len x) prior (ser_fields J ++ field) = DErr.
Proof. exact PrefixProofs.array_count_member. Qed.
(* struct level: the members before it encoded normally, then a string member announcing more than is left *)
Theorem C06_inflated_string_rejected : forall e k n sid fds1 fd fds2 vs1 (four : bool) l r,
  wf_schema k e -> (S k <= 64)%nat -> fields_of e sid = fds1 ++ fd :: fds2 -> fty fd = TStr ->
  Forall2 (fun fd x => has_type e (fty fd) x) fds1 vs1 ->
  N.of_nat (length r) < l -> l < (if four then 4294967296 else 256) ->
  tfin n e (TStruct sid) = true -> (tneed n e (TStruct sid) + k <= 64)%nat ->
  decode e sid (enc_fields e vs1 fds1 ++ (if four then head tSTR4 (ftag fd) ++ be 4 l else head tSTR1 (ftag fd) ++ [l]) ++ r) = DErr.
Proof. exact PrefixProofs.inflated_string_rejected. Qed.
(* the hand-written table of admissible wire types (adm) is exactly the acceptance set of the decoder model: for every
   non-struct type shape and each of the 16 wire type codes, a field of that wire type followed by a zero body is
   refused iff adm says "not admissible" (by evaluation; with C06_inadmissible_member the table cannot drift from the
   model's readers, which are tied to the Go readers by Xlate/ReaderEquiv.v and the correspondence) *)
Theorem C06_adm_is_acceptance :
  forallb (fun t => forallb (fun wt => Bool.eqb (adm_probe t wt) (adm t wt && negb (wt =? tSE))) (map N.of_nat (seq 0 16))) adm_types = true.
Proof. exact DamageProofs.adm_is_acceptance. Qed.

(* NEVER MADE-UP DATA, typing half: whatever the input (any bytes < 256, shorter than 2^31) and whatever the target
   held, a value the decoder returns is a value of the struct's IDL type - every integer within the range of its Go
   type (no wrong sign extension, no wrap), float bit patterns of the member's width, strings and byte vectors no
   longer than the input, vectors and maps with a count the input can hold, fixed arrays of exactly the declared
   length, struct members typed by the schema, recursively - and the unread rest is a suffix of the input. Every
   wf_schema environment with typed defaults and expressible array lengths, every struct type with a finite type graph. *)
Theorem C06_decode_typed : forall e k, wf_schema k e -> defaults_typed e -> arrs_ok e -> forall n sid prior bs v r,
  (S k <= 64)%nat -> tfin n e (TStruct sid) = true -> (tneed n e (TStruct sid) + k <= 64)%nat ->
  bytes_ok bs -> lenok bs -> decode_into e sid prior bs = DOk v r -> has_type e (TStruct sid) v /\ sfx r bs.
Proof. exact TypedProofs.decode_typed. Qed.
Theorem C06_code_schemas_decode_typed : forall sid prior bs v r, fits_model sid = true -> bytes_ok bs -> lenok bs ->
  decode_into env0 sid prior bs = DOk v r -> has_type env0 (TStruct sid) v /\ sfx r bs.
Proof. exact CanonExamples.env0_decode_typed. Qed.
(* the scalar readers alone, any bytes: the value is in the member type's range *)
Theorem C06_scalar_typed : forall f tag req t prior bs v r, scalar_ty t = true -> sc_typed t prior -> bytes_ok bs -> lenok bs ->
  dec_scalar f tag req t prior bs = DOk v r -> sc_typed t v /\ sfx r bs.
Proof. exact TypedProofs.dec_scalar_typed. Qed.

(* DAMAGE AT ANY DEPTH (Codec/Damage.v). spot: a field under the member's tag that the reader of the member's IDL
   type refuses on its own - a wire type it does not accept (the single-field wire-type substitution), or a string
   length / byte-vector count / list count / map count / fixed-array count announcing more than is left - followed by
   anything. dmg: the encoding of a member in which such a spot sits at any depth - in the member itself, in an
   element of a vector or fixed array (after any number of normally encoded elements, under any count that reaches
   it), in a key or a value of a map, in a member of a nested struct, recursively - everything in front of the spot
   encoded normally. Every wf_schema environment, every struct type with a finite type graph: the members in front
   encoded normally, then a member damaged at any depth, then anything: rejected. This closes the clauses
   "every inflation of an embedded length" and "every substitution of one field by a field of an inadmissible wire
   type" for nested positions, which were decided by the correspondence only. *)
Theorem C06_damage_rejected : forall e k n sid fds1 fd fds2 vs1 bs',
  wf_schema k e -> (S k <= 64)%nat -> fields_of e sid = fds1 ++ fd :: fds2 ->
  Forall2 (fun fd x => has_type e (fty fd) x) fds1 vs1 -> dmg e (ftag fd) (fty fd) bs' ->
  tfin n e (TStruct sid) = true -> (tneed n e (TStruct sid) + k <= 64)%nat ->
  decode e sid (enc_fields e vs1 fds1 ++ bs') = DErr.
Proof. exact DamageProofs.damage_rejected. Qed.
(* member level, any target that is admissible for the member, fuel linear in the bytes *)
Theorem C06_damaged_member : forall e k, wf_schema k e -> forall tag t bs, dmg e tag t bs ->
  forall m f req d prior, tfin m e t = true -> ty_nest k e t = true -> tag < 256 ->
  (d <> None -> scalar_ty t = true) -> prior_ok e t d prior ->
  (tneed m e t + k + 4 * length bs + 3 <= f)%nat -> dec_var f e tag req t prior bs = DErr.
Proof. exact DamageProofs.dmg_rejected. Qed.
Theorem C06_code_schemas_damage_rejected : forall sid fds1 fd fds2 vs1 bs', fits_model sid = true ->
  fields_of env0 sid = fds1 ++ fd :: fds2 -> Forall2 (fun fd x => has_type env0 (fty fd) x) fds1 vs1 ->
  dmg env0 (ftag fd) (fty fd) bs' -> decode env0 sid (enc_fields env0 vs1 fds1 ++ bs') = DErr.
Proof. exact CanonExamples.env0_damage_rejected. Qed.
(* the hypotheses are satisfiable: a wire-type substitution two struct levels down inside the second element of a
   vector, and a string length inflated in a map value of a nested struct *)
Theorem C06_damage_examples :
  dmg d_schema 2 (TVec (TStruct 1)) d_bytes1 /\ dmg d_schema 2 (TVec (TStruct 1)) d_bytes2 /\
  decode d_schema 0 (enc_fields d_schema [VInt 1] [ {| ftag := 0; freq := true; fty := TI32; fdef := None |} ] ++ d_bytes1) = DErr /\
  decode d_schema 0 (enc_fields d_schema [VInt 1] [ {| ftag := 0; freq := true; fty := TI32; fdef := None |} ] ++ d_bytes2) = DErr.
Proof. exact (conj DamageProofs.d_damaged1 (conj DamageProofs.d_damaged2 DamageProofs.d_rejected)). Qed.
(* not covered by dmg: a damaged spot behind unknown fields inside a nested value, and damage to the inner head of a
   SimpleList; those stay with the correspondence + monitors *)

Print Assumptions C06_fixed_width_exact. Print Assumptions C06_fixed_width_truncated.
Print Assumptions C06_string_exact. Print Assumptions C06_string_truncated.
Print Assumptions C06_bytes_exact. Print Assumptions C06_bytes_truncated. Print Assumptions C06_bytes_negative.
Print Assumptions C06_scalar_prefix.
Print Assumptions C06_prefix_flat.
Print Assumptions C06_code_schemas_prefix_flat.
Print Assumptions C06_code_schemas_flat_examples.
Print Assumptions C06_prefix_general_partial.
Print Assumptions C06_code_schemas_prefix_general.
Print Assumptions C06_member_prefix.
Print Assumptions C06_inflated_string_member.
Print Assumptions C06_inflated_bytes_member.
Print Assumptions C06_inflated_list_member.
Print Assumptions C06_inflated_map_member.
Print Assumptions C06_array_count_member.
Print Assumptions C06_inflated_string_rejected.
Print Assumptions C06_inadmissible_member.
Print Assumptions C06_inadmissible_rejected.
Print Assumptions C06_damage_rejected.
Print Assumptions C06_damaged_member.
Print Assumptions C06_code_schemas_damage_rejected.
Print Assumptions C06_damage_examples.
Print Assumptions C06_decode_typed.
Print Assumptions C06_code_schemas_decode_typed.
Print Assumptions C06_scalar_typed.
Print Assumptions C06_adm_is_acceptance.
