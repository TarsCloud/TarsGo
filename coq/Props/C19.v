(* C19 — worker pool runs every job exactly once with bounded parallelism. Statements only.
   Model: Conc/Gpool.v (transition system of tars/util/gpool/gpool.go for W workers and a JobQueue of capacity Q, any number of
   concurrent submitters, any jobs, Release; [reachable W Q s] = s is reached from the initial state by SOME label sequence, so
   every theorem below is about all schedules). *)
From Coq Require Import List Arith NArith ZArith Permutation.
From TarsV Require Import Conc.Gpool Conc.GpoolProofs Conc.GpoolLive Conc.GpoolFair Conc.GpoolEventually Conc.GpoolFifo Conc.PoolSrc Gen.C19Src Conc.PoolUse Conc.PoolUseProofs Conc.PoolSrcProofs.
Import ListNotations.

(* no job is handed to a worker twice; what has been handed over is exactly what occupies a worker or has finished *)
Theorem C19_at_most_once : forall W Q s, reachable W Q s ->
  NoDup (started s) /\ Permutation (started s) (occupying (wk s) ++ fin s) /\ (forall j, In j (started s) -> In j (subm s)).
Proof. exact GpoolProofs.no_job_starts_twice. Qed.

(* every job sent into the pool is in exactly one of: JobQueue, the dispatcher's hand, a worker, finished — never lost, never duplicated *)
Theorem C19_conservation : forall W Q s, reachable W Q s ->
  Permutation (subm s) (jobq s ++ held (dp s) ++ occupying (wk s) ++ fin s) /\
  NoDup (jobq s ++ held (dp s) ++ occupying (wk s) ++ fin s).
Proof. exact GpoolProofs.conservation. Qed.

(* at most W jobs occupy workers (and at most W are between their start and end events) *)
Theorem C19_parallelism : forall W Q s, reachable W Q s -> length (occupying (wk s)) <= W /\ length (runl s) <= W.
Proof. exact GpoolProofs.bounded_parallelism. Qed.

(* a submit is enabled whenever the queue has room, and whenever the dispatcher waits in its select on an empty queue (the only
   way for Q = 0) ... *)
Theorem C19_submit_blocks_only_when_full : forall W Q s j, In j (calling s) ->
  (length (jobq s) < Q -> exists s', step W Q s (Submit j) = Some s') /\
  (dp s = DSel -> jobq s = [] -> exists s', step W Q s (SubmitH j) = Some s').
Proof. exact GpoolProofs.submit_enabled_when_room. Qed.
(* ... only then, and the queue never holds more than Q jobs *)
Theorem C19_submit_only_into_room : forall W Q s j s',
  (step W Q s (Submit j) = Some s' -> length (jobq s) < Q) /\ (step W Q s (SubmitH j) = Some s' -> dp s = DSel /\ jobq s = []).
Proof. exact GpoolProofs.submit_only_when_room. Qed.
Theorem C19_queue_bounded : forall W Q s, reachable W Q s -> length (jobq s) <= Q.
Proof. exact GpoolProofs.queue_bounded. Qed.

(* the pool is FIFO: jobs are handed to workers in exactly the order in which their sends completed *)
Theorem C19_hand_over_fifo : forall W Q s, reachable W Q s -> subm s = started s ++ held (dp s) ++ jobq s.
Proof. exact GpoolFifo.hand_over_fifo. Qed.
(* with one worker that order shows in the events: every trace of the transition system passes the check applied to the real traces *)
Theorem C19_fifo_one_worker_traces : forall Q ls s, run 1 Q (init 1) ls = Some s -> fifo1_ok (trace 1 Q (init 1) ls) = true.
Proof. exact GpoolFifo.fifo1_traces. Qed.

(* ---------- progress ("every job submitted is executed", "Release ... returns") ---------- *)
(* no deadlock: with a pending job before Release, or with a Release in progress, a step of the pool itself or of a running job
   (jobs terminate) is always enabled *)
Theorem C19_no_deadlock : forall W Q s, 1 <= W -> reachable W Q s ->
  ((rp s = RNot \/ rp s = RCalled) /\ (jobq s <> [] \/ held (dp s) <> []) \/ rp s = RCalled \/ rp s = RSent \/ rp s = RAcked) ->
  exists l s', internal l = true /\ step W Q s l = Some s'.
Proof. exact GpoolProofs.no_deadlock. Qed.
(* no livelock: in EVERY execution the number of steps of the pool, of jobs and of Release is bounded by the work present at its
   start ([measure]: 8 per queued job, ...) plus 8 per completed submit — from any state, reachable or not *)
Theorem C19_work_bounded : forall W Q ls s s', run W Q s ls = Some s' ->
  ninternal ls + measure s' <= measure s + 8 * nsubmit ls.
Proof. exact GpoolLive.work_bounded. Qed.
(* every job sent into a pool on which Release has not been called can be brought to completion by steps of the pool and of jobs *)
Theorem C19_progress : forall W Q s j, 1 <= W -> reachable W Q s -> rp s = RNot -> In j (subm s) ->
  exists ls s', Forall (fun l => internal l = true) ls /\ run W Q s ls = Some s' /\ In j (fin s').
Proof. exact GpoolLive.progress. Qed.
(* ... and no schedule avoids it: every run of pool/job steps from such a state has at most [measure s] steps, and when it cannot be
   extended every job sent has finished, the queue is empty, no worker is occupied and all W workers are registered again *)
Theorem C19_every_schedule_completes : forall W Q s ls s', 1 <= W -> reachable W Q s -> rp s = RNot ->
  Forall (fun l => internal l = true) ls -> run W Q s ls = Some s' ->
  length ls <= measure s /\
  (quiescent W Q s' -> Permutation (subm s) (fin s') /\ jobq s' = [] /\ occupying (wk s') = [] /\ length (wq s') = W).
Proof. exact GpoolLive.every_schedule_completes. Qed.
(* a blocked submitter: the pool makes room for its send by its own steps (for Q = 0: the dispatcher comes back to its select) *)
Theorem C19_blocked_submit_gets_room : forall W Q s j, 1 <= W -> reachable W Q s -> rp s = RNot -> In j (calling s) ->
  exists ls s', Forall (fun l => internal l = true) ls /\ run W Q s ls = Some s' /\
    exists s'', step W Q s' (if Q =? 0 then SubmitH j else Submit j) = Some s''.
Proof. exact GpoolLive.blocked_submit_gets_room. Qed.
(* Release returns: once called it can be brought to its return; every run of pool/job steps is bounded and can only stop returned *)
Theorem C19_release_returns : forall W Q s, 1 <= W -> reachable W Q s -> rp s <> RNot ->
  (exists ls s', Forall (fun l => internal l = true) ls /\ run W Q s ls = Some s' /\ rp s' = RDone) /\
  (forall ls s', Forall (fun l => internal l = true) ls -> run W Q s ls = Some s' ->
     length ls <= measure s /\ (quiescent W Q s' -> rp s' = RDone)).
Proof. exact GpoolLive.release_returns. Qed.

(* "every job submitted is executed" at full strength: in every INFINITE execution (submitters may go on sending for ever) that
   is weakly fair to the goroutines of the pool and to running jobs (an internal step enabled at some index is later taken or
   not enabled) and in which the dispatcher never accepts a Release, every job sent has finished at some later index *)
Theorem C19_every_job_eventually_runs : forall W Q (σ : nat -> st) (λ : nat -> label),
  execution W Q σ λ -> (forall n, λ n <> RelCall) -> pre_release (dp (σ 0)) = true -> 1 <= W -> weakly_fair W Q σ λ ->
  forall j n, In j (subm (σ n)) -> exists m, n <= m /\ In j (fin (σ m)).
Proof. exact GpoolEventually.eventually_finished. Qed.
(* ... and in every weakly fair execution whatsoever: a job sent while the dispatcher has not accepted a Release finishes, unless a
   Release is accepted first ("as long as the pool has not been released") *)
Theorem C19_every_job_runs_unless_released : forall W Q (σ : nat -> st) (λ : nat -> label),
  execution W Q σ λ -> 1 <= W -> weakly_fair W Q σ λ ->
  forall j n, pre_release (dp (σ n)) = true -> In j (subm (σ n)) -> exists m, n <= m /\ (In j (fin (σ m)) \/ λ m = RelCall).
Proof. exact GpoolEventually.eventually_finished_or_released. Qed.
(* the hypotheses are satisfiable for every W >= 1 and Q: a scheduler that runs the pool to quiescence, then lets a submitter go on *)
Theorem C19_fair_execution_exists : forall W Q, 1 <= W ->
  execution W Q (sst W Q) (slab W Q) /\ (forall n, slab W Q n <> RelCall) /\ pre_release (dp (sst W Q 0)) = true /\
  weakly_fair W Q (sst W Q) (slab W Q).
Proof. exact GpoolEventually.fair_execution_exists. Qed.

(* the ingredients (premises of the weak-fairness rule) for the rank [mu j]: position in the FIFO queue, distance of the
   dispatcher and the workers from taking it, then the job's own three steps *)
Theorem C19_rank_zero_iff_finished : forall s j, mu j s = 0 <-> In j (fin s).
Proof. exact GpoolFair.mu_zero_iff. Qed.
(* (a) before the dispatcher accepts Release, no step of anybody — in particular no later submit — moves j away from completion *)
Theorem C19_rank_nonincreasing : forall W Q s l s' j, reachable W Q s -> pre_release (dp s) = true -> In j (subm s) -> l <> RelCall ->
  step W Q s l = Some s' -> mu j s' <= mu j s.
Proof. exact GpoolFair.mu_nonincreasing. Qed.
(* (b) while j has not finished, a step of the pool or of a running job that brings it strictly closer is enabled *)
Theorem C19_helpful_step_enabled : forall W Q s j, 1 <= W -> reachable W Q s -> pre_release (dp s) = true -> In j (subm s) ->
  ~ In j (fin s) -> exists l s', internal l = true /\ l <> RelCall /\ step W Q s l = Some s' /\ mu j s' < mu j s.
Proof. exact GpoolFair.helpful_step_enabled. Qed.
(* (c) an enabled step of the pool or of a running job stays enabled until it is taken (weak fairness suffices) *)
Theorem C19_enabled_step_persists : forall W Q s l l' s', pre_release (dp s) = true -> internal l = true -> l <> RelCall ->
  step W Q s l <> None -> step W Q s l' = Some s' -> l' <> l -> l' <> RelCall -> step W Q s' l <> None.
Proof. exact GpoolFair.enabled_step_persists. Qed.
(* finite consequence: an execution (any submits interleaved, no Release accepted) that contains [mu j s] helpful steps has finished j *)
Theorem C19_helpful_steps_finish : forall W Q ls s s' j, reachable W Q s -> pre_release (dp s) = true -> In j (subm s) ->
  ~ In RelCall ls -> run W Q s ls = Some s' ->
  helpful W Q j s ls + mu j s' <= mu j s /\ (mu j s <= helpful W Q j s ls -> In j (fin s')).
Proof. exact GpoolFair.helpful_steps_finish. Qed.

(* Release: when it has returned every worker has stopped, no job occupies a worker ... *)
Theorem C19_release : forall W Q s, reachable W Q s -> (rp s = RDone \/ rp s = RAcked) ->
  dp s = DDone /\ (forall w p, nth_error (wk s) w = Some p -> p = WDone) /\ occupying (wk s) = [] /\ runl s = [].
Proof. exact GpoolProofs.release_returns_after_all_stopped. Qed.
(* ... the step that lets it return is not enabled while a job occupies a worker ... *)
Theorem C19_release_not_while_running : forall W Q s s', reachable W Q s -> step W Q s RelRet = Some s' ->
  occupying (wk s) = [] /\ jobs_of f_run (wk s) = [].
Proof. exact GpoolProofs.release_not_while_running. Qed.
(* ... and afterwards no step hands over, starts or ends a job *)
Theorem C19_nothing_starts_after_release : forall W Q s l s', reachable W Q s -> rp s = RDone -> step W Q s l = Some s' ->
  started s' = started s /\ runl s' = runl s /\ wk s' = wk s /\ rp s' = RDone.
Proof. exact GpoolProofs.nothing_starts_after_release. Qed.

(* when Release returns every job ever handed to a worker has finished; what was still queued has not started (and never will) *)
Theorem C19_release_after_every_started_job_finished : forall W Q s, reachable W Q s -> (rp s = RDone \/ rp s = RAcked) ->
  Permutation (started s) (fin s) /\ (forall j, In j (started s) -> In j (fin s)) /\ (forall j, In j (jobq s) -> ~ In j (started s)).
Proof. exact GpoolProofs.release_after_every_started_job_finished. Qed.
(* every worker in the idle queue is idle, and the hand-over to the worker the dispatcher has picked is enabled at once: a job is never
   handed to a worker that still runs another job (it cannot wait behind a long job while other workers are idle) *)
Theorem C19_registered_workers_are_idle : forall W Q s, reachable W Q s ->
  (forall w, In w (wq s) -> nth_error (wk s) w = Some WWait) /\
  (forall j w, dp s = DHand j w -> nth_error (wk s) w = Some WWait /\ exists s', step W Q s Hand = Some s').
Proof. exact GpoolProofs.registered_workers_are_idle. Qed.
(* the buffered WorkerQueue never exceeds its capacity W: a worker's registration `w.WorkerQueue <- w` never blocks *)
Theorem C19_worker_registration_never_blocks : forall W Q s, reachable W Q s ->
  length (wq s) <= W /\ (forall w s', step W Q s (WorkerReg w) = Some s' -> length (wq s) < W).
Proof. exact GpoolProofs.worker_queue_never_blocks. Qed.

(* refinement: the observable trace of every execution is accepted by the specification machine (the validator run on real traces) *)
Theorem C19_refines_spec : forall W Q ls s, run W Q (init W) ls = Some s ->
  sruns W sinit (trace W Q (init W) ls) = Some (abs s) /\ accepts W (trace W Q (init W) ls) = true.
Proof. exact GpoolProofs.refines_spec. Qed.

(* what acceptance means for a trace: after every prefix the running jobs are those started and not ended, at most W of them;
   no job starts twice; at release-return every started job has ended and none starts later; a complete run ran every job *)
Theorem C19_spec_prefix : forall W tr1 tr2, accepts W (tr1 ++ tr2) = true ->
  exists σ, sruns W sinit tr1 = Some σ /\ length (s_run σ) <= W /\ NoDup (starts_of tr1) /\
            Permutation (starts_of tr1) (s_run σ ++ ends_of tr1).
Proof. exact GpoolProofs.spec_prefix. Qed.
Theorem C19_spec_start_once : forall W tr, accepts W tr = true -> NoDup (starts_of tr).
Proof. exact GpoolProofs.spec_start_once. Qed.
Theorem C19_spec_release : forall W tr1 tr2, accepts W (tr1 ++ ERelRet :: tr2) = true ->
  Permutation (starts_of tr1) (ends_of tr1) /\ starts_of tr2 = [].
Proof. exact GpoolProofs.spec_release. Qed.
Theorem C19_spec_complete : forall W tr, accepts_complete W tr = true ->
  accepts W tr = true /\ length (starts_of tr) = length (ends_of tr) /\
  exists σ, sruns W sinit tr = Some σ /\ length (s_done σ) = length (s_called σ) /\ Permutation (ends_of tr) (s_done σ).
Proof. exact GpoolProofs.spec_complete. Qed.

(* ---------- the source of the tree (coq/Gen/C19Src.v, regenerated on every run from gpool.go, tcphandler.go, udphandler.go) ---------- *)
(* gpool.go is, statement for statement, the program whose transition system is Conc/Gpool.v *)
Theorem C19_gpool_source_is_the_modelled_program :
  src_gpool_functions = modelled_functions /\
  src_gpool_Worker_Start = modelled_Worker_Start /\ src_gpool_newWorker = modelled_newWorker /\
  src_gpool_NewPool = modelled_NewPool /\ src_gpool_Pool_Start = modelled_Pool_Start /\
  src_gpool_Pool_dispatch = modelled_Pool_dispatch /\ src_gpool_Pool_Release = modelled_Pool_Release.
Proof. exact PoolSrcProofs.gpool_source_is_the_modelled_program. Qed.
Theorem C19_gpool_channel_capacities :
  src_gpool_NewPool_params = modelled_NewPool_params /\ src_gpool_NewPool_chans = modelled_NewPool_chans /\
  src_gpool_newWorker_chans = modelled_newWorker_chans.
Proof. exact PoolSrcProofs.gpool_channel_capacities. Qed.
(* the handlers' routing decision, evaluated from the condition in the source: pool iff MaxInvoke > 0 for EVERY QueueCap (0 is a real
   configuration), the pool is built under the same condition with W = MaxInvoke, Q = QueueCap; the hand-over is a blocking send *)
Theorem C19_handlers_route_by_MaxInvoke : forall max_invoke queue_cap,
  route_of src_tcp_route_cond max_invoke queue_cap = Some (routing max_invoke) /\
  route_of src_udp_route_cond max_invoke queue_cap = Some (routing max_invoke) /\
  cond_value src_tcp_pool_cond max_invoke queue_cap = Some (0 <? max_invoke)%Z /\
  cond_value src_udp_pool_cond max_invoke queue_cap = Some (0 <? max_invoke)%Z /\
  arg_values src_tcp_pool_args max_invoke queue_cap = [Some (VZ max_invoke); Some (VZ queue_cap)] /\
  arg_values src_udp_pool_args max_invoke queue_cap = [Some (VZ max_invoke); Some (VZ queue_cap)].
Proof. exact PoolSrcProofs.handlers_route_by_MaxInvoke. Qed.
Theorem C19_queue_cap_zero_still_pooled : forall max_invoke, (0 < max_invoke)%Z ->
  route_of src_tcp_route_cond max_invoke 0 = Some ToPool /\ route_of src_udp_route_cond max_invoke 0 = Some ToPool.
Proof. exact PoolSrcProofs.queue_cap_zero_still_pooled. Qed.
Theorem C19_handlers_submit_by_blocking_send : tcp_submit_is_blocking_send = true /\ udp_submit_is_blocking_send = true.
Proof. exact PoolSrcProofs.handlers_submit_by_blocking_send. Qed.

Theorem C19_listen_builds_the_pool_once : src_tcp_Listen = modelled_tcp_Listen /\ src_udp_Listen = modelled_udp_Listen.
Proof. exact PoolSrcProofs.listen_builds_the_pool_once. Qed.

(* ---------- the pool inside tcpHandler (Conc/PoolUse.v): accept loop, connection goroutines, recvDone, numInvoke, Shutdown ---------- *)
(* the statement order read off the source: Add before go, Wait before Release, numInvoke counted at hand-over *)
Theorem C19_source_statement_order : source_flags = good_flags.
Proof. exact PoolSrcProofs.source_statement_order. Qed.
(* for that order, every number of connections and requests and every schedule (Shutdown racing with accepts and submissions):
   every request handed to the pool is pending, running or executed, once *)
Theorem C19_requests_handed_once : forall s, treachable source_flags s ->
  Permutation (t_handed s) (t_pend s ++ t_runn s ++ t_exec s) /\ NoDup (t_pend s ++ t_runn s ++ t_exec s).
Proof. rewrite PoolSrcProofs.source_statement_order. exact PoolUseProofs.handed_once. Qed.
(* Release is accepted by the pool only when every request ever handed to it has been executed and every connection goroutine has ended *)
Theorem C19_pool_released_only_when_drained : forall s, treachable source_flags s -> t_released s = true ->
  t_pend s = [] /\ t_runn s = [] /\ Permutation (t_handed s) (t_exec s) /\ Forall (fun c => c_pc c = CDone) (t_conns s).
Proof. rewrite PoolSrcProofs.source_statement_order. exact PoolUseProofs.released_only_when_drained. Qed.
Theorem C19_nothing_handed_over_after_release : forall s i n s', treachable source_flags s -> t_released s = true ->
  tstep source_flags s (CSubmit i n) = Some s' -> False.
Proof. rewrite PoolSrcProofs.source_statement_order. exact PoolUseProofs.nothing_handed_over_after_release. Qed.
(* the shutdown is never stuck before Handle has returned *)
Theorem C19_shutdown_progress : forall s, treachable source_flags s -> t_closed s = true -> t_ap s <> ADone ->
  exists l s', l <> TShutdown /\ tstep source_flags s l = Some s'.
Proof. rewrite PoolSrcProofs.source_statement_order. exact PoolUseProofs.shutdown_progress. Qed.
(* refinement: the events (request read, handler start / end, Handle returned) of every execution pass the check [puse_ok] that the
   harness applies to the recorded traces of the real TCP server scenarios *)
Theorem C19_server_traces_accepted : forall ls s, trun source_flags tinit ls = Some s -> puse_ok (ptrace source_flags tinit ls) = true.
Proof. rewrite PoolSrcProofs.source_statement_order. exact PoolUseProofs.server_traces_accepted. Qed.
(* each of the three orders matters: reversed, some schedule releases the pool over a request that is still pending (it never runs) *)
Theorem C19_add_inside_goroutine_refuted :
  exists s, trun (mkflags false true true) tinit witness_add_inside = Some s /\ lost_request s = true /\ t_ap s = ADone.
Proof. exact PoolUseProofs.add_inside_loses_requests. Qed.
Theorem C19_release_before_wait_refuted :
  exists s, trun (mkflags true false true) tinit witness_release_first = Some s /\ lost_request s = true.
Proof. exact PoolUseProofs.release_first_loses_requests. Qed.
Theorem C19_count_at_start_refuted :
  exists s, trun (mkflags true true false) tinit witness_count_at_start = Some s /\ lost_request s = true.
Proof. exact PoolUseProofs.count_at_start_loses_requests. Qed.

Print Assumptions C19_at_most_once.
Print Assumptions C19_conservation.
Print Assumptions C19_parallelism.
Print Assumptions C19_submit_blocks_only_when_full.
Print Assumptions C19_submit_only_into_room.
Print Assumptions C19_queue_bounded.
Print Assumptions C19_hand_over_fifo.
Print Assumptions C19_fifo_one_worker_traces.
Print Assumptions C19_no_deadlock.
Print Assumptions C19_work_bounded.
Print Assumptions C19_progress.
Print Assumptions C19_every_schedule_completes.
Print Assumptions C19_blocked_submit_gets_room.
Print Assumptions C19_release_returns.
Print Assumptions C19_every_job_eventually_runs.
Print Assumptions C19_every_job_runs_unless_released.
Print Assumptions C19_fair_execution_exists.
Print Assumptions C19_rank_zero_iff_finished.
Print Assumptions C19_rank_nonincreasing.
Print Assumptions C19_helpful_step_enabled.
Print Assumptions C19_enabled_step_persists.
Print Assumptions C19_helpful_steps_finish.
Print Assumptions C19_release.
Print Assumptions C19_release_not_while_running.
Print Assumptions C19_nothing_starts_after_release.
Print Assumptions C19_refines_spec.
Print Assumptions C19_spec_prefix.
Print Assumptions C19_spec_start_once.
Print Assumptions C19_spec_release.
Print Assumptions C19_spec_complete.
Print Assumptions C19_gpool_source_is_the_modelled_program.
Print Assumptions C19_gpool_channel_capacities.
Print Assumptions C19_handlers_route_by_MaxInvoke.
Print Assumptions C19_queue_cap_zero_still_pooled.
Print Assumptions C19_handlers_submit_by_blocking_send.
Print Assumptions C19_source_statement_order.
Print Assumptions C19_requests_handed_once.
Print Assumptions C19_pool_released_only_when_drained.
Print Assumptions C19_nothing_handed_over_after_release.
Print Assumptions C19_shutdown_progress.
Print Assumptions C19_add_inside_goroutine_refuted.
Print Assumptions C19_release_before_wait_refuted.
Print Assumptions C19_count_at_start_refuted.
Print Assumptions C19_release_after_every_started_job_finished.
Print Assumptions C19_worker_registration_never_blocks.
Print Assumptions C19_listen_builds_the_pool_once.
Print Assumptions C19_server_traces_accepted.
Print Assumptions C19_registered_workers_are_idle.
