(* C03 — generated struct codecs round-trip and match the IDL schema encoding. Statements only.
   The model (Codec/GenCodec.v) is tied to the generated Go code on every run by the correspondence on every
   generated struct type (model decode = ReadFrom, model encode(decode) = WriteTo, byte-exact). *)
From Coq Require Import List NArith ZArith Sorted.
From TarsV Require Import Base.Hex Codec.Wire Codec.Skip Codec.SkipProofs Codec.Prim Codec.PrimProofs Codec.GenCodec Codec.Corr Codec.GenProofs
  Codec.RoundTrip Codec.RoundTripProofs Codec.NormProofs Codec.WireSpec Codec.WireSpecProofs Codec.RoundTripExamples Codec.CanonProofs Codec.TypedProofs Codec.DeepConfProofs Codec.RefDecoder Codec.RefDecoderProofs Codec.CanonExamples Codec.CorrT Gen.Schemas.
Import ListNotations.
Open Scope N_scope.

(* Struct-level round trip, for EVERY schema environment satisfying wf_schema (member tags strictly ascending
   and < 256, declared defaults on scalar members only, by-value struct nesting of depth <= k), every struct
   type of it - flat, with strings/byte vectors, vectors, maps, fixed arrays, nested and recursive structs -
   and every well-typed value: decoding the encoding into a fresh target yields the normal form of the value
   (the value itself except that an optional scalar that was omitted because it compares equal to its default
   comes back as the default), and consumes the input exactly. The last hypothesis is the adequacy of the
   model's fuel (4*len+64) for the value's recursion depth. *)
Theorem C03_roundtrip : forall e k sid vs,
  wf_schema k e -> (S k <= 64)%nat -> has_type e (TStruct sid) (VStruct vs) ->
  (need_list vs + k + 3 <= 2 * length (encode e sid (VStruct vs)) + 64)%nat ->
  decode e sid (encode e sid (VStruct vs)) = DOk (norm_struct e sid (VStruct vs)) [].
Proof. exact RoundTripProofs.roundtrip_struct. Qed.

(* FIRST CLAUSE in the property's own terms: for every wf_schema environment whose declared defaults are values of
   their member's type, every struct type with a finite type graph and every well-typed value, decoding the
   encoding succeeds, consumes everything and yields a value EQUAL to the original (veq: identical except that
   float members compare with Go's ==, i.e. -0 = +0; the decoded value is norm v) *)
Theorem C03_roundtrip_equal : forall e k n sid vs,
  wf_schema k e -> defaults_typed e -> (S k <= 64)%nat ->
  tfin n e (TStruct sid) = true -> (tneed n e (TStruct sid) + k <= 64)%nat ->
  has_type e (TStruct sid) (VStruct vs) ->
  exists v', decode e sid (encode e sid (VStruct vs)) = DOk v' [] /\ veq e (TStruct sid) v' (VStruct vs).
Proof. exact NormProofs.roundtrip_equal. Qed.
Theorem C03_norm_equal : forall e, defaults_typed e -> forall sid vs, has_type e (TStruct sid) (VStruct vs) ->
  veq e (TStruct sid) (norm_struct e sid (VStruct vs)) (VStruct vs).
Proof. exact NormProofs.norm_veq. Qed.
Theorem C03_code_schemas_roundtrip_equal : forall sid vs, fits_model sid = true ->
  has_type env0 (TStruct sid) (VStruct vs) ->
  exists v', decode env0 sid (encode env0 sid (VStruct vs)) = DOk v' [] /\ veq env0 (TStruct sid) v' (VStruct vs).
Proof. exact RoundTripExamples.env0_roundtrip_equal. Qed.

(* the same with the fuel condition discharged from the schema alone, for every struct type whose type graph
   is finite (tfin) and whose static depth bound (tneed) fits the model's constant *)
Theorem C03_roundtrip_static : forall e k n sid vs,
  wf_schema k e -> (S k <= 64)%nat -> tfin n e (TStruct sid) = true -> (tneed n e (TStruct sid) + k <= 64)%nat ->
  has_type e (TStruct sid) (VStruct vs) ->
  decode e sid (encode e sid (VStruct vs)) = DOk (norm_struct e sid (VStruct vs)) [].
Proof. exact RoundTripProofs.roundtrip_struct_static. Qed.

(* into ANY target (whatever it holds: the repaired ResetDefault assigns every member first), before any
   suffix that cannot be mistaken for a member: the cursor stops exactly at the suffix *)
Theorem C03_roundtrip_into : forall e k sid vs prior rest,
  wf_schema k e -> has_type e (TStruct sid) (VStruct vs) ->
  (forall fd, In fd (fields_of e sid) -> follows (ftag fd) rest) ->
  (need_list vs + k + 3 <= 2 * length (encode e sid (VStruct vs) ++ rest) + 64)%nat ->
  decode_into e sid prior (encode e sid (VStruct vs) ++ rest) = DOk (norm_struct e sid (VStruct vs)) rest.
Proof. exact RoundTripProofs.roundtrip_into. Qed.

(* the fuel the model needs is linear in the encoding, with a constant that depends on the schema only *)
Theorem C03_fuel_linear : forall e n sid vs, tfin n e (TStruct sid) = true -> has_type e (TStruct sid) (VStruct vs) ->
  (3 + need_list vs <= tneed n e (TStruct sid) + 2 * length (encode e sid (VStruct vs)))%nat.
Proof. exact RoundTripProofs.need_top. Qed.

(* The first clause with NO side condition on the schema's size, kept visible. It is not a theorem of the MODEL: the
   model's fuel is 4*len+64, and a struct type with more members than that constant allows exhausts it (witness
   below: 41 members, three levels). This limits the model, not the code - the generated Go decoder has no fuel;
   the theorems above cover every struct type with tneed + k <= 64 (the regenerated packet and test schemas need at most 44 + 8)
   and, with the explicit fuel hypothesis, every value of every struct type. *)
Definition C03_roundtrip_statement : Prop :=
  forall e k sid vs, wf_schema k e -> has_type e (TStruct sid) (VStruct vs) ->
  decode e sid (encode e sid (VStruct vs)) = DOk (norm_struct e sid (VStruct vs)) [].
Theorem C03_model_fuel_limit :
  wf_schema_b 2 wide_schema = true /\ has_type_b 20 wide_schema (TStruct 0) (wide_deep 3) = true /\
  decode wide_schema 0 (encode wide_schema 0 (wide_deep 3)) = DFuel.
Proof. exact RoundTripExamples.model_fuel_limit. Qed.

(* instantiated on the schemas regenerated from the tree: they satisfy wf_schema with typed defaults, and every
   well-typed value of every generated struct type that fits the model (finite type graph, static depth bound
   within the model's fuel constant: fits_model, decided by evaluation per struct type) round-trips; the packet types
   and the test IDL's struct types are covered, the recursive test struct is not (C03_roundtrip applies to it).
   Nothing here depends on how many struct types the tree generates or on their numbering. *)
Theorem C03_code_schemas_wf : wf_schema 8 env0.
Proof. exact RoundTripExamples.env0_wf_schema. Qed.
Theorem C03_code_schemas_roundtrip : forall sid vs, fits_model sid = true ->
  has_type env0 (TStruct sid) (VStruct vs) ->
  decode env0 sid (encode env0 sid (VStruct vs)) = DOk (norm_struct env0 sid (VStruct vs)) [].
Proof. exact RoundTripExamples.env0_roundtrip. Qed.
Theorem C03_code_schemas_covered :
  forallb fits_model [sid_requestf_RequestPacket; sid_requestf_ResponsePacket; sid_verifidl_Containers;
                      sid_verifidl_Inner; sid_verifidl_Scalars; sid_verifidl_Tail] = true
  /\ tfin 8 env0 (TStruct sid_verifidl_Rec) = false.
Proof. exact RoundTripExamples.env0_covered. Qed.

(* SECOND CLAUSE. The bytes WriteTo produces are a well-formed Tars encoding of the shape the schema prescribes:
   for every wf_schema environment, struct type and well-typed value (encoding shorter than 2^30 bytes), they
   are the serialisation (Skip.v: ser_fields, the independent description of the wire format) of a field list fs
   built from the IDL types and the value alone (WireSpec.v: wire_fields/wire_of) that is well formed (fields_ok:
   byte ranges, tags < 256, lengths within the format's fields, recursively), conforms to the schema (every field
   under the tag of a member, in schema order, with a wire type the member's IDL type accepts; a member is
   missing only if optional) and has strictly ascending tags (so every member at most once). Nested struct
   values are WStruct (wire_fields ...) of their own schema, so the same holds at every level. *)
Theorem C03_wire_conformance : forall e k sid vs,
  wf_schema k e -> has_type e (TStruct sid) (VStruct vs) -> N.of_nat (length (encode e sid (VStruct vs))) < 1073741824 ->
  let fs := wire_fields e vs (fields_of e sid) in
  encode e sid (VStruct vs) = ser_fields fs /\ fields_ok fs /\ conforms (fields_of e sid) fs /\
  StronglySorted N.lt (map fst fs).
Proof. exact WireSpecProofs.encode_conforms. Qed.
(* ... at EVERY depth, formally (Codec/DeepConfProofs.v): tconf / sconf say that a wire tree conforms to an IDL type
   recursively - a struct value carries its members under their declared tags, in schema order, a member missing only
   if optional, and each member's tree conforms to the member's type; every vector / array element sits under tag 0
   (an array has exactly its declared length), every map key under tag 0 and value under tag 1; vector<byte> is a
   SimpleList; every leaf has a wire type its reader accepts and no nesting *)
Theorem C03_wire_tree_conforms : forall e t v, has_type e t v -> tconf e t (wire_of e t v).
Proof. exact DeepConfProofs.wire_tconf. Qed.
Theorem C03_wire_conformance_deep : forall e sid vs, has_type e (TStruct sid) (VStruct vs) ->
  sconf e (fields_of e sid) (wire_fields e vs (fields_of e sid)).
Proof. exact DeepConfProofs.wire_fields_sconf. Qed.
(* THE INDEPENDENT REFERENCE DECODER of the property's second sentence (Codec/RefDecoder.v: unwire). It is
   schema-directed, works on wire trees - not on bytes - and shares nothing with the model of the generated decoder
   (no cursor, no seeking or skipping): integers are whatever width the field has, members are matched by declared
   tag, a missing optional member gets its declared default (else the zero value), a missing required member, an
   undeclared tag or a wire type of another kind is refused. For every wf_schema environment, struct type and
   well-typed value: the bytes WriteTo produces are the serialisation of a wire tree that the reference decoder
   maps back to the same value (its normal form). *)
Theorem C03_reference_decoder : forall e k sid vs, wf_schema k e -> has_type e (TStruct sid) (VStruct vs) ->
  let fs := wire_fields e vs (fields_of e sid) in
  encode e sid (VStruct vs) = ser_fields fs /\
  unwire (need (VStruct vs)) e (TStruct sid) (WStruct fs) = Some (norm_struct e sid (VStruct vs)).
Proof. exact RefDecoderProofs.reference_decoder. Qed.
Theorem C03_reference_decoder_refuses :
  let e := [[ {| ftag := 0; freq := true; fty := TI32; fdef := None |}; {| ftag := 2; freq := false; fty := TStr; fdef := None |} ]] in
  unwire 5 e (TStruct 0) (WStruct [(0, WByte 5); (2, WStr1 [97])]) = Some (VStruct [VInt 5; VStr [97]]) /\
  unwire 5 e (TStruct 0) (WStruct [(0, WByte 5)]) = Some (VStruct [VInt 5; VStr []]) /\
  unwire 5 e (TStruct 0) (WStruct [(2, WStr1 [97])]) = None /\
  unwire 5 e (TStruct 0) (WStruct [(0, WByte 5); (1, WByte 1)]) = None /\
  unwire 5 e (TStruct 0) (WStruct [(0, WByte 5); (2, WByte 1)]) = None.
Proof. exact RefDecoderProofs.reference_decoder_refuses. Qed.
(* every member and element, at any depth: the bytes are the serialised wire tree of the value, or nothing when the
   member is optional and left out *)
Theorem C03_wire_member : forall e n, (forall tag req t d v, has_type e t v -> (need v <= n)%nat ->
  enc_var e tag req t d v = if left_out t req d v then [] else ser_field (tag, wire_of e t v)).
Proof. exact (fun e n tag req t d v H _ => WireSpecProofs.enc_var_wire e t v H tag req d). Qed.
(* integers in their narrowest width: the wire tree of an integer serialises to the declarative spec_int of C02 *)
Theorem C03_int_narrowest : forall z tag, fits 64 z = true -> ser_field (tag, wint z) = spec_int z tag.
Proof. exact WireSpecProofs.wint_narrowest. Qed.
(* the wire type of every member is one the reader of its IDL type accepts *)
Theorem C03_wire_admissible : forall e t v, has_type e t v -> adm t (ty_of (wire_of e t v)) = true.
Proof. exact WireSpecProofs.adm_wire. Qed.

(* THE ENCODING IS CANONICAL. encode o norm = encode: what is decoded from an encoding re-encodes to the same bytes
   (decode-then-encode is the identity on every image of the encoder); two well-typed values have the same bytes
   exactly when they have the same normal form - so the bytes of a value are unique and the encoder is injective
   up to norm (Go's == on optional floats that were left out). Every wf_schema environment with typed defaults,
   every struct type with a finite type graph. *)
Theorem C03_encode_norm : forall e, defaults_typed e -> forall sid vs, has_type e (TStruct sid) (VStruct vs) ->
  encode e sid (norm_struct e sid (VStruct vs)) = encode e sid (VStruct vs).
Proof. exact CanonProofs.encode_norm. Qed.
Theorem C03_reencode_canonical : forall e k n, wf_schema k e -> defaults_typed e -> (S k <= 64)%nat ->
  forall sid, tfin n e (TStruct sid) = true -> (tneed n e (TStruct sid) + k <= 64)%nat ->
  forall vs, has_type e (TStruct sid) (VStruct vs) ->
  exists v', decode e sid (encode e sid (VStruct vs)) = DOk v' [] /\ encode e sid v' = encode e sid (VStruct vs).
Proof. exact CanonProofs.reencode_canonical. Qed.
Theorem C03_encode_injective : forall e k n, wf_schema k e -> defaults_typed e -> (S k <= 64)%nat ->
  forall sid, tfin n e (TStruct sid) = true -> (tneed n e (TStruct sid) + k <= 64)%nat ->
  forall vs1 vs2, has_type e (TStruct sid) (VStruct vs1) -> has_type e (TStruct sid) (VStruct vs2) ->
  (encode e sid (VStruct vs1) = encode e sid (VStruct vs2) <-> norm_struct e sid (VStruct vs1) = norm_struct e sid (VStruct vs2)).
Proof. exact CanonProofs.encode_injective. Qed.
Theorem C03_code_schemas_reencode_canonical : forall sid vs, fits_model sid = true -> has_type env0 (TStruct sid) (VStruct vs) ->
  exists v', decode env0 sid (encode env0 sid (VStruct vs)) = DOk v' [] /\ encode env0 sid v' = encode env0 sid (VStruct vs).
Proof. exact CanonExamples.env0_reencode_canonical. Qed.
Theorem C03_code_schemas_encode_injective : forall sid vs1 vs2, fits_model sid = true ->
  has_type env0 (TStruct sid) (VStruct vs1) -> has_type env0 (TStruct sid) (VStruct vs2) ->
  (encode env0 sid (VStruct vs1) = encode env0 sid (VStruct vs2) <-> norm_struct env0 sid (VStruct vs1) = norm_struct env0 sid (VStruct vs2)).
Proof. exact CanonExamples.env0_encode_injective. Qed.
(* EXACTLY there: on an accepted input (every byte < 256, shorter than 2^31, everything consumed) decode-then-encode
   gives the input back if and only if the input is the encoding of a well-typed value - the non-canonical accepted
   inputs are precisely those outside the encoder's image (uses C06_decode_typed: what the decoder returns is well typed) *)
Theorem C03_reencode_exact : forall e k n sid bs v,
  wf_schema k e -> defaults_typed e -> arrs_ok e -> (S k <= 64)%nat ->
  tfin n e (TStruct sid) = true -> (tneed n e (TStruct sid) + k <= 64)%nat ->
  bytes_ok bs -> lenok bs -> decode e sid bs = DOk v [] ->
  (encode e sid v = bs <-> exists vs, has_type e (TStruct sid) (VStruct vs) /\ bs = encode e sid (VStruct vs)).
Proof. exact TypedProofs.reencode_exact. Qed.
Theorem C03_code_schemas_reencode_exact : forall sid bs v, fits_model sid = true -> bytes_ok bs -> lenok bs ->
  decode env0 sid bs = DOk v [] ->
  (encode env0 sid v = bs <-> exists vs, has_type env0 (TStruct sid) (VStruct vs) /\ bs = encode env0 sid (VStruct vs)).
Proof. exact CanonExamples.env0_reencode_exact. Qed.
(* canonicalising an accepted input preserves its meaning: the re-encoding decodes, everything consumed, to a value
   equal to the one first decoded, and re-encoding again changes nothing *)
Theorem C03_reencode_meaning : forall e k n sid bs v,
  wf_schema k e -> defaults_typed e -> arrs_ok e -> (S k <= 64)%nat ->
  tfin n e (TStruct sid) = true -> (tneed n e (TStruct sid) + k <= 64)%nat ->
  bytes_ok bs -> lenok bs -> decode e sid bs = DOk v [] ->
  exists v', decode e sid (encode e sid v) = DOk v' [] /\ veq e (TStruct sid) v' v /\ encode e sid v' = encode e sid v.
Proof. exact TypedProofs.reencode_meaning. Qed.
(* ... and ONLY there: "decode-then-encode is the identity on every ACCEPTED input" is false. The readers accept more
   than the writers produce, by design of the wire format (readers widen): an integer in a wider-than-narrowest
   width, STRING4 for a short string, a member present at its default, ZeroTag for a float, a double sent as FLOAT,
   vector<byte> as LIST, unknown fields. Each kind is accepted with everything consumed and re-encodes to different -
   the canonical - bytes (noncanonical_images, evaluated on the model; replayed on the generated Go code, see design/C03.md). *)
Definition C03_reencode_identity_statement : Prop :=
  forall e sid bs v, decode e sid bs = DOk v [] -> encode e sid v = bs.
Theorem C03_reencode_identity_refuted : ~ C03_reencode_identity_statement.
Proof. exact CanonProofs.reencode_identity_refuted. Qed.
Theorem C03_noncanonical_images :
  noncanonical [1; 0; 5] = true /\ noncanonical [2; 0; 0; 0; 5] = true /\ noncanonical [0; 5; 23; 0; 0; 0; 1; 97] = true
  /\ noncanonical [0; 5; 32; 7] = true /\ noncanonical [0; 5; 57; 0; 1; 0; 9] = true /\ noncanonical [0; 5; 92] = true
  /\ noncanonical [0; 5; 84; 63; 128; 0; 0] = true /\ noncanonical [0; 5; 64; 9] = true /\ noncanonical [0; 5] = false.
Proof. exact CanonProofs.noncanonical_images. Qed.
(* the round trip on the member shapes the schema language allows beyond the regenerated schemas: fixed arrays of
   ragged nested vectors, arrays of byte vectors, vectors of arrays of maps, optional members of every scalar type at
   non-zero declared defaults (left out) and away from them, an empty required byte vector as the last bytes *)
Theorem C03_shapes_roundtrip :
  (has_type shapes (TStruct 0) (VStruct shape1) /\
   decode shapes 0 (encode shapes 0 (VStruct shape1)) = DOk (norm_struct shapes 0 (VStruct shape1)) [] /\
   norm_struct shapes 0 (VStruct shape1) = VStruct shape1) /\
  (has_type shapes (TStruct 0) (VStruct shape2) /\
   decode shapes 0 (encode shapes 0 (VStruct shape2)) = DOk (norm_struct shapes 0 (VStruct shape2)) [] /\
   norm_struct shapes 0 (VStruct shape2) = VStruct shape2).
Proof. exact (conj CanonExamples.shape1_roundtrip CanonExamples.shape2_roundtrip). Qed.

(* member level: every scalar member type round-trips under any tag, before any suffix, exact cursor *)
Theorem C03_scalar_member_roundtrip : forall f e tag req t prior v rest, tag < 256 -> scalar_typed t v ->
  dec_var (S (S f)) e tag req t prior (w_scalar t v tag ++ rest) = DOk v rest.
Proof. exact GenProofs.scalar_member_roundtrip. Qed.

(* the boolean checkers used to instantiate the hypotheses are sound *)
Theorem C03_wf_schema_b_sound : forall k e, wf_schema_b k e = true -> wf_schema k e.
Proof. exact RoundTripProofs.wf_schema_b_sound. Qed.
Theorem C03_has_type_b_sound : forall e fuel t v, has_type_b fuel e t v = true -> has_type e t v.
Proof. exact RoundTripProofs.has_type_b_sound. Qed.

Print Assumptions C03_roundtrip.
Print Assumptions C03_roundtrip_equal.
Print Assumptions C03_norm_equal.
Print Assumptions C03_code_schemas_roundtrip_equal.
Print Assumptions C03_roundtrip_static.
Print Assumptions C03_roundtrip_into.
Print Assumptions C03_fuel_linear.
Print Assumptions C03_model_fuel_limit.
Print Assumptions C03_code_schemas_wf.
Print Assumptions C03_code_schemas_roundtrip.
Print Assumptions C03_code_schemas_covered.
Print Assumptions C03_wire_conformance.
Print Assumptions C03_wire_tree_conforms.
Print Assumptions C03_wire_conformance_deep.
Print Assumptions C03_reference_decoder.
Print Assumptions C03_reference_decoder_refuses.
Print Assumptions C03_wire_member.
Print Assumptions C03_int_narrowest.
Print Assumptions C03_wire_admissible.
Print Assumptions C03_encode_norm.
Print Assumptions C03_reencode_canonical.
Print Assumptions C03_encode_injective.
Print Assumptions C03_code_schemas_reencode_canonical.
Print Assumptions C03_code_schemas_encode_injective.
Print Assumptions C03_reencode_exact.
Print Assumptions C03_code_schemas_reencode_exact.
Print Assumptions C03_reencode_meaning.
Print Assumptions C03_reencode_identity_refuted.
Print Assumptions C03_noncanonical_images.
Print Assumptions C03_shapes_roundtrip.
Print Assumptions C03_scalar_member_roundtrip.
Print Assumptions C03_wf_schema_b_sound.
Print Assumptions C03_has_type_b_sound.
