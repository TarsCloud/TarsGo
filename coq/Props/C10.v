(* C10 — the server answers each well-formed request exactly once with matching identity.
   Statements only; the proofs point at lemmas of Rpc/InvokeProofs.v, Rpc/InvokeTimeProofs.v, Rpc/InvokeProbe.v and
   Xlate/InvokeEquiv.v.
   [dispatch] is the generated dispatcher together with the servant implementation (arbitrary: what it returns and
   how long it runs, per request); [cfg] is any configuration (worker pool, handle timeout, transport); [queued] is
   any queueing time; a request is well formed when the generated RequestPacket decoder accepts the packet
   (parse_request pkg = Some r). *)
From Coq Require Import List NArith ZArith Permutation.
From TarsV Require Import Gen.Consts Frame.Framing Frame.FramingProofs Rpc.Invoke Rpc.InvokeProofs
  Rpc.InvokeTime Rpc.InvokeTimeProofs Gen.C10Probe Rpc.InvokeProbe.
Import ListNotations.
Open Scope N_scope.

(* ---- the protocol constants of the tree are the protocol's ---- *)
Theorem C10_protocol_constants :
  c_TARSVERSION = 1%Z /\ c_TUPVERSION = 3%Z /\ c_JSONVERSION = 5%Z /\ c_TARSNORMAL = 0%Z /\ c_TARSONEWAY = 1%Z /\
  c_TARSSERVERSUCCESS = 0%Z /\ c_TARSSERVERQUEUETIMEOUT = (-6)%Z.
Proof. exact InvokeProofs.protocol_constants. Qed.

(* ---- exactly one reply for a two-way request, none for a one-way request ---- *)
Theorem C10_count : forall dispatch cfg pkg r queued, parse_request pkg = Some r ->
  length (fst (serve_packet dispatch cfg pkg queued)) = if oneway r then 0%nat else 1%nat.
Proof. exact InvokeProofs.packet_count. Qed.

(* ---- the reply carries the request's id, protocol version and packet type ---- *)
Theorem C10_identity : forall dispatch cfg pkg r queued o p, parse_request pkg = Some r ->
  In (o, p) (fst (serve_packet dispatch cfg pkg queued)) ->
  p_id p = q_id r /\ p_ver p = q_ver r /\ p_ptype p = q_ptype r.
Proof. exact InvokeProofs.packet_identity. Qed.

(* ... and they are the first members a client reads from the reply's bytes, in the ResponsePacket shape as well
   as in the RequestPacket shape used for TUP *)
Theorem C10_identity_on_wire : forall dispatch cfg r queued o p, req_typed r -> codes_typed dispatch r ->
  In (o, p) (fst (server_step dispatch cfg r queued)) ->
  wire_ident (reply_bytes p) = Some (q_ver r, q_ptype r, q_id r).
Proof. exact InvokeProofs.served_wire_identity. Qed.

Theorem C10_reply_is_a_frame : forall p, 4 + N.of_nat (length (reply_body p)) < 4294967296 ->
  hdr (reply_bytes p) = Some (N.of_nat (length (reply_bytes p))).
Proof. exact InvokeProofs.wire_frame. Qed.

(* ---- the implementation is entered at most once, and exactly once iff the request reaches the dispatcher ---- *)
Theorem C10_calls : forall dispatch cfg r queued,
  snd (server_step dispatch cfg r queued) = if dispatched r queued then 1%nat else 0%nat.
Proof. exact InvokeProofs.calls_exact. Qed.

(* ---- ping: success, empty body, implementation not entered ---- *)
Theorem C10_ping : forall dispatch cfg r queued, is_ping r = true -> queue_expired r queued = false ->
  snd (server_step dispatch cfg r queued) = 0%nat /\
  (oneway r = false -> fst (server_step dispatch cfg r queued) = [(FromPing, base_reply r)]) /\
  p_ret (base_reply r) = c_TARSSERVERSUCCESS /\ p_buf (base_reply r) = [].
Proof. exact InvokeProofs.ping. Qed.

(* ---- implementation error -> return code and message of the error ---- *)
Theorem C10_error_mapping : forall dispatch cfg r queued e, dispatched r queued = true -> h_res (dispatch r) = HFail e ->
  overruns dispatch cfg r queued = false -> oneway r = false ->
  fst (server_step dispatch cfg r queued) = [(FromHandler, with_ret (base_reply r) (err_code e) (err_msg e))] /\
  snd (server_step dispatch cfg r queued) = 1%nat.
Proof. exact InvokeProofs.error_mapping. Qed.
Theorem C10_error_code_tars : forall c m, err_code (TarsErr c m) = c /\ err_msg (TarsErr c m) = m.
Proof. exact InvokeProofs.err_code_tars. Qed.
Theorem C10_error_code_plain : forall m, err_code (PlainErr m) = 1%Z /\ err_code (PlainErr m) <> 0%Z /\ err_msg (PlainErr m) = m.
Proof. exact InvokeProofs.err_code_plain. Qed.

(* the code is in the reply's bytes. Full statement: for every reply. False of the model and of the code: a
   TUP-versioned reply is written as a RequestPacket, which has no member for it (known finding). *)
Definition C10_error_code_on_wire_statement : Prop := InvokeProofs.error_code_on_wire_statement.
Theorem C10_error_code_on_wire_refuted :
  exists p, reply_typed p /\ p_ret p <> 0%Z /\ wire_ret (reply_bytes p) = None /\
            decode_reply (reply_bytes p) = Some (true, with_ret p 0 []).
Proof. exact InvokeProofs.error_code_on_wire_refuted. Qed.
Theorem C10_tup_reply_has_no_code : forall p, reply_typed p -> is_tup p = true -> wire_ret (reply_bytes p) = None.
Proof. exact InvokeProofs.wire_ret_tup. Qed.
(* proved part: every version but TUP (TARS, JSON) *)
Theorem C10_error_code_on_wire_partial : forall dispatch cfg r queued e, req_typed r -> codes_typed dispatch r ->
  (q_ver r =? c_TUPVERSION)%Z = false ->
  dispatched r queued = true -> h_res (dispatch r) = HFail e -> overruns dispatch cfg r queued = false -> oneway r = false ->
  exists p, map snd (fst (server_step dispatch cfg r queued)) = [p] /\ wire_ret (reply_bytes p) = Some (err_code e).
Proof. exact InvokeProofs.served_wire_error. Qed.

(* complete decoding: every reply without payload (implementation / dispatcher errors, queue and handle timeouts,
   pings) decodes from its bytes to itself - code and message included - in the ResponsePacket shape, and to itself
   without code and message in the RequestPacket shape of a TUP-versioned reply *)
Theorem C10_bodyless_reply_decodes : forall p, reply_typed p -> p_buf p = [] -> p_status p = [] -> p_ctx p = [] ->
  4 + N.of_nat (length (reply_body p)) < 4294967296 -> N.of_nat (length (p_desc p)) < 4294967296 ->
  decode_reply (reply_bytes p) = Some (is_tup p, if is_tup p then with_ret p 0 [] else p).
Proof. exact InvokeProofs.bodyless_reply_decodes. Qed.
Theorem C10_error_reply_on_wire : forall dispatch cfg r queued e, req_typed r -> codes_typed dispatch r ->
  dispatched r queued = true -> h_res (dispatch r) = HFail e -> overruns dispatch cfg r queued = false -> oneway r = false ->
  N.of_nat (length (err_msg e)) < 4294967296 ->
  4 + N.of_nat (length (reply_body (with_ret (base_reply r) (err_code e) (err_msg e)))) < 4294967296 ->
  exists p, map snd (fst (server_step dispatch cfg r queued)) = [p] /\ p_ret p = err_code e /\ p_desc p = err_msg e /\
            decode_reply (reply_bytes p) = Some (is_tup p, if is_tup p then with_ret p 0 [] else p).
Proof. exact InvokeProofs.served_error_on_wire. Qed.

(* ---- success: code 0 and exactly what the dispatcher produced ---- *)
Theorem C10_success : forall dispatch cfg r queued buf st cx, dispatched r queued = true -> h_res (dispatch r) = HDone buf st cx ->
  overruns dispatch cfg r queued = false -> oneway r = false ->
  fst (server_step dispatch cfg r queued) = [(FromHandler, with_body (base_reply r) buf st cx)] /\
  p_ret (with_body (base_reply r) buf st cx) = c_TARSSERVERSUCCESS /\
  snd (server_step dispatch cfg r queued) = 1%nat.
Proof. exact InvokeProofs.success. Qed.

(* ---- queue timeout: the request's own timeout elapsed while it was queued ---- *)
Theorem C10_queue_timeout : forall dispatch cfg r queued, (0 < q_timeout r)%Z -> (q_timeout r <= Z.of_N queued)%Z ->
  snd (server_step dispatch cfg r queued) = 0%nat /\
  (oneway r = false ->
   exists p, fst (server_step dispatch cfg r queued) = [(FromQueueTimeout, p)] /\
             p_ret p = c_TARSSERVERQUEUETIMEOUT /\ p_ret p <> 0%Z /\ p_buf p = [] /\
             p_id p = q_id r /\ p_ver p = q_ver r /\ p_ptype p = q_ptype r).
Proof. exact InvokeProofs.queue_timeout. Qed.
Theorem C10_no_spurious_queue_timeout : forall dispatch cfg r queued o p,
  ((q_timeout r <= 0)%Z \/ (Z.of_N queued < q_timeout r)%Z) ->
  In (o, p) (fst (server_step dispatch cfg r queued)) -> o <> FromQueueTimeout.
Proof. exact InvokeProofs.no_spurious_queue_timeout. Qed.

(* ---- handle timeout: an over-long handler is answered with one timeout error carrying the request's identity ---- *)
Theorem C10_handle_timeout : forall dispatch cfg r queued, overruns dispatch cfg r queued = true -> oneway r = false ->
  fst (server_step dispatch cfg r queued) = [(FromHandleTimeout, handle_timeout_reply r)] /\
  p_ret (handle_timeout_reply r) <> 0%Z /\
  p_id (handle_timeout_reply r) = q_id r /\ p_ver (handle_timeout_reply r) = q_ver r /\
  p_ptype (handle_timeout_reply r) = q_ptype r /\
  snd (server_step dispatch cfg r queued) = 1%nat.
Proof. exact InvokeProofs.handle_timeout. Qed.
Theorem C10_no_spurious_handle_timeout : forall dispatch cfg r queued o p, overruns dispatch cfg r queued = false ->
  In (o, p) (fst (server_step dispatch cfg r queued)) -> o <> FromHandleTimeout.
Proof. exact InvokeProofs.no_spurious_handle_timeout. Qed.

(* ---- every worker-pool size, both transports ---- *)
Theorem C10_configuration_independent : forall dispatch pool1 pool2 udp1 udp2 ht r queued,
  server_step dispatch {| c_pool := pool1; c_ht := ht; c_udp := udp1 |} r queued =
  server_step dispatch {| c_pool := pool2; c_ht := ht; c_udp := udp2 |} r queued.
Proof. exact InvokeProofs.configuration_independent. Qed.

(* ---- schedules of the handle-timeout race (goroutine running Invoke / deadline / handler): all label sequences ---- *)
(* two-way: exactly one reply - Invoke's result, the queue-timeout answer of an Invoke entered after the deadline, or
   the timeout error - with the request's identity *)
Theorem C10_schedules_twoway : forall dispatch r queued ls s,
  hrun_labels r (inv_reply dispatch r queued) hinit ls = Some s -> oneway r = false ->
  forall w, s_written s = Some w ->
    exists x, w = [x] /\
              ((x = inv_reply dispatch r queued /\ s_returned s = true /\ s_late s = false) \/
               (x = late_reply r /\ s_returned s = true /\ s_fired s = true) \/
               (x = handle_timeout_reply r /\ s_fired s = true)) /\
              p_id x = q_id r /\ p_ver x = q_ver r /\ p_ptype x = q_ptype r.
Proof. exact InvokeProofs.served_schedules_twoway. Qed.
(* one-way: never answered, in any schedule (also when the handler wakes before Invoke has decoded the request) *)
Theorem C10_schedules_oneway : forall r p ls s, hrun_labels r p hinit ls = Some s -> oneway r = true ->
  forall w, s_written s = Some w -> w = [].
Proof. exact InvokeProofs.schedules_oneway. Qed.
Theorem C10_schedules_write_once : forall r p ls s s' w,
  hrun_labels r p s ls = Some s' -> s_written s = Some w -> s_written s' = Some w.
Proof. exact InvokeProofs.schedules_write_once. Qed.
Theorem C10_schedules_at_most_one : forall r p ls s, hrun_labels r p hinit ls = Some s ->
  forall w, s_written s = Some w -> (length w <= 1)%nat.
Proof. exact InvokeProofs.schedules_at_most_one. Qed.
Theorem C10_schedules_progress : forall r p ls s, hrun_labels r p hinit ls = Some s ->
  exists more s', hrun_labels r p s more = Some s' /\ s_written s' <> None.
Proof. intros r p ls s _. exact (InvokeProofs.schedules_progress r p s). Qed.
(* an Invoke that does not dispatch because it was entered late: only after the deadline had passed *)
Theorem C10_schedules_late : forall r p ls s, hrun_labels r p hinit ls = Some s -> s_late s = true ->
  s_fired s = true /\ s_started s = true.
Proof. exact InvokeProofs.schedules_late. Qed.
Theorem C10_function_is_a_schedule : forall dispatch cfg r queued, 0 < c_ht cfg ->
  exists ls s, hrun_labels r (inv_reply dispatch r queued) hinit ls = Some s /\ s_late s = false /\
               s_written s = Some (map snd (fst (server_step dispatch cfg r queued))).
Proof. intros dispatch cfg r queued _. exact (InvokeProofs.function_is_a_schedule dispatch cfg r queued). Qed.

(* ---- a whole connection under a handle timeout: each request's handler runs under any schedule (all of them complete:
   C10_schedules_progress), the writes reach the socket in any interleaving: as many replies as two-way requests, each
   with the identity of a two-way request of the connection ---- *)
Theorem C10_connection_schedules : forall dispatch (ts : list (handler_run)) out,
  Forall (run_ok dispatch) ts -> interleave (map run_written ts) out ->
  length out = length (filter (fun t => negb (oneway (run_request t))) ts) /\
  forall x, In x out -> exists t, In t ts /\ oneway (run_request t) = false /\
                                  p_id x = q_id (run_request t) /\ p_ver x = q_ver (run_request t) /\
                                  p_ptype x = q_ptype (run_request t).
Proof. exact InvokeProofs.connection_schedules. Qed.

(* ---- pipelining on one connection: any interleaving of the handlers' writes ---- *)
Theorem C10_pipelining : forall dispatch cfg reqs out,
  interleave (map (fun pq => fst (serve_packet dispatch cfg (fst pq) (snd pq))) reqs) out ->
  Permutation out (session dispatch cfg reqs) /\ length out = twoway_count reqs.
Proof. exact InvokeProofs.pipelining. Qed.
Theorem C10_session_identity : forall dispatch cfg reqs o p, In (o, p) (session dispatch cfg reqs) ->
  exists pkg q r, In (pkg, q) reqs /\ parse_request pkg = Some r /\
                  p_id p = q_id r /\ p_ver p = q_ver r /\ p_ptype p = q_ptype r.
Proof. exact InvokeProofs.session_identity. Qed.
(* TCP: independent of how the request stream is cut into reads (with C07) *)
Theorem C10_tcp_segmentation : forall dispatch max cfg pkgs chunks queued,
  Forall (valid max) pkgs -> concat chunks = concat pkgs ->
  tcp_session dispatch max cfg chunks queued = session dispatch cfg (combine pkgs queued).
Proof. exact InvokeProofs.tcp_segmentation. Qed.

(* ================= time as data (Rpc/InvokeTime.v): a request's life as nanosecond timestamps =================
   t_arr (packet read, recvPkgTs stamped) <= t_hdl (handler starts, invokeCtx created) <= t_sel (Invoke reads the clock
   and decides); d_run, d_wake, d_write: how long Invoke runs, how late the handler wakes and writes. All of them
   universally quantified. *)
Theorem C10_timed_count : forall dispatch cfg r st,
  length (fst (timed_step dispatch cfg r st)) = if oneway r then 0%nat else 1%nat.
Proof. exact InvokeTimeProofs.timed_count. Qed.
Theorem C10_timed_identity : forall dispatch cfg r st o p, In (o, p) (fst (timed_step dispatch cfg r st)) ->
  p_id p = q_id r /\ p_ver p = q_ver r /\ p_ptype p = q_ptype r.
Proof. exact InvokeTimeProofs.timed_identity. Qed.
(* a queue-timeout answer only if the request really waited: it carried a timeout and waited longer than that timeout
   less one millisecond (clocks are read in whole milliseconds) - or the whole handle timeout passed between the
   handler's start and Invoke's decision *)
Theorem C10_queue_timeout_only_if_waited : forall dispatch cfg r st p, stamps_ok st ->
  In (FromQueueTimeout, p) (fst (timed_step dispatch cfg r st)) ->
  ((0 < q_timeout r)%Z /\ (Z.of_N (waited st) > (q_timeout r - 1) * 1000000)%Z) \/
  (0 < c_ht cfg /\ c_ht cfg * ns_per_ms <= t_sel st - t_hdl st).
Proof. exact InvokeTimeProofs.timed_queue_timeout_only_if_waited. Qed.
(* the same for an observer with a clock (what the harness checks on every answered request): sent at [send], reply read
   at [seen] - a queue-timeout answer must fit between the two *)
Theorem C10_queue_timeout_window : forall dispatch cfg r st p send seen, stamps_ok st -> send <= t_arr st -> t_sel st <= seen ->
  In (FromQueueTimeout, p) (fst (timed_step dispatch cfg r st)) ->
  qt_window_ok (q_timeout r) (c_ht cfg) send seen = true.
Proof. exact InvokeTimeProofs.qt_window_sound. Qed.
(* ... and a request that carried a timeout and waited that long is never executed *)
Theorem C10_waited_then_not_executed : forall dispatch cfg r st, stamps_ok st -> (0 < q_timeout r)%Z ->
  (Z.of_N (waited st) >= q_timeout r * 1000000)%Z ->
  snd (timed_step dispatch cfg r st) = 0%nat /\
  forall o p, In (o, p) (fst (timed_step dispatch cfg r st)) -> o = FromQueueTimeout \/ o = FromHandleTimeout.
Proof. exact InvokeTimeProofs.timed_waited_then_not_executed. Qed.
(* the reading without the millisecond of slack is false of the model and of the code (both clocks are truncated) *)
Definition C10_queue_timeout_exact_statement : Prop := InvokeTimeProofs.queue_timeout_exact_statement.
Theorem C10_queue_timeout_exact_refuted : ~ InvokeTimeProofs.queue_timeout_exact_statement.
Proof. exact InvokeTimeProofs.queue_timeout_exact_refuted. Qed.
(* the code's [sub] and the real waiting time differ by less than a millisecond *)
Theorem C10_sub_ms_bounds : forall st, t_arr st <= t_sel st ->
  sub_ms st * ns_per_ms < waited st + ns_per_ms /\ waited st < (sub_ms st + 1) * ns_per_ms.
Proof. exact InvokeTimeProofs.sub_ms_bounds. Qed.
(* the timestamps stand for a schedule of the handle-timeout race, which writes what the timed model says:
   who answers - Invoke or the deadline - is decided by comparing t_sel + d_run, t_hdl + HandleTimeout and the handler's delays *)
Theorem C10_timed_is_schedule : forall dispatch cfg r st, 0 < c_ht cfg ->
  exists s, hrun_labels r (inv_reply dispatch r (sub_ms st)) hinit (timed_labels cfg st) = Some s /\
            s_late s = late cfg st /\
            s_written s = Some (map snd (fst (timed_step dispatch cfg r st))).
Proof. exact InvokeTimeProofs.timed_is_schedule. Qed.
Theorem C10_timed_no_handle_timeout : forall dispatch cfg r st, c_ht cfg = 0 ->
  timed_step dispatch cfg r st =
  (if oneway r then [] else [(fst (fst (fst (invoke dispatch r (sub_ms st)))), inv_reply dispatch r (sub_ms st))],
   snd (fst (invoke dispatch r (sub_ms st)))).
Proof. exact InvokeTimeProofs.timed_no_handle_timeout. Qed.
(* the handle deadline counts from the handler's start: queueing, however long, does not eat into it *)
Theorem C10_queueing_does_not_eat_handle_timeout : forall dispatch cfg r st, 0 < c_ht cfg ->
  t_sel st + d_run st < t_hdl st + c_ht cfg * ns_per_ms -> oneway r = false ->
  fst (timed_step dispatch cfg r st) =
    [(fst (fst (fst (invoke dispatch r (sub_ms st)))), inv_reply dispatch r (sub_ms st))] /\
  snd (timed_step dispatch cfg r st) = snd (fst (invoke dispatch r (sub_ms st))).
Proof. exact InvokeTimeProofs.timed_queueing_does_not_eat_handle_timeout. Qed.

(* ================= one Current per request: the handlers of a connection's requests interleave ================= *)
(* the projection of any interleaved run onto request i is a run of request i's own transition system *)
Theorem C10_connection_projection : forall rs ls cs cs', crun rs cs ls = Some cs' ->
  forall i r p s, nth_error rs i = Some (r, p) -> nth_error cs i = Some s ->
  exists s', nth_error cs' i = Some s' /\ hrun_labels r p s (proj i ls) = Some s'.
Proof. exact InvokeTimeProofs.crun_projection. Qed.
Theorem C10_connection_interleaved : forall rs ls cs, crun rs (cinit rs) ls = Some cs ->
  forall i r p s, nth_error rs i = Some (r, p) -> nth_error cs i = Some s ->
  (p_id p = q_id r /\ p_ver p = q_ver r /\ p_ptype p = q_ptype r) ->
  forall w, s_written s = Some w ->
    if oneway r then w = []
    else exists x, w = [x] /\ p_id x = q_id r /\ p_ver x = q_ver r /\ p_ptype x = q_ptype r.
Proof. exact InvokeTimeProofs.connection_interleaved. Qed.
(* with ONE Current per connection the same statement is false (witness: a one-way request answered because another
   request's Invoke returned in between) - the invariant "one Current per request" is what the theorem above rests on *)
Definition C10_shared_current_statement : Prop := InvokeTimeProofs.shared_current_statement.
Theorem C10_shared_current_refuted : ~ InvokeTimeProofs.shared_current_statement.
Proof. exact InvokeTimeProofs.shared_current_refuted. Qed.

(* ================= regenerated from the tree: Protocol.Invoke's answers on a fixed table of requests =================
   Gen/C10Probe.v is rewritten on every run from calls of the real tars.Protocol.Invoke (scripted servant, every function
   shape x version x outcome, ping and near-misses, the queue-timeout decision on both sides of its boundary, one-way
   requests, refused versions); the model's invoke agrees with every row. *)
Theorem C10_invoke_probe : probe_failing = [].
Proof. exact InvokeProbe.invoke_probe_agrees. Qed.
Theorem C10_invoke_probe_nonempty : (100 <=? length c10_probe)%nat = true.
Proof. exact InvokeProbe.invoke_probe_nonempty. Qed.
From TarsV Require Import Xlate.GoSem Gen.Translated Xlate.InvokeEquiv.
(* ---- the CURRENT source of Protocol.Invoke / InvokeTimeout builds the model's replies ----
   Gen/Translated.v is regenerated from tars/tarsprotocol.go on every run: every assignment to the response packet outside
   the generated dispatcher (zero value, echo of version / request id / packet type, the queue-timeout answer, return code
   and text of a failed call, the handle-timeout answer with its one-way test). Composed in the order of the source along
   a path (which branch runs is not translated), they give the replies the theorems above speak about. *)
Theorem C10_source_queue_timeout_reply : forall r,
  exists g, go_invoke_rsp (req_rec r) PQueueTimeout = Next g /\
            rsp_is g (with_ret (base_reply r) c_TARSSERVERQUEUETIMEOUT timeout_text).
Proof. exact InvokeEquiv.invoke_queue_timeout_equiv. Qed.
Theorem C10_source_base_reply : forall r,
  exists g, go_invoke_rsp (req_rec r) PNoError = Next g /\ rsp_is g (base_reply r).
Proof. exact InvokeEquiv.invoke_base_equiv. Qed.
Theorem C10_source_error_reply : forall r e other_code,
  exists g, go_invoke_rsp (req_rec r) (err_path e other_code) = Next g /\
            rsp_is g (with_ret (base_reply r) (err_code e) (err_msg e)).
Proof. exact InvokeEquiv.invoke_error_equiv. Qed.
Theorem C10_source_handle_timeout_reply : forall r,
  match go_invoke_timeout (req_rec r) with
  | Return bytes => bytes = []%list /\ timeout_replies r = []%list
  | Next g => exists p, timeout_replies r = [p]%list /\ p = handle_timeout_reply r /\ rsp_is g p
  | Panic => False
  end.
Proof. exact InvokeEquiv.invoke_timeout_equiv. Qed.
Theorem C10_source_identity : forall r pa g, go_invoke_rsp (req_rec r) pa = Next g ->
  (go_requestf_ResponsePacket_IRequestId g = q_id r /\
   go_requestf_ResponsePacket_IVersion g = q_ver r /\
   go_requestf_ResponsePacket_CPacketType g = q_ptype r)%Z.
Proof. exact InvokeEquiv.invoke_identity_of_source. Qed.

Print Assumptions C10_protocol_constants.
Print Assumptions C10_count.
Print Assumptions C10_identity.
Print Assumptions C10_identity_on_wire.
Print Assumptions C10_reply_is_a_frame.
Print Assumptions C10_calls.
Print Assumptions C10_ping.
Print Assumptions C10_error_mapping.
Print Assumptions C10_error_code_tars.
Print Assumptions C10_error_code_plain.
Print Assumptions C10_error_code_on_wire_refuted.
Print Assumptions C10_tup_reply_has_no_code.
Print Assumptions C10_error_code_on_wire_partial.
Print Assumptions C10_bodyless_reply_decodes.
Print Assumptions C10_error_reply_on_wire.
Print Assumptions C10_success.
Print Assumptions C10_queue_timeout.
Print Assumptions C10_no_spurious_queue_timeout.
Print Assumptions C10_handle_timeout.
Print Assumptions C10_no_spurious_handle_timeout.
Print Assumptions C10_configuration_independent.
Print Assumptions C10_schedules_twoway.
Print Assumptions C10_schedules_write_once.
Print Assumptions C10_schedules_at_most_one.
Print Assumptions C10_schedules_progress.
Print Assumptions C10_function_is_a_schedule.
Print Assumptions C10_schedules_oneway.
Print Assumptions C10_schedules_late.
Print Assumptions C10_connection_schedules.
Print Assumptions C10_pipelining.
Print Assumptions C10_session_identity.
Print Assumptions C10_tcp_segmentation.
Print Assumptions C10_timed_count.
Print Assumptions C10_timed_identity.
Print Assumptions C10_queue_timeout_only_if_waited.
Print Assumptions C10_queue_timeout_window.
Print Assumptions C10_waited_then_not_executed.
Print Assumptions C10_queue_timeout_exact_refuted.
Print Assumptions C10_sub_ms_bounds.
Print Assumptions C10_timed_is_schedule.
Print Assumptions C10_timed_no_handle_timeout.
Print Assumptions C10_queueing_does_not_eat_handle_timeout.
Print Assumptions C10_connection_projection.
Print Assumptions C10_connection_interleaved.
Print Assumptions C10_shared_current_refuted.
Print Assumptions C10_invoke_probe.
Print Assumptions C10_invoke_probe_nonempty.
Print Assumptions C10_source_queue_timeout_reply.
Print Assumptions C10_source_base_reply.
Print Assumptions C10_source_error_reply.
Print Assumptions C10_source_handle_timeout_reply.
Print Assumptions C10_source_identity.
