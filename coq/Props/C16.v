(* C16 — tars2go: valid IDL yields compiling, conformant code; the tool always terminates. Statements only. *)
From Coq Require Import String.
From Coq Require Import List NArith ZArith.
From TarsV Require Import Base.Hex Idl.Lexer Idl.LexerProofs Idl.Parser Idl.ParserProofs Idl.Corr.
From TarsV Require Import Idl.Print Idl.Render.
From TarsV Require Idl.Schema Idl.SchemaProofs Idl.PrintProofs Idl.RenderProofs Idl.AnalyzeProofs Idl.Accepts Idl.TablesProofs Idl.GenTablesProofs Idl.Include Idl.IncludeProofs Idl.IncGraph Idl.IncGraphProofs Gen.C16Tables Gen.C16Translated Xlate.GoSem Codec.Corr.
Import ListNotations.
Open Scope N_scope.

(* the lexer makes progress: a token other than Eof consumes at least one byte, Eof is idempotent,
   |unread input|+1 iterations of lLex's loop always reach the next token *)
Theorem C16_lexer_consumes : forall fuel st t st',
  next_token fuel st = Ok (t, st') -> t <> TEof -> (length st' < length st)%nat.
Proof. exact LexerProofs.next_token_consumes. Qed.
Theorem C16_lexer_eof_idempotent : forall fuel st st',
  next_token fuel st = Ok (TEof, st') -> forall fuel', next_token (S fuel') st' = Ok (TEof, st').
Proof. exact LexerProofs.next_token_eof_idem. Qed.
Theorem C16_lexer_fuel : forall fuel st, (length st < fuel)%nat -> next_token fuel st <> Fuel.
Proof. exact LexerProofs.next_token_fuel. Qed.

(* the front end terminates on every byte string: lexing with fuel |input|+2 and parsing with fuel
   |tokens|+2 <= |input|+3 never runs out — every loop iteration consumes a token or exits *)
Theorem C16_terminates : forall input : list N, parse_bytes input <> OFuel.
Proof. exact ParserProofs.parse_bytes_terminates. Qed.
Theorem C16_terminates_tokens : forall ts : list tok, parse_tokens_gen true (S (S (length ts))) ts <> OFuel.
Proof. exact ParserProofs.parse_tokens_terminates. Qed.
Theorem C16_fuel_linear : forall input l, tokens_of input = Ok l ->
  (lex_fuel input = length input + 2 /\ parse_fuel l <= length input + 3)%nat.
Proof. exact ParserProofs.fuel_linear. Qed.

(* the defect repaired by e39406b, kept as a theorem about the pinned snapshot's parseEnum: on
   `module m { enum E {` <EOF> no fuel suffices; the repaired parser reports a diagnostic *)
Theorem C16_snapshot_enum_eof_hangs : forall fuel, parse_tokens_gen false fuel enum_open_at_eof = OFuel.
Proof. exact ParserProofs.unrepaired_hangs. Qed.
Theorem C16_repaired_enum_eof_diagnosed : parse_bytes (bs "module m { enum E {") = OErr.
Proof. exact ParserProofs.repaired_diagnoses. Qed.

(* "codecs ... satisfy the codec properties for that schema": the schema environment of every program the front
   end accepts (where env_of_module is defined: the fragment whose generated Go compiles) is well formed, so the
   generated-codec theorems C03-C06, stated for well-formed environments, apply to it *)
Theorem C16_schema_wf : forall input m e,
  parse_bytes input = OOk m -> Schema.env_of_module m = Some e -> Codec.Corr.wf_env e = true.
Proof. exact SchemaProofs.schema_wf. Qed.
Theorem C16_schema_wf_instance :
  match parse_bytes SchemaProofs.example_idl with OOk m => Schema.env_of_module m | _ => None end = Some SchemaProofs.example_env.
Proof. exact SchemaProofs.schema_wf_instance. Qed.

(* "valid IDL is accepted and means what it says": the grammar of the supported language is Idl/Print.v (sdecl:
   enums with plain / "= value" / "= Name" members, constants of every scalar type, structs with require/optional
   members of every scalar, string, vector, map, user type, fixed arrays and defaults, interfaces with in/out
   parameters and return values, key[...]); for every well-formed program (no redefinition, distinct tags,
   literals fit) the parser returns exactly the denoted AST, struct members sorted by tag, and hands it to the
   analysis.  Token level, and for every byte string the lexer maps to those tokens. *)
Theorem C16_accepts_grammar_tokens : forall name ds, wf_decls (empty_module name) ds = true ->
  parse_tokens (print_prog name ds) = match analyze (module_of name ds) with Ok m' => OOk m' | _ => OErr end.
Proof. exact PrintProofs.parse_print. Qed.
Theorem C16_accepts_grammar : forall input name ds,
  wf_decls (empty_module name) ds = true -> tokens_of input = Ok (print_prog name ds) ->
  parse_bytes input = match analyze (module_of name ds) with Ok m' => OOk m' | _ => OErr end.
Proof. exact PrintProofs.parse_bytes_print. Qed.
Theorem C16_accepts_grammar_instance :
  tokens_of (bs "module M { enum E { A, B = 5, C = B, D }; const unsigned int c = 0x10; struct In { 0 require int x; }; struct S { 7 require map<string, vector<In>> m; 0 optional E e = D; 3 optional In arr[2]; 4 optional float f = 1.5; }; key[S, e, f]; interface I { unsigned byte op(S a, out vector<E> b); void nop(); }; };")
  = Ok (print_prog (bs "M") PrintProofs.example_prog).
Proof. exact PrintProofs.parse_print_instance_text. Qed.

(* the lexer maps every rendering of a token sequence back to it: any spelling of a word / number that readIdent /
   readNumber collect and strconv accepts, strings, punctuation, "#include"; between tokens any blanks, line breaks,
   "//" comments and "/* */" comments (no "*/" inside); no gap needed where a token delimits itself or the next
   one starts with a byte that ends the scan *)
Theorem C16_lexer_render : forall lead ps, forallb wf_gap_item lead = true -> wf_pieces ps ->
  tokens_of (render lead ps) = Ok (map p_tok ps).
Proof. exact RenderProofs.render_tokens. Qed.
(* full strength: every rendering of every well-formed program is accepted with the denoted AST *)
Theorem C16_accepts_rendered : forall name ds lead ps,
  wf_decls (empty_module name) ds = true -> map p_tok ps = print_prog name ds ->
  forallb wf_gap_item lead = true -> wf_pieces ps ->
  parse_bytes (render lead ps) = match analyze (module_of name ds) with Ok m' => OOk m' | _ => OErr end.
Proof. exact Accepts.accepts_rendered. Qed.
(* ... and it is an AST, not a diagnostic, when the program's user type names are unqualified names of structs or
   enums it declares and its named defaults name exactly one enum member *)
Theorem C16_valid_accepted : forall name ds lead ps,
  wf_decls (empty_module name) ds = true -> AnalyzeProofs.module_names_ok (module_of name ds) = true ->
  map p_tok ps = print_prog name ds -> forallb wf_gap_item lead = true -> wf_pieces ps ->
  exists m', analyze (module_of name ds) = Ok m' /\ parse_bytes (render lead ps) = OOk m'.
Proof. exact Accepts.valid_accepted. Qed.
Theorem C16_accepts_rendered_instance :
  render [GLine (bs "file")] Accepts.ex_pieces =
    bs "//file" ++ [10] ++ bs "module /* c * d ***/" ++ [9] ++ bs "m{// x // y" ++ [10] ++ bs "struct" ++ [13; 10] ++ bs "S{0 require/**/int" ++ [12] ++ bs "a=-0x1f;};" ++ [10] ++ bs "};" /\
  wf_decls (empty_module (bs "m")) Accepts.ex_decls = true /\ map p_tok Accepts.ex_pieces = print_prog (bs "m") Accepts.ex_decls /\
  forallb wf_gap_item [GLine (bs "file")] = true /\ wf_pieces Accepts.ex_pieces /\
  AnalyzeProofs.module_names_ok (module_of (bs "m") Accepts.ex_decls) = true.
Proof. exact Accepts.accepts_rendered_instance. Qed.

(* member ordering (checkTag + sortTag) and name resolution (checkDepTName), for every input: the members of every
   struct of an accepted program are strictly ascending by tag, and no user type is left unresolved at any depth -
   members, vector elements, map keys and VALUES, array elements, parameters, results (the generator picks enum or
   struct code by the resolved kind) *)
Theorem C16_members_sorted : forall input m, parse_bytes input = OOk m ->
  Forall (fun s => Sorted.StronglySorted Z.lt (map sm_tag (st_mb s))) (m_structs m).
Proof. exact SchemaProofs.parse_bytes_structs_ok. Qed.
Theorem C16_analysis_resolves : forall input m, parse_bytes input = OOk m -> AnalyzeProofs.module_resolved m = true.
Proof. exact AnalyzeProofs.parse_bytes_resolved. Qed.
Theorem C16_analysis_resolves_instance :
  match parse_bytes (bs "module M { enum Color { RED }; struct In { 0 require int x; }; struct S { 0 require map<string, Color> m; 1 optional vector<In> v; 2 optional Color a[2]; 3 optional map<Color, vector<In>> d; }; interface I { Color f(map<int, Color> a, out vector<Color> b); }; };") with
  | OOk m => Some (map (fun mb => sm_ty mb) (st_mb (nth 1 (m_structs m) {| st_name := []; st_mb := [] |})))
  | _ => None
  end = Some [ VMap (VBase BString false) (VName (bs "Color") CEnum); VVec (VName (bs "In") CStruct);
               VArr (VName (bs "Color") CEnum) 2; VMap (VName (bs "Color") CEnum) (VVec (VName (bs "In") CStruct)) ].
Proof. exact AnalyzeProofs.resolved_instance. Qed.
Print Assumptions C16_members_sorted.
Print Assumptions C16_analysis_resolves.
Print Assumptions C16_analysis_resolves_instance.

(* ---- several files (Idl/Include.v: the file system is a parameter; chain of including files, circular-reference
   diagnostic, FindTNameType / FindEnumName through the included files) ---- *)
(* the front end terminates on every finite file system: the include chain never repeats a name and every name on it
   is a file, so fuel (number of files + 2) is never exhausted, whatever the files contain *)
Theorem C16_terminates_with_includes : forall input files, Include.parse_fs input files <> Include.FFuel.
Proof. exact IncludeProofs.parse_fs_terminates. Qed.
(* without other files the multi-file front end is the single-file one the theorems above speak about *)
Theorem C16_single_file_agrees : forall input m,
  parse_bytes input = OOk m -> Include.parse_fs input [] = Include.FOk (Include.PT m []).
Proof. exact IncludeProofs.parse_fs_single_file. Qed.
Theorem C16_analysis_resolves_with_includes : forall input files t,
  Include.parse_fs input files = Include.FOk t -> AnalyzeProofs.module_resolved (Include.pt_mod t) = true.
Proof. exact IncludeProofs.parse_fs_resolved. Qed.
Theorem C16_includes_instance :
  Include.parse_fs (bs "#include ""d.tars"" module M { };") [ (bs "d.tars", bs "#include ""in.tars"" module D { };") ] = Include.FErr.
Proof. exact IncludeProofs.parse_fs_circular. Qed.
(* "every user type named in a file's generated code has its defining module imported": FindTNameType reports the module
   that DEFINES the type, however deep in the include tree it sits (the looked-up name is that module's name, "::", one of
   its structs or enums); hence - declared names without ':' - every module the analysed type names (Mod::T, printed Mod.T
   by the generator) is among those checkDepTName records for the imports (DependModule), also for a type reached through
   an include of an include *)
Theorem C16_defining_module_found : forall t full c modn, Include.find_tname_t t full = Some (c, modn) ->
  exists m n, In m (IncludeProofs.tree_modules t) /\ m_name m = modn /\ full = modn ++ colons ++ n /\
              (existsb (fun s => beq (st_name s) n) (m_structs m) || existsb (fun e => beq (en_name e) n) (m_enums m)) = true.
Proof. exact IncludeProofs.find_tname_t_owner. Qed.
Theorem C16_imports_cover : forall m incs v v',
  forallb IncludeProofs.module_plain (IncludeProofs.tree_modules (Include.PT m incs)) = true ->
  Include.check_tname_t m incs v = Ok v' -> incl (Include.used_modules v') (Include.recorded_deps m incs v).
Proof. exact IncludeProofs.imports_cover. Qed.
Theorem C16_imports_cover_instance :
  let leaf := {| m_name := bs "Leaf"; m_structs := [ {| st_name := bs "Item"; st_mb := [] |} ]; m_hashkeys := []; m_enums := []; m_consts := []; m_ifaces := [] |} in
  let mid := empty_module (bs "Mid") in
  let top := empty_module (bs "Top") in
  forallb IncludeProofs.module_plain (IncludeProofs.tree_modules (Include.PT top [Include.PT mid [Include.PT leaf []]])) = true /\
  Include.check_tname_t top [Include.PT mid [Include.PT leaf []]] (VVec (VName (bs "Leaf::Item") CNone)) = Ok (VVec (VName (bs "Leaf::Item") CStruct)) /\
  Include.recorded_deps top [Include.PT mid [Include.PT leaf []]] (VVec (VName (bs "Leaf::Item") CNone)) = [bs "Leaf"].
Proof. exact IncludeProofs.imports_cover_instance. Qed.
(* ---- several modules in ONE file (Idl/IncGraph.v): the graph of file nodes parseModule builds - each further module's
   sub-parser gets a COPY of the first module's node, the first module's node later gets the further modules and the
   included files as children - is acyclic: every edge goes to a node created earlier.  FindTNameType / FindEnumName walk
   it recursively and stop only on a hit: on such a graph the walk ends for every name, declared or not.  Handing the
   sub-parser the live node instead of the copy (alias) makes a cycle, and the walk for an undeclared name then never
   ends, whatever bound on the depth (the code: fatal stack overflow).  The harness walks the code's graph on every
   accepted and rejected input (tars2go/parse/include-graph-cyclic). ---- *)
Open Scope nat_scope.
Theorem C16_include_graph_acyclic : forall k ninc u v,
  u <= IncGraph.id_P k ninc -> In v (IncGraph.children false k ninc u) -> v < u.
Proof. exact IncGraphProofs.copy_edges_descend. Qed.
Theorem C16_lookup_terminates_on_acyclic : forall (g : nat -> list nat) has,
  (forall u v, In v (g u) -> v < u) -> forall fuel u, u < fuel -> IncGraph.lookup fuel g has u <> None.
Proof. exact IncGraphProofs.lookup_terminates. Qed.
Theorem C16_multi_module_lookup_terminates : forall k ninc has u, u <= IncGraph.id_P k ninc ->
  IncGraph.lookup (S (IncGraph.id_P k ninc))
    (fun w => if Nat.leb w (IncGraph.id_P k ninc) then IncGraph.children false k ninc w else []) has u <> None.
Proof. exact IncGraphProofs.copy_lookup_terminates. Qed.
Theorem C16_aliased_first_module_refuted : forall k ninc, 1 <= k ->
  (In (IncGraph.id_N ninc 1) (IncGraph.children true k ninc (IncGraph.id_P k ninc)) /\
   In (IncGraph.id_P k ninc) (IncGraph.children true k ninc (IncGraph.id_N ninc 1))) /\
  forall fuel, IncGraph.lookup fuel (IncGraph.children true k ninc) (fun _ => false) (IncGraph.id_P k ninc) = None.
Proof. intros k ninc H. exact (conj (IncGraphProofs.alias_cycle k ninc H) (fun fuel => IncGraphProofs.alias_lookup_diverges k ninc fuel H)). Qed.
Theorem C16_include_graph_instance :
  map (IncGraph.children false 2 1) [0; 1; 2; 3; 4; 5] = [[]; []; [1; 0]; [2]; [3; 0]; [2; 4; 0]] /\
  IncGraph.lookup 6 (IncGraph.children false 2 1) (fun u => Nat.eqb u 0) 5 = Some (Some 0) /\
  IncGraph.lookup 6 (IncGraph.children false 2 1) (fun _ => false) 5 = Some None.
Proof. exact IncGraphProofs.copy_instance. Qed.
Open Scope N_scope.
Print Assumptions C16_include_graph_acyclic.
Print Assumptions C16_lookup_terminates_on_acyclic.
Print Assumptions C16_multi_module_lookup_terminates.
Print Assumptions C16_aliased_first_module_refuted.
Print Assumptions C16_include_graph_instance.
Print Assumptions C16_defining_module_found.
Print Assumptions C16_imports_cover.
Print Assumptions C16_imports_cover_instance.
Print Assumptions C16_terminates_with_includes.
Print Assumptions C16_single_file_agrees.
Print Assumptions C16_analysis_resolves_with_includes.
Print Assumptions C16_includes_instance.

(* ---- the model's lexer tables are the tree's (regenerated on every run: Gen/C16Tables.v from the compiled token and
   lexer packages, Gen/C16Translated.v from the Go source of the character classes and type predicates) ---- *)
Theorem C16_keywords_regenerated :
  map (fun p => (fst p, TablesProofs.tok_code (snd p))) keywords = C16Tables.c16_kw_table.
Proof. exact TablesProofs.keywords_regenerated. Qed.
(* one NextToken of the model = one NextToken of the compiled lexer on b, "a"b, "1"b, "0x"b (then a blank) and on the 15
   families of c16_probe_more (string contents, comment starts and bodies, qualified names, signs, fractions, #include), every byte b:
   first-byte dispatch (blanks, line breaks, punctuation, quote, '#', '/', NUL = end of file), identifier, number and
   hexadecimal continuation classes *)
Theorem C16_lexer_probes :
  map (TablesProofs.probe_model []) TablesProofs.all_bytes = C16Tables.c16_probe_b /\
  map (TablesProofs.probe_model [97]) TablesProofs.all_bytes = C16Tables.c16_probe_ab /\
  map (TablesProofs.probe_model [49]) TablesProofs.all_bytes = C16Tables.c16_probe_1b /\
  map (TablesProofs.probe_model [48; 120]) TablesProofs.all_bytes = C16Tables.c16_probe_0xb /\
  map (fun f => map (TablesProofs.probe_model2 (fst (fst f)) (snd (fst f))) TablesProofs.all_bytes) C16Tables.c16_probe_more
    = map snd C16Tables.c16_probe_more.
Proof.
  exact (conj TablesProofs.probe_first_byte (conj TablesProofs.probe_ident_continuation
        (conj TablesProofs.probe_number_continuation (conj TablesProofs.probe_hex_continuation TablesProofs.probe_more)))).
Qed.
(* integer literals: the model accepts exactly the range the compiled lexer accepts (64 bits) *)
Theorem C16_int_literal_range_pos : forall s u, uint_of s = Some u -> (forall c r, s = c :: r -> c <> 45 /\ c <> 43) ->
  parse_int s = if (Z.of_N u <=? C16Tables.c16_int_lit_max)%Z then Some (Z.of_N u) else None.
Proof. exact TablesProofs.parse_int_range_pos. Qed.
Theorem C16_int_literal_range_neg : forall r u, uint_of r = Some u ->
  parse_int (45 :: r) = if (C16Tables.c16_int_lit_min <=? - Z.of_N u)%Z then Some (- Z.of_N u)%Z else None.
Proof. exact TablesProofs.parse_int_range_neg. Qed.
(* the character classes of lexer.go and the type predicates of token.go, translated from their source, are the model's *)
Theorem C16_char_classes_translated : forall b, (0 <= b < 256)%Z ->
  C16Translated.tr_c16_isNewLine b = GoSem.Return (is_newline (Z.to_N b)) /\
  C16Translated.tr_c16_isNumber b = GoSem.Return (is_number (Z.to_N b)) /\
  C16Translated.tr_c16_isHexNumber b = GoSem.Return (is_hexl (Z.to_N b)) /\
  C16Translated.tr_c16_isLetter b = GoSem.Return (is_letter (Z.to_N b)).
Proof.
  intros b Hb. exact (conj (TablesProofs.tr_isNewLine_equiv b Hb) (conj (TablesProofs.tr_isNumber_equiv b Hb)
    (conj (TablesProofs.tr_isHexNumber_equiv b Hb) (TablesProofs.tr_isLetter_equiv b Hb)))).
Qed.
Theorem C16_type_predicates_translated : forall t, In t TablesProofs.all_toks ->
  C16Translated.tr_c16_IsType (Z.of_N (TablesProofs.tok_code t)) = GoSem.Return (is_type_tok t) /\
  C16Translated.tr_c16_IsNumberType (Z.of_N (TablesProofs.tok_code t)) = GoSem.Return (match t with TTy b => num_bty b | _ => false end).
Proof. intros t H. exact (conj (TablesProofs.tr_IsType_equiv t H) (TablesProofs.tr_IsNumberType_equiv t H)). Qed.

(* the generator's per-type tables (gen_go.go genType / typeDef through the verif hook, utils.UpperFirstLetter) are what
   Idl/Schema.v assumes: Go type of every scalar IDL type, zero text of an optional member without default, capitalisation *)
Theorem C16_gentype_regenerated : forall m b u t, Schema.ty_of m (VBase b u) = Some t ->
  GenTablesProofs.lookup_gt (TablesProofs.bty_code b) u C16Tables.c16_gentype = Some (GenTablesProofs.ty_go_name t, true).
Proof. exact GenTablesProofs.gentype_scalars. Qed.
Theorem C16_typedef_regenerated : forall m b t, Schema.ty_of m (VBase b false) = Some t ->
  GenTablesProofs.lookup_td (TablesProofs.bty_code b) C16Tables.c16_typedef = Some (GenTablesProofs.zero_text t, true).
Proof. exact GenTablesProofs.typedef_scalars. Qed.
Theorem C16_names_regenerated :
  map (fun p => GenTablesProofs.go_user_name (fst p)) C16Tables.c16_gentype_names = map snd C16Tables.c16_gentype_names /\
  (map (fun b => upper_first [b]) GenTablesProofs.ascii = C16Tables.c16_upper_first_1 /\
   map (fun b => upper_first [b; 120]) GenTablesProofs.ascii = C16Tables.c16_upper_first_2 /\
   upper_first [] = C16Tables.c16_upper_first_empty).
Proof. exact (conj GenTablesProofs.gentype_names GenTablesProofs.upper_first_regenerated). Qed.
Print Assumptions C16_gentype_regenerated.
Print Assumptions C16_typedef_regenerated.
Print Assumptions C16_names_regenerated.
Print Assumptions C16_keywords_regenerated.
Print Assumptions C16_lexer_probes.
Print Assumptions C16_int_literal_range_pos.
Print Assumptions C16_int_literal_range_neg.
Print Assumptions C16_char_classes_translated.
Print Assumptions C16_type_predicates_translated.
Print Assumptions C16_lexer_render.
Print Assumptions C16_accepts_rendered.
Print Assumptions C16_valid_accepted.
Print Assumptions C16_accepts_rendered_instance.
Print Assumptions C16_accepts_grammar_tokens.
Print Assumptions C16_accepts_grammar.
Print Assumptions C16_accepts_grammar_instance.
Print Assumptions C16_schema_wf.
Print Assumptions C16_schema_wf_instance.
Print Assumptions C16_lexer_consumes.
Print Assumptions C16_lexer_eof_idempotent.
Print Assumptions C16_lexer_fuel.
Print Assumptions C16_terminates.
Print Assumptions C16_terminates_tokens.
Print Assumptions C16_fuel_linear.
Print Assumptions C16_snapshot_enum_eof_hangs.
Print Assumptions C16_repaired_enum_eof_diagnosed.
