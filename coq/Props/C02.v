(* C02 — primitive codec: exact round trip, exact cursor, wire-format conformance, widening reads.
   Statements only. [f] is any fuel >= 1, [rest] any suffix: the reader ends exactly at [rest]. *)
From Coq Require Import List NArith ZArith.
From TarsV Require Import Base.Hex Codec.Wire Codec.Skip Codec.Prim Codec.PrimProofs.
(* the equivalence of the translated Go readers and writers with these models belongs to this file's closure: it is
   rebuilt and audited with it *)
From TarsV Require Xlate.ReaderEquiv.
From TarsV Require Xlate.CodecEquiv.
From TarsV Require Xlate.FloatEquiv.
Import ListNotations.
Open Scope N_scope.

Theorem C02_roundtrip_bool : forall f tag req b rest, tag < 256 ->
  r_bool (S f) tag req (w_bool b tag ++ rest) = ROk b rest.
Proof. exact PrimProofs.roundtrip_bool. Qed.
Theorem C02_roundtrip_int8 : forall f tag req v rest, tag < 256 -> fits 8 v = true ->
  r_int8 (S f) tag req (w_int8 v tag ++ rest) = ROk v rest.
Proof. exact PrimProofs.roundtrip_int8. Qed.
Theorem C02_roundtrip_int16 : forall f tag req v rest, tag < 256 -> fits 16 v = true ->
  r_int16 (S f) tag req (w_int16 v tag ++ rest) = ROk v rest.
Proof. exact PrimProofs.roundtrip_int16. Qed.
Theorem C02_roundtrip_int32 : forall f tag req v rest, tag < 256 -> fits 32 v = true ->
  r_int32 (S f) tag req (w_int32 v tag ++ rest) = ROk v rest.
Proof. exact PrimProofs.roundtrip_int32. Qed.
Theorem C02_roundtrip_int64 : forall f tag req v rest, tag < 256 -> fits 64 v = true ->
  r_int64 (S f) tag req (w_int64 v tag ++ rest) = ROk v rest.
Proof. exact PrimProofs.roundtrip_int64. Qed.
Theorem C02_roundtrip_uint8 : forall f tag req v rest, tag < 256 -> (0 <= v < 256)%Z ->
  r_uint8 (S f) tag req (w_uint8 v tag ++ rest) = ROk v rest.
Proof. exact PrimProofs.roundtrip_uint8. Qed.
Theorem C02_roundtrip_uint16 : forall f tag req v rest, tag < 256 -> (0 <= v < 65536)%Z ->
  r_uint16 (S f) tag req (w_uint16 v tag ++ rest) = ROk v rest.
Proof. exact PrimProofs.roundtrip_uint16. Qed.
Theorem C02_roundtrip_uint32 : forall f tag req v rest, tag < 256 -> (0 <= v < 4294967296)%Z ->
  r_uint32 (S f) tag req (w_uint32 v tag ++ rest) = ROk v rest.
Proof. exact PrimProofs.roundtrip_uint32. Qed.
(* floats are bit patterns: NaN payloads, infinities and signed zero are covered by the quantifier *)
Theorem C02_roundtrip_f32 : forall f tag req b rest, tag < 256 -> b < 4294967296 ->
  r_f32 (S f) tag req (w_f32 b tag ++ rest) = ROk b rest.
Proof. exact PrimProofs.roundtrip_f32. Qed.
Theorem C02_roundtrip_f64 : forall f tag req b rest, tag < 256 -> b < 18446744073709551616 ->
  r_f64 (S f) tag req (w_f64 b tag ++ rest) = ROk b rest.
Proof. exact PrimProofs.roundtrip_f64. Qed.
Theorem C02_roundtrip_string : forall f tag req s rest, tag < 256 -> N.of_nat (length s) < 4294967296 ->
  r_string (S f) tag req (w_string s tag ++ rest) = ROk s rest.
Proof. exact PrimProofs.roundtrip_string. Qed.

(* wire format: head byte rule, narrowest width with the zero marker, big-endian two's complement,
   1-byte vs 4-byte string length; the narrower writers write what WriteInt64 writes *)
Theorem C02_wire_int : forall v tag, fits 64 v = true -> w_int64 v tag = spec_int v tag.
Proof. exact PrimProofs.wire_int64. Qed.
Theorem C02_wire_int32 : forall v tag, fits 32 v = true -> w_int32 v tag = w_int64 v tag.
Proof. exact PrimProofs.w_int32_64. Qed.
Theorem C02_wire_int16 : forall v tag, fits 16 v = true -> w_int16 v tag = w_int64 v tag.
Proof. exact PrimProofs.w_int16_64. Qed.
Theorem C02_wire_int8 : forall v tag, fits 8 v = true -> w_int8 v tag = w_int64 v tag.
Proof. exact PrimProofs.w_int8_64. Qed.
Theorem C02_wire_f32 : forall b tag, w_f32 b tag = spec_f32 b tag.
Proof. exact PrimProofs.wire_f32. Qed.
Theorem C02_wire_f64 : forall b tag, w_f64 b tag = spec_f64 b tag.
Proof. exact PrimProofs.wire_f64. Qed.
Theorem C02_wire_string : forall s tag, N.of_nat (length s) < 4294967296 -> w_string s tag = spec_string s tag.
Proof. exact PrimProofs.wire_string. Qed.

(* widening: every narrower encoding is accepted by every wider reader with the same value *)
Theorem C02_widen_signed : forall bits f tag req v rest, is_width bits -> tag < 256 -> fits bits v = true ->
  forall wbits, is_width wbits -> (bits <= wbits)%Z ->
  r_int wbits (S f) tag req (w_int64 v tag ++ rest) = ROk v rest.
Proof. exact PrimProofs.widen_signed. Qed.
Theorem C02_widen_uint8 : forall f tag req v rest, tag < 256 -> (0 <= v < 256)%Z ->
  r_uint16 (S f) tag req (w_uint8 v tag ++ rest) = ROk v rest /\
  r_uint32 (S f) tag req (w_uint8 v tag ++ rest) = ROk v rest /\
  r_int16 (S f) tag req (w_uint8 v tag ++ rest) = ROk v rest /\
  r_int32 (S f) tag req (w_uint8 v tag ++ rest) = ROk v rest /\
  r_int64 (S f) tag req (w_uint8 v tag ++ rest) = ROk v rest.
Proof. exact PrimProofs.widen_uint8_16. Qed.
Theorem C02_widen_uint16 : forall f tag req v rest, tag < 256 -> (0 <= v < 65536)%Z ->
  r_uint32 (S f) tag req (w_uint16 v tag ++ rest) = ROk v rest /\
  r_int32 (S f) tag req (w_uint16 v tag ++ rest) = ROk v rest /\
  r_int64 (S f) tag req (w_uint16 v tag ++ rest) = ROk v rest.
Proof. exact PrimProofs.widen_uint16_32. Qed.
Theorem C02_widen_float : forall f tag req b rest, tag < 256 -> b < 4294967296 ->
  r_f64 (S f) tag req (w_f32 b tag ++ rest) = ROk (widen32 b) rest.
Proof. exact PrimProofs.widen_f32_f64. Qed.

Print Assumptions C02_roundtrip_bool. Print Assumptions C02_roundtrip_int8. Print Assumptions C02_roundtrip_int16.
Print Assumptions C02_roundtrip_int32. Print Assumptions C02_roundtrip_int64. Print Assumptions C02_roundtrip_uint8.
Print Assumptions C02_roundtrip_uint16. Print Assumptions C02_roundtrip_uint32. Print Assumptions C02_roundtrip_f32.
Print Assumptions C02_roundtrip_f64. Print Assumptions C02_roundtrip_string. Print Assumptions C02_wire_int.
Print Assumptions C02_wire_int32. Print Assumptions C02_wire_int16. Print Assumptions C02_wire_int8.
Print Assumptions C02_wire_f32. Print Assumptions C02_wire_f64. Print Assumptions C02_wire_string.
Print Assumptions C02_widen_signed. Print Assumptions C02_widen_uint8. Print Assumptions C02_widen_uint16.
Print Assumptions C02_widen_float.
