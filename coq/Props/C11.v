(* C11 — calls keep succeeding across server-initiated connection closes. Statements only.
   Model: Conc/ClientConn.v ([run true] = the repaired client, [run false] = the client as pinned); every
   theorem quantifies over all label sequences, i.e. all schedules of the caller, sender, receiver goroutines,
   all points at which the peer closes a connection, any number of connections and requests. *)
From Coq Require Import List NArith.
From TarsV Require Import Conc.ClientConn Conc.ClientConnProofs Conc.Adapter Conc.AdapterProofs.
From TarsV Require Conc.ClientConnConsts Gen.Consts.
Import ListNotations.

(* --- "a connection loss never makes a later healthy connection be treated as closed" ------------------- *)
(* the closed flag is set exactly when the CURRENT connection is known dead (the client has closed it) *)
Theorem C11_loss_is_local : forall ls s, run true init ls = Some s ->
  match cur s with
  | Some c => closedF s = dead (gens s c) /\ c < ngen s
  | None => closedF s = true /\ ngen s = 0
  end.
Proof. exact ClientConnProofs.closed_flag_is_current. Qed.

(* step form: giving up generation g (receive error, write error, idle close) leaves the flag, the current
   connection c <> g, its state and its send goroutine untouched — in any state *)
Theorem C11_loss_is_local_step : forall s l s' g c, step true s l = Some s' -> closes l = Some g -> cur s = Some c -> c <> g ->
  closedF s' = closedF s /\ cur s' = Some c /\ dead (gens s' c) = dead (gens s c) /\ sp (gens s' c) = sp (gens s c).
Proof. exact ClientConnProofs.close_is_local. Qed.

(* a connection is replaced only after its loss: every generation but the current one is known dead *)
Theorem C11_redial_only_after_loss : forall ls s g, run true init ls = Some s -> g < ngen s -> dead (gens s g) = false -> cur s = Some g.
Proof. exact ClientConnProofs.only_current_alive. Qed.

(* --- "a request is never written to a connection already known to be dead" ---------------------------- *)
(* for every call issued after the loss is known: once g is known dead, a request enqueued afterwards is never
   the subject of a write attempt on g *)
Theorem C11_no_write_to_dead : forall l1 l2 m g s1 s, run true init l1 = Some s1 -> dead (gens s1 g) = true ->
  run true s1 (LEnq m :: l2) = Some s -> forall b, ~ In (g, m, b) (atts s).
Proof. exact ClientConnProofs.no_write_after_known_dead. Qed.

(* the literal reading (no write attempt at all while g is known dead, whenever the request was issued) *)
Definition C11_no_write_to_dead_literal_statement : Prop :=
  forall ls s g m, run true init ls = Some s -> ~ In (g, m, true) (atts s).
(* is false of the repaired client, as of any client that does not hold the lock across test and write: the
   loss can fall between isCurrent and conn.Write (request issued BEFORE the loss) *)
Theorem C11_no_write_to_dead_literal_refuted : exists s, run true init sched_window = Some s /\ In (0, 0, true) (atts s) /\ late (gens s 0) = [].
Proof. exact ClientConnProofs.literal_no_write_to_dead_refuted. Qed.

(* --- "a call issued after the close succeeds without waiting for its timeout" -------------------------- *)
(* safety-and-possibility form.  [reach_int s s'] : s' is reached from s by steps of the client's own send and
   receive goroutines only — no further call, no peer action, no ticker, no idle close.
   Whenever the current connection is healthy and a request is pending ANYWHERE in the client (send queue,
   failure queue, hands of any send goroutine incl. a stale one), the goroutines alone can bring it to the
   peer over the current connection.  (In the pinned client the request of C11_pinned_refuted stays in the
   failure queue until another call is made.) *)
Theorem C11_delivery : forall ls s c m, run true init ls = Some s ->
  cur s = Some c -> dead (gens s c) = false -> peerc (gens s c) = false -> pending s m ->
  exists s', reach_int s s' /\ cur s' = Some c /\ dead (gens s' c) = false /\ peerc (gens s' c) = false /\ In m (got (gens s' c)).
Proof. exact ClientConnProofs.delivery_possible. Qed.

(* a call issued when the loss is known: ReConnect dials a fresh connection and the request can reach the peer over it *)
Theorem C11_call_after_known_close : forall ls s m s1, run true init ls = Some s -> closedF s = true ->
  run true s [LReconnect; LEnq m] = Some s1 ->
  cur s1 = Some (ngen s) /\ closedF s1 = false /\
  exists s', reach_int s1 s' /\ cur s' = Some (ngen s) /\ dead (gens s' (ngen s)) = false /\ In m (got (gens s' (ngen s))).
Proof. exact ClientConnProofs.call_after_known_close. Qed.

Theorem C11_delivery_example : exists s, run true init
    [LLogEnq 0; LReconnect; LEnq 0; LSTop 0; LSPoll 0; LSBlkQueue 0; LSCheck 0; LSHook 0; LSWriteOk 0; LSTop 0; LSPoll 0;
     LLogPClose 0; LPeerClose 0; LRClose 0; LLogEnq 1; LReconnect; LEnq 1; LSBlkQueue 0] = Some s /\
  cur s = Some 1 /\ dead (gens s 1) = false /\ peerc (gens s 1) = false /\ pending s 1 /\ sp (gens s 0) = SCheck 1.
Proof. exact ClientConnProofs.delivery_example. Qed.

(* inevitability form.  [internal l]: l is a step of one of the client's send/receive goroutines other than the
   ticker firing and the idle close.  From a reachable state with a healthy current connection and a pending
   request, under EVERY schedule of those goroutines (no fairness assumption): (a) at most [mu s] steps can be
   taken (every such schedule terminates), and (b) once no goroutine can move ([quiescent]) the request has
   reached the peer over the current connection, which is still healthy.  I.e. the request is delivered after
   finitely many goroutine steps without any further call and without waiting for a timer. *)
Theorem C11_delivery_inevitable : forall ls s c m ls' s', run true init ls = Some s ->
  cur s = Some c -> dead (gens s c) = false -> peerc (gens s c) = false -> pending s m ->
  Forall (fun l => internal l = true) ls' -> run true s ls' = Some s' ->
  length ls' + mu s' <= mu s /\
  (quiescent s' -> In m (got (gens s' c)) /\ cur s' = Some c /\ dead (gens s' c) = false /\ peerc (gens s' c) = false).
Proof. exact ClientConnProofs.delivery_inevitable. Qed.

(* what remains unproved is the same under interleaved external events (further calls, ticker firings) in an
   infinite run, which needs a fairness assumption about the Go scheduler; stated, NOT PROVED *)
Definition C11_delivery_liveness_statement : Prop :=
  forall (sched : nat -> label) (sts : nat -> st) c m,
    (exists ls, run true init ls = Some (sts 0)) ->
    (forall n, step true (sts n) (sched n) = Some (sts (S n))) ->
    (forall n, cur (sts n) = Some c /\ dead (gens (sts n) c) = false /\ peerc (gens (sts n) c) = false) ->
    (forall n l, internal l = true -> step true (sts n) l <> None -> exists k, n <= k /\ internal (sched k) = true) ->
    pending (sts 0) m -> exists n, In m (got (gens (sts n) c)).

(* --- each request reaches the peer at most once (all connections together), and then it is nowhere else ---- *)
Theorem C11_at_most_once : forall ls s m g g', run true init ls = Some s -> g < ngen s -> g' < ngen s ->
  In m (got (gens s g)) -> In m (got (gens s g')) ->
  g = g' /\ cnt m (got (gens s g)) = 1 /\ ~ In m (sendQ s) /\ ~ In m (failQ s) /\
  (forall h, h < ngen s -> holds (sp (gens s h)) <> Some m).
Proof. exact ClientConnProofs.at_most_once. Qed.

(* --- connection.close is atomic w.r.t. the swap of the current connection --------------------------------- *)
(* identity test and flag write are one step (connLock; ReConnect holds it for the whole dial): the test is decided
   on the state in which the flag is written, however long a re-dial in progress takes *)
Theorem C11_close_atomic : forall s l s' g, step true s l = Some s' -> closes l = Some g ->
  closedF s' = (if is_cur s g then true else closedF s) /\ cur s' = cur s.
Proof. exact ClientConnProofs.close_atomic. Qed.

(* the seeded variant C11-m11 (test before the lock, flag after it) flags the freshly dialled connection closed *)
Theorem C11_close_m11_refuted : exists s0 s1, run true init [LReconnect; LLogPClose 0; LPeerClose 0; LRClose 0] = Some s0 /\
  close_decide_m11 s0 0 = true /\ step true s0 LReconnect = Some s1 /\
  let s2 := close_commit_m11 s1 0 in
  closedF s2 = true /\ cur s2 = Some 1 /\ dead (gens s2 1) = false /\ peerc (gens s2 1) = false /\
  closedF (do_close true s1 0) = false.
Proof. exact ClientConnProofs.m11_refuted. Qed.

(* --- endpoint down: a failed dial leaves the client closed, so the next call dials again ------------------ *)
(* [LReconnectFail] is a label like any other: all theorems above quantify over runs with failed dials interleaved *)
Theorem C11_failed_dial_leaves_closed : forall s s', step true s LReconnectFail = Some s' -> s' = s /\ closedF s' = true.
Proof. exact ClientConnProofs.failed_dial_leaves_closed. Qed.

Theorem C11_call_after_failed_dial : forall ls s s1 m s2, run true init ls = Some s -> step true s LReconnectFail = Some s1 ->
  run true s1 [LReconnect; LEnq m] = Some s2 ->
  cur s2 = Some (ngen s) /\ closedF s2 = false /\
  exists s', reach_int s2 s' /\ cur s' = Some (ngen s) /\ dead (gens s' (ngen s)) = false /\ In m (got (gens s' (ngen s))).
Proof. exact ClientConnProofs.call_after_failed_dial. Qed.

(* the seeded variant C11-m3 (closed flag cleared before the dial) violates it *)
Theorem C11_failed_dial_m3_refuted : exists s0 s2, run true init sched_down = Some s0 /\ closedF s0 = true /\
  run true (dial_fail_m3 s0) [LReconnect; LLogEnq 1; LEnq 1] = Some s2 /\
  closedF s2 = false /\ cur s2 = None /\ ngen s2 = 1 /\ sendQ s2 = [1] /\
  sp (gens s2 0) = SExit /\ rp (gens s2 0) = RExit /\ got (gens s2 0) = [].
Proof. exact ClientConnProofs.m3_refuted. Qed.
Theorem C11_failed_dial_example : exists s0 s1 s2, run true init sched_down = Some s0 /\ step true s0 LReconnectFail = Some s1 /\
  run true s1 [LReconnect; LLogEnq 1; LEnq 1; LSTop 1; LSPoll 1; LSBlkQueue 1; LSCheck 1; LSHook 1; LSWriteOk 1] = Some s2 /\
  cur s2 = Some 1 /\ got (gens s2 1) = [1] /\ c11_accepts (log s2) = true.
Proof. exact ClientConnProofs.failed_dial_example. Qed.

(* --- close notification (reconnect push): AdapterProxy.onPush swaps in a fresh transport client and grace-closes
   the old one (model Conc/Adapter.v: a sequence of independent clients; [proj i als] = label sequence of client i) - *)
(* every transport client inside an adapter run is a run of the client model: all theorems above hold per client *)
Theorem C11_push_client_is_client_run : forall als a i, arun ainit als = Some a -> i < ncli a ->
  run true init (proj i als) = Some (cli a i).
Proof. exact AdapterProofs.client_is_client_run. Qed.

(* the swap never aims the close at the NEW client: TarsClient.Close has never been applied to the current client,
   no grace close is pending for it, and a grace close step only ever hits a client that has been replaced *)
Theorem C11_push_never_closes_new : forall als a, arun ainit als = Some a ->
  ~ In LUserClose (proj (ncli a - 1) als) /\ graced a (ncli a - 1) = false.
Proof. exact AdapterProofs.current_never_closed_by_swap. Qed.
Theorem C11_push_grace_hits_replaced_only : forall als a i a', arun ainit als = Some a -> astep a (AGrace i) = Some a' -> S i < ncli a.
Proof. exact AdapterProofs.grace_close_hits_replaced_client_only. Qed.

(* hence (unless its own sender idle-closes it) the current client closes a connection, and has its closed flag set,
   only after the server closed that connection or announced its close; and its log is accepted by the spec machine *)
Theorem C11_push_current_client_healthy_stays : forall als a, arun ainit als = Some a ->
  let c := ncli a - 1 in
  (forall g, ~ In (LSIdleClose g) (proj c als)) ->
  (forall g, dead (gens (cli a c) g) = true -> peerc (gens (cli a c) g) = true /\ In g (lpc (cli a c))) /\
  c11_accepts (log (cli a c)) = true.
Proof. exact AdapterProofs.current_client_healthy_stays. Qed.

(* the seeded variant C11-m2 (oldClient read after the new client is installed) violates it: 5-step witness *)
Theorem C11_push_swapped_refuted : exists a, arun_swapped ainit sched_swapped = Some a /\ ncli a = 2 /\
  dead (gens (cli a 1) 0) = true /\ peerc (gens (cli a 1) 0) = false /\ lpc (cli a 1) = [] /\ closedF (cli a 1) = true /\
  dead (gens (cli a 0) 0) = false.
Proof. exact AdapterProofs.swapped_refuted. Qed.
Theorem C11_push_example : exists a, arun ainit [ACli 0 LReconnect; ACli 0 (LLogPClose 0); APush 0; ACli 1 LReconnect; AGrace 0] = Some a /\
  ncli a = 2 /\ dead (gens (cli a 1) 0) = false /\ closedF (cli a 1) = false /\ dead (gens (cli a 0) 0) = true /\
  arun ainit sched_swapped = None.
Proof. exact AdapterProofs.swap_example. Qed.

(* --- the tie: the specification machine that validates the recorded logs is sound for the model ---------- *)
(* the log of EVERY run of the model (all schedules; the client itself never gives up a connection: no
   TarsClient.Close, no idle close — the harness's scripts contain neither) is accepted by [c11_accepts];
   hence a rejected recorded log is a behaviour of the implementation that the model does not have *)
Theorem C11_spec_machine_sound : forall ls s, run true init ls = Some s ->
  Forall (fun l => client_close l = false) ls -> c11_accepts (log s) = true.
Proof. exact ClientConnProofs.spec_machine_sound. Qed.

(* the capacity of sendFailQueue in the tree is the one the model assumes (regenerated constant) *)
Theorem C11_failq_capacity : Gen.Consts.c_c11_failq_cap = 1%N.
Proof. exact ClientConnConsts.failq_capacity_modelled. Qed.

(* --- the pinned client violates all clauses (design-time defect, reproduced by the harness) ------------- *)
Theorem C11_pinned_refuted : exists s, run false init sched_defect = Some s /\
  In (0, 1, true) (atts s) /\ In 1 (late (gens s 0)) /\
  cur s = Some 1 /\ dead (gens s 1) = false /\ peerc (gens s 1) = false /\ closedF s = true /\
  failQ s = [1] /\ sp (gens s 1) = SExit /\ sp (gens s 0) = SExit /\ got (gens s 1) = [] /\
  c11_accepts (log s) = false.
Proof. exact ClientConnProofs.pinned_refuted. Qed.

(* non-vacuity: the repaired client under the corresponding history delivers the request on the new connection *)
Theorem C11_repaired_example : exists s, run true init sched_repaired = Some s /\
  atts s = [(0, 0, false); (1, 1, false)] /\ got (gens s 1) = [1] /\ closedF s = false /\ cur s = Some 1 /\
  sp (gens s 0) = SExit /\ failQ s = [] /\ sendQ s = [] /\ c11_accepts (log s) = true.
Proof. exact ClientConnProofs.repaired_example. Qed.

Print Assumptions C11_loss_is_local.
Print Assumptions C11_loss_is_local_step.
Print Assumptions C11_redial_only_after_loss.
Print Assumptions C11_no_write_to_dead.
Print Assumptions C11_delivery.
Print Assumptions C11_delivery_inevitable.
Print Assumptions C11_call_after_known_close.
Print Assumptions C11_delivery_example.
Print Assumptions C11_at_most_once.
Print Assumptions C11_close_atomic.
Print Assumptions C11_close_m11_refuted.
Print Assumptions C11_failed_dial_leaves_closed.
Print Assumptions C11_call_after_failed_dial.
Print Assumptions C11_failed_dial_m3_refuted.
Print Assumptions C11_failed_dial_example.
Print Assumptions C11_push_client_is_client_run.
Print Assumptions C11_push_never_closes_new.
Print Assumptions C11_push_grace_hits_replaced_only.
Print Assumptions C11_push_current_client_healthy_stays.
Print Assumptions C11_push_swapped_refuted.
Print Assumptions C11_push_example.
Print Assumptions C11_spec_machine_sound.
Print Assumptions C11_failq_capacity.
Print Assumptions C11_no_write_to_dead_literal_refuted.
Print Assumptions C11_pinned_refuted.
Print Assumptions C11_repaired_example.
