(* C05T - TUP attribute codec and packet-level pack / unpack (serves C03, C05, C06): statements only. *)
From Coq Require Import List NArith ZArith.
From TarsV Require Import Gen.Consts Codec.Wire Codec.Skip Codec.Prim Codec.GenCodec Frame.Framing
  Codec.Tup Codec.Packet Codec.TupCorr Codec.TupProofs Codec.PacketProofs Codec.TupCost Codec.TupCostProofs.
From TarsV Require Import Codec.Corr Gen.Schemas Codec.RoundTrip Codec.RoundTripExamples Codec.PacketCompose.
(* (TupCorr: the correspondence evaluated on every run is part of this file's closure, so it is rebuilt with it) *)
Import ListNotations.
Open Scope N_scope.

(* ---- C05: UniAttribute.Decode on ANY bytes: a value or an error (the linear fuel never runs out), loop
   iterations and bytes allocated for keys and buffers bounded by the input length, reader only forward ---- *)
Theorem C05T_tup_decode_total : forall bs : list N,
  let o := tup_decode bs in
  t_stat o <> TSFuel /\ t_iter o <= nlen bs /\ t_alloc o <= nlen bs /\ (length (t_rest o) <= length bs)%nat.
Proof. exact tup_decode_total. Qed.
Print Assumptions C05T_tup_decode_total.

(* time: the whole of Decode - every lookup, every activation of the skipping functions below it (TupCost.v counts
   them along the model's own recursion), every loop iteration - is at most 10 steps per input byte plus 9 *)
Theorem C05T_tup_cost_linear : forall bs : list N, (tup_cost bs <= 10 * length bs + 9)%nat.
Proof. exact tup_cost_linear. Qed.
Print Assumptions C05T_tup_cost_linear.

(* the same statement is false of the decoder of the pinned snapshot (key optional): six bytes, a million iterations *)
Theorem C05T_pinned_total_refuted :
  exists bs, let o := tup_decode_pinned bs in nlen bs = 6 /\ t_stat o = TSOk /\ t_iter o = 1000000.
Proof. exact pinned_total_refuted. Qed.
Print Assumptions C05T_pinned_total_refuted.
(* ... for every count: an input of at most six bytes announcing n entries makes it iterate n times *)
Theorem C05T_pinned_decode_spins : forall n : nat, N.of_nat n < 2147483648 ->
  let bs := head tMAP 0 ++ w_int32 (wrap32 (Z.of_nat n)) 0 in
  (length bs <= 6)%nat /\ tup_decode_pinned bs = mk_tout TSOk [] [] (N.of_nat n) 0.
Proof. exact pinned_decode_spins. Qed.
Print Assumptions C05T_pinned_decode_spins.

(* ---- C03: Decode (Encode m ++ rest) = m, stopping exactly at rest, for EVERY attribute list ---- *)
Theorem C05T_tup_roundtrip : forall (m : attrs) (rest : list N), attrs_ok m ->
  tup_decode (tup_encode m ++ rest) = mk_tout TSOk m rest (N.of_nat (length m)) (alloc_of m).
Proof. exact tup_roundtrip. Qed.
Print Assumptions C05T_tup_roundtrip.
Theorem C05T_tup_roundtrip_map : forall m : attrs, attrs_ok m ->
  decoded_into [] (tup_decode (tup_encode m)) = dedupe m /\
  forall k, get (t_ins (tup_decode (tup_encode m))) k = get m k.
Proof. exact tup_roundtrip_map. Qed.
Print Assumptions C05T_tup_roundtrip_map.

(* ---- C06: every proper prefix of every encoding is rejected; what was added before the error is a prefix of
   the encoded entries ---- *)
Theorem C05T_tup_truncated_rejected : forall (m : attrs) (p : list N), attrs_ok m -> pprefix p (tup_encode m) ->
  let o := tup_decode p in t_stat o = TSErr /\ exists m2, m = t_ins o ++ m2.
Proof. exact tup_truncated_rejected. Qed.
Print Assumptions C05T_tup_truncated_rejected.
(* false of the decoder before 5664fef (value optional): a prefix ending after the last key is accepted *)
Theorem C05T_value_optional_refuted :
  let full := tup_encode [([97], [120])] in
  let cut := firstn 6 full in
  (length cut < length full)%nat /\ t_stat (tup_decode_b18cffe cut) = TSOk /\ t_ins (tup_decode_b18cffe cut) = [] /\
  t_stat (tup_decode cut) = TSErr.
Proof. exact value_optional_accepts_truncated. Qed.
Print Assumptions C05T_value_optional_refuted.

(* ---- C06: a map count or a buffer length that announces more than follows is rejected ---- *)
Theorem C05T_tup_inflated_count : forall (m : attrs) (extra : nat), Forall entry_ok m -> (0 < extra)%nat ->
  N.of_nat (length m + extra) < 2147483648 ->
  let o := tup_decode (head tMAP 0 ++ w_int32 (wrap32 (Z.of_nat (length m + extra))) 0 ++ flat_map enc_entry m) in
  t_stat o = TSErr /\ t_ins o = m.
Proof. exact tup_inflated_count. Qed.
Print Assumptions C05T_tup_inflated_count.
Theorem C05T_tup_inflated_buffer : forall (m : attrs) (k v tail : list N) (cnt announced : nat), Forall entry_ok m ->
  len k < 4294967296 -> (length m < cnt)%nat -> N.of_nat cnt < 2147483648 ->
  (length v + length tail < announced)%nat -> N.of_nat announced < 2147483648 ->
  let o := tup_decode (head tMAP 0 ++ w_int32 (wrap32 (Z.of_nat cnt)) 0 ++ flat_map enc_entry m ++
                       w_string k 0 ++ head tSIMPLE 1 ++ head tBYTE 0 ++ w_int32 (wrap32 (Z.of_nat announced)) 0 ++ v ++ tail) in
  t_stat o = TSErr /\ t_ins o = m.
Proof. exact tup_inflated_buffer. Qed.
Print Assumptions C05T_tup_inflated_buffer.

(* ---- C06, second clause: a field of an inadmissible wire type is rejected, not reinterpreted: the map itself, and -
   after any complete entries - a key that is not a string, a value that is not a SimpleList, an element head that
   is not BYTE; exactly the complete entries have been added ---- *)
Theorem C05T_tup_mistyped_map : forall (ty : N) (rest : list N), ty < 16 -> ty <> tMAP ->
  t_stat (tup_decode (head ty 0 ++ rest)) = TSErr.
Proof. exact tup_mistyped_map. Qed.
Print Assumptions C05T_tup_mistyped_map.
Theorem C05T_tup_mistyped : forall (m : attrs) (k : list N) (ty : N) (rest : list N) (cnt : nat), Forall entry_ok m ->
  (length m < cnt)%nat -> N.of_nat cnt < 2147483648 -> len k < 4294967296 -> ty < 16 ->
  let dec tail := tup_decode (head tMAP 0 ++ w_int32 (wrap32 (Z.of_nat cnt)) 0 ++ flat_map enc_entry m ++ tail) in
  (ty <> tSTR1 -> ty <> tSTR4 -> t_stat (dec (head ty 0 ++ rest)) = TSErr /\ t_ins (dec (head ty 0 ++ rest)) = m) /\
  (ty <> tSIMPLE -> t_stat (dec (w_string k 0 ++ head ty 1 ++ rest)) = TSErr /\ t_ins (dec (w_string k 0 ++ head ty 1 ++ rest)) = m) /\
  (ty <> tBYTE -> t_stat (dec (w_string k 0 ++ head tSIMPLE 1 ++ head ty 0 ++ rest)) = TSErr /\
                  t_ins (dec (w_string k 0 ++ head tSIMPLE 1 ++ head ty 0 ++ rest)) = m).
Proof. exact tup_mistyped. Qed.
Print Assumptions C05T_tup_mistyped.

(* Decode succeeds only on an input whose first field is a MAP at tag 0 ... *)
Theorem C05T_tup_strict_map : forall bs : list N, t_stat (tup_decode bs) = TSOk ->
  exists r two, read_head2 bs = Some (tMAP, 0, r, two).
Proof. exact tup_strict_map. Qed.
Print Assumptions C05T_tup_strict_map.
(* ... which is false of the decoder before fa80196 (lookup optional, its result ignored): an input without any
   field at tag 0 decodes to {"a": "x"} because the tag byte of a two-byte head is re-read as the head of the count *)
Theorem C05T_optional_map_refuted :
  let bs := [248; 2; 0; 0; 0; 1; 6; 1; 97; 29; 0; 0; 1; 120] in
  read_head2 bs = Some (tMAP, 2, [0; 0; 0; 1; 6; 1; 97; 29; 0; 0; 1; 120], true) /\
  t_stat (tup_decode_5664fef bs) = TSOk /\ t_ins (tup_decode_5664fef bs) = [([97], [120])] /\
  t_stat (tup_decode bs) = TSErr.
Proof. exact optional_map_reinterprets. Qed.
Print Assumptions C05T_optional_map_refuted.

(* ---- packets: header length consistency ---- *)
Theorem C05T_frame_header : forall body more : list N, 4 + N.of_nat (length body) < 4294967296 ->
  hdr (frame body ++ more) = Some (N.of_nat (length (frame body))).
Proof. exact frame_header. Qed.
Print Assumptions C05T_frame_header.
Theorem C05T_parse_frame : forall (max : N) (body more : list N),
  4 + N.of_nat (length body) < 4294967296 -> 4 + N.of_nat (length body) <= max ->
  tars_request max (frame body ++ more) = Full (length (frame body)) /\
  firstn (length (frame body)) (frame body ++ more) = frame body.
Proof. exact parse_frame. Qed.
Print Assumptions C05T_parse_frame.
Theorem C05T_request_pack_parses : forall (e : env) (req_sid : nat) (max : N) (req : val) (more : list N),
  let pk := request_pack e req_sid req in
  N.of_nat (length pk) < 4294967296 -> N.of_nat (length pk) <= max ->
  hdr (pk ++ more) = Some (N.of_nat (length pk)) /\ tars_request max (pk ++ more) = Full (length pk).
Proof. exact (fun e sid max req => frame_parses max (encode e sid req)). Qed.
Print Assumptions C05T_request_pack_parses.
Theorem C05T_rsp2byte_parses : forall (e : env) (req_sid rsp_sid : nat) (tup_version : Z) (max : N) (rsp : val) (more : list N),
  let pk := rsp2byte e req_sid rsp_sid tup_version rsp in
  N.of_nat (length pk) < 4294967296 -> N.of_nat (length pk) <= max ->
  hdr (pk ++ more) = Some (N.of_nat (length pk)) /\ tars_request max (pk ++ more) = Full (length pk).
Proof. exact rsp2byte_parses. Qed.
Print Assumptions C05T_rsp2byte_parses.

(* ---- packets: unpack on arbitrary bytes; pack then unpack ---- *)
Theorem C05T_unpack_total : forall (e : env) (sid : nat) (pkg : list N),
  ((length pkg < 4)%nat /\ unpack e sid pkg = DPanic site_slice_bounds) \/
  ((4 <= length pkg)%nat /\ unpack e sid pkg = decode e sid (skipn 4 pkg)).
Proof. exact unpack_total. Qed.
Print Assumptions C05T_unpack_total.
Theorem C05T_full_package_unpack_safe : forall (e : env) (max : N) (buf : list N) (n sid : nat), tars_request max buf = Full n ->
  (4 <= length (firstn n buf))%nat /\ unpack e sid (firstn n buf) = decode e sid (skipn 4 (firstn n buf)).
Proof. exact full_package_unpack_safe. Qed.
Print Assumptions C05T_full_package_unpack_safe.
(* "ResponseUnpack never panics on any bytes" without the ParsePackage guard is false of the faithful model *)
Theorem C05T_unpack_unguarded_refuted : exists pkg, forall e sid, unpack e sid pkg = DPanic site_slice_bounds.
Proof. exact unpack_unguarded_refuted. Qed.
Print Assumptions C05T_unpack_unguarded_refuted.
Theorem C05T_unpack_frame : forall (e : env) (sid : nat) (body : list N), unpack e sid (frame body) = decode e sid body.
Proof. exact unpack_frame. Qed.
Print Assumptions C05T_unpack_frame.
Theorem C05T_request_pack_unpack : forall (e : env) (req_sid : nat) (req : val),
  request_unpack e req_sid (request_pack e req_sid req) = decode e req_sid (encode e req_sid req).
Proof. exact request_pack_unpack. Qed.
Print Assumptions C05T_request_pack_unpack.
Theorem C05T_rsp2byte_plain : forall (e : env) (req_sid rsp_sid : nat) (tup_version : Z) (rsp : val),
  (rsp_version e rsp_sid rsp =? tup_version)%Z = false ->
  response_unpack e rsp_sid (rsp2byte e req_sid rsp_sid tup_version rsp) = decode e rsp_sid (encode e rsp_sid rsp).
Proof. exact rsp2byte_plain. Qed.
Print Assumptions C05T_rsp2byte_plain.
Theorem C05T_rsp2byte_tup : forall (e : env) (req_sid rsp_sid : nat) (tup_version : Z) (rsp : val),
  (rsp_version e rsp_sid rsp =? tup_version)%Z = true ->
  request_unpack e req_sid (rsp2byte e req_sid rsp_sid tup_version rsp) =
  decode e req_sid (encode e req_sid (req_of_rsp e req_sid rsp_sid rsp)).
Proof. exact rsp2byte_tup. Qed.
Print Assumptions C05T_rsp2byte_tup.

(* ---- C06 on ARBITRARY bytes: every key and buffer the decoder adds to the set is a contiguous piece of the
   input, the buffer after its key - no zero padding, no partial strings, nothing made up ---- *)
Theorem C05T_tup_nothing_made_up : forall (bs : list N) (kv : list N * list N),
  In kv (t_ins (tup_decode bs)) -> exists a b c, bs = a ++ fst kv ++ b ++ snd kv ++ c.
Proof. exact tup_nothing_made_up. Qed.
Print Assumptions C05T_tup_nothing_made_up.

(* ---- the server's InvokeTimeout: slice panic exactly below the header size; no reply at all to a one-way request;
   the reply to a two-way request is a full packet ---- *)
Theorem C05T_invoke_timeout_short : forall (e : env) (req_sid rsp_sid : nat) (tup_version oneway : Z) (pkg : list N),
  (length pkg < 4)%nat -> invoke_timeout e req_sid rsp_sid tup_version oneway pkg = DPanic site_slice_bounds.
Proof. exact invoke_timeout_short. Qed.
Print Assumptions C05T_invoke_timeout_short.
Theorem C05T_invoke_timeout_oneway : forall (e : env) (req_sid rsp_sid : nat) (tup_version oneway : Z) (pkg : list N) (req : val) (r : list N),
  request_unpack e req_sid pkg = DOk req r -> (req_packet_type e req_sid req =? oneway)%Z = true ->
  invoke_timeout e req_sid rsp_sid tup_version oneway pkg = DOk [] r.
Proof. exact invoke_timeout_oneway. Qed.
Print Assumptions C05T_invoke_timeout_oneway.
Theorem C05T_invoke_timeout_twoway : forall (e : env) (req_sid rsp_sid : nat) (tup_version oneway : Z) (max : N) (pkg : list N) (req : val) (r more : list N),
  request_unpack e req_sid pkg = DOk req r -> (req_packet_type e req_sid req =? oneway)%Z = false ->
  let reply := rsp2byte e req_sid rsp_sid tup_version (timeout_rsp e req_sid rsp_sid req) in
  invoke_timeout e req_sid rsp_sid tup_version oneway pkg = DOk reply r /\
  (N.of_nat (length reply) < 4294967296 -> N.of_nat (length reply) <= max ->
   hdr (reply ++ more) = Some (N.of_nat (length reply)) /\ tars_request max (reply ++ more) = Full (length reply)).
Proof. exact invoke_timeout_twoway. Qed.
Print Assumptions C05T_invoke_timeout_twoway.

(* ---- composed with the struct-level codec theorems, on the regenerated RequestPacket / ResponsePacket schemas:
   pack then unpack returns the packet value (up to veq: nil = empty, map order), for every well-typed value;
   unpack never runs out of fuel on arbitrary bytes ---- *)
Theorem C05T_request_pack_roundtrip : forall vs, has_type env0 (TStruct rq) (VStruct vs) ->
  exists v', request_unpack env0 rq (request_pack env0 rq (VStruct vs)) = DOk v' [] /\ veq env0 (TStruct rq) v' (VStruct vs).
Proof. exact request_pack_roundtrip. Qed.
Print Assumptions C05T_request_pack_roundtrip.
Theorem C05T_rsp2byte_roundtrip : forall vs, has_type env0 (TStruct rs) (VStruct vs) ->
  (rsp_version env0 rs (VStruct vs) =? c_TUPVERSION)%Z = false ->
  exists v', response_unpack env0 rs (rsp2byte env0 rq rs c_TUPVERSION (VStruct vs)) = DOk v' [] /\ veq env0 (TStruct rs) v' (VStruct vs).
Proof. exact rsp2byte_roundtrip. Qed.
Print Assumptions C05T_rsp2byte_roundtrip.
Theorem C05T_response_unpack_fuel : forall pkg, response_unpack env0 rs pkg <> DFuel.
Proof. exact response_unpack_fuel. Qed.
Print Assumptions C05T_response_unpack_fuel.
Theorem C05T_request_unpack_fuel : forall pkg, request_unpack env0 rq pkg <> DFuel.
Proof. exact request_unpack_fuel. Qed.
Print Assumptions C05T_request_unpack_fuel.

(* ---- the CURRENT source of UniAttribute.Encode writes the model's bytes ----
   Gen/Translated.v is regenerated from tars/protocol/tup/tup.go on every run (the map head with the count, the five
   writes per entry; their callees are the translated codec.Buffer methods). Run over the entries in the order Go's map
   iteration yields them, the translated statements append exactly tup_encode m and return a nil error. *)
From TarsV Require Import Xlate.GoSem Gen.Translated Xlate.TupEquiv.
Theorem C05T_source_encode_entry : forall err0 k v out,
  tr_tup_Encode_entry err0 k v out = Next (out ++ enc_entry (k, v), false).
Proof. exact TupEquiv.tr_tup_Encode_entry_equiv. Qed.
Print Assumptions C05T_source_encode_entry.
Theorem C05T_source_encode : forall m out, go_tup_encode m out = Next (out ++ tup_encode m, false).
Proof. exact TupEquiv.go_tup_encode_equiv. Qed.
Print Assumptions C05T_source_encode.

(* ---- the CURRENT source of UniAttribute.Decode computes the model's decoder on every input ----
   tr_tup_Decode is the whole function (the *codec.Reader parameter is the reader state, u.data the list of insertions
   in order; its callees are the translated codec.Reader methods). For a reader over any byte string a Go slice can hold,
   any attribute set to decode into, and any fuel from 2*len+9 on: the same status as tup_decode, the same entries added
   in the same order (also those before an error), the reader left where the model leaves it; never a panic. *)
From TarsV Require Import Xlate.ReaderEquiv Xlate.TupDecodeEquiv.
Theorem C05T_source_decode : forall F bs u, bytes_ok bs -> (go_len bs <= LEN_MAX)%Z -> (fuel_for bs + 5 <= F)%nat ->
  let o := tup_decode bs in
  match t_stat o with
  | TSOk => exists p', tr_tup_Decode F (Build_go_reader bs 0 0) u = Return (Build_go_reader bs p' 0, false, u ++ t_ins o) /\
                       go_drop bs p' = t_rest o /\ (0 <= p' <= go_len bs)%Z
  | TSErr => exists rd', tr_tup_Decode F (Build_go_reader bs 0 0) u = Return (rd', true, u ++ t_ins o)
  | TSFuel => False
  end.
Proof. exact TupDecodeEquiv.tr_tup_Decode_fresh. Qed.
Print Assumptions C05T_source_decode.
