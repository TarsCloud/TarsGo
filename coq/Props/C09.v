(* C09 — every call terminates by its deadline and leaves nothing behind.
   Statements only; every proof is [exact] of a lemma proved elsewhere.

   Model: Conc/CallLife.v — labelled transition system of TarsInvoke/doInvoke, AdapterProxy.Send/Recv and
   TarsClient.Send/ReConnect with an abstract clock.  [reach c s]: s is reachable from [init] by ANY label sequence
   (any number of callers, any peer behaviour: silent, late, duplicate, forged, connection loss, refusing, stalling,
   never reading; any interleaving), under configuration c (dial/write/read timeouts, send queue capacity,
   ObjQueueMax).  Time: local steps take no time, waiting does (maximal progress); the runtime's scheduling latency is
   the slack of the wall-clock monitor, not part of the model. *)
From Coq Require Import List NArith ZArith.
From TarsV Require Import Gen.C09Consts Conc.CallLife Conc.CallLifeProofs Conc.TraceSound Conc.TimeWheel Conc.TimeWheelProofs.
From TarsV Require Xlate.TimeWheelEquiv.
Import ListNotations.
Open Scope N_scope.

(* ---------- clause 1: every call returns by its deadline (+ connection establishment) ---------- *)

(* FULL STATEMENT (the property's bound, model slack 0): refuted twice below *)
Definition C09_returns_statement : Prop :=
  forall c s i k, 0 < writeT c -> reach c s -> nth_error (calls s) i = Some k -> k_pc k = Returned ->
    k_ret k <= k_dl k + dialT c.

(* (a) connect stalls: two callers, timeout 20, DialTimeout 40 — the second returns at 80 > 20 + 40 *)
Theorem C09_returns_refuted_stalled_dial : ~ C09_returns_statement.
Proof. exact CallLifeProofs.returns_refuted_stalled_dial. Qed.
Print Assumptions C09_returns_refuted_stalled_dial.

(* (b) peer never reads, send queue of length 1, WriteTimeout 60, timeout 10, DialTimeout 10 — returns at 60 > 10 + 10 *)
Theorem C09_returns_refuted_full_queue : ~ C09_returns_statement.
Proof. exact CallLifeProofs.returns_refuted_full_queue. Qed.
Print Assumptions C09_returns_refuted_full_queue.

(* PARTIAL: what holds for every call, all peers, all schedules: it returns by its deadline or by the end of its Send,
   whichever is later; Send ends at most DialTimeout (if this call dialled) + WriteTimeout (if it had to wait for room in
   the send queue) after the call got connLock.  What is missing w.r.t. the full statement: the time spent waiting for
   connLock (k_lockt - k_start, see C09_lock_wait) and the WriteTimeout term. *)
Theorem C09_returns_partial : forall c s i k,
  0 < writeT c -> reach c s -> nth_error (calls s) i = Some k -> k_pc k = Returned ->
  k_ret k <= N.max (k_dl k) (k_lockt k + (if k_d k then dialT c else 0) + (if k_e k then writeT c else 0)).
Proof. exact CallLifeProofs.returns_partial. Qed.
Print Assumptions C09_returns_partial.

(* ... with the wait for connLock made explicit (the "position in the dial queue"): k_w = how many dials of other calls
   ended while this call waited for connLock; every one of them costs at most one DialTimeout.  The bound is attained by
   the witness of C09_returns_refuted_stalled_dial (Example position_bound_attained). *)
Theorem C09_returns_position : forall c s i k,
  0 < writeT c -> reach c s -> nth_error (calls s) i = Some k -> k_pc k = Returned ->
  k_ret k <= N.max (k_dl k) (k_start k + (k_w k + (if k_d k then 1 else 0)) * dialT c + (if k_e k then writeT c else 0)).
Proof. exact CallLifeProofs.returns_position. Qed.
Print Assumptions C09_returns_position.

(* the property's bound holds for every call that got connLock at once and found room in the send queue ... *)
Theorem C09_returns_uncontended : forall c s i k,
  0 < writeT c -> reach c s -> nth_error (calls s) i = Some k -> k_pc k = Returned ->
  k_lockt k = k_start k -> k_e k = false -> k_ret k <= k_dl k + dialT c.
Proof. exact CallLifeProofs.returns_uncontended. Qed.
Print Assumptions C09_returns_uncontended.

(* ... and on an established connection the call returns by its deadline exactly *)
Theorem C09_returns_established : forall c s i k,
  0 < writeT c -> reach c s -> nth_error (calls s) i = Some k -> k_pc k = Returned ->
  k_lockt k = k_start k -> k_d k = false -> k_e k = false -> k_ret k <= k_dl k.
Proof. exact CallLifeProofs.returns_established. Qed.
Print Assumptions C09_returns_established.

(* bounded liveness as a safety property: the clock cannot pass these bounds while the call is still inside *)
Theorem C09_alive_bounded : forall c s i k,
  0 < writeT c -> reach c s -> nth_error (calls s) i = Some k ->
  match k_pc k with
  | Dialing => now s <= k_lockt k + dialT c
  | Enq => now s <= k_lockt k + dl_d c k + writeT c
  | Waiting | Done | Cleaned => now s <= B c k
  | _ => True end.
Proof. exact CallLifeProofs.alive_bounded. Qed.
Print Assumptions C09_alive_bounded.

(* a call waits for connLock only while another call is dialling, and that one is within its DialTimeout *)
Theorem C09_lock_wait : forall c s i k,
  0 < writeT c -> reach c s -> nth_error (calls s) i = Some k -> k_pc k = Reg -> step c s Tick <> None ->
  exists j kj, lock s = Some j /\ nth_error (calls s) j = Some kj /\ k_pc kj = Dialing /\ now s < k_lockt kj + dialT c.
Proof. exact CallLifeProofs.lock_wait. Qed.
Print Assumptions C09_lock_wait.

(* the only other user of connLock, the sender goroutine's idle check, takes and releases it within its step: it closes
   the idle connection and changes nothing else (the next call dials again, C09_returns_partial covers it) *)
Theorem C09_idle_close_inert : forall c s s', step c s LIdleClose = Some s' ->
  lock s = None /\ lock s' = None /\ conn_open s' = false /\ calls s' = calls s /\ queueLen s' = queueLen s /\
  invokeNum s' = invokeNum s /\ resp s' = resp s /\ sendq s' = sendq s /\ wire s' = wire s /\ now s' = now s.
Proof. exact CallLifeProofs.idle_close_inert. Qed.
Print Assumptions C09_idle_close_inert.

(* every close of a connection - of the current one, or a stale close by a goroutine of an earlier connection - takes
   connLock and gives it back; the stale close changes nothing else *)
Theorem C09_close_releases_lock : forall c s l s', l = LConnDown \/ l = LCloseOld -> step c s l = Some s' ->
  lock s = None /\ lock s' = None /\ calls s' = calls s /\ (forall p, queueLen s' p = queueLen s p) /\ invokeNum s' = invokeNum s /\
  resp s' = resp s /\ sendq s' = sendq s /\ (l = LCloseOld -> conn_open s' = conn_open s).
Proof. exact CallLifeProofs.close_releases_lock. Qed.
Print Assumptions C09_close_releases_lock.

(* the bounds above are not vacuous: the model never blocks the clock for good (finitely many local steps, no tick, lead
   to a state in which the clock can tick) *)
Theorem C09_no_timelock : forall c s, exists ls s',
  run c s ls = Some s' /\ now s' = now s /\ ~ In Tick ls /\ step c s' Tick <> None.
Proof. exact CallLifeProofs.no_timelock. Qed.
Print Assumptions C09_no_timelock.

(* the effective timeout the model's calls start with is derived in the model from the three sources TarsInvoke reads *)
Theorem C09_eff_caller_deadline_wins : forall p pc d, eff_of (mktmo p pc (Some d)) = d.
Proof. exact CallLifeProofs.eff_caller_deadline_wins. Qed.
Print Assumptions C09_eff_caller_deadline_wins.
Theorem C09_eff_percall_over_proxy : forall p q, eff_of (mktmo p (Some q) None) = Z.to_N q.
Proof. exact CallLifeProofs.eff_percall_over_proxy. Qed.
Print Assumptions C09_eff_percall_over_proxy.
Theorem C09_eff_nonpositive_expired : forall t, t_ctx t = None -> (configured t <= 0)%Z -> eff_of t = 0.
Proof. exact CallLifeProofs.eff_nonpositive_expired. Qed.
Print Assumptions C09_eff_nonpositive_expired.

(* ---------- clause 2: the result is the reply, an error, or the timeout error ---------- *)
Theorem C09_outcome : forall c s i k, reach c s -> nth_error (calls s) i = Some k -> k_pc k = Returned ->
  exists o, k_out k = Some o /\
    match o with
    | Reply p => In (id_of i, p) (sent s)
    | Timeout => k_dl k <= k_ret k
    | Error => ~ In i (sendq s) /\ ~ In i (wire s)
    | Sent => k_ow k = true /\ (In i (sendq s) \/ In i (wire s))
    | Cancelled => True
    end.
Proof. exact CallLifeProofs.outcome_classes. Qed.
Print Assumptions C09_outcome.

(* ---------- clause 3: nothing is left behind ---------- *)
(* at every reachable state the three values are functions of where the callers stand.  The counter and the table are
   moved by separate instructions: [counted] = between AddInt32(&queueLen, 1) and the deferred AddInt32(-1), [inside] =
   between resp.Store and the deferred resp.Delete, [invoked] = between preInvoke and postInvoke.  queueLen belongs to the
   ServantProxy the call was made on ([queueLen s p], [counted_by p] = counted and made on proxy p): several proxies for one
   object share the endpoint manager (invokeNum) and its adapters (the table), each keeps its own queueLen *)
Theorem C09_restored : forall c s, reach c s ->
  (forall p, queueLen s p = cnt (counted_by p) (calls s)) /\ invokeNum s = cnt invoked (calls s) /\
  (forall i, In i (resp s) <-> inside_at (calls s) i) /\ NoDup (resp s).
Proof. exact CallLifeProofs.restored_counts. Qed.
Print Assumptions C09_restored.

(* each queueLen has one owner: only the registration / cleanup of a call made on proxy p moves queueLen of p, by +1 / -1 *)
Theorem C09_counter_owner : forall c s l s', step c s l = Some s' ->
  forall p, queueLen s' p <> queueLen s p ->
  exists i k, nth_error (calls s) i = Some k /\ k_px k = p /\
    ((l = LCount i /\ queueLen s' p = (queueLen s p + 1)%Z) \/ (l = LUncount i /\ queueLen s' p = (queueLen s p - 1)%Z)).
Proof. exact CallLifeProofs.counter_owner. Qed.
Print Assumptions C09_counter_owner.

Theorem C09_restored_quiescent : forall c s, reach c s ->
  (forall i k, nth_error (calls s) i = Some k -> k_pc k = Init \/ k_pc k = Returned) ->
  (forall p, queueLen s p = 0%Z) /\ invokeNum s = 0%Z /\ resp s = [].
Proof. exact CallLifeProofs.restored_quiescent. Qed.
Print Assumptions C09_restored_quiescent.

Theorem C09_restored_no_call_inside : forall c s, reach c s ->
  (forall i k, nth_error (calls s) i = Some k -> in_doInvoke k = false) -> (forall p, queueLen s p = 0%Z) /\ resp s = [].
Proof. exact CallLifeProofs.restored_no_call_inside. Qed.
Print Assumptions C09_restored_no_call_inside.

Theorem C09_restored_per_call : forall c s1 s2 i k1 k2, reach c s1 -> reach c s2 ->
  length (calls s1) = length (calls s2) ->
  (forall j a b, j <> i -> nth_error (calls s1) j = Some a -> nth_error (calls s2) j = Some b -> k_pc a = k_pc b) ->
  (forall j a b, nth_error (calls s1) j = Some a -> nth_error (calls s2) j = Some b -> k_px a = k_px b) ->
  nth_error (calls s1) i = Some k1 -> k_pc k1 = Init -> nth_error (calls s2) i = Some k2 -> k_pc k2 = Returned ->
  (forall p, queueLen s1 p = queueLen s2 p) /\ invokeNum s1 = invokeNum s2 /\ (forall j, In j (resp s1) <-> In j (resp s2)).
Proof. exact CallLifeProofs.restored_per_call. Qed.
Print Assumptions C09_restored_per_call.

(* THE LEDGER OF A CALL, over all outcomes (reply, timeout, cancellation by the caller, error from a refused / timed-out
   dial, from the enqueue timeout, from a full invoke queue, from a rejecting client filter, one-way): once the call has
   returned it has no table entry, is counted in neither counter, does not hold connLock, none of its timers can act, and
   a receiver that still holds its reply channel is released within ReadTimeout and cannot deliver.  (A panic inside a
   client filter ends the process through TarsInvoke's CheckPanic: there is nothing to restore.) *)
Theorem C09_ledger_all_outcomes : forall c s i k, reach c s -> nth_error (calls s) i = Some k -> k_pc k = Returned ->
  (exists o, k_out k = Some o) /\ (forall o, k_out k = Some o -> ledger_clear c s i).
Proof. exact CallLifeProofs.ledger_all_outcomes. Qed.
Print Assumptions C09_ledger_all_outcomes.

(* ---------- clause 4: a reply that arrives later is discarded without affecting any other call ---------- *)
Theorem C09_late_reply_inert : forall c s r x l s', reach c s -> nth_error (rcvs s) r = Some x ->
  (forall j, call_of (r_id x) = Some j -> not_waiting s j) ->
  l = LLookup r \/ l = LDeliver r \/ l = LGiveUp r -> step c s l = Some s' -> same_calls s s'.
Proof. exact CallLifeProofs.late_reply_inert. Qed.
Print Assumptions C09_late_reply_inert.

Theorem C09_peer_packet_inert : forall c s id pay s', step c s (LPeerPkt id pay) = Some s' -> same_calls s s'.
Proof. exact CallLifeProofs.peer_packet_inert. Qed.
Print Assumptions C09_peer_packet_inert.

Theorem C09_late_reply_dropped : forall c s r x j k s', reach c s -> nth_error (rcvs s) r = Some x -> r_pc x = RNew ->
  call_of (r_id x) = Some j -> nth_error (calls s) j = Some k -> k_pc k = Returned ->
  step c s (LLookup r) = Some s' -> exists x', nth_error (rcvs s') r = Some x' /\ r_pc x' = RDone.
Proof. exact CallLifeProofs.late_reply_dropped. Qed.
Print Assumptions C09_late_reply_dropped.

Theorem C09_reply_only_to_its_call : forall c s r x s', reach c s -> nth_error (rcvs s) r = Some x ->
  step c s (LDeliver r) = Some s' ->
  exists j k, call_of (r_id x) = Some j /\ nth_error (calls s) j = Some k /\ k_pc k = Waiting /\
              calls s' = upd (calls s) j (set_out k (Reply (r_pay x)) (k_e k)).
Proof. exact CallLifeProofs.reply_only_to_its_call. Qed.
Print Assumptions C09_reply_only_to_its_call.

Theorem C09_receiver_released : forall c s r x j, reach c s -> nth_error (rcvs s) r = Some x -> r_pc x = RFound j ->
  now s <= r_t0 x + readT c.
Proof. exact CallLifeProofs.receiver_released. Qed.
Print Assumptions C09_receiver_released.

(* ---------- trace validation is sound for the model ----------
   [project] observes a run of the model at the harness's observation points (pre-filter = registration, post-filter =
   cleanup, return with the counters as they are then, peer receive = the sender's write, peer send); [arun]/[accepts] is
   the specification machine that validates the implementation's event traces.  Every run of the model is accepted event
   by event, and completely once every started call has returned: a rejected implementation trace is therefore a
   behaviour no execution of the model has. *)
Theorem C09_trace_sound : forall c ls s, run c init ls = Some s ->
  exists a, arun (mkast [] 0 0 [] [] []) (project c init ls) = Some a /\ Sim s a.
Proof. exact TraceSound.trace_sound. Qed.
Print Assumptions C09_trace_sound.

Theorem C09_trace_accepted : forall c ls s, run c init ls = Some s ->
  (forall i k, nth_error (calls s) i = Some k -> k_pc k = Returned) -> accepts (project c init ls) = true.
Proof. exact TraceSound.trace_accepted. Qed.
Print Assumptions C09_trace_accepted.

(* the predictions of the correspondence are executions of this transition system: the canonical run of a fault script
   (what `predicted` evaluates) is a label sequence of [step] from [init], so every theorem above applies to it *)
Theorem C09_canonical_is_run : forall sc s ls, canonical sc = (s, ls, true) ->
  run (sc_cfg sc) init (rev ls) = Some s /\ reach (sc_cfg sc) s.
Proof. exact TraceSound.canonical_is_run. Qed.
Print Assumptions C09_canonical_is_run.

(* ---------- the time wheel tolerance (uses the accuracy constant regenerated from the tree) ---------- *)
Theorem C09_wheel_not_early : forall T, 19 * T <= 20 * lo T.
Proof. exact CallLifeProofs.wheel_not_early. Qed.
Print Assumptions C09_wheel_not_early.

Theorem C09_wheel_not_late : forall T, lo T <= T.
Proof. exact CallLifeProofs.wheel_not_late. Qed.
Print Assumptions C09_wheel_not_late.

(* the wheel itself (Conc/TimeWheel.v, model of rtimer/timewheel.go): the channel returned by After is open during the
   first pos ticks and closed from tick pos+1 on *)
Theorem C09_wheel_after_fires : forall t timeout w ch, (0 < t)%N -> wf w -> after t timeout w = Some ch ->
  let pos := after_pos t timeout in
  (forall n, (n <= pos)%nat -> closed (wticks n w) ch = false) /\
  (forall n, (pos < n)%nat -> closed (wticks n w) ch = true).
Proof. exact TimeWheelProofs.after_fires. Qed.
Print Assumptions C09_wheel_after_fires.

(* rtimer.After(T), T a positive multiple of the accuracy (every millisecond duration is one): slot accuracy-1, no panic,
   fires in (T - T/accuracy, T] *)
Theorem C09_wheel_default_slot : forall q, (0 < q)%N ->
  after_pos (rt_tick (c_rtimer_accuracy * q)) (c_rtimer_accuracy * q) = pred (N.to_nat c_rtimer_accuracy).
Proof. exact TimeWheelProofs.rt_after_pos. Qed.
Print Assumptions C09_wheel_default_slot.

Theorem C09_wheel_no_panic : forall q w, (0 < q)%N -> w_size w = rt_size -> rt_after (c_rtimer_accuracy * q) w <> None.
Proof. exact TimeWheelProofs.rt_after_no_panic. Qed.
Print Assumptions C09_wheel_no_panic.

Theorem C09_wheel_ms_multiple : forall ms, exists q, (ms * 1000000 = c_rtimer_accuracy * q)%N.
Proof. exact TimeWheelProofs.ms_is_multiple. Qed.
Print Assumptions C09_wheel_ms_multiple.

Theorem C09_wheel_fire_window : forall t phi, (0 < phi <= t)%N ->
  let T := (c_rtimer_accuracy * t)%N in
  let fire := (phi + (c_rtimer_accuracy - 1) * t)%N in
  (T - T / c_rtimer_accuracy < fire /\ fire <= T)%N.
Proof. exact TimeWheelProofs.fire_time_window. Qed.
Print Assumptions C09_wheel_fire_window.

(* rtimer.After unlocks the table of wheels on every path, also when it panics (durations below the accuracy, e.g. the
   read timeout 0, always do: AdapterProxy.Recv recovers that panic and later calls still need After) *)
Theorem C09_wheel_after_unlocks : forall T w, snd (rt_after_full T w) = false.
Proof. exact TimeWheelProofs.rt_after_unlocks. Qed.
Print Assumptions C09_wheel_after_unlocks.

Theorem C09_wheel_tiny_panics : forall T, (T < c_rtimer_accuracy)%N -> rt_panics T = true.
Proof. exact TimeWheelProofs.rt_after_tiny_panics. Qed.
Print Assumptions C09_wheel_tiny_panics.
(* ---- the CURRENT source of ServantProxy.TarsInvoke: the effective timeout ----
   regenerated from tars/servant.go on every run (Xlate/TarsInvokeEquiv.v): the time left to the caller's deadline if the
   context has one, else the per-call timeout of current.SetClientTimeout, else the proxy's timeout; told to the server in
   ITimeout; a timer (context.WithTimeout) of exactly that duration is armed when - and only when - the caller brought no
   deadline, whatever the sign of the timeout. *)
From TarsV Require Import Xlate.GoSem Gen.Translated Xlate.TarsInvokeEquiv.
Theorem C09_source_effective_timeout : forall req proxy_ms (has_dl : bool) until ct out,
  int31 proxy_ms -> int31 (snd (fst ct)) -> int63 until ->
  go_requestf_RequestPacket_ITimeout req = wrapS 32 proxy_ms ->
  let dl := if has_dl then Some until else None in
  let t := eff_timeout proxy_ms (per_call ct) dl in
  tr_TarsInvoke_timeout req proxy_ms has_dl until ct out =
  Next ((out ++ (if has_dl then [] else [t]))%list, t, with_itimeout req (eff_itimeout proxy_ms (per_call ct) dl)).
Proof. exact TarsInvokeEquiv.tr_TarsInvoke_timeout_equiv. Qed.
Print Assumptions C09_source_effective_timeout.
(* ---- the CURRENT source of AdapterProxy.Recv: the hand-over of a late reply is bounded by conf.ReadTimeout ----
   (Xlate/AdapterRecvEquiv.v) whenever the translated statements arm a timer, its duration is exactly conf.ReadTimeout and the
   table has an entry under the packet's id *)
From TarsV Require Import Conc.Pending Xlate.AdapterRecvEquiv.
Theorem C09_source_recv_timer : forall p t ptype rt sel d, (ptype =? k_basef_TARSONEWAY)%Z = p_oneway p ->
  forall o, out_of (tr_adapter_Recv rt (match lookup (p_id p) t with Some _ => true | None => false end) ptype (p_id p) sel []) = Some o ->
  In (3, d)%Z o -> d = rt /\ exists ch, lookup (p_id p) t = Some ch /\ p_id p <> 0%Z.
Proof. exact AdapterRecvEquiv.adapter_Recv_timer. Qed.
Print Assumptions C09_source_recv_timer.
