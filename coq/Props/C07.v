(* C07 — stream framing is independent of TCP segmentation and bounds packet size.
   Statements only; the proofs point at lemmas of Frame/FramingProofs.v, Frame/RecvEvents.v and Xlate/Recv*Equiv.v. *)
From Coq Require Import List NArith.
From TarsV Require Import Base.Hex Frame.Framing Frame.FramingProofs.
From TarsV Require Import Xlate.GoSem Gen.Translated Xlate.RecvEquiv.
Import ListNotations.
Open Scope N_scope.

(* every packet list, every partition of the stream into reads, every maximum: delivered = sent,
   each once, complete, in order; connection stays open with an empty buffer *)
Theorem C07_reassembly : forall max pks chunks,
  Forall (valid max) pks -> concat chunks = concat pks ->
  recv_loop max [] chunks = (pks, Some []).
Proof. exact FramingProofs.C07_reassembly. Qed.

(* a trailing proper prefix of a packet is held back, nothing is delivered early or lost *)
Theorem C07_partial : forall max pks pk q t chunks,
  Forall (valid max) pks -> valid max pk -> pk = q ++ t -> t <> [] ->
  concat chunks = concat pks ++ q -> recv_loop max [] chunks = (pks, Some q).
Proof. exact FramingProofs.C07_partial_prefix. Qed.

(* an illegal length prefix delivers what preceded it and closes this connection; junk after it is never delivered *)
Theorem C07_error : forall max pks bad junk l chunks,
  Forall (valid max) pks -> hdr bad = Some l -> (l < 4 \/ max < l) ->
  concat chunks = concat pks ++ bad ++ junk -> recv_loop max [] chunks = (pks, None).
Proof. exact FramingProofs.C07_error. Qed.

Theorem C07_segmentation_independent : forall max chunks1 chunks2,
  concat chunks1 = concat chunks2 -> recv_loop max [] chunks1 = recv_loop max [] chunks2.
Proof. exact FramingProofs.C07_segmentation_independent. Qed.

Theorem C07_max_accepted : forall max body chunks,
  4 + N.of_nat (length body) = max -> max < 4294967296 ->
  concat chunks = mk_packet body -> recv_loop max [] chunks = ([mk_packet body], Some []).
Proof. exact FramingProofs.C07_max_accepted. Qed.

Theorem C07_max_plus_one_rejected : forall max body junk pks chunks,
  Forall (valid max) pks -> 4 + N.of_nat (length body) = max + 1 -> max + 1 < 4294967296 ->
  concat chunks = concat pks ++ mk_packet body ++ junk -> recv_loop max [] chunks = (pks, None).
Proof. exact FramingProofs.C07_max_plus_one_rejected. Qed.

Theorem C07_short_length_rejected : forall max l junk pks chunks,
  Forall (valid max) pks -> l < 4 ->
  concat chunks = concat pks ++ be32 l ++ junk -> recv_loop max [] chunks = (pks, None).
Proof. exact FramingProofs.C07_short_length_rejected. Qed.

(* the receive loops of the code are that model: the Gallina text generated from the current source of tcpHandler.recv
   (server) and connection.recv (client) - what they do with every chunk conn.Read returns, ParsePackage being
   protocol.TarsRequest - iterated over the successful reads (buffer, n), hands over exactly the packages recv_loop
   delivers, in that order, keeps the same remainder, and gives the connection up exactly when recv_loop closes it *)
Theorem C07_server_loop_is_model : forall max reads cur out, Forall read_ok reads ->
  run_reads tr_srv_recv_chunk max cur reads out =
  (out ++ fst (recv_loop max cur (map chunk_of reads)), snd (recv_loop max cur (map chunk_of reads))).
Proof. exact RecvEquiv.srv_recv_is_recv_loop. Qed.
Theorem C07_client_loop_is_model : forall max reads cur out, Forall read_ok reads ->
  run_reads tr_cli_recv_chunk max cur reads out =
  (out ++ fst (recv_loop max cur (map chunk_of reads)), snd (recv_loop max cur (map chunk_of reads))).
Proof. exact RecvEquiv.cli_recv_is_recv_loop. Qed.

(* ---- read EVENTS: data, read timeout, end of stream, other errors; shutdown flag and idle state on the server ----
   Frame/RecvEvents.v extends recv_loop from chunks to events; Xlate/RecvEventsEquiv.v ties it to the CURRENT source: the
   statement `if err != nil {..}` after conn.Read of both loops is regenerated on every run (tr_srv_recv_event,
   tr_cli_recv_event) and, followed by the package-cutting statements when the read brought data, run over ANY list of
   events it delivers exactly the model's packages, keeps the model's bytes and leaves the loop exactly when the model
   does; a read timeout never changes the buffered bytes. *)
From TarsV Require Import Frame.RecvEvents Xlate.RecvEventsEquiv.
Theorem C07_server_events_is_model : forall max evs cur out, Forall gev_ok evs ->
  run_events srv_evstep tr_srv_recv_chunk max cur evs out =
  (out ++ fst (srv_events max cur (map sev_of evs)), stat_of (snd (srv_events max cur (map sev_of evs)))).
Proof. exact RecvEventsEquiv.srv_events_is_model. Qed.
Theorem C07_client_events_is_model : forall max evs cur out, Forall gev_ok evs ->
  run_events cli_evstep tr_cli_recv_chunk max cur evs out =
  (out ++ fst (cli_events max cur (map rev_of evs)), stat_of (snd (cli_events max cur (map rev_of evs)))).
Proof. exact RecvEventsEquiv.cli_events_is_model. Qed.
(* the chunk model is the event model without failed reads *)
Theorem C07_events_extend_chunks : forall max chunks cur,
  cli_events max cur (map EData chunks) = recv_loop max cur chunks /\
  forall f g, srv_events max cur (map (fun c => {| s_ev := EData c; s_closing := f c; s_idle := g c |}) chunks) = recv_loop max cur chunks.
Proof. intros max chunks cur. split; [apply cli_events_data|intros; apply srv_events_data]. Qed.
(* read timeouts: invisible to the client; on the server the loop goes on with exactly the bytes it held, or is left - and
   it is left only with an empty buffer (shutting down or idle); a partial package survives any number of timeouts *)
Theorem C07_client_timeouts_invisible : forall max evs cur,
  cli_events max cur evs = cli_events max cur (filter (fun e => negb (is_timeout e)) evs).
Proof. exact RecvEvents.cli_timeouts_invisible. Qed.
Theorem C07_client_timeout_keeps_buffer : forall cur eof operr,
  tr_cli_recv_event cur true eof operr true = Return (inl (inr cur)).
Proof. exact RecvEventsEquiv.cli_timeout_keeps_buffer. Qed.
Theorem C07_server_timeout_keeps_buffer : forall cur e, g_err e = true -> g_nodata e = true ->
  srv_evstep e cur = Return (inl (inr cur)) \/ (srv_evstep e cur = Return (inr tt) /\ cur = []%list).
Proof. intros cur e He Hn. unfold srv_evstep. rewrite He. exact (RecvEventsEquiv.srv_timeout_keeps_buffer cur e He Hn). Qed.
Theorem C07_server_partial_survives_timeouts : forall max cur es es', cur <> []%list ->
  Forall (fun e => s_ev e = ETimeout) es -> srv_events max cur (es ++ es') = srv_events max cur es'.
Proof. exact RecvEvents.srv_partial_survives_timeouts. Qed.

Print Assumptions C07_reassembly.
Print Assumptions C07_partial.
Print Assumptions C07_error.
Print Assumptions C07_segmentation_independent.
Print Assumptions C07_max_accepted.
Print Assumptions C07_max_plus_one_rejected.
Print Assumptions C07_short_length_rejected.
Print Assumptions C07_server_loop_is_model.
Print Assumptions C07_client_loop_is_model.
Print Assumptions C07_server_events_is_model.
Print Assumptions C07_client_events_is_model.
Print Assumptions C07_events_extend_chunks.
Print Assumptions C07_client_timeouts_invisible.
Print Assumptions C07_client_timeout_keeps_buffer.
Print Assumptions C07_server_timeout_keeps_buffer.
Print Assumptions C07_server_partial_survives_timeouts.
