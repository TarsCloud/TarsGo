(* C20 — Flush writes every log entry logged before it, once and in order. Statements only.
   [run cap init ls = Some s]: ls is a schedule of the repaired logger (any interleaving of any number of
   logging goroutines, the flusher and the FlushLogger caller; any queue capacity) leading to state s.
   rets_of / calls_of / writes_of: the entries whose logging call returned / began / that were handed to
   their writer (one Write label = one Write of one whole entry on the entry's writer), in schedule order. *)
From Coq Require Import List NArith.
From TarsV Require Import Gen.Consts Conc.Flush Conc.FlushProofs.
Import ListNotations.
Open Scope N_scope.

(* Any number of FlushLogger callers c, c', ..., concurrent or not (Run's deferred call, CheckPanic in any goroutine, the
   application). Every entry whose logging call returned before a FlushLogger call made while nobody had signalled yet
   (no Request in l1: in particular before the first call of all) has been written when a call — this one or another
   caller's — returns on the flusher's acknowledgement ... *)
Theorem C20_flush_complete : forall cap l1 c l2 c' l3 s,
  run cap init (l1 ++ FlushCall c :: l2 ++ FlushRet c' true :: l3) = Some s -> existsb is_request l1 = false ->
  forall e, In e (rets_of l1) -> In e (writes_of (l1 ++ FlushCall c :: l2)).
Proof. exact FlushProofs.flush_complete. Qed.
Theorem C20_flush_complete_first_call : forall cap l1 c l2 c' l3 s,
  run cap init (l1 ++ FlushCall c :: l2 ++ FlushRet c' true :: l3) = Some s -> existsb is_flushcall l1 = false ->
  forall e, In e (rets_of l1) -> In e (writes_of (l1 ++ FlushCall c :: l2)).
Proof. exact FlushProofs.flush_complete_first_call. Qed.
(* the fact behind it: whatever returned before the flusher's acknowledging step has been written *)
Theorem C20_all_before_ack_written : forall cap l1 l2 s,
  run cap init (l1 ++ DrainDone :: l2) = Some s -> forall e, In e (rets_of l1) -> In e (writes_of l1).
Proof. exact FlushProofs.all_before_ack_written. Qed.

(* ... exactly once (no Write is repeated anywhere in the schedule, and none follows the acknowledgement) *)
Theorem C20_written_once : forall cap ls s, run cap init ls = Some s -> NoDup (writes_of ls).
Proof. exact FlushProofs.writes_once. Qed.
Theorem C20_no_write_after_ack : forall cap l1 c l3 s,
  run cap init (l1 ++ FlushRet c true :: l3) = Some s -> writes_of l3 = [].
Proof. exact FlushProofs.no_write_after_ack. Qed.

(* entries of one goroutine reach the writers in the order they were logged *)
Theorem C20_per_goroutine_order : forall cap ls s, run cap init ls = Some s ->
  forall a e1 b e2 c, writes_of ls = a ++ e1 :: b ++ e2 :: c -> eg e1 = eg e2 -> en e1 < en e2.
Proof. exact FlushProofs.writes_per_goroutine_order. Qed.

(* across goroutines: a call that returned before another began is written first *)
Theorem C20_fifo_real_time : forall cap a e1 b e2 c s x y,
  run cap init (a ++ LogRet e1 :: b ++ LogCall e2 :: c) = Some s ->
  writes_of (a ++ LogRet e1 :: b ++ LogCall e2 :: c) = x ++ e2 :: y -> In e1 x.
Proof. exact FlushProofs.fifo_real_time. Qed.

(* a Write hands over exactly an entry submitted by an earlier logging call (same goroutine, number, writer) *)
Theorem C20_write_was_logged : forall cap a l b s e,
  run cap init (a ++ l :: b) = Some s -> writes_of [l] = [e] -> In e (calls_of a).
Proof. exact FlushProofs.write_was_logged. Qed.

(* nothing is dropped: everything enqueued is written, held by the flusher for its Write, or still queued, in order *)
Theorem C20_conservation : forall cap ls s, run cap init ls = Some s -> hist s = writes_of ls ++ held s ++ q s.
Proof. exact FlushProofs.conservation. Qed.

(* after the request the flusher always has a step until it has acknowledged *)
Theorem C20_flusher_not_blocked_after_request : forall cap s,
  req s = true -> fp s <> Done -> exists l s', flusher_label l /\ step cap s l = Some s'.
Proof. exact FlushProofs.flusher_not_blocked_after_request. Qed.

(* ... and, counted from FlushLogger's (first) signal, [2 * length of the queue + 2] of its steps (a receive and a Write per
   entry) suffice to write every entry whose call had returned, however many entries other goroutines log meanwhile. (That these steps fit into FlushLogger's
   one second depends on the scheduler and the writers' speed: outside the model.) *)
Theorem C20_flush_bounded : forall cap l1 c l2 s1 s2 s,
  run cap init l1 = Some s1 -> req s1 = false -> step cap s1 (Request c) = Some s2 -> run cap s2 l2 = Some s ->
  (2 * length (q s1) + 2 <= flusher_steps l2)%nat ->
  forall e, In e (rets_of l1) -> In e (writes_of (l1 ++ Request c :: l2)).
Proof. exact FlushProofs.flush_bounded. Qed.

(* The log level (rogger.SetLevel at any time, by any goroutine) is a guard on the ACCEPT step of a levelled logging call and
   is consulted nowhere else: all theorems above quantify over schedules with SetLevel / filtered calls anywhere, so what was
   accepted is written whatever the level becomes afterwards; WriteLog / Trace (LogCall) have no level guard *)
Theorem C20_accept_guard : forall cap s e l s',
  step cap s (LogCallAt e l) = Some s' -> lvl s <= l /\ step cap s (LogCall e) = Some s'.
Proof. exact FlushProofs.accept_guard. Qed.
Theorem C20_filtered_call_submits_nothing : forall cap s g l s',
  step cap s (LogFiltered g l) = Some s' -> l < lvl s /\ s' = s.
Proof. exact FlushProofs.filtered_call_submits_nothing. Qed.
Theorem C20_level_consulted_only_at_accept : forall cap s n l, level_blind l = true ->
  step cap (with_lvl s n) l = match step cap s l with Some s' => Some (with_lvl s' n) | None => None end.
Proof. exact FlushProofs.level_consulted_only_at_accept. Qed.

(* FlushLogger is one-shot (known finding "second flush"). The model lets FlushLogger be called again, as the code
   does; without "first call" the completeness statement is FALSE of the faithful model and of the code: *)
Definition C20_flush_complete_any_call_statement : Prop := forall cap l1 c l2 c' l3 s,
  run cap init (l1 ++ FlushCall c :: l2 ++ FlushRet c' true :: l3) = Some s ->
  forall e, In e (rets_of l1) -> In e (writes_of (l1 ++ FlushCall c :: l2)).
Theorem C20_flush_complete_any_call_refuted : ~ C20_flush_complete_any_call_statement.
Proof. exact FlushProofs.flush_complete_any_call_refuted. Qed.
(* witness (vm_compute): log, flush, log e, flush again — the second call returns on the acknowledgement, e stays queued *)
Theorem C20_second_flush_refuted :
  exists cap l1 c l2 l3 e s,
    run cap init (l1 ++ FlushCall c :: l2 ++ FlushRet c true :: l3) = Some s /\ In e (rets_of l1) /\
    ~ In e (writes_of (l1 ++ FlushCall c :: l2 ++ FlushRet c true :: l3)) /\ q s = [e] /\ fl s c = FReturned true.
Proof. exact FlushProofs.second_flush_refuted. Qed.
(* in general: an entry logged after the acknowledged flush is never written, whatever follows — the flusher goroutine
   has returned *)
Theorem C20_logged_after_ack_never_written : forall cap l1 c l3 s,
  run cap init (l1 ++ FlushRet c true :: l3) = Some s ->
  forall e, In e (calls_of l3) -> ~ In e (writes_of (l1 ++ FlushRet c true :: l3)).
Proof. exact FlushProofs.logged_after_ack_never_written. Qed.

(* the tie: every visible trace of the model, under every schedule, is accepted by the specification machine
   that validates the implementation's recorded traces (so a rejected trace is not a behaviour of the model) *)
Theorem C20_trace_validation_sound : forall cap ls s, run cap init ls = Some s -> accepts (visible ls) = true.
Proof. exact FlushProofs.visible_trace_accepted. Qed.

(* "within the flush timeout": the tree's queue is buffered and FlushLogger waits at least one second *)
Theorem C20_tree_constants_in_range : 0 < c_rogger_queue_cap /\ 1000 <= c_rogger_wait_flush_timeout_ms.
Proof. vm_compute. split; [reflexivity | discriminate]. Qed.

(* ... and acceptance means the property: on an accepted trace every entry whose call returned before FlushLogger was
   called is written before the acknowledged return; each entry is written at most once and only after its call began;
   an entry whose call returned before another's call began is written first (hence per-goroutine order) *)
Theorem C20_accepted_trace_complete : forall t1 c t2 c' t3,
  accepts (t1 ++ EFlushCall c :: t2 ++ EFlushRet c' true :: t3) = true -> existsb is_fcall t1 = false ->
  forall e, In (ERet e) t1 -> In (EWrite e) (t1 ++ EFlushCall c :: t2).
Proof. exact FlushProofs.accepts_complete. Qed.
Theorem C20_accepted_trace_once : forall a e b,
  accepts (a ++ EWrite e :: b) = true -> ~ In (EWrite e) a /\ In (ECall e) a.
Proof. exact FlushProofs.accepts_once. Qed.
Theorem C20_accepted_trace_fifo : forall a1 e1 a2 e2 a3 b,
  accepts (a1 ++ ERet e1 :: a2 ++ ECall e2 :: a3 ++ EWrite e2 :: b) = true ->
  In (EWrite e1) (a1 ++ ERet e1 :: a2 ++ ECall e2 :: a3).
Proof. exact FlushProofs.accepts_fifo. Qed.

Print Assumptions C20_flush_complete.
Print Assumptions C20_written_once.
Print Assumptions C20_no_write_after_ack.
Print Assumptions C20_per_goroutine_order.
Print Assumptions C20_fifo_real_time.
Print Assumptions C20_write_was_logged.
Print Assumptions C20_conservation.
Print Assumptions C20_flusher_not_blocked_after_request.
Print Assumptions C20_trace_validation_sound.
Print Assumptions C20_tree_constants_in_range.
Print Assumptions C20_logged_after_ack_never_written.
Print Assumptions C20_flush_bounded.
Print Assumptions C20_accepted_trace_complete.
Print Assumptions C20_accepted_trace_once.
Print Assumptions C20_accepted_trace_fifo.
Print Assumptions C20_flush_complete_any_call_refuted.
Print Assumptions C20_second_flush_refuted.
Print Assumptions C20_flush_complete_first_call.
Print Assumptions C20_all_before_ack_written.
Print Assumptions C20_accept_guard.
Print Assumptions C20_filtered_call_submits_nothing.
Print Assumptions C20_level_consulted_only_at_accept.
