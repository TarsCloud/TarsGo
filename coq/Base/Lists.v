(* List facts that several unrelated proof files need and the standard library of Coq 8.16 does not state. *)
From Coq Require Import List Permutation.
Import ListNotations.

Lemma NoDup_snoc {A} (l : list A) x : NoDup l -> ~ In x l -> NoDup (l ++ [x]).
Proof. intros H1 H2. eapply Permutation_NoDup; [apply Permutation_cons_append|]. now constructor. Qed.

Lemma NoDup_app_tail {A} (l l' : list A) : NoDup (l ++ l') -> NoDup l'.
Proof. induction l; cbn; intros H; [exact H|]. inversion H; auto. Qed.

Lemma NoDup_app_head {A} (l l' : list A) : NoDup (l ++ l') -> NoDup l.
Proof. intros H. apply NoDup_app_tail with (l := l'). eapply Permutation_NoDup; [apply Permutation_app_comm|exact H]. Qed.

Lemma NoDup_app_disj {A} (l l' : list A) x : NoDup (l ++ l') -> In x l -> ~ In x l'.
Proof.
  induction l as [|a l IH]; cbn; [tauto|]. intros H [E|Hin] Hx; inversion H; subst.
  - apply H2. apply in_or_app. now right.
  - apply IH; auto.
Qed.

(* an invariant of a fold; the step may use that the element is one of the list *)
Lemma fold_left_inv {A B} (f : A -> B -> A) (P : A -> Prop) l :
  (forall a b, In b l -> P a -> P (f a b)) -> forall a, P a -> P (fold_left f l a).
Proof.
  induction l as [|x l IH]; intros H a Ha; [exact Ha|]. cbn [fold_left].
  apply IH; [intros a' b Hb; apply H; now right|apply H; [now left|exact Ha]].
Qed.
