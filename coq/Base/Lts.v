(* Runs of a partial step function over a list of labels.  Every transition-system model of the development
   (Conc/*, Select/Failover.v, Rpc/ReqId.v, the acceptors) defines its own [run] by exactly this recursion.  A proof
   file states once that its model's [run] is this one - by [reflexivity] where the model's fixpoint takes the same
   arguments, by [run_unique] where it carries parameters as fixpoint arguments - and then uses the lemmas below. *)
From Coq Require Import List.
Import ListNotations.

Section Lts.
  Context {S L : Type} (step : S -> L -> option S).

  Fixpoint run (s : S) (ls : list L) : option S :=
    match ls with
    | [] => Some s
    | l :: r => match step s l with Some s' => run s' r | None => None end
    end.

  Lemma run_unique (f : S -> list L -> option S) :
    (forall s, f s [] = Some s) ->
    (forall s l r, f s (l :: r) = match step s l with Some s' => f s' r | None => None end) ->
    forall ls s, f s ls = run s ls.
  Proof.
    intros H0 Hc. induction ls as [|l ls IH]; intros s; [apply H0|]. rewrite Hc. cbn. destruct (step s l); auto.
  Qed.

  Lemma run_app a : forall s b, run s (a ++ b) = match run s a with Some m => run m b | None => None end.
  Proof. induction a as [|l a IH]; intros s b; cbn; [reflexivity|]. destruct (step s l); [apply IH | reflexivity]. Qed.

  Lemma run_snoc a s l : run s (a ++ [l]) = match run s a with Some m => step m l | None => None end.
  Proof. rewrite run_app. destruct (run s a) as [m|]; [cbn; destruct (step m l) |]; reflexivity. Qed.

  Lemma run_split a s l b s' : run s (a ++ l :: b) = Some s' ->
    exists m m', run s a = Some m /\ step m l = Some m' /\ run m' b = Some s'.
  Proof.
    rewrite run_app. destruct (run s a) as [m|]; [cbn | discriminate].
    destruct (step m l) as [m'|] eqn:E; [| discriminate]. intros H. exists m, m'. auto.
  Qed.

  (* A relation that every step respects, and that is reflexive and transitive, is respected by every run. *)
  Lemma run_rel (R : S -> S -> Prop) :
    (forall s, R s s) -> (forall a b c, R a b -> R b c -> R a c) ->
    (forall s l s', step s l = Some s' -> R s s') ->
    forall ls s s', run s ls = Some s' -> R s s'.
  Proof.
    intros Hr Ht Hs. induction ls as [|l ls IH]; cbn; intros s s' H.
    - injection H as <-. apply Hr.
    - destruct (step s l) as [m|] eqn:E; [| discriminate]. eauto.
  Qed.

  (* Induction over runs, from the first step on, for a property of start state, schedule and end state. *)
  Lemma run_ind (P : S -> list L -> S -> Prop) :
    (forall s, P s [] s) ->
    (forall s l m ls s', step s l = Some m -> P m ls s' -> P s (l :: ls) s') ->
    forall ls s s', run s ls = Some s' -> P s ls s'.
  Proof.
    intros H0 Hs. induction ls as [|l ls IH]; cbn; intros s s' H.
    - injection H as <-. apply H0.
    - destruct (step s l) as [m|] eqn:E; [| discriminate]. eauto.
  Qed.

  Lemma run_inv (P : S -> Prop) :
    (forall s l s', P s -> step s l = Some s' -> P s') ->
    forall ls s s', P s -> run s ls = Some s' -> P s'.
  Proof.
    intros Hs ls s s' Hp H. revert Hp. apply (run_ind (fun a _ b => P a -> P b)) with (ls := ls); eauto.
  Qed.

  Lemma run_step a s m l m' : run s a = Some m -> step m l = Some m' -> run s (a ++ [l]) = Some m'.
  Proof. intros A E. rewrite run_snoc, A. exact E. Qed.

  (* Induction from the last step back: the property may speak of the schedule so far and use that the state is reached from [s0]. *)
  Lemma run_ind_r (s0 : S) (P : list L -> S -> Prop) :
    P [] s0 ->
    (forall ls s l s', run s0 ls = Some s -> P ls s -> step s l = Some s' -> P (ls ++ [l]) s') ->
    forall ls s, run s0 ls = Some s -> P ls s.
  Proof.
    intros H0 Hs ls. induction ls as [|l ls IH] using rev_ind; intros s H.
    - injection H as <-. exact H0.
    - rewrite run_snoc in H. destruct (run s0 ls) as [m|] eqn:E; [| discriminate]. eauto.
  Qed.
End Lts.

(* A witness for [exists s, run step s0 ls = Some s /\ ...] on a concrete run: [eexists; split; [apply some_the; vm_compute;
   reflexivity |]] names the end state by the expression [the d (run ...)] instead of its normal form, so that no large
   term enters the later goals or the proof; the remaining conjuncts are then closed by evaluation ([vm_compute]) - plain
   unification would unfold the run again at every occurrence. *)
Definition the {A} (d : A) (o : option A) : A := match o with Some a => a | None => d end.

Lemma some_the {A} (d : A) (o : option A) : (if o then true else false) = true -> o = Some (the d o).
Proof. destruct o; [reflexivity | discriminate]. Qed.
