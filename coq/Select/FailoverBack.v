(* C15 proofs, part 5: no lock-out. A blocked endpoint can always come back: once its probe interval has elapsed, a status
   check that finds it reachable queues its probe; the queue drains one probe per selection; an answered probe and the
   reinstatement that follows put it back into the selectors. *)
From Coq Require Import List NArith ZArith Bool Lia ZifyBool ZifyNat ZifyN.
From TarsV Require Base.Lts Base.Lists.
From TarsV Require Import Gen.Consts Select.Failover Select.FailoverProofs Select.FailoverInv Select.FailoverThms Select.FailoverQueue
  Select.FailoverExamples.
Import ListNotations.
Open Scope Z_scope.

Lemma check_one_queue_mono : forall r s x ai, In ai (probeq s) -> In ai (probeq (check_one r s x)).
Proof.
  intros r s x ai Hin. destruct (check_oneP r s x) as [_ | ai0 a0 a' first need _ _ _]; [exact Hin |].
  cbn. destruct (need && _); auto using in_or_app.
Qed.

(* "if e is in the dedupe set, its adapter ai is queued": kept by the iterations for other endpoints *)
Definition dedupe_ok (e ai : N) (s : state) : Prop := memN e (pset s) = true -> In ai (probeq s).

Lemma check_one_dedupe_other : forall r s x e ai, x <> e -> dedupe_ok e ai s -> dedupe_ok e ai (check_one r s x).
Proof.
  intros r s x e ai Hne HP Hm. apply check_one_queue_mono, HP.
  destruct (check_oneP r s x) as [_ | ai0 a0 a' first need _ _ _]; [exact Hm |].
  cbn in Hm. destruct (need && _); [| exact Hm]. unfold memN in Hm. cbn in Hm.
  destruct (N.eqb_spec e x); [congruence | exact Hm].
Qed.

Lemma check_one_other : forall r s x e ai, Inv s -> lookup e (att s) = Some ai -> x <> e ->
  get ai (check_one r s x) = get ai s.
Proof.
  intros r s x e ai HI Hl Hne. destruct (check_oneP r s x) as [_ | ai0 a0 a' first need Hl0 _ _]; [reflexivity |].
  apply (get_put_other s ai0 ai a'). intros ->.
  destruct (inv_att _ HI _ _ Hl) as (a & Ha & <-). destruct (inv_att _ HI _ _ Hl0) as (b & Hb & <-). congruence.
Qed.

Lemma fold_probe_due : forall r l s e ai a, Inv s -> lookup e (att s) = Some ai -> get ai s = Some a ->
  ast a = false -> kTry <= now s - tB a -> memN e r = true -> dedupe_ok e ai s -> In e l ->
  In ai (probeq (fold_left (check_one r) l s)).
Proof.
  intros r l. induction l as [| x l IH]; intros s e ai a HI Hl Hg Hst Hdue Hr HP Hin; [destruct Hin |].
  simpl. destruct (N.eq_dec x e) as [-> | Hne].
  - apply (Lists.fold_left_inv (check_one r) (fun y => In ai (probeq y))); [intros; apply check_one_queue_mono; assumption |].
    destruct (check_oneP r s e) as [Hno | ai0 a0 a' first need Hl0 Hg0 Hsp]; [destruct (Hno ai a Hl Hg) |].
    rewrite Hl in Hl0. injection Hl0 as <-. rewrite Hg in Hg0. injection Hg0 as <-.
    rewrite (ca_spec_due _ _ _ _ _ _ Hsp Hst Hdue), Hr. cbn.
    destruct (memN e (pset s)) eqn:Hm; cbn; [exact (HP Hm) | apply in_or_app; right; left; reflexivity].
  - destruct Hin as [-> | Hin]; [congruence |]. destruct (check_one_frame r s x) as (Hn & _ & Ha & _).
    apply (IH (check_one r s x) e ai a); auto.
    + apply Inv_check_one; exact HI.
    + rewrite Ha; exact Hl.
    + rewrite (check_one_other r s x e ai HI Hl Hne). exact Hg.
    + rewrite Hn. exact Hdue.
    + apply check_one_dedupe_other; assumption.
Qed.

Lemma dedupe_ok_reachable : forall s e ai, reachable s -> shrunk s = false -> lookup e (att s) = Some ai -> dedupe_ok e ai s.
Proof.
  intros s e ai Hr Hsh Hl Hm. destruct (InvQ_reachable s Hr) as [_ Q2]. pose proof (Inv_reachable s Hr) as HI.
  apply memN_In, Q2, in_map_iff in Hm. destruct Hm as (aj & Hae & Hin).
  destruct (inv_queue _ HI aj Hin) as [b Hb]. unfold aep_of in Hae. rewrite Hb in Hae.
  pose proof (inv_attached _ HI Hsh aj b Hb) as Hlj. rewrite Hae, Hl in Hlj. injection Hlj as <-. exact Hin.
Qed.

Theorem probe_requested_when_due : forall s e ai a r s', reachable s -> shrunk s = false ->
  In e (reg s) -> lookup e (att s) = Some ai -> get ai s = Some a -> ast a = false ->
  30 <= now s - tB a -> In e r -> step s (Check r) = Some s' ->
  In ai (probeq s') /\ exists a', get ai s' = Some a' /\ ast a' = false.
Proof.
  intros s e ai a r s' Hr Hsh Hin Hl Hg Hst Hdue Hre Hs. rewrite <- k_try in Hdue. injection Hs as <-. split.
  - apply (fold_probe_due r (reg s) s e ai a (Inv_reachable s Hr) Hl Hg Hst Hdue);
      [apply memN_In; exact Hre | apply dedupe_ok_reachable; assumption | exact Hin].
  - destruct (fold_check_get r (reg s) s ai a Hg) as (b & Hb & st & tb & -> & _ & Hk & _). eauto.
Qed.

Fixpoint all_selprobe (ls : list label) : Prop :=
  match ls with [] => True | SelProbe _ :: r => all_selprobe r | _ => False end.

Lemma drain_to : forall q s ai, Inv s -> reg s <> [] -> probeq s = q -> In ai q ->
  exists ls s', run s ls = Some s' /\ all_selprobe ls /\ memN ai (pcalls s') = true.
Proof.
  induction q as [| h t IH]; intros s ai HI Hne Hq Hin; [destruct Hin |].
  destruct (inv_queue _ HI h) as [a Ha]; [rewrite Hq; left; reflexivity |].
  pose (s1 := mkS (now s) (reg s) (objs s) (att s) (active s) (sel s) t (remove_all (aep a) (pset s))
                  (h :: pcalls s) (reinst s) (reqlog s) (h :: probelog s) (shrunk s)).
  assert (Hs1 : step s (SelProbe h) = Some s1).
  { cbn [step]. destruct (reg s); [congruence |]. rewrite Hq, Ha, N.eqb_refl. reflexivity. }
  destruct (N.eq_dec h ai) as [-> | Hd].
  - exists [SelProbe ai], s1. cbn [run all_selprobe]. rewrite Hs1. repeat split. cbn. unfold memN. cbn. rewrite N.eqb_refl. reflexivity.
  - destruct Hin as [Heq | Hin]; [congruence |].
    destruct (IH s1 ai (Inv_step _ _ _ HI Hs1) Hne eq_refl Hin) as (ls & s' & Hrun & Hall & Hm).
    exists (SelProbe h :: ls), s'. cbn [run all_selprobe]. rewrite Hs1. auto.
Qed.

Theorem can_come_back : forall s e ai a, reachable s -> shrunk s = false ->
  In e (reg s) -> lookup e (att s) = Some ai -> get ai s = Some a -> ast a = false ->
  exists drain s', all_selprobe drain /\
    run s ([Advance 30; Check [e]] ++ drain ++ [Out ai true true; Reinstate ai]) = Some s' /\
    In e (sel s') /\ exists a', get ai s' = Some a' /\ ast a' = true /\ gfail a' = 0.
Proof.
  intros s e ai a Hr Hsh Hin Hl Hg Hst. pose proof (Inv_reachable s Hr) as HI.
  destruct (inv_aok _ HI ai a Hg) as (_ & _ & _ & HtB).
  pose proof (inv_att_aep s e ai a HI Hl Hg) as Hae.
  (* 30 s pass *)
  set (s1 := w_now (now s + Z.of_N 30) s).
  assert (Hs1 : step s (Advance 30) = Some s1) by reflexivity.
  assert (Hr1 : reachable s1) by (apply (reachable_run [Advance 30] s); [exact Hr | cbn [run]; rewrite Hs1; reflexivity]).
  (* the status check finds e reachable *)
  destruct (step s1 (Check [e])) as [s2 |] eqn:Hs2; [| discriminate].
  destruct (probe_requested_when_due s1 e ai a [e] s2 Hr1 Hsh Hin Hl Hg Hst) as [Hq2 _];
    [unfold s1; cbn; lia | left; reflexivity | exact Hs2 |].
  assert (Hr2 : reachable s2) by (apply (reachable_run [Check [e]] s1); [exact Hr1 | cbn [run]; rewrite Hs2; reflexivity]).
  assert (Hreg2 : reg s2 = reg s) by (injection Hs2 as <-; exact (proj1 (proj2 (fold_check_frame [e] (reg s1) s1)))).
  (* the selections take the queued probes, ai's among them *)
  destruct (drain_to (probeq s2) s2 ai (Inv_reachable s2 Hr2)) as (drain & s3 & Hrun3 & Hall & Hm3);
    [rewrite Hreg2; intros H0; rewrite H0 in Hin; destruct Hin | reflexivity | exact Hq2 |].
  assert (Hrun : run s ([Advance 30; Check [e]] ++ drain) = Some s3) by (cbn [run app]; rewrite Hs1, Hs2; exact Hrun3).
  destruct (run_adapter _ _ _ ai a Hrun Hg) as (a3 & Hg3 & _).
  (* the probe is answered, the reinstatement runs *)
  assert (Hs4 : exists s4, step s3 (Out ai true true) = Some s4) by (cbn [step]; rewrite Hg3, Hm3; cbn [negb andb]; eauto).
  destruct Hs4 as [s4 Hs4].
  destruct (probe_success_reinstates s3 ai s4 [] s4 Hs4 eq_refl) as (s5 & a5 & Hs5 & Hg5 & Hst5 & _ & _ & _ & Hgf & Hsel & _); [intros [] |].
  assert (Hrun5 : run s ([Advance 30; Check [e]] ++ drain ++ [Out ai true true; Reinstate ai]) = Some s5).
  { rewrite app_assoc, run_app, Hrun. cbn [run]. rewrite Hs4, Hs5. reflexivity. }
  destruct (run_adapter _ _ _ ai a Hrun5 Hg) as (a5' & Hg5' & Hae5). rewrite Hg5 in Hg5'. injection Hg5' as <-.
  rewrite Hae5, Hae in Hsel. exists drain, s5. repeat split; [exact Hall | exact Hrun5 | exact Hsel |]. exists a5. auto.
Qed.

(* the hypotheses are satisfiable: endpoint 0 blocked by its streak (Select/FailoverExamples.v), endpoint 1 active *)
Definition h_blocked : list label := h_streak ++ [Check []].
Example ex_come_back_hyps :
  run init h_blocked = Some (st h_blocked) /\ shrunk (st h_blocked) = false /\ In 0%N (reg (st h_blocked)) /\
  lookup 0%N (att (st h_blocked)) = Some 0%N /\ (exists a, get 0%N (st h_blocked) = Some a /\ ast a = false) /\
  sel (st h_blocked) = [1%N].
Proof.
  split; [vm_compute; reflexivity |]. split; [vm_compute; reflexivity |]. split; [vm_compute; auto |].
  split; [vm_compute; reflexivity |]. split; [eexists; split; vm_compute; reflexivity | vm_compute; reflexivity].
Qed.
Example ex_come_back_path :
  exists s', run (st h_blocked) ([Advance 30; Check [0%N]] ++ [SelProbe 0] ++ [Out 0 true true; Reinstate 0]) = Some s' /\
             sel s' = [1%N; 0%N].
Proof. eexists. split; [apply (Lts.some_the init) |]; vm_compute; reflexivity. Qed.
