(* C13/C14: proofs about the selector state machines of Selectors.v over all histories:
   the member list is the abstract set of the history, no operation panics, selections are members,
   error iff the set is empty (round-robin, random, mod-hash), the mod-hash slot, the results of a window of
   round-robin selections. *)
From Coq Require Import List NArith ZArith Bool Arith Lia ZifyBool Permutation.
From TarsV Require Import Base.Hex Base.Lists Gen.Consts Select.Selectors Select.WeightProofs.
Import ListNotations.



Lemma has_host_in h l : has_host h l = true <-> In h (map host l).
Proof.
  unfold has_host. rewrite existsb_exists, in_map_iff. split; intros (e & H1 & H2); exists e.
  - apply bytes_eqb_eq in H2. tauto.
  - rewrite bytes_eqb_eq. tauto.
Qed.

Lemma in_remove_host h l e : In e (remove_host h l) -> In e l.
Proof. induction l as [|x l IH]; cbn; [tauto|]. destruct (bytes_eqb (host x) h); [now right|]. intros [<-|H]; [now left|right; auto]. Qed.
Lemma in_remove_host_other h l e : In e l -> host e <> h -> In e (remove_host h l).
Proof.
  induction l as [|x l IH]; cbn; [tauto|]. intros Hin Hne. destruct (bytes_eqb (host x) h) eqn:E.
  - apply bytes_eqb_eq in E. destruct Hin as [<-|Hin]; [congruence|exact Hin].
  - destruct Hin as [<-|Hin]; [now left|right; auto].
Qed.
Lemma remove_host_nodup h l : NoDup (map host l) -> NoDup (map host (remove_host h l)).
Proof.
  induction l as [|x l IH]; cbn; intros H; [constructor|]. inversion H as [|? ? Hni Hnd]; subst.
  destruct (bytes_eqb (host x) h); [exact Hnd|]. cbn. constructor; [|auto]. intros Hin. apply Hni.
  apply in_map_iff in Hin. destruct Hin as (e & <- & He). apply in_map. eapply in_remove_host; eauto.
Qed.
Lemma remove_host_not_in h l e : NoDup (map host l) -> In e (remove_host h l) -> host e <> h.
Proof.
  induction l as [|x l IH]; cbn; intros Hnd; [tauto|]. inversion Hnd as [|? ? Hni Hnd']; subst.
  destruct (bytes_eqb (host x) h) eqn:E.
  - apply bytes_eqb_eq in E. subst h. intros Hin Heq. apply Hni. rewrite <- Heq. now apply in_map.
  - intros [<-|Hin]; [|auto]. intros Heq. rewrite <- bytes_eqb_eq in Heq. congruence.
Qed.

Lemma add_ep_nodup l e : NoDup (map host l) -> NoDup (map host (fst (add_ep l e))).
Proof.
  intros H. unfold add_ep. destruct (has_host (host e) l) eqn:E; cbn [fst]; [exact H|].
  rewrite map_app. apply NoDup_snoc; [exact H|]. intros Hin. apply has_host_in in Hin. congruence.
Qed.
Lemma add_ep_in l e x : In x (fst (add_ep l e)) -> In x l \/ x = e.
Proof. unfold add_ep. destruct (has_host (host e) l); cbn [fst]; [now left|]. intros H. apply in_app_or in H. cbn in H. intuition. Qed.

Lemma refresh_eps_nodup l : NoDup (map host (refresh_eps l)).
Proof. unfold refresh_eps. apply fold_left_inv; [intros a b _; apply add_ep_nodup|constructor]. Qed.
Lemma refresh_eps_in l e : In e (refresh_eps l) -> In e l.
Proof.
  unfold refresh_eps. apply (fold_left_inv _ (fun acc => In e acc -> In e l)); [|intros []].
  intros a b Hb IH H. destruct (add_ep_in _ _ _ H) as [H'| ->]; auto.
Qed.

Lemma set_step_nodup l o : NoDup (map host l) -> NoDup (map host (set_step l o)).
Proof.
  intros H. destruct o as [n r1 r2|e r1 r2|e r1 r2|c r]; cbn [set_step].
  - apply refresh_eps_nodup.
  - now apply add_ep_nodup.
  - unfold remove_ep. destruct (has_host (host e) l); cbn [fst]; [now apply remove_host_nodup|exact H].
  - exact H.
Qed.
Lemma set_of_history_nodup h : NoDup (map host (set_of_history h)).
Proof. unfold set_of_history. apply fold_left_inv; [intros a b _; apply set_step_nodup|constructor]. Qed.

Definition least_step (b : option (N * ep)) (p : N * ep) : option (N * ep) :=
  match b with None => Some p | Some q => if N.ltb (fst p) (fst q) then Some p else Some q end.
Lemma least_snoc l a : least (l ++ [a]) = least_step (least l) a.
Proof. unfold least. rewrite fold_left_app. reflexivity. Qed.

Lemma least_spec (l : list (N * ep)) :
  match least l with
  | Some p => In p l /\ forall q, In q l -> (fst p <= fst q)%N
  | None => l = []
  end.
Proof.
  induction l as [|a l IH] using rev_ind; [reflexivity|]. rewrite least_snoc. destruct (least l) as [p|]; cbn [least_step].
  - destruct IH as [Ip Mp]. destruct (N.ltb (fst a) (fst p)) eqn:C; (split; [apply in_or_app; cbn; auto|]);
      intros q Hq; apply in_app_or in Hq; destruct Hq as [Hq|[<-|[]]]; try specialize (Mp q Hq); lia.
  - subst l. split; [now left|]. intros q [<-|[]]. lia.
Qed.

Definition slot_of (c : list nat) (l : list ep) (i : N) : ep :=
  match c with
  | [] => nth (N.to_nat (N.modulo i (N.of_nat (length l)))) l dummy
  | _ => nth (nth (N.to_nat (N.modulo i (N.of_nat (length c)))) c 0%nat) l dummy
  end.

Lemma mod_bound (i : N) (n : nat) : n <> 0%nat -> (N.to_nat (N.modulo i (N.of_nat n)) < n)%nat.
Proof. intros H. pose proof (N.mod_lt i (N.of_nat n) ltac:(lia)). lia. Qed.

Section states.
  Variable points : list N -> nat -> list N.
  Notation sel := Selectors.sel.

  (* the weight cycle installed for a member list *)
  Definition cyc (k : kind) (weighted : bool) (l : list ep) : list nat :=
    match k with
    | ConHash => []
    | _ => if weighted then match build_static_weight_list l with BOk c _ => c | BPanic _ => [] end else []
    end.

  Definition wf (s : sel) : Prop :=
    (forall j, In j (cache s) -> (j < length (eps s))%nat) /\ (forall p, In p (hring s) -> In (snd p) (eps s)).

  Lemma wf_sel0 : wf sel0.
  Proof. split; cbn; tauto. Qed.

  Lemma cyc_nil k weighted : cyc k weighted [] = [].
  Proof. destruct k, weighted; reflexivity. Qed.
  Lemma cyc_lt k weighted l j : In j (cyc k weighted l) -> (j < length l)%nat.
  Proof.
    destruct (bswl_total l) as (c & a & E & Hj & _). unfold cyc. rewrite E. destruct k, weighted; try intros []; apply Hj.
  Qed.

  (* the cache is the cycle of the member list: the table is recomputed at every change of the list *)
  Definition cache_inv (k : kind) (weighted : bool) (s : sel) : Prop := cache s = cyc k weighted (eps s).

  (* reBuildLocked never panics; it installs the list with its cycle and an empty ring *)
  Lemma rebuild_ok k weighted l r1 r2 : k <> ConHash ->
    exists s', rebuild k weighted l r1 r2 = Ok s' /\ eps s' = l /\ cache s' = cyc k weighted l /\ hring s' = [].
  Proof.
    intros Hk. unfold rebuild. destruct (bswl_total l) as (c & a & E & _).
    assert (Ec : (if weighted then c else []) = cyc k weighted l) by (unfold cyc; rewrite E; destruct k; congruence).
    destruct weighted; [rewrite E|]; (eexists; split; [reflexivity|]); cbn [eps cache hring]; auto.
  Qed.

  Lemma ring_set_in r k e p : In p (ring_set r k e) -> p = (k, e) \/ In p r.
  Proof.
    induction r as [|[k' e'] t IH]; cbn [ring_set]; [intros [<-|[]]; now left|].
    destruct (N.eqb k k'); cbn [In]; [intros [<-|H]; [now left|right; now right]|].
    intros [<-|H]; [right; now left|]. destruct (IH H); [now left|right; now right].
  Qed.
  Lemma ring_add_in weighted r e p : In p (ring_add points weighted r e) -> snd p = e \/ In p r.
  Proof.
    unfold ring_add. apply (fold_left_inv _ (fun acc => In p acc -> snd p = e \/ In p r)); [|now right].
    intros a k _ IH H. apply ring_set_in in H. destruct H as [->|H]; [now left|auto].
  Qed.
  Lemma ring_add_all_in weighted l p : In p (fold_left (ring_add points weighted) l []) -> In (snd p) l.
  Proof.
    apply (fold_left_inv _ (fun acc => In p acc -> In (snd p) l)); [|intros []].
    intros a e He IH H. apply ring_add_in in H. destruct H as [->|H]; auto.
  Qed.

  Lemma pick_in s i e : pick s i = RSel e -> In e (eps s).
  Proof.
    unfold pick. destruct (cache s) as [|c0 c].
    - destruct (nth_error (eps s) _) eqn:E; [|discriminate]. intros H. inversion H; subst. eapply nth_error_In; eauto.
    - destruct (nth_error (c0 :: c) _); [|discriminate]. destruct (nth_error (eps s) n) eqn:E; [|discriminate]. intros H. inversion H; subst. eapply nth_error_In; eauto.
  Qed.

  (* in a well-formed state with members no bounds check of [pick] fails *)
  Lemma pick_slot s i : wf s -> eps s <> [] -> pick s i = RSel (slot_of (cache s) (eps s) i).
  Proof.
    intros [Hc _] Hne. unfold pick, slot_of. destruct (cache s) as [|c0 c] eqn:Ec.
    - rewrite (nth_error_nth' _ dummy); [reflexivity|]. apply mod_bound. now destruct (eps s).
    - rewrite <- Ec in *. assert (Hn : cache s <> []) by congruence. clear Ec.
      rewrite (nth_error_nth' (cache s) 0%nat) by (apply mod_bound; now destruct (cache s)).
      rewrite (nth_error_nth' _ dummy); [now destruct (cache s)|]. apply Hc, nth_In, mod_bound. now destruct (cache s).
  Qed.

  Lemma conhash_dec k : {k = ConHash} + {k <> ConHash}.
  Proof. destruct k; (now left) || (right; discriminate). Qed.

  Definition res_ok (r : res) : Prop := match r with RPanic _ => False | _ => True end.

  Lemma ring_lookup_in r code e : ring_lookup r code = Some e -> exists k, In (k, e) r.
  Proof.
    unfold ring_lookup. pose proof (least_spec (filter (fun p => N.leb code (fst p)) r)) as H1. pose proof (least_spec r) as H2.
    destruct (least (filter _ r)) as [[k x]|]; [|destruct (least r) as [[k x]|]; [|discriminate]]; intros E; inversion E; subst x; exists k.
    - destruct H1 as [H1 _]. apply filter_In in H1. tauto.
    - tauto.
  Qed.

  (* the cursor of round-robin: the one that walks over the cycle when there is one *)
  Definition cursor (s : Selectors.sel) : N := match cache s with [] => pos s | _ => wpos s end.
  Definition advance (s : sel) : sel :=
    match cache s with
    | [] => {| eps := eps s; cache := cache s; pos := N.modulo (pos s + 1) two64; wpos := wpos s; hring := hring s |}
    | _ => {| eps := eps s; cache := cache s; pos := pos s; wpos := N.modulo (wpos s + 1) two64; hring := hring s |}
    end.
  Lemma advance_same s : eps (advance s) = eps s /\ cache (advance s) = cache s /\ hring (advance s) = hring s.
  Proof. unfold advance. destruct (cache s); cbn; auto. Qed.
  Lemma advance_cursor s : cursor (advance s) = N.modulo (cursor s + 1) two64.
  Proof. unfold advance, cursor. destruct (cache s); reflexivity. Qed.

  (* round-robin, random, mod-hash over a non-empty list: one [pick], after the cursor has moved (round-robin) *)
  Lemma select_pick k s code rnd : k <> ConHash -> eps s <> [] ->
    let s' := match k with RoundRobin => advance s | _ => s end in
    let i := match k with RoundRobin => cursor s' | Random => intn rnd (cyc_len s) | _ => N.modulo code two32 end in
    select k s code rnd = (s', pick s' i).
  Proof.
    intros Hk Hne. unfold select, advance, cursor. destruct (eps s) eqn:Ee; [congruence|].
    destruct k; try congruence; try reflexivity. destruct (cache s); reflexivity.
  Qed.
  Lemma select_nil k s code rnd : k <> ConHash -> eps s = [] -> select k s code rnd = (s, RErr).
  Proof. intros Hk E. unfold select. rewrite E. destruct k; congruence. Qed.

  Lemma wf_same s s' : eps s' = eps s -> cache s' = cache s -> hring s' = hring s -> wf s -> wf s'.
  Proof. unfold wf. intros -> -> ->. auto. Qed.

  Lemma select_spec k s code rnd : wf s ->
    let '(s', r) := select k s code rnd in
    wf s' /\ eps s' = eps s /\ cache s' = cache s /\ hring s' = hring s /\ res_ok r /\ (forall e, r = RSel e -> In e (eps s)) /\
    (k <> ConHash -> (r = RErr <-> eps s = [])).
  Proof.
    intros Hwf. destruct (conhash_dec k) as [->|Hk].
    - (* consistent hash: the state is untouched, the answer is an owner in the ring *)
      cbn [select]. split; [exact Hwf|]. do 3 (split; [reflexivity|]). split; [now destruct (ring_lookup _ _)|]. split; [|congruence].
      intros e E. destruct (ring_lookup (hring s) _) as [e'|] eqn:El; [|discriminate]. inversion E; subst e'.
      apply ring_lookup_in in El. destruct El as [kk Hk]. apply (proj2 Hwf (kk, e) Hk).
    - destruct (eps s) as [|e0 t] eqn:Ee.
      + (* no member: an error, the state untouched *)
        rewrite select_nil by assumption. rewrite Ee. split; [exact Hwf|]. do 3 (split; [reflexivity|]).
        split; [exact I|]. split; [discriminate|]. intros _. split; reflexivity.
      + (* members: the slot the cursor, the draw or the hash code points to *)
        rewrite <- Ee in *. assert (Hne : eps s <> []) by congruence. rewrite select_pick by assumption. cbv zeta.
        set (s' := match k with RoundRobin => advance s | _ => s end).
        assert (Hs' : eps s' = eps s /\ cache s' = cache s /\ hring s' = hring s) by (unfold s'; destruct k; auto using advance_same).
        destruct Hs' as (E1 & E2 & E3). assert (Hwf' : wf s') by now apply (wf_same s).
        split; [exact Hwf'|]. do 3 (split; [assumption|]). rewrite pick_slot by congruence. split; [exact I|]. split.
        * intros e E. rewrite <- E1. eapply pick_in. rewrite pick_slot by congruence. exact E.
        * intros _. split; [discriminate|congruence].
  Qed.

  (* a step: what Select guarantees; every other operation installs the new member list with its cycle (round-robin, random,
     mod-hash: through reBuildLocked) or with its ring (consistent hash), or leaves the state alone *)
  Lemma step_spec k weighted s o : wf s -> cache_inv k weighted s ->
    let '(s', r) := step points k weighted s o in
    wf s' /\ cache_inv k weighted s' /\ eps s' = set_step (eps s) o /\ res_ok r /\ (forall e, r = RSel e -> In e (eps s)).
  Proof.
    intros Hwf Hc.
    assert (Hinst : forall l r1 r2 (r : res) ring, res_ok r -> (forall e, r <> RSel e) -> (forall p, In p ring -> In (snd p) l) ->
      let '(s', r') := match k with
                       | ConHash => (with_eps s l ring, r)
                       | _ => match rebuild k weighted l r1 r2 with Ok s' => (s', r) | Panic p => (s, RPanic p) end
                       end in
      wf s' /\ cache_inv k weighted s' /\ eps s' = l /\ res_ok r' /\ (forall e, r' = RSel e -> In e (eps s))).
    { intros l r1 r2 r ring Hr Hne Hring. destruct (conhash_dec k) as [->|Hk].
      - repeat split; auto; [intros j []|intros e E; now destruct (Hne e)].
      - destruct (rebuild_ok k weighted l r1 r2 Hk) as (s' & E & He & Hca & Hri).
        replace (match k with ConHash => _ | _ => match rebuild k weighted l r1 r2 with Ok s' => (s', r) | Panic p => (s, RPanic p) end end)
          with (s', r) by (destruct k; try congruence; rewrite E; reflexivity).
        repeat split; auto; [rewrite Hca, He; apply cyc_lt|rewrite Hri; intros p []|unfold cache_inv; congruence|intros e E'; now destruct (Hne e)]. }
    assert (Hkeep : forall r : res, res_ok r -> (forall e, r <> RSel e) -> forall l, l = eps s ->
      wf s /\ cache_inv k weighted s /\ eps s = l /\ res_ok r /\ (forall e, r = RSel e -> In e (eps s))).
    { intros r Hr Hne l ->. repeat split; auto; try apply Hwf. intros e E. now destruct (Hne e). }
    destruct o as [n r1 r2|e r1 r2|e r1 r2|code rnd]; cbn [step set_step].
    - apply Hinst; [exact I|discriminate|]. intros p Hp. now apply ring_add_all_in in Hp.
    - unfold add_ep. destruct (has_host (host e) (eps s)) eqn:Eh; cbn [fst]; [apply Hkeep; [exact I|discriminate|reflexivity]|].
      apply Hinst; [exact I|discriminate|]. intros p Hp. apply ring_add_in in Hp. apply in_or_app.
      destruct Hp as [->|Hp]; [right; now left|left; now apply Hwf].
    - unfold remove_ep. destruct (has_host (host e) (eps s)) eqn:Eh; cbn [fst]; [|apply Hkeep; [exact I|discriminate|reflexivity]].
      apply Hinst; [exact I|discriminate|]. intros p Hp. apply filter_In in Hp. destruct Hp as [Hp Hh].
      apply in_remove_host_other; [now apply Hwf|]. intros Heq. rewrite <- bytes_eqb_eq in Heq. rewrite Heq in Hh. discriminate.
    - pose proof (select_spec k s code rnd Hwf) as H. destruct (select k s code rnd) as [s' r].
      destruct H as (A & B & C & _ & D & E & _). unfold cache_inv in *. repeat split; try apply A; auto; congruence.
  Qed.

  Definition state_after (k : kind) (weighted : bool) (h : list op) : sel := fst (run points k weighted sel0 h).

  Lemma run_spec k weighted h : forall s, wf s -> cache_inv k weighted s ->
    let '(s', rs) := run points k weighted s h in
    wf s' /\ cache_inv k weighted s' /\ eps s' = fold_left set_step h (eps s) /\ Forall res_ok rs.
  Proof.
    induction h as [|o h IH]; intros s Hwf Hc; cbn [run fold_left]; [auto|].
    pose proof (step_spec k weighted s o Hwf Hc) as Hs. destruct (step points k weighted s o) as [s1 r].
    destruct Hs as (Hwf1 & Hc1 & He1 & Hr & _). specialize (IH s1 Hwf1 Hc1). destruct (run points k weighted s1 h) as [s2 rs].
    rewrite <- He1. destruct IH as (A & B & C & D). auto.
  Qed.

  Lemma run_fst k weighted h : forall s,
    fst (run points k weighted s h) = fold_left (fun s o => fst (step points k weighted s o)) h s.
  Proof.
    induction h as [|o h IH]; intros s; cbn [run fold_left]; [reflexivity|]. rewrite <- IH.
    destruct (step points k weighted s o) as [s1 r]. cbn [fst]. destruct (run points k weighted s1 h). reflexivity.
  Qed.
  Lemma state_after_snoc k weighted h o : state_after k weighted (h ++ [o]) = fst (step points k weighted (state_after k weighted h) o).
  Proof. unfold state_after. rewrite !run_fst, fold_left_app. reflexivity. Qed.

  Lemma state_after_spec k weighted h : let s := state_after k weighted h in
    wf s /\ cache s = cyc k weighted (set_of_history h) /\ eps s = set_of_history h /\ Forall res_ok (snd (run points k weighted sel0 h)).
  Proof.
    unfold state_after. pose proof (run_spec k weighted h sel0 wf_sel0 (eq_sym (cyc_nil k weighted))) as H.
    destruct (run points k weighted sel0 h) as [s rs]. cbn [fst snd]. unfold cache_inv in H. destruct H as (A & B & C & D). rewrite B, C. auto.
  Qed.

  Theorem state_after_wf k weighted h : wf (state_after k weighted h).
  Proof. apply state_after_spec. Qed.
  Theorem state_after_eps k weighted h : eps (state_after k weighted h) = set_of_history h.
  Proof. apply state_after_spec. Qed.
  Theorem state_after_cache k weighted h : cache (state_after k weighted h) = cyc k weighted (set_of_history h).
  Proof. apply state_after_spec. Qed.

  Theorem no_panic k weighted h : Forall res_ok (snd (run points k weighted sel0 h)).
  Proof. apply state_after_spec. Qed.

  Theorem member k weighted h code rnd e :
    snd (select k (state_after k weighted h) code rnd) = RSel e -> In e (set_of_history h).
  Proof.
    pose proof (select_spec k _ code rnd (state_after_wf k weighted h)) as Hs.
    destruct (select k (state_after k weighted h) code rnd) as [s' r]. rewrite <- (state_after_eps k weighted h). apply Hs.
  Qed.

  Theorem error_iff_empty k weighted h code rnd : k <> ConHash ->
    (snd (select k (state_after k weighted h) code rnd) = RErr <-> set_of_history h = []).
  Proof.
    pose proof (select_spec k _ code rnd (state_after_wf k weighted h)) as Hs.
    destruct (select k (state_after k weighted h) code rnd) as [s' r]. rewrite <- (state_after_eps k weighted h). apply Hs.
  Qed.

  (* mod-hash: code h goes to slot h mod N of the installed list, of the weight cycle when there is one *)
  Theorem modhash_slot weighted h code rnd : set_of_history h <> [] ->
    snd (select ModHash (state_after ModHash weighted h) code rnd) =
    RSel (slot_of (cyc ModHash weighted (set_of_history h)) (set_of_history h) (N.modulo code two32)).
  Proof.
    intros Hne. rewrite <- state_after_cache, <- (state_after_eps ModHash weighted h) in *.
    rewrite select_pick by (discriminate || assumption). apply pick_slot; [apply state_after_wf|assumption].
  Qed.

  Definition selects (crs : list (N * N)) : list op := map (fun cr => Select (fst cr) (snd cr)) crs.

  Lemma rr_run weighted crs : forall s, wf s -> eps s <> [] -> (cursor s + N.of_nat (length crs) < two64)%N ->
    snd (run points RoundRobin weighted s (selects crs)) =
    map (fun i => RSel (slot_of (cache s) (eps s) (cursor s + N.of_nat i))) (seq 1 (length crs)).
  Proof.
    induction crs as [|cr crs IH]; intros s Hwf Hne Hlt; [reflexivity|]. cbn [selects map run step length] in *. fold (selects crs).
    rewrite select_pick by (discriminate || assumption). cbv zeta.
    destruct (advance_same s) as (E1 & E2 & E3). pose proof (advance_cursor s) as Ec. rewrite N.mod_small in Ec by lia.
    assert (Hwf' : wf (advance s)) by now apply (wf_same s).
    specialize (IH (advance s) Hwf' ltac:(congruence) ltac:(lia)). destruct (run points RoundRobin weighted (advance s) (selects crs)) as [s2 rs].
    cbn [snd seq map] in *. rewrite IH, pick_slot, E1, E2, Ec by congruence. f_equal.
    rewrite <- (seq_shift _ 1), map_map. apply map_ext. intros i. do 2 f_equal. lia.
  Qed.
End states.
