(* The rebuild step of the three selectors with a weight table, as the CURRENT Go source has it (Gen/SelRebuild.v,
   regenerated on every run by `harness gen-selrebuild` from roundrobin / random / modhash reBuildLocked), computes what the
   hand-written model's Selectors.rebuild computes: the table is dropped and - weights enabled - recomputed from the current
   member list alone (never kept from an earlier set); round-robin re-draws its two cursors within the new lengths.
   bswl = the cycle BuildStaticWeightList returns for the member list (its own source is translated in Xlate/BSWLEquiv.v,
   SWRREquiv.v); draw k n = the k-th rand.Intn(n) of the call. *)
From Coq Require Import List NArith ZArith Bool Arith Lia.
From TarsV Require Import Base.Hex Gen.Consts Gen.SelRebuild Select.Selectors Select.WeightProofs Select.SelProofs.
Import ListNotations.

Definition cycle_of_list (l : list ep) : list nat := match build_static_weight_list l with BOk c _ => c | BPanic _ => [] end.
Definition rb_of (s : Selectors.sel) : rb := {| rb_cache := cache s; rb_pos := pos s; rb_wpos := wpos s |}.
Definition draws (r1 r2 : N) (k : nat) (n : N) : N := N.modulo (match k with O => r1 | _ => r2 end) n.

Theorem gen_rr_reBuild_model : forall weighted l r1 r2 s0, exists s', rebuild RoundRobin weighted l r1 r2 = Ok s' /\ eps s' = l /\
  gen_rr_reBuild weighted (length l) (cycle_of_list l) (draws r1 r2) s0 = rb_of s'.
Proof.
  intros weighted l r1 r2 s0. destruct (bswl_total l) as (c & a & E & _). unfold rebuild, cycle_of_list. rewrite E.
  (* the generated code tests `len > 0` where the model matches on the list and on the cycle *)
  destruct weighted; eexists; (split; [reflexivity|]); (split; [reflexivity|]); unfold gen_rr_reBuild, rb_of, draws, intn; cbn [cache pos wpos rb_cache rb_pos rb_wpos].
  - destruct l as [|e t]; destruct c as [|c0 c']; reflexivity.
  - destruct l as [|e t]; reflexivity.
Qed.

Theorem gen_mh_reBuild_model : forall weighted l r1 r2 d s0, exists s', rebuild ModHash weighted l r1 r2 = Ok s' /\ eps s' = l /\
  rb_cache (gen_mh_reBuild weighted (length l) (cycle_of_list l) d s0) = cache s' /\
  rb_pos (gen_mh_reBuild weighted (length l) (cycle_of_list l) d s0) = rb_pos s0 /\ rb_wpos (gen_mh_reBuild weighted (length l) (cycle_of_list l) d s0) = rb_wpos s0.
Proof.
  intros weighted l r1 r2 d s0. destruct (bswl_total l) as (c & a & E & _). unfold rebuild, cycle_of_list. rewrite E.
  destruct weighted; eexists; (split; [reflexivity|]); (split; [reflexivity|]); unfold gen_mh_reBuild; cbn [cache].
  - repeat split; reflexivity.
  - repeat split; reflexivity.
Qed.

Theorem gen_rnd_reBuild_model : forall weighted l r1 r2 d s0, exists s', rebuild Random weighted l r1 r2 = Ok s' /\ eps s' = l /\
  rb_cache (gen_rnd_reBuild weighted (length l) (cycle_of_list l) d s0) = cache s' /\
  rb_pos (gen_rnd_reBuild weighted (length l) (cycle_of_list l) d s0) = rb_pos s0 /\ rb_wpos (gen_rnd_reBuild weighted (length l) (cycle_of_list l) d s0) = rb_wpos s0.
Proof.
  intros weighted l r1 r2 d s0. destruct (bswl_total l) as (c & a & E & _). unfold rebuild, cycle_of_list. rewrite E.
  destruct weighted; eexists; (split; [reflexivity|]); (split; [reflexivity|]); unfold gen_rnd_reBuild; cbn [cache].
  - repeat split; reflexivity.
  - repeat split; reflexivity.
Qed.

(* whatever table was there before: the new one depends on the new list only *)
Corollary gen_reBuild_forgets : forall weighted n c d s1 s2,
  rb_cache (gen_mh_reBuild weighted n c d s1) = rb_cache (gen_mh_reBuild weighted n c d s2) /\
  rb_cache (gen_rnd_reBuild weighted n c d s1) = rb_cache (gen_rnd_reBuild weighted n c d s2) /\
  gen_rr_reBuild weighted n c d s1 = gen_rr_reBuild weighted n c d s2.
Proof. intros weighted n c d s1 s2. destruct weighted; cbn; repeat split; try reflexivity; destruct (N.ltb 0 (N.of_nat n)); destruct (N.ltb 0 (N.of_nat (length c))); reflexivity. Qed.
