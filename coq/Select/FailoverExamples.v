(* C15: concrete non-trivial instances of the theorems' hypotheses (vm_compute), and the refutation witness for the
   streak clause once a registry refresh has dropped and re-added an endpoint that still has a probe in flight. *)
From Coq Require Import List NArith ZArith Bool.
From TarsV Require Import Gen.Consts Select.Failover.
From TarsV Require Base.Lts.
Import ListNotations.
Open Scope Z_scope.

Definition f5 (ai : N) : list label :=
  [Out ai false false; Out ai false false; Out ai false false; Out ai false false; Out ai false false].

(* two endpoints, both called once; endpoint 0 then fails five times in a row over five seconds *)
Definition h_streak : list label :=
  [Refresh [0; 1]%N []; SelPick 0 0; Out 0 true false; SelPick 1 1; Out 1 true false] ++ f5 0%N ++ [Advance 5].
Definition st (ls : list label) : state := match run init ls with Some s => s | None => init end.

Example ex_streak_hyps :
  run init h_streak = Some (st h_streak) /\ shrunk (st h_streak) = false /\ In 0%N (reg (st h_streak)) /\
  lookup 0%N (att (st h_streak)) = Some 0%N /\
  exists a, get 0%N (st h_streak) = Some a /\ lfc a = 5 /\ now (st h_streak) - tS a = 5 /\ ast a = true /\
            In 0%N (sel (st h_streak)).
Proof.
  split; [vm_compute; reflexivity |]. split; [vm_compute; reflexivity |]. split; [vm_compute; auto |].
  split; [vm_compute; reflexivity |]. eexists. split; [vm_compute; reflexivity |]. vm_compute. auto 10.
Qed.

(* ... so the next status check blocks it (instance of blocked_after_streak, conclusion computed) *)
Example ex_streak_blocked :
  exists s', step (st h_streak) (Check []) = Some s' /\ sel s' = [1%N] /\
             step s' (SelPick 0 0) = None /\ exists s'', step s' (SelPick 1 1) = Some s''.
Proof.
  eexists. split; [apply (Lts.some_the init); vm_compute; reflexivity |]. split; [vm_compute; reflexivity |].
  split; [vm_compute; reflexivity | eexists; apply (Lts.some_the init); vm_compute; reflexivity].
Qed.

(* blocked, two probe requests 30 s apart, the probe call, its answer, the reinstatement *)
Definition h_probe : list label := h_streak ++ [Check []; Advance 30; Check [0]%N; Advance 30; Check [0]%N].
Example ex_probe_requests :
  exists t1 t2, reqlog (st h_probe) = [] ++ (0%N, 0%N, t2) :: [] ++ (0%N, 0%N, t1) :: [] /\ t2 - t1 = 30 /\
                probeq (st h_probe) = [0%N] /\ req_count 0 (reqlog (st h_probe)) = 2%nat.
Proof. eexists. eexists. split; [vm_compute; reflexivity |]. vm_compute. auto. Qed.

Definition h_reinst : list label := h_probe ++ [SelProbe 0; Out 0 true true; SelPick 1 1; Out 1 true false].
Example ex_reinstated :
  run init h_reinst = Some (st h_reinst) /\ sel (st h_reinst) = [1%N] /\
  exists s3, step (st h_reinst) (Reinstate 0) = Some s3 /\ sel s3 = [1%N; 0%N].
Proof.
  split; [vm_compute; reflexivity |]. split; [vm_compute; reflexivity |].
  eexists. split; [apply (Lts.some_the init) |]; vm_compute; reflexivity.
Qed.

(* a failed probe: still blocked however long one waits, until a probe is answered *)
Definition h_failed : list label := h_probe ++ [SelProbe 0; Out 0 false true; Advance 1000; Check []; SelPick 1 1; Out 1 true false].
Example ex_failed_probe_stays_blocked :
  exists a, get 0%N (st h_failed) = Some a /\ ast a = false /\ sel (st h_failed) = [1%N].
Proof. eexists. split; [vm_compute; reflexivity |]. vm_compute. auto. Qed.

(* every endpoint blocked: the selectors are empty, calls are still attempted (on a registry endpoint) *)
Definition h_allblocked : list label :=
  [Refresh [0; 1]%N []; SelPick 0 0; SelPick 1 1] ++ f5 0%N ++ f5 1%N ++ [Advance 5; Check []].
Example ex_all_blocked :
  run init h_allblocked = Some (st h_allblocked) /\ sel (st h_allblocked) = [] /\ reg (st h_allblocked) = [0; 1]%N /\
  step (st h_allblocked) SelNone = None /\
  (exists s', step (st h_allblocked) (SelPick 0 0) = Some s') /\ (exists s', step (st h_allblocked) (SelPick 1 1) = Some s').
Proof.
  split; [vm_compute; reflexivity |]. split; [vm_compute; reflexivity |]. split; [vm_compute; reflexivity |].
  split; [vm_compute; reflexivity |]. split; eexists; apply (Lts.some_the init); vm_compute; reflexivity.
Qed.

(* ---------- outside the property's quantifier: registry refreshes ----------
   Endpoint 0 is blocked and queued for a probe; the registry drops it (its adapter is closed and detached, but stays in the
   probe queue) and lists it again; the stale adapter is handed out as the probe, is answered, and - after endpoint 0's NEW
   adapter has been blocked for a streak of its own - the old adapter's reinstatement puts endpoint 0 back into the selectors.
   From then on endpoint 0 is in rotation although its adapter is blocked, and status checks do not remove it. *)
Definition h_stale : list label :=
  [Refresh [0; 1]%N []; SelPick 0 0; Out 0 true false; SelPick 1 1; Out 1 true false] ++ f5 0%N ++
  [Advance 5; Check []; Advance 30; Check [0; 1]%N; Refresh [1%N] []; Refresh [0; 1]%N []; SelProbe 0; Out 0 true true;
   SelPick 0 2] ++ f5 2%N ++ [Advance 5; Check []; Reinstate 0].

Theorem streak_clause_refuted_after_refresh :
  exists s e ai a r s', reachable s /\ In e (reg s) /\ lookup e (att s) = Some ai /\ get ai s = Some a /\
    kFainN <= lfc a /\ kFailInterval <= now s - tS a /\ step s (Check r) = Some s' /\
    In e (sel s') /\ (exists s'', step s' (SelPick e ai) = Some s'').
Proof.
  exists (st h_stale), 0%N, 2%N. eexists. exists []. eexists.
  split; [exists h_stale; vm_compute; reflexivity |]. split; [vm_compute; auto |].
  split; [vm_compute; reflexivity |]. split; [vm_compute; reflexivity |].
  split; [vm_compute; discriminate |]. split; [vm_compute; discriminate |].
  split; [apply (Lts.some_the init); vm_compute; reflexivity |]. split; [vm_compute; auto |].
  eexists. apply (Lts.some_the init). vm_compute. reflexivity.
Qed.
