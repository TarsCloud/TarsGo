(* C14: the names of the virtual nodes.  ConsistentHash.addLocked hashes, for round i of member h, the string
   fmt.Sprintf(format, h, i); format and argument texts are read from the CURRENT source (Gen/SelRebuild.v:
   gen_vnode_format = "%s_%d", gen_vnode_args = [ep.HashKey(); i]).  Here: an interpreter of such formats (%s, %d, literal
   bytes), the name it gives, and the theorem the ring construction relies on - different (host, round) pairs have different
   names, whatever bytes the host consists of (the decimal round number has no '_', so the last '_' separates) - from
   which NoCollision follows for every universe as soon as the hash sends different names to different points.  Without the
   separator the names are not injective (naming_without_separator_refuted). *)
From Coq Require Import List NArith ZArith Bool Arith Lia DecimalN.
From TarsV Require Import Base.Hex Gen.SelRebuild Select.Selectors Select.SelProofs Select.RingProofs.
Import ListNotations.
Open Scope N_scope.

Fixpoint digits (u : Decimal.uint) : list N :=
  match u with
  | Decimal.Nil => []
  | Decimal.D0 r => 48 :: digits r | Decimal.D1 r => 49 :: digits r | Decimal.D2 r => 50 :: digits r | Decimal.D3 r => 51 :: digits r
  | Decimal.D4 r => 52 :: digits r | Decimal.D5 r => 53 :: digits r | Decimal.D6 r => 54 :: digits r | Decimal.D7 r => 55 :: digits r
  | Decimal.D8 r => 56 :: digits r | Decimal.D9 r => 57 :: digits r
  end.
Definition dec (i : N) : list N := digits (N.to_uint i).      (* %d of a non-negative int *)

(* fmt.Sprintf for formats made of %s (first argument: the host), %d (second argument: the round) and literal bytes *)
Fixpoint sprintf (f : list N) (h : list N) (i : N) : list N :=
  match f with
  | 37 :: 115 :: r => h ++ sprintf r h i
  | 37 :: 100 :: r => dec i ++ sprintf r h i
  | c :: r => c :: sprintf r h i
  | [] => []
  end.

Definition vname (h : list N) (i : N) : list N := sprintf gen_vnode_format h i.

(* what the source says: the format "%s_%d" applied to (ep.HashKey(), i) *)
Example vnode_source : gen_vnode_format = [37; 115; 95; 37; 100] /\
  gen_vnode_args = [[101; 112; 46; 72; 97; 115; 104; 75; 101; 121; 40; 41]; [105]].
Proof. split; reflexivity. Qed.

Lemma vname_eq h i : vname h i = h ++ 95 :: dec i.
Proof. unfold vname. cbn. now rewrite app_nil_r. Qed.

Lemma digits_inj u : forall v, digits u = digits v -> u = v.
Proof. induction u; destruct v; cbn; intros H; try discriminate; try reflexivity; inversion H; f_equal; auto. Qed.
Lemma dec_inj i j : dec i = dec j -> i = j.
Proof. unfold dec. intros H. apply digits_inj in H. rewrite <- (Unsigned.of_to i), <- (Unsigned.of_to j). now rewrite H. Qed.
Lemma digits_no_sep u : ~ In 95 (digits u).
Proof. induction u; cbn; intros H; try tauto; destruct H as [H|H]; try discriminate; tauto. Qed.

Lemma app_sep_unique {A} (x : A) (a1 : list A) : forall a2 b1 b2, ~ In x a1 -> ~ In x a2 -> a1 ++ x :: b1 = a2 ++ x :: b2 -> a1 = a2 /\ b1 = b2.
Proof.
  induction a1 as [|y a1 IH]; intros [|z a2] b1 b2 H1 H2 E; cbn in E.
  - inversion E. auto.
  - inversion E; subst. exfalso. apply H2. now left.
  - inversion E; subst. exfalso. apply H1. now left.
  - inversion E; subst. destruct (IH a2 b1 b2) as [-> ->]; auto; [intros H; apply H1; now right|intros H; apply H2; now right].
Qed.

(* the names of different (host, round) pairs are different: for all hosts (any bytes, '_' and digits included) *)
Theorem vname_inj h1 i1 h2 i2 : vname h1 i1 = vname h2 i2 -> h1 = h2 /\ i1 = i2.
Proof.
  (* reversed, the decimal comes first and has no '_': the first '_' of the reversed name is the separator *)
  rewrite !vname_eq. intros E. apply (f_equal (@rev N)) in E. rewrite !rev_app_distr in E. cbn [rev] in E. rewrite <- !app_assoc in E. cbn [app] in E.
  apply app_sep_unique in E; try (intros H; apply in_rev in H; revert H; apply digits_no_sep).
  destruct E as [E1 E2]. apply (f_equal (@rev N)) in E1. apply (f_equal (@rev N)) in E2. rewrite !rev_involutive in E1, E2.
  split; [exact E2|now apply dec_inj].
Qed.

(* the ring points of a member: the hash of each of its names (md5-derived, abstract) *)
Section points.
  Variable hash4 : list N -> list N.
  Definition points_of_naming (h : list N) (n : nat) : list N := flat_map (fun i => hash4 (vname h (N.of_nat i))) (seq 0 n).

  (* if the hash never sends two different names to a common point, no two hosts collide - for every universe *)
  Theorem naming_nocollision : (forall s1 s2 k, In k (hash4 s1) -> In k (hash4 s2) -> s1 = s2) ->
    forall U, NoCollision points_of_naming U.
  Proof.
    intros Hh U h1 h2 n1 n2 k _ _ H1 H2. unfold points_of_naming in *. apply in_flat_map in H1. apply in_flat_map in H2.
    destruct H1 as (i1 & _ & H1). destruct H2 as (i2 & _ & H2). apply (vname_inj h1 (N.of_nat i1) h2 (N.of_nat i2)). eapply Hh; eauto.
  Qed.
End points.

(* hence everything C14 proves under NoCollision holds for the names the source builds, for every universe of hosts *)
Corollary naming_history_independent (hash4 : list N -> list N) :
  (forall s1 s2 k, In k (hash4 s1) -> In k (hash4 s2) -> s1 = s2) ->
  forall weighted h1 h2 code, (forall e, In e (set_of_history h1) <-> In e (set_of_history h2)) ->
  route (points_of_naming hash4) ConHash weighted h1 code = route (points_of_naming hash4) ConHash weighted h2 code.
Proof.
  intros Hh weighted h1 h2 code Hs. apply (route_history_independent (points_of_naming hash4) weighted (fun _ => True) (naming_nocollision hash4 Hh _)); auto.
  - apply Forall_forall. intros o _. destruct o; cbn; auto.
  - apply Forall_forall. intros o _. destruct o; cbn; auto.
Qed.

(* the names without the separator (host followed directly by the round number): 10.0.0.1 round 10 = 10.0.0.11 round 0 *)
Example naming_without_separator_refuted :
  let h1 := [49; 48; 46; 48; 46; 48; 46; 49] in let h11 := [49; 48; 46; 48; 46; 48; 46; 49; 49] in
  sprintf [37; 115; 37; 100] h1 10 = sprintf [37; 115; 37; 100] h11 0 /\ h1 <> h11 /\ vname h1 10 <> vname h11 0.
Proof. vm_compute. repeat split; discriminate. Qed.

(* an instance of the hypothesis on the hash, with points: two names sent to two different points, nothing else *)
Definition ex_hash4 (s : list N) : list N :=
  if bytes_eqb s (vname [97] 0) then [1] else if bytes_eqb s (vname [98] 0) then [2] else [].
Example hash_hypothesis_satisfiable :
  (forall s1 s2 k, In k (ex_hash4 s1) -> In k (ex_hash4 s2) -> s1 = s2) /\ points_of_naming ex_hash4 [97] 3 = [1] /\ points_of_naming ex_hash4 [98] 1 = [2].
Proof.
  (* a name with a point is one of the two names, and the point tells which *)
  assert (Hpt : forall s k, In k (ex_hash4 s) -> (s = vname [97] 0 /\ k = 1%N) \/ (s = vname [98] 0 /\ k = 2%N)).
  { intros s k. unfold ex_hash4. destruct (bytes_eqb s (vname [97] 0)) eqn:A; [|destruct (bytes_eqb s (vname [98] 0)) eqn:B].
    - apply bytes_eqb_eq in A. intros [<-|[]]. now left.
    - apply bytes_eqb_eq in B. intros [<-|[]]. now right.
    - intros []. }
  split; [|split; reflexivity]. intros s1 s2 k H1 H2.
  destruct (Hpt _ _ H1) as [[-> ->]|[-> ->]]; destruct (Hpt _ _ H2) as [[-> E]|[-> E]]; try reflexivity; discriminate E.
Qed.
