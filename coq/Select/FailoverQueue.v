(* C15 proofs, part 4: the probe queue holds at most one probe per endpoint, and the dedupe set is exactly the
   set of endpoints with a queued probe (so an endpoint whose probe has been handed out can be requested again).
   Then: a reply that arrives after its caller's deadline (label Late) changes neither the state nor the history quantities. *)
From Coq Require Import List NArith ZArith Bool Lia ZifyBool ZifyNat ZifyN.
From TarsV Require Base.Lts Base.Lists.
From TarsV Require Import Gen.Consts Select.Failover Select.FailoverProofs Select.FailoverInv.
Import ListNotations.
Open Scope Z_scope.

Definition aep_of (s : state) (ai : N) : N := match get ai s with Some a => aep a | None => 0%N end.
Definition qeps (s : state) : list N := map (aep_of s) (probeq s).

Definition InvQ (s : state) : Prop := NoDup (qeps s) /\ forall e, In e (pset s) <-> In e (qeps s).

Lemma step_aep_of : forall s l s' ai a, step s l = Some s' -> get ai s = Some a -> aep_of s' ai = aep_of s ai.
Proof.
  intros s l s' ai a Hs Hg. destruct (step_adapter _ _ _ _ _ Hs Hg) as (a' & Hg' & Hc).
  unfold aep_of. rewrite Hg, Hg'. eapply adapter_step_aep; eauto.
Qed.
Lemma check_one_aep_of : forall r s e ai a, get ai s = Some a -> aep_of (check_one r s e) ai = aep_of s ai.
Proof.
  intros r s e ai a Hg. destruct (check_one_get r s e ai a Hg) as (b & Hb & Hc).
  unfold aep_of. rewrite Hg, Hb. exact (chk_aep _ _ _ Hc).
Qed.

Lemma map_aep_of_same : forall s s' q, Inv s -> (forall ai, In ai q -> In ai (probeq s)) ->
  (forall ai a, get ai s = Some a -> aep_of s' ai = aep_of s ai) -> map (aep_of s') q = map (aep_of s) q.
Proof. intros s s' q HI Hq Ha. apply map_ext_in. intros ai Hin. destruct (inv_queue _ HI ai (Hq ai Hin)) as [a Hg]. eauto. Qed.

Lemma InvQ_same : forall s s', Inv s -> probeq s' = probeq s -> pset s' = pset s ->
  (forall ai a, get ai s = Some a -> aep_of s' ai = aep_of s ai) -> InvQ s -> InvQ s'.
Proof.
  intros s s' HI Hq Hp Ha HQ. unfold InvQ, qeps. rewrite Hq, Hp, (map_aep_of_same s s' (probeq s) HI); auto.
Qed.

Lemma InvQ_check_one : forall r s e, Inv s -> InvQ s -> InvQ (check_one r s e).
Proof.
  intros r s e HI [Q1 Q2]. pose proof (check_one_aep_of r s e) as Haep.
  destruct (check_oneP r s e) as [_ | ai a a' first need Hl Hg Hsp]; [split; assumption |].
  destruct (need && negb (memN e (pset s))) eqn:Hq;
    [| apply (InvQ_same s); [exact HI | cbn; rewrite Hq; reflexivity .. | exact Haep | split; assumption]].
  (* a probe of e is queued: e was not in the dedupe set, so not among the queued endpoints *)
  apply andb_true_iff in Hq. destruct Hq as [-> Hm]. apply negb_true_iff in Hm.
  assert (He : qeps (chk_state s e ai a' first true) = qeps s ++ [e]).
  { unfold qeps. cbn [chk_state probeq]. rewrite Hm. cbn [negb andb]. rewrite map_app. f_equal.
    - apply (map_aep_of_same s); auto.
    - cbn. rewrite (Haep ai a Hg). unfold aep_of. rewrite Hg, (inv_att_aep s e ai a HI Hl Hg). reflexivity. }
  apply memN_false in Hm. split.
  - rewrite He. apply (NoDup_Add (Add_app e (qeps s) [])). rewrite app_nil_r. split; [exact Q1 | rewrite <- Q2; exact Hm].
  - intros x. rewrite He, in_app_iff. cbn [chk_state pset]. rewrite (proj2 (memN_false e (pset s)) Hm). cbn. specialize (Q2 x). tauto.
Qed.

Lemma InvQ_step : forall s l s', Inv s -> InvQ s -> step s l = Some s' -> InvQ s'.
Proof.
  intros s l s' HI HQ Hs. pose proof (fun ai a => step_aep_of s l s' ai a Hs) as Haep.
  destruct (stepP _ _ _ Hs) as [| | | | r | ai rest a Hq Hg | | |]; 
    try (apply (InvQ_same s); [exact HI | reflexivity | reflexivity | exact Haep | exact HQ]).
  - refine (proj2 (Lists.fold_left_inv (check_one r) (fun x => Inv x /\ InvQ x) (reg s) _ s (conj HI HQ))).
    intros x e _ [I Q]. split; [apply Inv_check_one | apply InvQ_check_one]; assumption.
  - (* the head of the queue is handed out: its endpoint leaves the dedupe set, and may be requested again *)
    destruct HQ as [Q1 Q2].
    assert (He : qeps s = aep a :: map (aep_of s) rest) by (unfold qeps; rewrite Hq; cbn; unfold aep_of at 1; rewrite Hg; reflexivity).
    rewrite He in Q1, Q2. apply NoDup_cons_iff in Q1. destruct Q1 as [Hnin Hnd].
    assert (Hr : map (aep_of _) rest = map (aep_of s) rest) by (apply (map_aep_of_same s _ rest HI); [intros; rewrite Hq; right; assumption | exact Haep]).
    unfold InvQ, qeps. cbn [probeq pset]. rewrite Hr. split; [exact Hnd |].
    intros x. rewrite In_remove_all, Q2. cbn. split; [intros [[H | H] Hne]; [congruence | exact H] | intros H; split; [auto | congruence]].
Qed.

Lemma InvQ_reachable : forall s, reachable s -> InvQ s.
Proof.
  intros s [ls Hr]. rewrite run_is in Hr. refine (proj2 (Lts.run_inv step (fun x => Inv x /\ InvQ x) _ ls init s _ Hr)).
  - intros x l y [I Q] Hs. split; [eapply Inv_step | eapply InvQ_step]; eassumption.
  - split; [exact Inv_init |]. split; [constructor | intros e; cbn; tauto].
Qed.

Theorem late_reply_no_effect : forall s ai s', step s (Late ai) = Some s' -> s' = s.
Proof. intros s ai s' H. simpl in H. destruct (get ai s); inversion H; reflexivity. Qed.

Definition is_late (l : label) : bool := match l with Late _ => true | _ => false end.

Lemma fold_skip_late : forall (A : Type) (f : A -> label -> A), (forall acc aj, f acc (Late aj) = acc) ->
  forall ls acc, fold_left f (filter (fun l => negb (is_late l)) ls) acc = fold_left f ls acc.
Proof.
  intros A f Hf ls. induction ls as [| l ls IH]; simpl; intros acc; [reflexivity |].
  destruct l; simpl; try apply IH. rewrite Hf. apply IH.
Qed.

(* the property's history quantities do not see late replies: a call that timed out stays a failed call, the streak is
   not reset and the time of the last answered call does not move, wherever late replies are interleaved *)
Theorem late_replies_do_not_count : forall ai ls,
  let ls' := filter (fun l => negb (is_late l)) ls in
  fails_since ai ls' = fails_since ai ls /\ streak ai ls' = streak ai ls /\ last_ok ai ls' = last_ok ai ls /\ clock ls' = clock ls.
Proof.
  intros ai ls ls'. unfold ls', fails_since, streak, last_ok, clock.
  rewrite !fold_skip_late by reflexivity. auto.
Qed.
