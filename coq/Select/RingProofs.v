(* C14 (and the consistent-hash clauses of C13): the ring of Selectors.v.
   - lookup = owner of the least point >= code, else of the least point; a function of the ring as a finite map;
   - removing a host re-routes only the codes that went to it, adding one moves codes only onto it
     (for the steps of the model, with or without colliding points);
   - under NoCollision U (points of distinct hosts of the universe U are disjoint) the ring reached by any
     history over U is the ring of its set: history independence, error iff no member has a virtual node;
   - without it the installation order matters (collision_dependence);
   - C13: a window of consecutive slots (round-robin cursor values, hash codes, random draws) enumerates the member list
     resp. the weight cycle (image_of). *)
From Coq Require Import List NArith ZArith Bool Arith Lia ZifyBool Permutation.
From TarsV Require Import Base.Hex Base.Lists Gen.Consts Select.Selectors Select.WeightProofs Select.SelProofs.
Import ListNotations.
Open Scope N_scope.

Definition keys (r : list (N * ep)) : list N := map fst r.

Definition lookup_spec (r : list (N * ep)) (code : N) (e : ep) : Prop :=
  exists k, In (k, e) r /\
    ((code <= k /\ forall k' e', In (k', e') r -> code <= k' -> k <= k') \/
     ((forall k' e', In (k', e') r -> k' < code) /\ forall k' e', In (k', e') r -> k <= k')).

Lemma lookup_sound r code e : ring_lookup r code = Some e -> lookup_spec r code e.
Proof.
  unfold ring_lookup. pose proof (least_spec (filter (fun p => N.leb code (fst p)) r)) as H1. pose proof (least_spec r) as H2.
  destruct (least (filter _ r)) as [[k x]|].
  - intros E. inversion E; subst x. destruct H1 as [Hin Hmin]. apply filter_In in Hin. cbn [fst] in *. destruct Hin as [Hin Hle].
    exists k. split; [exact Hin|left]. split; [lia|]. intros k' e' Hk' Hc. apply (Hmin (k', e')). apply filter_In. split; [exact Hk'|cbn [fst]; lia].
  - destruct (least r) as [[k x]|]; [|discriminate]. intros E. inversion E; subst x. destruct H2 as [Hin Hmin]. exists k. split; [exact Hin|right]. split.
    + intros k' e' Hk'. destruct (N.ltb k' code) eqn:El; [lia|]. exfalso.
      assert (Hf : In (k', e') (filter (fun p => N.leb code (fst p)) r)) by (apply filter_In; split; [exact Hk'|cbn [fst]; lia]). rewrite H1 in Hf. destruct Hf.
    + intros k' e' Hk'. apply (Hmin (k', e') Hk').
Qed.

Lemma lookup_none r code : ring_lookup r code = None <-> r = [].
Proof.
  split; [|intros ->; reflexivity]. unfold ring_lookup. pose proof (least_spec r) as H2.
  destruct (least (filter _ r)); [discriminate|]. destruct (least r); [discriminate|]. auto.
Qed.

Lemma lookup_functional r code e1 e2 : NoDup (keys r) -> lookup_spec r code e1 -> lookup_spec r code e2 -> e1 = e2.
Proof.
  intros Hnd (k1 & H1 & C1) (k2 & H2 & C2).
  assert (k1 = k2).
  { destruct C1 as [[A1 B1]|[A1 B1]], C2 as [[A2 B2]|[A2 B2]].
    - specialize (B1 _ _ H2 A2). specialize (B2 _ _ H1 A1). lia.
    - specialize (A2 _ _ H1). lia.
    - specialize (A1 _ _ H2). lia.
    - specialize (B1 _ _ H2). specialize (B2 _ _ H1). lia. }
  subst k2. assert (E : (k1, e1) = (k1, e2)) by (apply (NoDup_map_inj fst r); auto). now inversion E.
Qed.

Lemma lookup_complete r code e : NoDup (keys r) -> lookup_spec r code e -> ring_lookup r code = Some e.
Proof.
  intros Hnd Hs. destruct (ring_lookup r code) as [x|] eqn:E.
  - f_equal. eapply lookup_functional; eauto. now apply lookup_sound.
  - apply lookup_none in E. destruct Hs as (k & Hin & _). subst r. destruct Hin.
Qed.

(* the specification sees a ring through the entries of the owner and through its set of points: it survives in a ring
   r with fewer points that keeps the owner's entries *)
Lemma lookup_spec_shrink r r' code e : lookup_spec r' code e ->
  (forall k, In (k, e) r' -> In (k, e) r) -> (forall k y, In (k, y) r -> exists y', In (k, y') r') -> lookup_spec r code e.
Proof.
  intros (k & Hin & C) Hx Hkeys. exists k. split; [auto|].
  destruct C as [[A B]|[A B]].
  - left. split; [exact A|]. intros k' e' Hk'. destruct (Hkeys _ _ Hk') as [y Hy]. eauto.
  - right. split; intros k' e' Hk'; destruct (Hkeys _ _ Hk') as [y Hy]; eauto.
Qed.

Lemma lookup_shrink r r' code x : NoDup (keys r) ->
  (forall k y, In (k, y) r -> exists y', In (k, y') r') ->
  ring_lookup r' code = Some x -> (forall k, In (k, x) r' -> In (k, x) r) -> ring_lookup r code = Some x.
Proof. intros Hnd Hkeys E Hx. apply lookup_complete; [exact Hnd|]. apply lookup_sound in E. eapply lookup_spec_shrink; eauto. Qed.

Lemma lookup_filter (P : N * ep -> bool) r code x : NoDup (keys r) -> ring_lookup r code = Some x ->
  (forall k, In (k, x) r -> P (k, x) = true) -> ring_lookup (filter P r) code = Some x.
Proof.
  intros Hnd E HP. apply (lookup_shrink _ r); [now apply NoDup_map_filter| |exact E|].
  - intros k y Hk. apply filter_In in Hk. exists y. tauto.
  - intros k Hk. apply filter_In. auto.
Qed.

(* the lookup depends on the ring only as a finite map *)
Lemma lookup_ext r1 r2 code : NoDup (keys r2) -> (forall k x, In (k, x) r1 <-> In (k, x) r2) ->
  ring_lookup r1 code = ring_lookup r2 code.
Proof.
  intros N2 Hext. destruct (ring_lookup r1 code) as [x|] eqn:E.
  - symmetry. apply (lookup_shrink r2 r1); auto; [|intros k; apply Hext]. intros k' e' H. exists e'. now apply Hext.
  - apply lookup_none in E. subst r1. symmetry. apply lookup_none. destruct r2 as [|[k x] t]; [reflexivity|]. exfalso. apply (Hext k x). now left.
Qed.

Section ring.
  Variable points : list N -> nat -> list N.
  Variable weighted : bool.
  Notation pts e := (ep_points points weighted e).

  Lemma ring_set_keys r k e : NoDup (keys r) -> NoDup (keys (ring_set r k e)).
  Proof.
    induction r as [|[k0 e0] t IH]; intros Hnd; cbn [ring_set]; [cbn; constructor; [intros []|constructor]|].
    cbn in Hnd. inversion Hnd as [|? ? Hni Hnd']; subst. destruct (N.eqb k k0) eqn:E.
    - apply N.eqb_eq in E. subst k0. cbn. constructor; assumption.
    - cbn. constructor; [|now apply IH]. intros Hin. apply in_map_iff in Hin. destruct Hin as ([k' e'] & Ek & Hp). cbn [fst] in Ek. subst k'.
      apply (ring_set_in) in Hp. destruct Hp as [Hp|Hp]; [inversion Hp; subst; rewrite N.eqb_refl in E; discriminate|].
      apply Hni. change k0 with (fst (k0, e')). now apply in_map.
  Qed.

  Lemma ring_set_spec r k e : NoDup (keys r) -> forall k' e',
    In (k', e') (ring_set r k e) <-> (k' = k /\ e' = e) \/ (k' <> k /\ In (k', e') r).
  Proof.
    induction r as [|[k0 e0] t IH]; intros Hnd k' e'; cbn [ring_set].
    - cbn [In]. split; [intros [E|[]]; inversion E; now left|intros [[-> ->]|[_ []]]; now left].
    - cbn in Hnd. inversion Hnd as [|? ? Hni Hnd']; subst. destruct (N.eqb k k0) eqn:E.
      + apply N.eqb_eq in E. subst k0. cbn [In]. split.
        * intros [H|H]; [inversion H; now left|right]. split; [|now right]. intros ->. apply Hni. change k with (fst (k, e')). now apply in_map.
        * intros [[-> ->]|[Hne [H|H]]]; [now left|inversion H; congruence|now right].
      + apply N.eqb_neq in E. cbn [In]. rewrite (IH Hnd'). split.
        * intros [H|[H|[H1 H2]]]; [inversion H; subst; right; split; [congruence|now left]|now left|right; split; [exact H1|now right]].
        * intros [H|[H1 [H2|H2]]]; [right; now left|now left|right; right; split; assumption].
  Qed.

  Lemma fold_set_spec e ps : forall r, NoDup (keys r) ->
    let r' := fold_left (fun acc k => ring_set acc k e) ps r in
    NoDup (keys r') /\ forall k' e', In (k', e') r' <-> (In k' ps /\ e' = e) \/ (~ In k' ps /\ In (k', e') r).
  Proof.
    induction ps as [|p ps IH]; intros r Hnd; cbn [fold_left].
    - split; [exact Hnd|]. intros k' e'. cbn [In]. tauto.
    - destruct (IH (ring_set r p e) (ring_set_keys r p e Hnd)) as [A B]. split; [exact A|]. intros k' e'. rewrite B, (ring_set_spec r p e Hnd). cbn [In].
      destruct (N.eq_dec p k') as [->|Hne]; destruct (in_dec N.eq_dec k' ps); intuition congruence.
  Qed.

  Lemma ring_add_spec r e : NoDup (keys r) ->
    NoDup (keys (ring_add points weighted r e)) /\
    forall k' e', In (k', e') (ring_add points weighted r e) <-> (In k' (pts e) /\ e' = e) \/ (~ In k' (pts e) /\ In (k', e') r).
  Proof. intros Hnd. apply (fold_set_spec e (pts e) r Hnd). Qed.

  Lemma ring_remove_keys r h : NoDup (keys r) -> NoDup (keys (ring_remove r h)).
  Proof. intros H. unfold ring_remove, keys. now apply NoDup_map_filter. Qed.

  (* every reachable ring has pairwise distinct keys (with or without collisions) *)
  Lemma step_keys s o : NoDup (keys (hring s)) -> NoDup (keys (hring (fst (step points ConHash weighted s o)))).
  Proof.
    intros Hnd. destruct o as [n r1 r2|e r1 r2|e r1 r2|code rnd]; cbn [step fst].
    - cbn [with_eps hring]. apply fold_left_inv; [intros r e _ Hr; now apply ring_add_spec|constructor].
    - destruct (add_ep (eps s) e) as [l' ok]. destruct ok; cbn [fst with_eps hring]; [now apply ring_add_spec|exact Hnd].
    - destruct (remove_ep (eps s) e) as [l' ok]. destruct ok; cbn [fst with_eps hring]; [now apply ring_remove_keys|exact Hnd].
    - exact Hnd.
  Qed.
  Theorem state_keys h : NoDup (keys (hring (state_after points ConHash weighted h))).
  Proof.
    unfold state_after. rewrite run_fst. apply (fold_left_inv _ (fun s => NoDup (keys (hring s)))); [intros s o _; apply step_keys|constructor].
  Qed.

  Theorem remove_minimal s e code x : NoDup (keys (hring s)) ->
    ring_lookup (hring s) code = Some x -> host x <> host e ->
    ring_lookup (hring (fst (step points ConHash weighted s (Remove e 0 0)))) code = Some x.
  Proof.
    intros Hnd E Hne. cbn [step]. unfold remove_ep. destruct (has_host (host e) (eps s)); cbn [fst with_eps hring]; [|exact E].
    unfold ring_remove. apply lookup_filter; [exact Hnd|exact E|]. intros k _. cbn [snd].
    destruct (bytes_eqb (host x) (host e)) eqn:Eb; [apply bytes_eqb_eq in Eb; contradiction|reflexivity].
  Qed.

  Theorem add_minimal s e code x : NoDup (keys (hring s)) ->
    ring_lookup (hring (fst (step points ConHash weighted s (Add e 0 0)))) code = Some x -> x <> e ->
    ring_lookup (hring s) code = Some x.
  Proof.
    intros Hnd E Hne. cbn [step] in E. unfold add_ep in E. destruct (has_host (host e) (eps s)); cbn [fst with_eps hring] in E; [exact E|].
    destruct (ring_add_spec (hring s) e Hnd) as [_ B]. eapply lookup_shrink; [exact Hnd| |exact E|].
    - intros k y Hk. destruct (in_dec N.eq_dec k (pts e)) as [Hi|Hi]; [exists e|exists y]; apply B; [left|right]; auto.
    - intros k Hk. apply B in Hk. destruct Hk as [[_ Hk]|[_ Hk]]; [congruence|exact Hk].
  Qed.

  Section nocollision.
  Variable U : list N -> Prop.
  Definition NoCollision : Prop := forall h1 h2 n1 n2 k, U h1 -> U h2 -> In k (points h1 n1) -> In k (points h2 n2) -> h1 = h2.
  Hypothesis nocoll : NoCollision.

  (* the ring is the ring of the member list: hosts of the universe, pairwise different, each contributing exactly its own points.
     Inductive because under NoCollision an installation never overwrites another member's point, and a removal filters by host *)
  Definition RI (l : list ep) (r : list (N * ep)) : Prop :=
    NoDup (keys r) /\ NoDup (map host l) /\ (forall e, In e l -> U (host e)) /\
    forall k e, In (k, e) r <-> In e l /\ In k (pts e).

  Lemma RI_nil : RI [] [].
  Proof. split; [constructor|]. split; [constructor|]. split; [intros e []|]. intros k e. cbn. tauto. Qed.

  Lemma RI_add l r e : RI l r -> U (host e) -> ~ In (host e) (map host l) -> RI (l ++ [e]) (ring_add points weighted r e).
  Proof.
    intros (A & B & C & D) Hu Hni. destruct (ring_add_spec r e A) as [A' B']. split; [exact A'|]. split; [|split].
    - rewrite map_app. cbn [map]. now apply NoDup_snoc.
    - intros x Hx. apply in_app_or in Hx. destruct Hx as [Hx|[<-|[]]]; auto.
    - intros k x. rewrite B'. rewrite D. split.
      + intros [[H1 ->]|[H1 [H2 H3]]]; (split; [apply in_or_app|]; auto). right; now left.
      + intros [Hx Hk]. apply in_app_or in Hx. destruct Hx as [Hx|[<-|[]]]; [right|left; auto]. split; [|auto].
        intros Hke. apply Hni. unfold ep_points in Hk, Hke. rewrite (nocoll _ _ _ _ _ Hu (C x Hx) Hke Hk). now apply in_map.
  Qed.

  Lemma RI_remove l r h : RI l r -> RI (remove_host h l) (ring_remove r h).
  Proof.
    intros (A & B & C & D). split; [now apply ring_remove_keys|]. split; [now apply remove_host_nodup|]. split.
    - intros e He. apply C. eapply in_remove_host; eauto.
    - intros k e. unfold ring_remove. rewrite filter_In, D. cbn [snd]. split.
      + intros [[H1 H2] H3]. split; [|exact H2]. apply in_remove_host_other; [exact H1|]. intros Heq. rewrite <- bytes_eqb_eq in Heq. rewrite Heq in H3. discriminate.
      + intros [H1 H2]. split; [split; [eapply in_remove_host; eauto|exact H2]|].
        pose proof (remove_host_not_in h l e B H1) as Hne. destruct (bytes_eqb (host e) h) eqn:Eb; [apply bytes_eqb_eq in Eb; contradiction|reflexivity].
  Qed.

  Lemma RI_add_all l1 : forall l0 r, RI l0 r -> NoDup (map host (l0 ++ l1)) -> (forall e, In e l1 -> U (host e)) ->
    RI (l0 ++ l1) (fold_left (ring_add points weighted) l1 r).
  Proof.
    induction l1 as [|e l1 IH]; intros l0 r HI Hnd Hu; cbn [fold_left]; [now rewrite app_nil_r|].
    replace (l0 ++ e :: l1) with ((l0 ++ [e]) ++ l1) in * by (rewrite <- app_assoc; reflexivity).
    apply IH; [|exact Hnd|intros x Hx; apply Hu; now right].
    apply RI_add; [exact HI|apply Hu; now left|].
    rewrite !map_app in Hnd. cbn [map] in Hnd. rewrite <- app_assoc in Hnd. cbn [app] in Hnd. apply NoDup_remove_2 in Hnd.
    intros Hin. apply Hnd. apply in_or_app. now left.
  Qed.

  Lemma RI_ring_of_set l : NoDup (map host l) -> (forall e, In e l -> U (host e)) -> RI l (ring_of_set points weighted l).
  Proof. intros Hnd Hu. apply (RI_add_all l [] [] RI_nil Hnd Hu). Qed.

  Definition op_over (o : op) : Prop :=
    match o with Refresh l _ _ => forall e, In e l -> U (host e) | Add e _ _ => U (host e) | _ => True end.

  Lemma step_RI s o : op_over o -> RI (eps s) (hring s) ->
    let s' := fst (step points ConHash weighted s o) in RI (eps s') (hring s').
  Proof.
    intros Hov HI. destruct o as [n r1 r2|e r1 r2|e r1 r2|code rnd]; cbn [step fst].
    - cbn [with_eps eps hring]. apply RI_ring_of_set; [apply refresh_eps_nodup|]. intros e He. apply Hov. now apply refresh_eps_in.
    - unfold add_ep. destruct (has_host (host e) (eps s)) eqn:Eh; cbn [fst with_eps eps hring]; [exact HI|].
      apply RI_add; [exact HI|exact Hov|]. intros Hin. apply has_host_in in Hin. congruence.
    - unfold remove_ep. destruct (has_host (host e) (eps s)) eqn:Eh; cbn [fst with_eps eps hring]; [|exact HI]. now apply RI_remove.
    - exact HI.
  Qed.

  Theorem state_RI h : Forall op_over h -> RI (set_of_history h) (hring (state_after points ConHash weighted h)).
  Proof.
    intros Hov. rewrite <- (state_after_eps points ConHash weighted h). unfold state_after. rewrite run_fst.
    apply (fold_left_inv _ (fun s => RI (eps s) (hring s))); [|exact RI_nil].
    intros s o Ho. apply step_RI. rewrite Forall_forall in Hov. now apply Hov.
  Qed.

  Lemma RI_lookup_ext l1 r1 l2 r2 code : RI l1 r1 -> RI l2 r2 -> (forall e, In e l1 <-> In e l2) -> ring_lookup r1 code = ring_lookup r2 code.
  Proof.
    intros (_ & _ & _ & D1) (A2 & _ & _ & D2) Hl. apply lookup_ext; [exact A2|]. intros k x. rewrite D1, D2, Hl. tauto.
  Qed.

  (* the ring reached by a history is the ring of its set; two histories reaching the same set route alike *)
  Theorem history_ring_of_set h code : Forall op_over h ->
    ring_lookup (hring (state_after points ConHash weighted h)) code = ring_lookup (ring_of_set points weighted (set_of_history h)) code.
  Proof.
    intros Hov. pose proof (state_RI h Hov) as HI. apply (RI_lookup_ext (set_of_history h) _ (set_of_history h) _ code HI); [|tauto].
    destruct HI as (_ & B & C & _). now apply RI_ring_of_set.
  Qed.

  Theorem history_independent h1 h2 code : Forall op_over h1 -> Forall op_over h2 ->
    (forall e, In e (set_of_history h1) <-> In e (set_of_history h2)) ->
    ring_lookup (hring (state_after points ConHash weighted h1)) code = ring_lookup (hring (state_after points ConHash weighted h2)) code.
  Proof. intros H1 H2 Hs. eapply RI_lookup_ext; [apply state_RI, H1|apply state_RI, H2|exact Hs]. Qed.

  Theorem conhash_error_iff h code : Forall op_over h ->
    (ring_lookup (hring (state_after points ConHash weighted h)) code = None <-> forall e, In e (set_of_history h) -> pts e = []).
  Proof.
    intros Hov. destruct (state_RI h Hov) as (_ & _ & _ & D). rewrite lookup_none. split.
    - intros Hr e He. destruct (pts e) as [|k t] eqn:Ep; [reflexivity|]. exfalso. assert (Hin : In (k, e) (hring (state_after points ConHash weighted h))) by (apply D; split; [exact He|rewrite Ep; now left]).
      rewrite Hr in Hin. destruct Hin.
    - intros Hall. destruct (hring (state_after points ConHash weighted h)) as [|[k e] t]; [reflexivity|]. exfalso.
      destruct (proj1 (D k e) (or_introl eq_refl)) as [He Hk]. rewrite (Hall e He) in Hk. destruct Hk.
  Qed.
  End nocollision.
End ring.

(* number of rounds of virtual nodes: positive exactly for a positive weight (weighted), always positive otherwise *)
Lemma ch_rounds_weighted w : ch_rounds true w = 0%nat <-> (w <= 0)%Z.
Proof.
  unfold ch_rounds. destruct (0 <? w)%Z eqn:E; [|split; [lia|reflexivity]]. destruct (Z.quot w 4 =? 0)%Z eqn:E2; [split; [discriminate|lia]|].
  split; [|lia]. intros H. assert (0 < Z.quot w 4)%Z; [|lia]. assert (0 <= Z.quot w 4)%Z by (apply Z.quot_pos; lia). lia.
Qed.
Lemma ch_rounds_unweighted w : ch_rounds false w <> 0%nat.
Proof. unfold ch_rounds. change (Z.of_N c_ConHashVirtualNodes) with 100%Z. discriminate. Qed.

(* without NoCollision: the order of installation decides *)
Definition coll_points (h : list N) (n : nat) : list N := match n with O => [] | S _ => [5] end.
Definition ep_a : ep := {| host := [97]; skey := [97]; wgt := 100; wty := 0 |}.
Definition ep_b : ep := {| host := [98]; skey := [98]; wgt := 100; wty := 0 |}.

Theorem collision_dependence :
  (* the same set {a, b}, installed in the two orders, routes code 0 differently *)
  ring_lookup (hring (state_after coll_points ConHash false [Refresh [ep_a; ep_b] 0 0])) 0 = Some ep_b /\
  ring_lookup (hring (state_after coll_points ConHash false [Refresh [ep_b; ep_a] 0 0])) 0 = Some ep_a /\
  (* and the set {a} reached through {a, b} has lost a's only point: Select fails although a is a member *)
  set_of_history [Refresh [ep_a; ep_b] 0 0; Remove ep_b 0 0] = [ep_a] /\
  ring_lookup (hring (state_after coll_points ConHash false [Refresh [ep_a; ep_b] 0 0; Remove ep_b 0 0])) 0 = None /\
  ring_lookup (hring (state_after coll_points ConHash false [Refresh [ep_a] 0 0])) 0 = Some ep_a.
Proof. vm_compute. repeat split; reflexivity. Qed.

Definition image_of (c : list nat) (l : list ep) : list res :=
  match c with [] => map RSel l | _ => map (fun j => RSel (nth j l dummy)) c end.

Lemma mod_window_inj (a b L : Z) : (0 < L)%Z -> (- L < b - a < L)%Z -> (a mod L = b mod L)%Z -> a = b.
Proof.
  assert (W : forall x y L, (x <= y < x + L)%Z -> (x mod L = y mod L)%Z -> x = y).
  { intros x y M H E. assert (D : ((y - x) mod M = 0)%Z) by (rewrite Zminus_mod, E, Z.sub_diag; apply Z.mod_0_l; lia).
    rewrite Z.mod_small in D by lia. lia. }
  intros HL H E. destruct (Z.le_ge_cases a b); [apply (W a b L)|symmetry; apply (W b a L)]; auto; lia.
Qed.

Lemma NoDup_map_inj_on {A B} (f : A -> B) l : (forall x y, In x l -> In y l -> f x = f y -> x = y) -> NoDup l -> NoDup (map f l).
Proof.
  induction l as [|x l IH]; intros Hinj Hnd; cbn; [constructor|]. inversion Hnd as [|? ? Hni Hnd']; subst. constructor.
  - intros Hin. apply in_map_iff in Hin. destruct Hin as (y & E & Hy). assert (y = x) by (apply Hinj; [now right|now left|exact E]). subst y. contradiction.
  - apply IH; [|exact Hnd']. intros a b Ha Hb. apply Hinj; now right.
Qed.

(* a window of L consecutive cursor values visits every residue mod L exactly once *)
Lemma window_perm (L : nat) (p : N) : (0 < L)%nat ->
  Permutation (map (fun i => N.to_nat (N.modulo (p + N.of_nat i) (N.of_nat L))) (seq 1 L)) (seq 0 L).
Proof.
  intros HL. apply NoDup_Permutation_bis.
  - apply NoDup_map_inj_on; [|apply seq_NoDup]. intros x y Hx Hy E. apply in_seq in Hx. apply in_seq in Hy.
    assert (E' : Z.of_N (N.modulo (p + N.of_nat x) (N.of_nat L)) = Z.of_N (N.modulo (p + N.of_nat y) (N.of_nat L))) by lia.
    rewrite !N2Z.inj_mod in E'. apply mod_window_inj in E'; lia.
  - rewrite map_length, !seq_length. lia.
  - intros j Hj. apply in_map_iff in Hj. destruct Hj as (i & <- & _). apply in_seq. split; [apply Nat.le_0_l|apply mod_bound; lia].
Qed.

Lemma map_nth_seq {A} (l : list A) d : map (fun j => nth j l d) (seq 0 (length l)) = l.
Proof.
  induction l as [|x l IH]; [reflexivity|]. cbn [length seq map nth]. f_equal. rewrite <- seq_shift, map_map. exact IH.
Qed.

(* the slots 0 .. L-1 of a list are its elements in order; any L consecutive slots are a rearrangement of them *)
Lemma slots_in_order {A B} (g : A -> B) c d :
  map g c = map (fun t => g (nth (N.to_nat (N.modulo (N.of_nat t) (N.of_nat (length c)))) c d)) (seq 0 (length c)).
Proof.
  rewrite <- (map_nth_seq c d) at 1. rewrite map_map. apply map_ext_in. intros t Ht. apply in_seq in Ht.
  rewrite N.mod_small by lia. now rewrite Nat2N.id.
Qed.
Lemma slots_window {A B} (g : A -> B) c d (p : N) : c <> [] ->
  Permutation.Permutation (map (fun i => g (nth (N.to_nat (N.modulo (p + N.of_nat i) (N.of_nat (length c)))) c d)) (seq 1 (length c))) (map g c).
Proof.
  intros Hne. replace (map g c) with (map g (map (fun j => nth j c d) (seq 0 (length c)))) by now rewrite map_nth_seq. rewrite map_map.
  rewrite <- (map_map (fun i => N.to_nat (N.modulo (p + N.of_nat i) (N.of_nat (length c)))) (fun j => g (nth j c d))).
  apply Permutation.Permutation_map, window_perm. destruct c; [congruence|cbn; lia].
Qed.

Definition slots_len (c : list nat) (l : list ep) : nat := match c with [] => length l | _ => length c end.

Lemma image_of_slots c l : image_of c l = map (fun t => RSel (slot_of c l (N.of_nat t))) (seq 0 (slots_len c l)).
Proof. destruct c; [apply (slots_in_order RSel l dummy)|apply (slots_in_order (fun j => RSel (nth j l dummy)) _ 0%nat)]. Qed.
Lemma slots_window_perm c l (p : N) : l <> [] ->
  Permutation.Permutation (map (fun i => RSel (slot_of c l (p + N.of_nat i))) (seq 1 (slots_len c l))) (image_of c l).
Proof.
  intros Hne. destruct c; [now apply (slots_window RSel l dummy)|apply (slots_window (fun j => RSel (nth j l dummy)) _ 0%nat); discriminate].
Qed.

(* round-robin: a window as long as the member list resp. the weight cycle serves a rearrangement of it *)
Lemma rr_window points weighted s crs : wf s -> eps s <> [] -> length crs = slots_len (cache s) (eps s) ->
  (cursor s + N.of_nat (length crs) < two64)%N ->
  Permutation.Permutation (snd (run points RoundRobin weighted s (selects crs))) (image_of (cache s) (eps s)).
Proof. intros Hwf Hne Hlen Hlt. rewrite (rr_run points weighted crs s Hwf Hne Hlt), Hlen. now apply slots_window_perm. Qed.

Lemma ep_eq_dec (x y : ep) : {x = y} + {x <> y}.
Proof. decide equality; try apply Z.eq_dec; apply (list_eq_dec N.eq_dec). Qed.

Section props.
  Variable points : list N -> nat -> list N.

  Definition route (k : kind) (weighted : bool) (h : list op) (code : N) : res :=
    snd (select k (state_after points k weighted h) code 0).

  Lemma select_hash_pure k s code rnd : k = ModHash \/ k = ConHash -> select k s code rnd = (s, snd (select k s code 0)).
  Proof. intros [-> | ->]; unfold select; [destruct (eps s); reflexivity|reflexivity]. Qed.

  Lemma route_conhash weighted h code :
    route ConHash weighted h code =
    match ring_lookup (hring (state_after points ConHash weighted h)) (N.modulo code two32) with Some e => RSel e | None => RErr end.
  Proof. reflexivity. Qed.

  Theorem lookup_spec_iff weighted h code e : let r := hring (state_after points ConHash weighted h) in
    ring_lookup r code = Some e <-> lookup_spec r code e.
  Proof. cbn zeta. split; [apply lookup_sound|apply lookup_complete, state_keys]. Qed.

  Theorem route_history_independent weighted (U : list N -> Prop) : NoCollision points U -> forall h1 h2 code,
    Forall (op_over U) h1 -> Forall (op_over U) h2 -> (forall e, In e (set_of_history h1) <-> In e (set_of_history h2)) ->
    route ConHash weighted h1 code = route ConHash weighted h2 code.
  Proof. intros Hnc h1 h2 code H1 H2 Hs. rewrite !route_conhash. rewrite (history_independent points weighted U Hnc h1 h2 _ H1 H2 Hs). reflexivity. Qed.

  Theorem route_ring_of_set weighted (U : list N -> Prop) : NoCollision points U -> forall h code, Forall (op_over U) h ->
    route ConHash weighted h code =
    match ring_lookup (ring_of_set points weighted (set_of_history h)) (N.modulo code two32) with Some e => RSel e | None => RErr end.
  Proof. intros Hnc h code Hov. rewrite route_conhash, (history_ring_of_set points weighted U Hnc h _ Hov). reflexivity. Qed.

  Theorem route_remove_minimal weighted h e r1 r2 code :
    route ConHash weighted (h ++ [Remove e r1 r2]) code <> route ConHash weighted h code ->
    exists x, route ConHash weighted h code = RSel x /\ host x = host e.
  Proof.
    rewrite !route_conhash, (state_after_snoc points). set (s := state_after points ConHash weighted h). intros Hne.
    destruct (ring_lookup (hring s) (N.modulo code two32)) as [x|] eqn:E.
    - exists x. split; [reflexivity|]. destruct (list_eq_dec N.eq_dec (host x) (host e)) as [Heq|Hd]; [exact Heq|exfalso]. apply Hne.
      pose proof (remove_minimal points weighted s e _ x (state_keys points weighted h) E Hd) as H. cbn [step] in H |- *. rewrite H. reflexivity.
    - exfalso. apply Hne. apply lookup_none in E. cbn [step]. unfold remove_ep. destruct (has_host (host e) (eps s)); cbn [fst with_eps hring]; rewrite E; reflexivity.
  Qed.

  Theorem route_add_minimal weighted h e r1 r2 code :
    route ConHash weighted (h ++ [Add e r1 r2]) code <> route ConHash weighted h code ->
    route ConHash weighted (h ++ [Add e r1 r2]) code = RSel e.
  Proof.
    rewrite !route_conhash, (state_after_snoc points). set (s := state_after points ConHash weighted h). intros Hne.
    destruct (ring_lookup (hring (fst (step points ConHash weighted s (Add e r1 r2)))) (N.modulo code two32)) as [x|] eqn:E.
    - f_equal. destruct (ep_eq_dec x e) as [Heq|Hd]; [exact Heq|exfalso]. apply Hne.
      pose proof (add_minimal points weighted s e _ x (state_keys points weighted h) E Hd) as H. rewrite H. reflexivity.
    - exfalso. apply Hne. apply lookup_none in E. cbn [step] in E. unfold add_ep in E. destruct (has_host (host e) (eps s)) eqn:Eh; cbn [fst with_eps hring] in E.
      + rewrite E. reflexivity.
      + (* the ring after a successful Add is empty only if the ring before was *)
        destruct (ring_add_spec points weighted (hring s) e (state_keys points weighted h)) as [_ B].
        destruct (hring s) as [|[k y] t] eqn:Er; [reflexivity|exfalso].
        assert (Hin : exists y', In (k, y') (ring_add points weighted ((k, y) :: t) e)).
        { destruct (in_dec N.eq_dec k (ep_points points weighted e)) as [Hi|Hi]; [exists e|exists y]; apply B; [left|right]; auto. split; [exact Hi|now left]. }
        destruct Hin as (y' & Hy'). rewrite E in Hy'. destruct Hy'.
  Qed.

  Theorem route_error_iff_conhash weighted (U : list N -> Prop) : NoCollision points U ->
    (forall h n, U h -> (points h n = [] <-> n = 0%nat)) -> forall h code, Forall (op_over U) h ->
    (route ConHash weighted h code = RErr <->
     if weighted then forall e, In e (set_of_history h) -> (wgt e <= 0)%Z else set_of_history h = []).
  Proof.
    intros Hnc Hpts h code Hov. rewrite route_conhash.
    pose proof (conhash_error_iff points weighted U Hnc h (N.modulo code two32) Hov) as H.
    pose proof (state_RI points weighted U Hnc h Hov) as (_ & _ & HU & _).
    transitivity (forall e, In e (set_of_history h) -> ch_rounds weighted (wgt e) = 0%nat).
    - assert (Hp : (forall e, In e (set_of_history h) -> ep_points points weighted e = []) <->
                   (forall e, In e (set_of_history h) -> ch_rounds weighted (wgt e) = 0%nat))
        by (split; intros Hall e He; apply (Hpts _ _ (HU e He)), Hall, He).
      rewrite <- Hp, <- H. destruct (ring_lookup _ _); split; congruence.
    - destruct weighted.
      + split; intros Hall x Hx; apply ch_rounds_weighted; auto.
      + split; [|intros -> x []]. destruct (set_of_history h) as [|x t]; [reflexivity|]. intros Hall.
        destruct (ch_rounds_unweighted (wgt x)). apply Hall. now left.
  Qed.

  Theorem rotation_after weighted h crs : let s := state_after points RoundRobin weighted h in let l := set_of_history h in
    l <> [] -> cyc RoundRobin weighted l = [] -> length crs = length l -> (cursor s + N.of_nat (length l) < two64)%N ->
    Permutation.Permutation (snd (run points RoundRobin weighted s (selects crs))) (map RSel l).
  Proof.
    cbn zeta. intros Hne Hc Hlen Hlt. rewrite <- (state_after_cache points), <- (state_after_eps points RoundRobin weighted h) in *.
    rewrite rr_window; [|apply state_after_wf|exact Hne|now rewrite Hc|rewrite Hlen; exact Hlt]. now rewrite Hc.
  Qed.

  Theorem weighted_cycle_after h maxw minw : let s := state_after points RoundRobin true h in let l := set_of_history h in
    (forall e, In e l -> wty e = 1%Z /\ (0 < wgt e <= max_int32)%Z) ->
    In maxw (map wgt l) -> (forall e, In e l -> (wgt e <= maxw)%Z) -> In minw (map wgt l) -> (forall e, In e l -> (minw <= wgt e)%Z) ->
    let c := cyc RoundRobin true l in
    c <> [] /\
    (forall i e, nth_error l i = Some e -> cntz c i = Z.max 1 (wgt e * Z.min 100 (Z.max 10 (maxw / minw)) / maxw)) /\
    (forall crs, length crs = length c -> (cursor s + N.of_nat (length c) < two64)%N ->
       Permutation.Permutation (snd (run points RoundRobin true s (selects crs))) (map (fun j => RSel (nth j l dummy)) c)).
  Proof.
    cbn zeta. intros Hall Hmaxin Hmax Hminin Hmin.
    destruct (bswl_counts _ maxw minw Hall Hmaxin Hmax Hminin Hmin) as (c & a & E & Hcnt). unfold cyc. rewrite E.
    assert (Hne : set_of_history h <> []) by (intros Hn; rewrite Hn in Hmaxin; destruct Hmaxin).
    assert (Hcne : c <> []).
    { intros ->. destruct (set_of_history h) as [|e0 t] eqn:El; [congruence|]. specialize (Hcnt 0%nat e0 eq_refl). unfold cntz in Hcnt. cbn in Hcnt. lia. }
    split; [exact Hcne|]. split; [exact Hcnt|]. intros crs Hlen Hlt.
    assert (Hca : cache (state_after points RoundRobin true h) = c) by (rewrite state_after_cache; unfold cyc; rewrite E; reflexivity).
    rewrite <- (state_after_eps points RoundRobin true h) in *.
    rewrite rr_window; rewrite ?Hca; [|apply state_after_wf|exact Hne|now destruct c|rewrite Hlen; exact Hlt]. now destruct c.
  Qed.

  (* random: the draw r (any value; rand.Intn reduces it) selects slot r mod L of the list resp. of the weight cycle ... *)
  Theorem random_slot weighted h code rnd : set_of_history h <> [] ->
    let l := set_of_history h in let c := cyc Random weighted l in
    snd (select Random (state_after points Random weighted h) code rnd) =
    RSel (slot_of c l (N.modulo rnd (N.of_nat (slots_len c l)))).
  Proof.
    cbn zeta. intros Hne. rewrite <- (state_after_cache points Random weighted h). rewrite <- (state_after_eps points Random weighted h) in *.
    rewrite select_pick by (discriminate || assumption). cbn [snd]. rewrite pick_slot by (apply state_after_wf || assumption).
    unfold intn, cyc_len. now destruct (cache _).
  Qed.

  (* ... so the L equally likely draws hit every endpoint exactly once (no cycle) resp. endpoint i exactly as often as the
     cycle contains it (C13_swrr_counts): selection probability proportional to the prescribed count *)
  Theorem random_draws weighted h code : set_of_history h <> [] ->
    let l := set_of_history h in let c := cyc Random weighted l in
    map (fun r => snd (select Random (state_after points Random weighted h) code (N.of_nat r)))
        (seq 0 (slots_len c l)) = image_of c l.
  Proof.
    cbn zeta. intros Hne. rewrite image_of_slots. apply map_ext_in. intros r Hr. apply in_seq in Hr.
    rewrite (random_slot weighted h code (N.of_nat r) Hne). cbv zeta.
    rewrite N.mod_small by lia. reflexivity.
  Qed.

  (* mod-hash: any L consecutive hash codes (not wrapping 2^32) are spread over the list resp. the cycle as a rearrangement of it *)
  Theorem modhash_window weighted h (p : N) : set_of_history h <> [] ->
    let l := set_of_history h in let c := cyc ModHash weighted l in let L := slots_len c l in
    p + N.of_nat L < two32 ->
    Permutation.Permutation (map (fun i => snd (select ModHash (state_after points ModHash weighted h) (p + N.of_nat i) 0)) (seq 1 L)) (image_of c l).
  Proof.
    cbn zeta. intros Hne Hlt. rewrite (map_ext_in _ (fun i => RSel (slot_of (cyc ModHash weighted (set_of_history h)) (set_of_history h) (p + N.of_nat i)))).
    - now apply slots_window_perm.
    - intros i Hi. apply in_seq in Hi. rewrite (modhash_slot points weighted h _ 0 Hne), N.mod_small by lia. reflexivity.
  Qed.
End props.

(* a non-trivial instance of the hypotheses: two hosts with disjoint points *)
Definition ex_points (h : list N) (n : nat) : list N :=
  match n with O => [] | S _ => match h with [97] => [10; 200] | [98] => [20; 100] | _ => [] end end.
Definition ex_U (h : list N) : Prop := h = [97] \/ h = [98].
Example ex_nocollision : NoCollision ex_points ex_U.
Proof.
  intros h1 h2 n1 n2 k [-> | ->] [-> | ->] H1 H2; try reflexivity; exfalso; destruct n1, n2; cbn in H1, H2; lia.
Qed.
Example ex_routing :
  map (ring_lookup (hring (state_after ex_points ConHash false [Add ep_b 0 0; Add ep_a 0 0])))  [0; 10; 11; 20; 21; 100; 101; 200; 201]
  = map Some [ep_a; ep_a; ep_b; ep_b; ep_b; ep_b; ep_a; ep_a; ep_a].
Proof. vm_compute. reflexivity. Qed.

(* concrete instances of the hypotheses of the theorems above (none of them is vacuous) *)
Example ex_points_nonempty : forall h n, ex_U h -> (ex_points h n = [] <-> n = 0%nat).
Proof. intros h n [-> | ->]; destruct n; cbn; split; intros H; try reflexivity; try discriminate. Qed.

Example ex_over : Forall (op_over ex_U) [Add ep_b 0 0; Refresh [ep_a; ep_b] 3 4; Remove ep_a 0 0; Add ep_a 1 1].
Proof.
  constructor; [cbn; unfold ex_U; tauto|]. constructor; [cbn; intros e [<-|[<-|[]]]; cbn; unfold ex_U; tauto|].
  constructor; [exact I|]. constructor; [cbn; unfold ex_U; tauto|constructor].
Qed.

Example ex_error_iff_instance code :
  route ex_points ConHash true [Add ep_b 0 0; Refresh [ep_a; ep_b] 3 4; Remove ep_a 0 0; Add ep_a 1 1] code = RErr <->
  forall e, In e (set_of_history [Add ep_b 0 0; Refresh [ep_a; ep_b] 3 4; Remove ep_a 0 0; Add ep_a 1 1]) -> (wgt e <= 0)%Z.
Proof. exact (route_error_iff_conhash ex_points true ex_U ex_nocollision ex_points_nonempty _ code ex_over). Qed.

Definition ep_c : ep := {| host := [99]; skey := [99]; wgt := 7; wty := 0 |}.
Example ex_rotation_instance : forall c1 c2 c3 : N * N,
  Permutation.Permutation
    (snd (run ex_points RoundRobin false (state_after ex_points RoundRobin false [Refresh [ep_a; ep_b; ep_c] 8 0]) (selects [c1; c2; c3])))
    (map RSel [ep_a; ep_b; ep_c]).
Proof.
  intros c1 c2 c3. apply (rotation_after ex_points false [Refresh [ep_a; ep_b; ep_c] 8 0] [c1; c2; c3]); try reflexivity. discriminate.
Qed.

Example ex_counts_instance : exists c a, build_static_weight_list ex_eps = BOk c a /\
  forall i e, nth_error ex_eps i = Some e -> cntz c i = Z.max 1 (wgt e * 100 / 1000).
Proof.
  apply (bswl_counts ex_eps 1000 1).
  - intros e [<-|[<-|[<-|[]]]]; cbn; unfold max_int32; lia.
  - cbn. tauto.
  - intros e [<-|[<-|[<-|[]]]]; cbn; lia.
  - cbn. tauto.
  - intros e [<-|[<-|[<-|[]]]]; cbn; lia.
Qed.
