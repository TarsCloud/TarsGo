(* C15 proofs, part 3: the property's clauses, for every state that satisfies the invariant, and - through the reading
   of the health record as the history (history_record) - in the property's own vocabulary.  The clauses, as numbered below:
   1 out of rotation only with two failures; 2 blocked at the status check after a streak (in scope); 3 probe requests spaced,
   one probe call per request; 4 an answered probe reinstates, nothing else does; 5 a call always gets an adapter. *)
From Coq Require Import List NArith ZArith Bool Lia ZifyBool ZifyNat ZifyN.
From TarsV Require Base.Lts.
From TarsV Require Import Gen.Consts Select.Failover Select.FailoverProofs Select.FailoverInv.
Import ListNotations.
Open Scope Z_scope.

(* the loop invariant of history_record: the clock is c and the record of ai, if there is one, holds g failures,
   a streak of k and t as the time of the last answer *)
Definition record_reads (ai : N) (s : state) (g k c t : Z) : Prop :=
  now s = c /\ match get ai s with Some a => gfail a = g /\ lfc a = k /\ tS a = t | None => g = 0 /\ k = 0 /\ t = 0 end.

Lemma hist_step : forall ai s l s' g k c t, record_reads ai s g k c t -> step s l = Some s' ->
  record_reads ai s' (upd_fails ai g l) (upd_streak ai k l) (upd_clock c l) (snd (upd_lastok ai (c, t) l)).
Proof.
  intros ai s l s' g k c t [<- H] Hs. split; [exact (step_now _ _ _ Hs) |].
  destruct (get ai s) as [a |] eqn:Hg.
  - destruct H as (<- & <- & <-).
    destruct (step_adapter _ _ _ _ _ Hs Hg) as (a' & -> & [[[r ->] (st & tb & -> & _)] | ->]); [cbn; auto | apply lbl_adapter_hist].
  - (* no record yet: no call on it is enabled, and a record is created clean *)
    destruct H as (-> & -> & ->).
    assert (Hnop : upd_fails ai 0 l = 0 /\ upd_streak ai 0 l = 0 /\ snd (upd_lastok ai (now s, 0) l) = 0).
    { destruct l as [d | aj ok p | r | aj | e aj | | aj | l0 i | aj | aj p]; cbn; auto; destruct (N.eqb_spec aj ai) as [-> |]; try destruct ok; auto;
        cbn in Hs; rewrite Hg in Hs; discriminate. }
    destruct Hnop as (-> & -> & ->).
    destruct (get ai s') as [a' |] eqn:Hg'; [| auto].
    destruct (step_created _ _ _ _ _ Hs Hg Hg') as (e & _ & ->). cbn. auto.
Qed.

Lemma fst_upd_lastok : forall ai c t l, fst (upd_lastok ai (c, t) l) = upd_clock c l.
Proof. intros ai c t l. destruct l; cbn; try reflexivity; try destruct ok; try destruct (N.eqb _ ai); reflexivity. Qed.

Lemma hist_run : forall ai ls s s' g k c t, record_reads ai s g k c t -> run s ls = Some s' ->
  record_reads ai s' (fold_left (upd_fails ai) ls g) (fold_left (upd_streak ai) ls k) (fold_left upd_clock ls c)
           (snd (fold_left (upd_lastok ai) ls (c, t))).
Proof.
  intros ai ls. induction ls as [| l ls IH]; simpl; intros s s' g k c t H Hr.
  - injection Hr as <-. exact H.
  - destruct (step s l) as [s1 |] eqn:Hs; [| discriminate].
    rewrite (surjective_pairing (upd_lastok ai (c, t) l)), fst_upd_lastok. eapply IH; [eapply hist_step |]; eassumption.
Qed.

Theorem history_record : forall ls s ai a, run init ls = Some s -> get ai s = Some a ->
  gfail a = fails_since ai ls /\ lfc a = streak ai ls /\ tS a = last_ok ai ls /\ now s = clock ls.
Proof.
  intros ls s ai a Hr Hg.
  assert (H0 : record_reads ai init 0 0 T0 0) by (split; [reflexivity |]; unfold get; cbn; destruct (N.to_nat ai); cbn; auto).
  destruct (hist_run ai ls init s 0 0 T0 0 H0 Hr) as [Hn H]. rewrite Hg in H. tauto.
Qed.

(* clause 1: out of rotation => blocked with >= 2 failures; hence no failed call => in rotation *)
Theorem out_of_rotation_two_failures : forall s e, Inv s -> In e (reg s) -> ~ In e (sel s) ->
  exists ai a, lookup e (att s) = Some ai /\ get ai s = Some a /\ ast a = false /\ 2 <= gfail a.
Proof.
  intros s e HI Hin Hout. destruct (lookup e (att s)) as [ai |] eqn:Hl; [| destruct (Hout (inv_sel_new _ HI e Hin Hl))].
  destruct (inv_att _ HI e ai Hl) as (a & Hg & _). exists ai, a. destruct (inv_aok _ HI ai a Hg) as (_ & _ & H2 & _).
  destruct (ast a) eqn:Hst; [destruct (Hout (inv_sel_act _ HI e ai a Hin Hl Hg Hst)) | auto].
Qed.

Theorem out_of_rotation_two_failures_hist : forall ls s e, run init ls = Some s -> In e (reg s) -> ~ In e (sel s) ->
  exists ai a, lookup e (att s) = Some ai /\ get ai s = Some a /\ ast a = false /\ 2 <= fails_since ai ls.
Proof.
  intros ls s e Hr Hin Hout.
  destruct (out_of_rotation_two_failures s e (Inv_reachable s (ex_intro _ ls Hr)) Hin Hout) as (ai & a & Hl & Hg & Hst & H2).
  exists ai, a. destruct (history_record ls s ai a Hr Hg) as [<- _]. auto.
Qed.

Theorem no_fail_in_rotation_hist : forall ls s e, run init ls = Some s -> In e (reg s) ->
  (lookup e (att s) = None \/ exists ai, lookup e (att s) = Some ai /\ fails_since ai ls < 2) -> In e (sel s).
Proof.
  intros ls s e Hr Hin H. destruct (in_dec N.eq_dec e (sel s)) as [Hs | Hout]; [exact Hs | exfalso].
  destruct (out_of_rotation_two_failures_hist ls s e Hr Hin Hout) as (ai & a & Hl & _ & _ & H2).
  destruct H as [H | (aj & Hj & Hf)]; [congruence |]. rewrite Hl in Hj. injection Hj as <-. lia.
Qed.

Theorem blocked_only_by_check : forall s l s' ai a a', reachable s -> step s l = Some s' ->
  get ai s = Some a -> ast a = true -> get ai s' = Some a' -> ast a' = false ->
  (exists r, l = Check r) /\ gfail a' = gfail a /\ 2 <= gfail a.
Proof.
  intros s l s' ai a a' Hr Hs Ha Hst Ha' Hst'.
  destruct (inv_aok _ (Inv_reachable s Hr) ai a Ha) as (A1 & A2 & _).
  destruct (step_adapter _ _ _ _ _ Hs Ha) as (a2 & Ha2 & Hc). rewrite Ha' in Ha2. injection Ha2 as <-.
  destruct Hc as [[Hl (st & tb & -> & _ & _ & H)] | ->].
  - cbn in Hst' |- *. rewrite k_fainN, k_overN in H. split; [exact Hl |]. split; [reflexivity |].
    destruct (H Hst') as [H1 | H1]; [congruence | lia].
  - destruct (lbl_adapter_ast (now s) ai l a) as [E | [_ E]]; congruence.
Qed.

(* clause 2: blocked at the next status check after a streak *)
(* a status check leaves the streak and the time of the last answer alone, so the streak rule still applies when the loop
   reaches the endpoint, whatever it did before; afterwards the record stays blocked *)
Lemma fold_streak : forall r l s e ai a, lookup e (att s) = Some ai -> get ai s = Some a ->
  kFainN <= lfc a -> kFailInterval <= now s - tS a -> In e l ->
  exists a', get ai (fold_left (check_one r) l s) = Some a' /\ ast a' = false.
Proof.
  intros r l. induction l as [| x l IH]; intros s e ai a Hl Hg H1 H2 Hin; [destruct Hin |].
  simpl. destruct Hin as [-> | Hin].
  - destruct (check_oneP r s e) as [Hno | ai0 a0 a' first need Hl0 Hg0 Hsp]; [destruct (Hno ai a Hl Hg) |].
    rewrite Hl in Hl0. injection Hl0 as <-. rewrite Hg in Hg0. injection Hg0 as <-.
    destruct (fold_check_get r l (chk_state s e ai a' first need) ai a' (get_put_same s ai a' a Hg)) as (b & Hb & st & tb & -> & _ & Hk & _).
    exists (mkA (aep a') st (fc a') (lfc a') (sc a') (tS a') tb (tC a') (gfail a')). split; [exact Hb |].
    apply Hk. eapply ca_spec_streak; eauto.
  - destruct (check_one_get r s x ai a Hg) as (b & Hb & st & tb & -> & _). destruct (check_one_frame r s x) as (Hn & _ & Ha & _).
    eapply (IH _ e ai); [rewrite Ha; exact Hl | exact Hb | exact H1 | rewrite Hn; exact H2 | exact Hin].
Qed.

Lemma not_selected : forall s e, ~ In e (sel s) -> sel s <> [] -> forall aj, step s (SelPick e aj) = None.
Proof.
  intros s e Hout Hne aj. unfold step. destruct (reg s); [reflexivity |]. destruct (probeq s); [| reflexivity].
  destruct (sel s) as [| y ys] eqn:Hsel; [congruence |]. apply memN_false in Hout. rewrite Hout. reflexivity.
Qed.

Theorem blocked_after_streak : forall s e ai a r s', Inv s -> shrunk s = false ->
  In e (reg s) -> lookup e (att s) = Some ai -> get ai s = Some a ->
  kFainN <= lfc a -> kFailInterval <= now s - tS a ->
  step s (Check r) = Some s' ->
  exists a', get ai s' = Some a' /\ ast a' = false /\ ~ In e (sel s') /\
             (sel s' <> [] -> forall aj, step s' (SelPick e aj) = None).
Proof.
  intros s e ai a r s' HI Hsh Hin Hl Hg H1 H2 Hs. pose proof (Inv_step _ _ _ HI Hs) as HI'. injection Hs as <-.
  destruct (fold_streak r (reg s) s e ai a Hl Hg H1 H2 Hin) as (a' & Ha' & Hf).
  destruct (fold_check_frame r (reg s) s) as (_ & _ & Hatt & Hshr & _).
  assert (Hout : ~ In e (sel (fold_left (check_one r) (reg s) s))).
  { eapply (inv_sel_blocked _ HI'); [rewrite Hshr; exact Hsh | rewrite Hatt; exact Hl | exact Ha' | exact Hf]. }
  exists a'. repeat split; [exact Ha' | exact Hf | exact Hout | apply not_selected; exact Hout].
Qed.

Theorem blocked_after_streak_hist : forall ls s e ai r s', run init ls = Some s -> shrunk s = false ->
  In e (reg s) -> lookup e (att s) = Some ai ->
  5 <= streak ai ls -> 5 <= clock ls - last_ok ai ls ->
  step s (Check r) = Some s' ->
  exists a', get ai s' = Some a' /\ ast a' = false /\ ~ In e (sel s') /\
             (sel s' <> [] -> forall aj, step s' (SelPick e aj) = None).
Proof.
  intros ls s e ai r s' Hr Hsh Hin Hl H1 H2 Hs. pose proof (Inv_reachable s (ex_intro _ ls Hr)) as HI.
  destruct (inv_att _ HI e ai Hl) as (a & Hg & _). destruct (history_record ls s ai a Hr Hg) as (_ & Hk & Ht & Hn).
  apply (blocked_after_streak s e ai a r s'); auto; [rewrite k_fainN, Hk | rewrite k_failInterval, Ht, Hn]; assumption.
Qed.

Theorem shrunk_only_by_dropping_refresh : forall s l s', step s l = Some s' -> shrunk s = false -> shrunk s' = true ->
  exists r i e ai, l = Refresh r i /\ lookup e (att s) = Some ai /\ ~ In e r /\ ~ In e i.
Proof.
  intros s l s' Hs H0. destruct (stepP _ _ _ Hs) as [| | | | r | | | l i |]; cbn [shrunk upd_state w_now create_state refresh_state]; try congruence.
  - destruct (fold_check_frame r (reg s) s) as (_ & _ & _ & -> & _). congruence.
  - rewrite H0. cbn [orb]. intros H1. apply existsb_exists in H1. destruct H1 as ([e ai] & Hin & Hneg).
    apply negb_true_iff, memN_false in Hneg. destruct (In_lookup e ai _ Hin) as (w & Hw).
    exists l, i, e, w. rewrite in_app_iff in Hneg. tauto.
Qed.

(* the scope "shrunk = false" in terms of the history: it is left exactly by a refresh that drops an endpoint which
   has an adapter at that moment *)
Theorem scope_left_only_by_dropping_refresh : forall ls s0 s, run s0 ls = Some s -> shrunk s0 = false -> shrunk s = true ->
  exists pre r i post s1 e ai, ls = pre ++ Refresh r i :: post /\ run s0 pre = Some s1 /\
    lookup e (att s1) = Some ai /\ ~ In e r /\ ~ In e i.
Proof.
  induction ls as [| l ls IH]; simpl; intros s0 s Hr H0 H1.
  - inversion Hr; subst. congruence.
  - destruct (step s0 l) as [s1 |] eqn:Hs; [| discriminate].
    destruct (shrunk s1) eqn:Hsh.
    + destruct (shrunk_only_by_dropping_refresh _ _ _ Hs H0 Hsh) as (r & i & e & ai & -> & Hl & Hn).
      exists [], r, i, ls, s0, e, ai. simpl. auto.
    + destruct (IH s1 s Hr Hsh H1) as (pre & r & i & post & s2 & e & ai & -> & Hp & Hl & Hn).
      exists (l :: pre), r, i, post, s2, e, ai. simpl. rewrite Hs. auto.
Qed.

(* clause 3: probe requests are >= tryTimeInterval apart; one probe call per request *)
Lemma spaced_app : forall l1 l2, spaced (l1 ++ l2) -> spaced l2.
Proof. induction l1 as [| [[e ai] t] l1 IH]; simpl; intros l2 H; [exact H | apply IH; tauto]. Qed.

Lemma spaced_apart : forall pre e2 e1 ai t2 t1 mid post,
  spaced (pre ++ (e2, ai, t2) :: mid ++ (e1, ai, t1) :: post) -> kTry <= t2 - t1.
Proof.
  intros pre e2 e1 ai t2 t1 mid post F. apply spaced_app in F. destruct F as [H _].
  apply (H e1 t1), in_or_app. right. left. reflexivity.
Qed.

Theorem probe_rate : forall s pre e2 e1 ai t2 t1 mid post, reachable s ->
  reqlog s = pre ++ (e2, ai, t2) :: mid ++ (e1, ai, t1) :: post -> 30 <= t2 - t1.
Proof.
  intros s pre e2 e1 ai t2 t1 mid post Hr Heq. pose proof (inv_spaced _ (Inv_reachable s Hr)) as F.
  rewrite Heq in F. rewrite <- k_try. exact (spaced_apart _ _ _ _ _ _ _ _ F).
Qed.

Theorem probe_rate_endpoint : forall s pre e ai2 ai1 t2 t1 mid post, reachable s -> shrunk s = false ->
  reqlog s = pre ++ (e, ai2, t2) :: mid ++ (e, ai1, t1) :: post -> 30 <= t2 - t1.
Proof.
  intros s pre e ai2 ai1 t2 t1 mid post Hr Hsh Heq. pose proof (inv_req_att _ (Inv_reachable s Hr) Hsh) as G.
  assert (H2 : lookup e (att s) = Some ai2) by (apply (G e ai2 t2); rewrite Heq; auto using in_or_app, in_eq).
  assert (H1 : lookup e (att s) = Some ai1) by (apply (G e ai1 t1); rewrite Heq; auto 6 using in_or_app, in_eq, in_cons).
  rewrite H2 in H1. injection H1 as <-. eapply probe_rate; eauto.
Qed.

Theorem probe_single : forall s ai, reachable s ->
  (countN ai (probelog s) + countN ai (probeq s) <= req_count ai (reqlog s))%nat.
Proof. intros s ai Hr. apply (inv_count _ (Inv_reachable s Hr)). Qed.

(* clause 4: a successful probe reinstates; without one the adapter stays blocked *)
Lemma run_avoiding : forall (P : state -> Prop) (l0 : label),
  (forall s l s', P s -> l <> l0 -> step s l = Some s' -> P s') ->
  forall ls s s', P s -> ~ In l0 ls -> run s ls = Some s' -> P s'.
Proof.
  intros P l0 H ls. induction ls as [| l ls IH]; simpl; intros s s' Hp Hno Hr.
  - injection Hr as <-. exact Hp.
  - destruct (step s l) as [s1 |] eqn:Hs; [| discriminate]. apply (IH s1); [eapply H; eauto | tauto | exact Hr].
Qed.

Theorem stays_blocked : forall ls s s' ai a, run s ls = Some s' ->
  get ai s = Some a -> ast a = false -> memN ai (reinst s) = false -> ~ In (Out ai true true) ls ->
  exists a', get ai s' = Some a' /\ ast a' = false /\ memN ai (reinst s') = false.
Proof.
  intros ls s s' ai a Hr Hg Hst Hm Hno.
  apply (run_avoiding (fun x => exists b, get ai x = Some b /\ ast b = false /\ memN ai (reinst x) = false) (Out ai true true))
    with (ls := ls) (s := s); eauto.
  clear. intros s l s' (a & Hg & Hst & Hm) Hl Hs. destruct (step_adapter _ _ _ _ _ Hs Hg) as (a' & Hg' & Hc).
  exists a'. split; [exact Hg' |]. split.
  - destruct Hc as [[_ (st & tb & -> & _ & H & _)] | ->]; [exact (H Hst) |].
    destruct (lbl_adapter_ast (now s) ai l a) as [E | [-> _]]; [congruence |].
    (* a reinstatement of ai is not enabled *)
    cbn in Hs. rewrite Hg, Hm in Hs. discriminate.
  - apply memN_false. apply memN_false in Hm. intros Hin. apply Hm.
    destruct (step_reinst _ _ _ Hs) as [E | [(aj & -> & E) | (aj & _ & E)]]; rewrite E in Hin.
    + exact Hin.
    + destruct Hin as [-> | Hin]; [congruence | exact Hin].
    + eapply In_remove_first; eauto.
Qed.

Theorem probe_success_reinstates : forall s ai s1 ls s2, step s (Out ai true true) = Some s1 ->
  run s1 ls = Some s2 -> ~ In (Reinstate ai) ls ->
  exists s3 a, step s2 (Reinstate ai) = Some s3 /\ get ai s3 = Some a /\ ast a = true /\
               fc a = 0 /\ lfc a = 0 /\ sc a = 0 /\ gfail a = 0 /\ In (aep a) (sel s3) /\ In (aep a) (active s3).
Proof.
  intros s ai s1 ls s2 Hs Hr Hno.
  assert (H2 : In ai (reinst s2) /\ exists a, get ai s2 = Some a).
  { apply (run_avoiding (fun x => In ai (reinst x) /\ exists a, get ai x = Some a) (Reinstate ai)) with (ls := ls) (s := s1); auto.
    - clear. intros s l s' (Hin & a & Hg) Hl Hs. destruct (step_adapter _ _ _ _ _ Hs Hg) as (a' & Hg' & _). split; [| eauto].
      destruct (step_reinst _ _ _ Hs) as [-> | [(aj & _ & ->) | (aj & -> & ->)]]; [exact Hin | right; exact Hin |].
      apply In_remove_first_other; [congruence | exact Hin].
    - pose proof (stepP _ _ _ Hs) as Hsp. inversion Hsp as [| aj ok p a Hg | | | | | | | l Hl]; [subst | destruct Hl].
      split; [left; reflexivity | eexists; exact (get_put_same s ai _ a Hg)]. }
  destruct H2 as (Hin & a & Hg). apply memN_In in Hin. cbn [step]. rewrite Hg, Hin.
  eexists. exists (reset (now s2) a). split; [reflexivity |]. split; [exact (get_put_same s2 ai _ a Hg) |].
  cbn. repeat split; [apply In_add_set; auto | apply in_or_app; right; left; reflexivity].
Qed.

(* a refresh keeps the adapter (the health record) of every endpoint it lists, as active OR as inactive *)
Theorem refresh_keeps_listed : forall s l i s' e ai, step s (Refresh l i) = Some s' ->
  lookup e (att s) = Some ai -> In e (l ++ i) -> lookup e (att s') = Some ai.
Proof.
  intros s l i s' e ai Hs Hl Hin. pose proof (stepP _ _ _ Hs) as Hsp.
  inversion Hsp as [| | | | | | | l0 i0 | l0 _]; subst; [| exact Hl].
  apply memN_In in Hin. cbn [att refresh_state]. rewrite lookup_filter_keys, Hin. exact Hl.
Qed.

(* in scope (no refresh dropped an endpoint from BOTH lists while it had an adapter): a blocked endpoint is in no selector *)
Theorem blocked_out_of_rotation : forall s e ai a, reachable s -> shrunk s = false ->
  lookup e (att s) = Some ai -> get ai s = Some a -> ast a = false -> ~ In e (sel s).
Proof. intros s e ai a Hr. exact (fun Hsh => inv_sel_blocked _ (Inv_reachable s Hr) Hsh e ai a). Qed.

(* ... and stays out, with its health record attached, through every in-scope history that contains no answered probe
   of it - whatever the registry does with it meanwhile (active -> inactive -> active, other endpoints coming and going) *)
Theorem blocked_stays_out_without_probe : forall ls s s' e ai a, reachable s -> run s ls = Some s' -> shrunk s' = false ->
  lookup e (att s) = Some ai -> get ai s = Some a -> ast a = false -> memN ai (reinst s) = false ->
  ~ In (Out ai true true) ls ->
  lookup e (att s') = Some ai /\ (exists a', get ai s' = Some a' /\ ast a' = false) /\ ~ In e (sel s').
Proof.
  intros ls s s' e ai a Hre Hr Hsh Hl Hg Hst Hm Hno.
  pose proof (proj2 (run_scope ls s s' Hr Hsh) e ai Hl) as Hl'.
  destruct (stays_blocked ls s s' ai a Hr Hg Hst Hm Hno) as (a' & Hg' & Hst' & _).
  split; [exact Hl' |]. split; [eauto |]. eapply blocked_out_of_rotation; eauto using reachable_run.
Qed.

(* the outcome of a call is what counts, whatever its packet type: a call that fails at Send is Out _ false _ (one-way or not);
   a one-way call that was handed to the transport is booked as a success, awaits nothing and reinstates nothing *)
Theorem one_way_sent_effect : forall s ai p s', step s (Sent ai p) = Some s' ->
  exists a, get ai s = Some a /\ get ai s' = Some (succ_add (now s) a) /\
            reinst s' = reinst s /\ sel s' = sel s /\ active s' = active s /\ probeq s' = probeq s.
Proof.
  intros s ai p s' Hs. pose proof (stepP _ _ _ Hs) as Hsp. inversion Hsp as [| | aj p0 a Hg | | | | | | l Hl]; [subst | destruct Hl].
  exists a. split; [exact Hg |]. split; [exact (get_put_same s ai _ a Hg) | repeat split].
Qed.

(* clause 5: with a non-empty registry list a call always gets an adapter *)
Theorem never_none : forall s, reachable s -> reg s <> [] ->
  step s SelNone = None /\
  (forall q rest, probeq s = q :: rest -> exists s', step s (SelProbe q) = Some s') /\
  (probeq s = [] -> exists e ai s', step s (SelPick e ai) = Some s' /\
     (sel s = [] -> In e (reg s)) /\ (sel s <> [] -> In e (sel s))).
Proof.
  intros s Hr Hne. pose proof (inv_queue _ (Inv_reachable s Hr)) as B2.
  destruct (reg s) as [| x xs] eqn:Hreg; [congruence |]. split; [simpl; rewrite Hreg; reflexivity |]. split.
  - intros q rest Hq. destruct (B2 q) as [a Ha]; [rewrite Hq; left; reflexivity |].
    simpl. rewrite Hreg, Hq, Ha, N.eqb_refl. eauto.
  - intros Hq.
    (* the first member of the selectors, or of the registry list when they are empty; a new record if it has none *)
    assert (Hpick : exists e, (match sel s with [] => memN e (x :: xs) | _ :: _ => memN e (sel s) end) = true /\
                              (sel s = [] -> In e (x :: xs)) /\ (sel s <> [] -> In e (sel s))).
    { destruct (sel s) as [| y ys]; [exists x | exists y]; (split; [unfold memN; simpl; rewrite N.eqb_refl; reflexivity |]);
        split; intros; try congruence; left; reflexivity. }
    destruct Hpick as (e & Hm & H1 & H2). exists e.
    destruct (lookup e (att s)) as [aj |] eqn:Hl; [exists aj | exists (N.of_nat (length (objs s)))]; eexists;
      (split; [| split; assumption]); simpl; rewrite Hreg, Hq, Hm, Hl, N.eqb_refl; reflexivity.
Qed.
