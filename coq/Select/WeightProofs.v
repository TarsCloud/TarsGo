(* C13: proofs about BuildStaticWeightList (Selectors.build_static_weight_list, the repaired code):
   never panics, every index of the cycle is a position of the list, the cycle and the allocation are
   linear in the number of endpoints, and - the smooth weighted round-robin core - with all weights static and
   positive, position i occurs exactly max 1 (W_i * R / W_max) times. *)
From Coq Require Import List NArith ZArith Bool Arith Lia ZifyBool.
From TarsV Require Import Base.Hex Gen.Consts Select.Selectors.
Import ListNotations.
Open Scope Z_scope.

Definition zsum (l : list Z) : Z := fold_right Z.add 0 l.

Lemma zsum_cons x r : zsum (x :: r) = x + zsum r.
Proof. reflexivity. Qed.
Lemma zsum_app a b : zsum (a ++ b) = zsum a + zsum b.
Proof. induction a as [|x a IH]; [reflexivity|]. cbn [app]. rewrite !zsum_cons, IH. lia. Qed.
Lemma fold_left_add_zsum l a : fold_left Z.add l a = a + zsum l.
Proof. revert a. induction l as [|x l IH]; intros a; cbn [fold_left]; [cbn; lia|]. rewrite IH, zsum_cons. lia. Qed.

Lemma zsum_le {A} (f g : A -> Z) ks : (forall i, In i ks -> f i <= g i) -> zsum (map f ks) <= zsum (map g ks).
Proof.
  induction ks as [|k ks IH]; intros H; [reflexivity|]. cbn [map]. rewrite !zsum_cons.
  pose proof (H k (or_introl eq_refl)). pose proof (IH (fun i Hi => H i (or_intror Hi))). lia.
Qed.
Lemma zsum_const {A} c (ks : list A) : zsum (map (fun _ => c) ks) = c * Z.of_nat (length ks).
Proof. induction ks as [|k ks IH]; [cbn; lia|]. cbn [map length]. rewrite zsum_cons, IH. lia. Qed.
Lemma zsum_add {A} (f g : A -> Z) ks : zsum (map (fun i => f i + g i) ks) = zsum (map f ks) + zsum (map g ks).
Proof. induction ks as [|k ks IH]; [reflexivity|]. cbn [map]. rewrite !zsum_cons, IH. lia. Qed.

Lemma zsum_member_le {A} (w : A -> Z) ks i : (forall j, In j ks -> 0 <= w j) -> In i ks -> w i <= zsum (map w ks).
Proof.
  intros H Hi. apply in_split in Hi. destruct Hi as (l1 & l2 & ->). rewrite map_app, zsum_app. cbn [map]. rewrite zsum_cons.
  pose proof (zsum_le (fun _ => 0) w l1 (fun j Hj => H j (in_or_app _ _ _ (or_introl Hj)))) as H1.
  pose proof (zsum_le (fun _ => 0) w l2 (fun j Hj => H j (in_or_app _ _ _ (or_intror (in_cons _ _ _ Hj))))) as H2.
  rewrite zsum_const in H1, H2. lia.
Qed.

Lemma zsum_pointwise {A} (f g : A -> Z) ks : (forall i, In i ks -> f i <= g i) -> zsum (map f ks) = zsum (map g ks) ->
  forall i, In i ks -> f i = g i.
Proof.
  intros Hle Hs i Hi. apply in_split in Hi. destruct Hi as (l1 & l2 & ->). rewrite !map_app, !zsum_app in Hs. cbn [map] in Hs. rewrite !zsum_cons in Hs.
  pose proof (zsum_le f g l1 (fun j Hj => Hle j (in_or_app _ _ _ (or_introl Hj)))).
  pose proof (zsum_le f g l2 (fun j Hj => Hle j (in_or_app _ _ _ (or_intror (in_cons _ _ _ Hj))))).
  pose proof (Hle i (in_or_app _ _ _ (or_intror (in_eq _ _)))). lia.
Qed.

Definition cntz (js : list nat) (i : nat) : Z := Z.of_nat (count_occ Nat.eq_dec js i).
Lemma cntz_cons j js i : cntz (j :: js) i = (if Nat.eq_dec j i then 1 else 0) + cntz js i.
Proof. unfold cntz. cbn [count_occ]. destruct (Nat.eq_dec j i); lia. Qed.
Lemma cntz_NoDup ks j : NoDup ks -> In j ks -> cntz ks j = 1.
Proof. intros Hnd Hin. unfold cntz. rewrite (proj1 (NoDup_count_occ' Nat.eq_dec ks) Hnd j Hin). reflexivity. Qed.

Lemma zsum_indicator ks j : zsum (map (fun i => if Nat.eq_dec j i then 1 else 0) ks) = cntz ks j.
Proof.
  induction ks as [|k ks IH]; [reflexivity|]. cbn [map]. rewrite zsum_cons, IH, cntz_cons.
  destruct (Nat.eq_dec j k), (Nat.eq_dec k j); congruence || lia.
Qed.

Lemma cntz_sum ks js : NoDup ks -> (forall j, In j js -> In j ks) -> zsum (map (cntz js) ks) = Z.of_nat (length js).
Proof.
  intros Hnd. induction js as [|j js IH]; intros Hin; [apply (zsum_const 0)|].
  rewrite (map_ext _ _ (cntz_cons j js)), zsum_add, zsum_indicator, IH, cntz_NoDup by auto using in_eq, in_cons. cbn [length]. lia.
Qed.

Lemma fold_left_max_ge l : forall a, a <= fold_left Z.max l a /\ forall x, In x l -> x <= fold_left Z.max l a.
Proof.
  induction l as [|y l IH]; intros a; cbn [fold_left]; [split; [lia|intros x []]|].
  destruct (IH (Z.max a y)) as [H1 H2]. split; [lia|]. intros x [->|Hx]; [lia|auto].
Qed.
(* a fold of a selection (max, min) over values that all satisfy R, one of them m, which the selection prefers, is m *)
Lemma fold_left_sel_eq (op : Z -> Z -> Z) (R : Z -> Prop) m :
  (forall a y, R a -> R y -> R (op a y) /\ (a = m \/ y = m -> op a y = m)) ->
  forall l a, a = m \/ In m l -> R a -> (forall x, In x l -> R x) -> fold_left op l a = m.
Proof.
  intros Hop. induction l as [|y l IH]; intros a Hm Ha Hle; cbn [fold_left]; [destruct Hm as [Hm|[]]; exact Hm|].
  destruct (Hop a y Ha (Hle y (or_introl eq_refl))) as [Hr He]. apply IH; [|exact Hr|auto using in_cons].
  cbn [In] in Hm. destruct Hm as [Hm|[Hm|Hm]]; [left; apply He; auto|left; apply He; auto|right; exact Hm].
Qed.

Lemma NoDup_map_inj {A B} (f : A -> B) (l : list A) a b : NoDup (map f l) -> In a l -> In b l -> f a = f b -> a = b.
Proof.
  induction l as [|x l IH]; intros Hnd Ha Hb E; [destruct Ha|]. cbn in Hnd. inversion Hnd as [|? ? Hni Hnd']; subst.
  destruct Ha as [<-|Ha], Hb as [<-|Hb]; auto; exfalso; apply Hni; [rewrite E|rewrite <- E]; now apply in_map.
Qed.
Lemma NoDup_map_filter {A B} (f : A -> B) (P : A -> bool) l : NoDup (map f l) -> NoDup (map f (filter P l)).
Proof.
  induction l as [|x l IH]; cbn; intros H; [constructor|]. inversion H as [|? ? Hni Hnd]; subst.
  destruct (P x); cbn; [constructor; [|auto]|auto]. intros Hin. apply Hni. apply in_map_iff in Hin. destruct Hin as (y & E & Hy).
  apply filter_In in Hy. rewrite <- E. apply in_map. tauto.
Qed.
Lemma filter_split_length {A} (P Q : A -> bool) l : (forall x, P x = negb (Q x)) -> (length (filter P l) + length (filter Q l) = length l)%nat.
Proof. intros H. induction l as [|x l IH]; cbn; [reflexivity|]. rewrite H. destruct (Q x); cbn; lia. Qed.

Lemma indexed_fst {A} (l : list A) i : map fst (indexed i l) = seq i (length l).
Proof. revert i. induction l as [|x l IH]; intros i; cbn; [reflexivity|]. now rewrite IH. Qed.
Lemma indexed_nth {A} (l : list A) i j x : In (j, x) (indexed i l) <-> (i <= j)%nat /\ nth_error l (j - i) = Some x.
Proof.
  revert i. induction l as [|y l IH]; intros i; cbn [indexed In].
  - split; [intros []|]. intros [_ H]. destruct (j - i)%nat; discriminate.
  - rewrite IH. split.
    + intros [H|[H1 H2]]; [inversion H; subst; split; [lia|]; now rewrite Nat.sub_diag|].
      split; [lia|]. replace (j - i)%nat with (S (j - S i)) by lia. exact H2.
    + intros [H1 H2]. destruct (Nat.eq_dec i j) as [->|Hn]; [left; rewrite Nat.sub_diag in H2; cbn in H2; congruence|].
      right. split; [lia|]. replace (j - i)%nat with (S (j - S i)) in H2 by lia. exact H2.
Qed.

Definition scaled_of (range maxw : Z) (il : list (nat * ep)) : list (nat * Z) :=
  map (fun p => (fst p, Z.quot (wgt (snd p) * range) maxw)) il.

Lemma scale_all_ok range maxw il : maxw <> 0 -> scale_all range maxw il = Ok (scaled_of range maxw il).
Proof.
  intros Hm. induction il as [|[i e] r IH]; cbn [scale_all scaled_of map]; [reflexivity|].
  unfold go_div. destruct (maxw =? 0) eqn:E; [lia|]. rewrite IH. reflexivity.
Qed.

Lemma better_max l a b : (if better l a b then fst b <= fst a else fst a <= fst b).
Proof. unfold better. destruct (fst b <? fst a) eqn:E1; [lia|]. destruct (fst a <? fst b) eqn:E2; [lia|]. destruct (bytes_ltb _ _); lia. Qed.

Lemma pick_max_spec l cs : forall best,
  let m := pick_max l best cs in In m (best :: cs) /\ forall c, In c (best :: cs) -> fst c <= fst m.
Proof.
  induction cs as [|c r IH]; intros best; cbn [pick_max].
  - split; [now left|]. intros c [<-|[]]. lia.
  - specialize (IH (if better l c best then c else best)). cbn zeta in IH. destruct IH as [H1 H2].
    pose proof (better_max l c best) as Hb.
    split.
    + destruct H1 as [H1|H1]; [|right; now right]. rewrite <- H1. destruct (better l c best); [right; now left|now left].
    + intros x [<-|[<-|Hx]].
      * etransitivity; [|apply H2; now left]. destruct (better l c best); lia.
      * etransitivity; [|apply H2; now left]. destruct (better l c best); lia.
      * apply H2. now right.
Qed.

Lemma swrr_step_snd total w j cur : map snd (swrr_step total w j cur) = map snd cur.
Proof. unfold swrr_step. rewrite map_map. apply map_ext. intros c. destruct (Nat.eqb (snd c) j); reflexivity. Qed.

Lemma swrr_rounds_in n l total w : forall cur j, In j (swrr_rounds n l total w cur) -> In j (map snd cur).
Proof.
  induction n as [|n IH]; intros cur j; cbn [swrr_rounds]; [intros []|].
  destruct cur as [|c0 r]; [intros []|]. intros [<-|H].
  - apply in_map. apply (pick_max_spec l r c0).
  - apply IH in H. now rewrite swrr_step_snd in H.
Qed.
Lemma swrr_rounds_length_ne n l total w : forall cur, cur <> [] -> length (swrr_rounds n l total w cur) = n.
Proof.
  induction n as [|n IH]; intros cur Hne; cbn [swrr_rounds length]; [reflexivity|].
  destruct cur as [|c0 r]; [congruence|]. cbn [length]. rewrite IH; [reflexivity|].
  intros E. apply (f_equal (map snd)) in E. rewrite swrr_step_snd in E. discriminate.
Qed.
Lemma swrr_rounds_length n l total w cur : (length (swrr_rounds n l total w cur) <= n)%nat.
Proof. destruct cur as [|c r]; [destruct n; cbn; lia|]. rewrite swrr_rounds_length_ne by discriminate. lia. Qed.

Definition sumf (cur : list (Z * nat)) : Z := zsum (map fst cur).

(* a round adds every weight and takes [total] from the entries with the chosen index *)
Lemma step_sum total w j cur :
  sumf (swrr_step total w j cur) = sumf cur + zsum (map w (map snd cur)) - total * cntz (map snd cur) j.
Proof.
  unfold sumf, swrr_step. induction cur as [|c r IH]; [cbn; lia|]. cbn [map]. rewrite !zsum_cons, IH, cntz_cons.
  destruct (Nat.eqb_spec (snd c) j), (Nat.eq_dec (snd c) j); try contradiction; cbn [fst]; lia.
Qed.

Section SWRR.
  Variable l : list ep.
  Variable ks : list nat.
  Variable w : nat -> Z.
  Hypothesis ks_nodup : NoDup ks.
  Hypothesis ks_ne : ks <> [].
  Hypothesis w_pos : forall i, In i ks -> 0 < w i.
  Let T := zsum (map w ks).

  Lemma T_pos : 0 < T.
  Proof.
    clear ks_nodup. assert (Hk : exists k, In k ks) by (destruct ks as [|k r]; [congruence|exists k; apply in_eq]). destruct Hk as [k Hk].
    pose proof (zsum_member_le w ks k (fun j Hj => Z.lt_le_incl _ _ (w_pos j Hj)) Hk). specialize (w_pos k Hk). fold T in H. lia.
  Qed.

  (* after k rounds in which index i was chosen cnt i times: the current value of i is (k+1) * w i - T * cnt i, the values sum
     to T, and every value less its weight is above -T - the chosen one is a maximum of values summing to T > 0, hence positive,
     and only it loses T *)
  Definition Inv (k : Z) (cnt : nat -> Z) (cur : list (Z * nat)) : Prop :=
    map snd cur = ks /\
    (forall c, In c cur -> fst c = (k + 1) * w (snd c) - T * cnt (snd c)) /\
    sumf cur = T /\
    (forall c, In c cur -> fst c - w (snd c) > - T).

  Lemma Inv_ext k k' c c' cur : Inv k c cur -> k = k' -> (forall i, c i = c' i) -> Inv k' c' cur.
  Proof. intros (A & B & C & D) -> Hc. repeat split; auto. intros x Hx. rewrite (B x Hx), Hc. reflexivity. Qed.

  Lemma Inv_step k cnt c0 r : Inv k cnt (c0 :: r) -> let j := snd (pick_max l c0 r) in
    Inv (k + 1) (fun i => cnt i + (if Nat.eq_dec j i then 1 else 0)) (swrr_step T w j (c0 :: r)).
  Proof.
    intros (A & B & C & D) j. destruct (pick_max_spec l r c0) as [Hm Hmax]. fold j in Hm. set (m := pick_max l c0 r) in *.
    assert (Hmpos : 0 < fst m).
    { destruct (Z_lt_le_dec 0 (fst m)) as [|Hle]; [assumption|exfalso]. pose proof T_pos.
      pose proof (zsum_le fst (fun _ => 0) (c0 :: r) (fun c Hc => Z.le_trans _ _ _ (Hmax c Hc) Hle)) as Hs.
      rewrite zsum_const in Hs. fold (sumf (c0 :: r)) in Hs. lia. }
    assert (Hnd : NoDup (map snd (c0 :: r))) by (rewrite A; exact ks_nodup).
    repeat split.
    - rewrite swrr_step_snd. exact A.
    - intros c' Hc'. unfold swrr_step in Hc'. apply in_map_iff in Hc'. destruct Hc' as (c & <- & Hc). rewrite (B c Hc) .
      destruct (Nat.eqb (snd c) j) eqn:E; cbn [fst snd].
      + apply Nat.eqb_eq in E. destruct (Nat.eq_dec j (snd c)); [lia|congruence].
      + apply Nat.eqb_neq in E. destruct (Nat.eq_dec j (snd c)); [congruence|lia].
    - rewrite step_sum, cntz_NoDup, A by (auto; now apply in_map). fold T. lia.
    - intros c' Hc'. unfold swrr_step in Hc'. apply in_map_iff in Hc'. destruct Hc' as (c & <- & Hc).
      destruct (Nat.eqb (snd c) j) eqn:E; cbn [fst snd].
      + apply Nat.eqb_eq in E. assert (c = m) by (apply (NoDup_map_inj snd (c0 :: r)); auto). subst c. lia.
      + specialize (D c Hc). assert (0 < w (snd c)) by (apply w_pos; rewrite <- A; now apply in_map). lia.
  Qed.

  Lemma rounds_inv n : forall cur k cnt, Inv k cnt cur ->
    exists cur', Inv (k + Z.of_nat n) (fun i => cnt i + cntz (swrr_rounds n l T w cur) i) cur'.
  Proof.
    induction n as [|n IH]; intros cur k cnt HI.
    - exists cur. eapply Inv_ext; [exact HI|lia|]. intros i. cbn. lia.
    - destruct cur as [|c0 r]. { destruct HI as (A & _). cbn in A. symmetry in A. contradiction. }
      cbn [swrr_rounds]. pose proof (Inv_step _ _ _ _ HI) as HS. cbn zeta in HS.
      destruct (IH _ _ _ HS) as (cur' & HI'). exists cur'. eapply Inv_ext; [exact HI'|lia|].
      intros i. rewrite cntz_cons. lia.
  Qed.

  Theorem swrr_exact cur : Inv 0 (fun _ => 0) cur ->
    forall i, In i ks -> cntz (swrr_rounds (Z.to_nat T) l T w cur) i = w i.
  Proof.
    intros HI. pose proof T_pos as HT. set (js := swrr_rounds (Z.to_nat T) l T w cur).
    destruct (rounds_inv (Z.to_nat T) _ _ _ HI) as (cur' & A & B & _ & D). fold js in B.
    (* after T rounds no index was chosen more often than its weight (last clause of the invariant at k = T); the counts sum to
       T, as the weights do: they are equal one by one *)
    assert (Hle : forall i, In i ks -> cntz js i <= w i).
    { intros i Hi. rewrite <- A in Hi. apply in_map_iff in Hi. destruct Hi as (c & <- & Hc).
      specialize (B c Hc). specialize (D c Hc). rewrite B in D. rewrite Z2Nat.id in D by lia. nia. }
    assert (Hlen : length js = Z.to_nat T).
    { apply swrr_rounds_length_ne. destruct HI as (A0 & _). intros ->. cbn in A0. symmetry in A0. contradiction. }
    assert (Hin : forall j, In j js -> In j ks).
    { intros j Hj. apply swrr_rounds_in in Hj. destruct HI as (A0 & _). now rewrite A0 in Hj. }
    apply zsum_pointwise; [exact Hle|]. rewrite cntz_sum by auto. rewrite Hlen, Z2Nat.id by lia. reflexivity.
  Qed.
End SWRR.

Definition cycle_of (l : list ep) (range total0 maxw : Z) : list nat :=
  let scaled := scaled_of range maxw (indexed 0 l) in
  let zeros := map fst (filter (fun p => snd p <=? 0) scaled) in
  let pos := filter (fun p => 0 <? snd p) scaled in
  let total := total0 + fold_left Z.add (map snd pos) 0 in
  zeros ++ swrr_rounds (Z.to_nat total) l total (wof pos) (map (fun p => (snd p, fst p)) pos).

Definition maxw_of (l : list ep) : Z := fold_left Z.max (map wgt l) min_int32.
Definition minw_of (l : list ep) : Z := fold_left Z.min (map wgt l) max_int32.
Definition all_static (l : list ep) : bool := negb (existsb (fun e => negb (wty e =? 1)) l).

Lemma bswl_cases l :
  (all_static l = false /\ build_static_weight_list l = BOk [] 0) \/
  (all_static l = true /\ maxw_of l <= 0 /\ build_static_weight_list l = BOk [] 0) \/
  (all_static l = true /\ 0 < maxw_of l /\
   let range := if 0 <? minw_of l then clamp_range (Z.quot (maxw_of l) (minw_of l)) else 1 in
   let total0 := if 0 <? minw_of l then 0 else 1 in
   let c := cycle_of l range total0 (maxw_of l) in
   build_static_weight_list l = BOk c (Z.of_nat (length l) + Z.of_nat (length c))).
Proof.
  unfold build_static_weight_list, bswl_gen, all_static. fold (maxw_of l). fold (minw_of l).
  destruct (existsb _ l); [left; split; reflexivity|right]. cbn [negb andb].
  destruct (maxw_of l <=? 0) eqn:Em; [left; split; [reflexivity|split; [lia|reflexivity]]|right].
  split; [reflexivity|]. split; [lia|]. cbn zeta.
  assert (Hcap : (Z.of_nat (length l) <? 0) = false) by lia.
  destruct (0 <? minw_of l) eqn:En.
  - unfold go_div. destruct (minw_of l =? 0) eqn:E0; [lia|]. rewrite Hcap. rewrite scale_all_ok by lia. reflexivity.
  - rewrite Hcap. rewrite scale_all_ok by lia. reflexivity.
Qed.

Lemma clamp_range_spec q : clamp_range q = Z.min 100 (Z.max 10 q).
Proof.
  unfold clamp_range, min_static, max_static. change (Z.of_N c_minStaticWeightLimit) with 10. change (Z.of_N c_maxStaticWeightLimit) with 100.
  cbv zeta. destruct (q <? 10) eqn:E1; [destruct (100 <? 10) eqn:E2|destruct (100 <? q) eqn:E2]; lia.
Qed.
Lemma clamp_range_bounds q : 1 <= clamp_range q <= 100.
Proof. rewrite clamp_range_spec. lia. Qed.

Lemma maxw_ge l e : In e l -> wgt e <= maxw_of l.
Proof. intros H. apply (fold_left_max_ge (map wgt l) min_int32). now apply in_map. Qed.

Lemma quot_scaled_le w r m : 0 < m -> 0 <= r -> w <= m -> Z.quot (w * r) m <= r.
Proof.
  intros Hm Hr Hw. rewrite <- (Z.quot_mul r m) at 2 by lia. apply Z.quot_le_mono; [exact Hm|].
  rewrite (Z.mul_comm r). apply Z.mul_le_mono_nonneg_r; assumption.
Qed.

Lemma scaled_fst range maxw l : map fst (scaled_of range maxw (indexed 0 l)) = seq 0 (length l).
Proof. unfold scaled_of. rewrite map_map. cbn [fst]. rewrite <- (indexed_fst l 0). reflexivity. Qed.
Lemma scaled_in range maxw l i q :
  In (i, q) (scaled_of range maxw (indexed 0 l)) <-> exists e, nth_error l i = Some e /\ q = Z.quot (wgt e * range) maxw.
Proof.
  unfold scaled_of. rewrite in_map_iff. split.
  - intros ([j e] & E & H). inversion E; subst. apply indexed_nth in H. rewrite Nat.sub_0_r in H. exists e. tauto.
  - intros (e & H & ->). exists (i, e). split; [reflexivity|]. apply indexed_nth. rewrite Nat.sub_0_r. split; [lia|exact H].
Qed.

Lemma cntz_app a b i : cntz (a ++ b) i = cntz a i + cntz b i.
Proof. unfold cntz. rewrite count_occ_app. lia. Qed.
Lemma cntz_notin js i : ~ In i js -> cntz js i = 0.
Proof. intros H. unfold cntz. apply (count_occ_not_In Nat.eq_dec) in H. now rewrite H. Qed.

Lemma wof_in pos i q : NoDup (map fst pos) -> In (i, q) pos -> wof pos i = q.
Proof.
  intros Hnd Hin. unfold wof. destruct (find (fun p => Nat.eqb (fst p) i) pos) as [p|] eqn:E.
  - apply find_some in E. destruct E as [Hp Hf]. apply Nat.eqb_eq in Hf.
    assert (p = (i, q)) by (apply (NoDup_map_inj fst pos); auto). subst p. reflexivity.
  - exfalso. pose proof (find_none _ _ E _ Hin) as H. cbn in H. rewrite Nat.eqb_refl in H. discriminate.
Qed.
Lemma wof_map pos : NoDup (map fst pos) -> map (wof pos) (map fst pos) = map snd pos.
Proof. intros Hnd. rewrite map_map. apply map_ext_in. intros [i q] Hin. cbn [fst snd]. now apply wof_in. Qed.

(* the candidates BuildStaticWeightList starts the rounds with satisfy the invariant *)
Lemma Inv_init pos : NoDup (map fst pos) -> (forall p, In p pos -> 0 < snd p) ->
  Inv (map fst pos) (wof pos) 0 (fun _ => 0) (map (fun p => (snd p, fst p)) pos).
Proof.
  intros Hnd Hpos. unfold Inv, sumf. rewrite !map_map. cbn [fst snd]. rewrite <- (map_map fst (wof pos)), wof_map by exact Hnd.
  split; [reflexivity|]. split; [|split; [reflexivity|]].
  - intros c Hc. apply in_map_iff in Hc. destruct Hc as ([i q] & <- & Hp). cbn [fst snd]. rewrite (wof_in pos i q Hnd Hp). lia.
  - (* a positive weight is at most the sum of all of them *)
    intros c Hc. apply in_map_iff in Hc. destruct Hc as ([i q] & <- & Hp). cbn [fst snd]. rewrite (wof_in pos i q Hnd Hp).
    pose proof (zsum_member_le snd pos (i, q) (fun p Hp => Z.lt_le_incl _ _ (Hpos p Hp)) Hp). specialize (Hpos _ Hp). cbn [snd] in *. lia.
Qed.

Lemma cycle_of_bounds l range total0 maxw : 0 < maxw -> 1 <= range -> 0 <= total0 -> (forall e, In e l -> wgt e <= maxw) ->
  let c := cycle_of l range total0 maxw in
  (forall j, In j c -> (j < length l)%nat) /\ Z.of_nat (length c) <= range * Z.of_nat (length l) + total0.
Proof.
  intros Hm Hr Ht Hle. unfold cycle_of. set (scaled := scaled_of range maxw (indexed 0 l)).
  set (pos := filter (fun p => 0 <? snd p) scaled). set (zeros := filter (fun p => snd p <=? 0) scaled). set (total := total0 + _).
  assert (Hfst : forall P j, In j (map fst (filter P scaled)) -> (j < length l)%nat).
  { intros P j Hj. apply in_map_iff in Hj. destruct Hj as (p & <- & Hp). apply filter_In in Hp. destruct Hp as [Hp _].
    apply (in_map fst) in Hp. unfold scaled in Hp. rewrite scaled_fst in Hp. apply in_seq in Hp. lia. }
  split.
  - intros j Hj. apply in_app_or in Hj. destruct Hj as [Hj|Hj]; [exact (Hfst _ j Hj)|].
    apply swrr_rounds_in in Hj. rewrite map_map in Hj. exact (Hfst _ j Hj).
  - rewrite app_length, map_length. pose proof (swrr_rounds_length (Z.to_nat total) l total (wof pos) (map (fun p => (snd p, fst p)) pos)) as Hl.
    assert (Hz : zsum (map snd pos) <= range * Z.of_nat (length pos)).
    { rewrite <- zsum_const. apply zsum_le. intros [i q] Hp. apply filter_In in Hp. destruct Hp as [Hp _].
      apply scaled_in in Hp. destruct Hp as (e & He & ->). apply quot_scaled_le; eauto using nth_error_In; lia. }
    assert (Hsplit : (length zeros + length pos = length scaled)%nat) by (apply filter_split_length; intros; lia).
    assert (length scaled = length l) by (rewrite <- (map_length fst); unfold scaled; rewrite scaled_fst; apply seq_length).
    unfold total in *. rewrite fold_left_add_zsum in *. nia.
Qed.

Theorem bswl_total l : exists c a, build_static_weight_list l = BOk c a /\
  (forall j, In j c -> (j < length l)%nat) /\
  Z.of_nat (length c) <= 100 * Z.of_nat (length l) + 1 /\ a <= 101 * Z.of_nat (length l) + 1.
Proof.
  destruct (bswl_cases l) as [[_ E]|[(_ & _ & E)|(_ & Hm & E)]]; rewrite E; eexists _, _; (split; [reflexivity|]).
  - split; [intros j []|cbn [length]; lia].
  - split; [intros j []|cbn [length]; lia].
  - set (range := if 0 <? minw_of l then clamp_range (Z.quot (maxw_of l) (minw_of l)) else 1).
    set (total0 := if 0 <? minw_of l then 0 else 1).
    assert (Hr : 1 <= range <= 100) by (unfold range; destruct (0 <? minw_of l); [apply clamp_range_bounds|lia]).
    assert (Ht0 : 0 <= total0 <= 1) by (unfold total0; destruct (0 <? minw_of l); lia).
    destruct (cycle_of_bounds l range total0 (maxw_of l) Hm (proj1 Hr) (proj1 Ht0) (maxw_ge l)) as [Hj Hlen].
    split; [exact Hj|]. nia.
Qed.

(* with totalWeight starting from 0 (the least weight is positive), position i occurs max 1 (its scaled weight) times:
   once among the leading non-positive ones, or as often as smooth weighted round-robin prescribes *)
Lemma cycle_of_counts l range maxw i e : nth_error l i = Some e ->
  cntz (cycle_of l range 0 maxw) i = Z.max 1 (Z.quot (wgt e * range) maxw).
Proof.
  intros Hi. unfold cycle_of. set (scaled := scaled_of range maxw (indexed 0 l)). set (q := Z.quot (wgt e * range) maxw).
  set (pos := filter (fun p => 0 <? snd p) scaled). set (zeros := filter (fun p => snd p <=? 0) scaled).
  assert (Hsnd : NoDup (map fst scaled)) by (unfold scaled; rewrite scaled_fst; apply seq_NoDup).
  assert (Hpnd : NoDup (map fst pos)) by apply NoDup_map_filter, Hsnd.
  (* i is in the part of the scaled list that its scaled weight q belongs to, and in no other *)
  assert (Hpart : forall P, In i (map fst (filter P scaled)) <-> P (i, q) = true).
  { assert (Hsc : In (i, q) scaled) by (apply scaled_in; eauto).
    intros P. rewrite in_map_iff. split; [|intros HP; exists (i, q); split; [reflexivity|apply filter_In; auto]].
    intros ([i' q'] & Ei & Hp). cbn in Ei. subst i'. apply filter_In in Hp. destruct Hp as [Hp1 Hp2].
    now rewrite <- (NoDup_map_inj fst scaled _ _ Hsnd Hp1 Hsc eq_refl). }
  replace (0 + fold_left Z.add (map snd pos) 0) with (zsum (map (wof pos) (map fst pos))) by (rewrite fold_left_add_zsum, wof_map by exact Hpnd; lia).
  set (rounds := swrr_rounds _ l _ (wof pos) _).
  assert (Hrounds : cntz rounds i = if 0 <? q then q else 0).
  { destruct (0 <? q) eqn:Hq.
    - assert (Hin : In i (map fst pos)) by now apply Hpart.
      rewrite <- (wof_in pos i q Hpnd) by (apply filter_In; split; [apply scaled_in; eauto|exact Hq]).
      apply swrr_exact; [exact Hpnd|intros E; now rewrite E in Hin| |now apply Inv_init; [|intros p Hp; apply filter_In in Hp; lia]|exact Hin].
      intros j Hj. apply in_map_iff in Hj. destruct Hj as ([j' q'] & <- & Hp). cbn [fst]. rewrite (wof_in pos j' q' Hpnd Hp). apply filter_In in Hp. cbn [snd] in Hp. lia.
    - apply cntz_notin. intros Hr. apply swrr_rounds_in in Hr. rewrite map_map in Hr. apply Hpart in Hr. cbn [snd] in Hr. congruence. }
  rewrite cntz_app, Hrounds. destruct (0 <? q) eqn:Hq.
  - rewrite cntz_notin; [lia|]. intros Hz. apply Hpart in Hz. cbn [snd] in Hz. lia.
  - rewrite cntz_NoDup; [lia|apply NoDup_map_filter, Hsnd|apply Hpart; cbn [snd]; lia].
Qed.

Theorem bswl_counts l maxw minw :
  (forall e, In e l -> wty e = 1 /\ 0 < wgt e <= max_int32) ->
  In maxw (map wgt l) -> (forall e, In e l -> wgt e <= maxw) ->
  In minw (map wgt l) -> (forall e, In e l -> minw <= wgt e) ->
  exists c a, build_static_weight_list l = BOk c a /\
    forall i e, nth_error l i = Some e ->
      cntz c i = Z.max 1 (wgt e * Z.min 100 (Z.max 10 (maxw / minw)) / maxw).
Proof.
  intros Hall Hmaxin Hmax Hminin Hmin.
  assert (Hle : forall m : Z -> Prop, (forall e, In e l -> m (wgt e)) -> forall x, In x (map wgt l) -> m x).
  { intros m H x Hx. apply in_map_iff in Hx. destruct Hx as (e & <- & He). auto. }
  pose proof (Hle (fun x => 0 < x <= max_int32) (fun e He => proj2 (Hall e He))) as Hws.
  pose proof (Hws maxw Hmaxin) as Hmaxpos. pose proof (Hws minw Hminin) as Hminpos. unfold max_int32 in Hmaxpos, Hminpos.
  assert (Hmaxw : maxw_of l = maxw)
    by (apply (fold_left_sel_eq Z.max (fun x => x <= maxw)); [intros; lia|now right|unfold min_int32; lia|exact (Hle _ Hmax)]).
  assert (Hminw : minw_of l = minw)
    by (apply (fold_left_sel_eq Z.min (fun x => minw <= x)); [intros; lia|now right|unfold max_int32; lia|exact (Hle _ Hmin)]).
  assert (Hstat : all_static l = true).
  { unfold all_static. destruct (existsb _ l) eqn:E; [|reflexivity]. apply existsb_exists in E. destruct E as (e & He & Hw).
    destruct (Hall e He) as [H1 _]. rewrite H1 in Hw. discriminate. }
  destruct (bswl_cases l) as [[E _]|[(_ & Hm & _)|(_ & _ & E)]]; [congruence|lia|].
  cbn zeta in E. rewrite Hmaxw, Hminw in E. replace (0 <? minw) with true in E by lia.
  eexists _, _. split; [exact E|]. intros i e Hi. destruct (Hall e (nth_error_In _ _ Hi)) as [_ He].
  rewrite (cycle_of_counts _ _ _ i e Hi), clamp_range_spec, !Z.quot_div_nonneg by nia. reflexivity.
Qed.

(* a concrete instance: weights 1, 5 and 1000 (ratio 1000 > 100: R = 100): the light endpoints once (0 and 0 scaled), the heavy one 100 times *)
Definition ex_eps : list ep :=
  [ {| host := [97%N]; skey := [97%N]; wgt := 1; wty := 1 |}; {| host := [98%N]; skey := [98%N]; wgt := 5; wty := 1 |};
    {| host := [99%N]; skey := [99%N]; wgt := 1000; wty := 1 |} ].
Example bswl_counts_example :
  match build_static_weight_list ex_eps with BOk c _ => map (cntz c) [0; 1; 2]%nat = [1; 1; 100] /\ length c = 102%nat | BPanic _ => False end.
Proof. vm_compute. split; reflexivity. Qed.

(* the code as pinned (before fix 675061a), for the record: the same model with the guard and the capacity as they were *)
Definition ep_w (h : N) (w : Z) : ep := {| host := [h]; skey := [h]; wgt := w; wty := 1 |}.
Example pinned_code_panics :
  bswl_gen false [ep_w 97 0; ep_w 98 0] = BPanic DivByZero /\
  bswl_gen false [ep_w 97 (-200)] = BPanic MakeSliceCap /\
  (match bswl_gen false (map (fun h => ep_w h 2147483647) [97; 98; 99; 100; 101; 102; 103; 104]%N) with
   | BOk _ a => 17179869184 < a | BPanic _ => False end).
Proof. vm_compute. repeat split; reflexivity. Qed.
