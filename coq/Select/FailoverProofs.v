(* C15 proofs, part 1: tables, the thresholds, and the normal forms the other parts reason about: what checkActive returns
   (ca_spec), what one iteration of checkStatus does (check_one_spec), what a step does (step_spec). *)
From Coq Require Import List NArith ZArith Bool Lia ZifyBool ZifyNat ZifyN.
From TarsV Require Import Gen.Consts Select.Failover.
Import ListNotations.
Open Scope Z_scope.

(* the regenerated thresholds, as the property states them *)
Lemma k_fainN : kFainN = 5. Proof. reflexivity. Qed.
Lemma k_failInterval : kFailInterval = 5. Proof. reflexivity. Qed.
Lemma k_overN : kOverN = 2. Proof. reflexivity. Qed.
Lemma k_try : kTry = 30. Proof. reflexivity. Qed.
Lemma k_checkTime : kCheckTime = 60. Proof. reflexivity. Qed.
Lemma k_ratio : kRatioNum = 1 /\ kRatioDen = 2. Proof. split; reflexivity. Qed.

Lemma memN_In : forall x l, memN x l = true <-> In x l.
Proof.
  unfold memN; intros x l; rewrite existsb_exists; split.
  - intros [y [Hy He]]. apply N.eqb_eq in He. subst. exact Hy.
  - intros H. exists x. split; [exact H | apply N.eqb_refl].
Qed.
Lemma memN_false : forall x l, memN x l = false <-> ~ In x l.
Proof. intros x l. rewrite <- memN_In. destruct (memN x l); split; congruence. Qed.

Lemma In_remove_all : forall x y l, In y (remove_all x l) <-> In y l /\ y <> x.
Proof.
  unfold remove_all; intros x y l. rewrite filter_In, negb_true_iff, N.eqb_neq. split; intros [H1 H2]; split; auto.
Qed.
Lemma In_add_set : forall x y l, In y (add_set x l) <-> In y l \/ y = x.
Proof.
  unfold add_set; intros x y l. destruct (memN x l) eqn:Hm.
  - apply memN_In in Hm. split; [auto | intros [H | ->]; auto].
  - rewrite in_app_iff. simpl. intuition.
Qed.

Lemma In_remove_first : forall x y l, In y (remove_first x l) -> In y l.
Proof. intros x y l. induction l as [| z l IH]; simpl; [auto |]. destruct (N.eqb x z); simpl; intuition. Qed.
Lemma In_remove_first_other : forall x y l, y <> x -> In y l -> In y (remove_first x l).
Proof.
  intros x y l Hne. induction l as [| z l IH]; simpl; [auto |].
  destruct (N.eqb_spec x z) as [<- |]; simpl; intuition congruence.
Qed.

(* the attachment table after a refresh keeps exactly the listed endpoints *)
Lemma lookup_filter_keys : forall e l m,
  lookup e (filter (fun p : N * N => memN (fst p) l) m) = if memN e l then lookup e m else None.
Proof.
  intros e l m. induction m as [| [k v] m IH]; simpl; [destruct (memN e l); reflexivity |].
  destruct (memN k l) eqn:Hk; simpl; rewrite IH; destruct (N.eqb_spec e k) as [-> |]; rewrite ?Hk; reflexivity.
Qed.
Lemma lookup_exists_out : forall l m, existsb (fun p : N * N => negb (memN (fst p) l)) m = false ->
  forall e v, lookup e m = Some v -> memN e l = true.
Proof.
  intros l m. induction m as [| [k v] m IH]; simpl; intros H e w Hl; [discriminate |].
  apply orb_false_iff in H. destruct H as [H1 H2]. apply negb_false_iff in H1.
  destruct (N.eqb_spec e k) as [-> |]; [exact H1 | eauto].
Qed.
Lemma filter_keep_all : forall l (m : list (N * N)), existsb (fun p : N * N => negb (memN (fst p) l)) m = false ->
  filter (fun p : N * N => memN (fst p) l) m = m.
Proof.
  intros l m. induction m as [| p m IH]; simpl; intros H; [reflexivity |].
  apply orb_false_iff in H. destruct H as [H1 H2]. apply negb_false_iff in H1. rewrite H1. f_equal. auto.
Qed.
Lemma In_lookup : forall e v (m : list (N * N)), In (e, v) m -> exists w, lookup e m = Some w.
Proof.
  intros e v m. induction m as [| [k u] m IH]; simpl; [intros [] |].
  destruct (N.eqb_spec e k) as [-> |]; [eauto | intros [[= -> _] | H]; [congruence | auto]].
Qed.

Lemma nth_error_upd_same : forall A (l : list A) n v x, nth_error l n = Some x -> nth_error (upd n v l) n = Some v.
Proof. induction l; destruct n; simpl; intros; try discriminate; eauto. Qed.
Lemma nth_error_upd_other : forall A (l : list A) n m v, n <> m -> nth_error (upd n v l) m = nth_error l m.
Proof. induction l; destruct n, m; simpl; intros; try congruence; eauto. Qed.
Lemma length_upd : forall A (l : list A) n v, length (upd n v l) = length l.
Proof. induction l; destruct n; simpl; intros; auto. Qed.

Lemma nth_error_snoc : forall A (l : list A) x n b, nth_error (l ++ [x]) n = Some b ->
  nth_error l n = Some b \/ (n = length l /\ b = x).
Proof.
  intros A l x n b H. destruct (Nat.lt_ge_cases n (length l)) as [Hlt | Hge].
  - rewrite nth_error_app1 in H by exact Hlt. auto.
  - rewrite nth_error_app2 in H by exact Hge. right.
    destruct (n - length l)%nat as [| [|k]] eqn:Hd; simpl in H; [| discriminate ..]. injection H as <-. split; [lia | reflexivity].
Qed.

Lemma get_put_same : forall s ai a x, get ai s = Some x -> get ai (put ai a s) = Some a.
Proof. unfold get, put; simpl; intros. eapply nth_error_upd_same; eauto. Qed.
Lemma get_put_other : forall s ai aj a, ai <> aj -> get aj (put ai a s) = get aj s.
Proof. unfold get, put; simpl; intros. apply nth_error_upd_other. lia. Qed.
Lemma get_put : forall s ai aj a x b, get ai s = Some x -> get aj (put ai a s) = Some b ->
  (aj = ai /\ b = a) \/ (aj <> ai /\ get aj s = Some b).
Proof.
  intros s ai aj a x b Hx Hb. destruct (N.eq_dec aj ai) as [-> | Hne].
  - rewrite (get_put_same _ _ _ _ Hx) in Hb. injection Hb as <-. auto.
  - rewrite get_put_other in Hb by congruence. auto.
Qed.
Lemma get_None_len : forall s ai, get ai s = None <-> (length (objs s) <= N.to_nat ai)%nat.
Proof. intros; unfold get; apply nth_error_None. Qed.
Lemma get_snoc_old : forall s aj b x s', get aj s = Some b -> objs s' = objs s ++ [x] -> get aj s' = Some b.
Proof.
  unfold get. intros s aj b x s' H Ho. rewrite Ho, nth_error_app1; [exact H |]. apply nth_error_Some. congruence.
Qed.
Lemma get_snoc : forall s aj b x s', objs s' = objs s ++ [x] -> get aj s' = Some b ->
  get aj s = Some b \/ (aj = N.of_nat (length (objs s)) /\ b = x).
Proof.
  unfold get. intros s aj b x s' Ho H. rewrite Ho in H.
  destruct (nth_error_snoc _ _ _ _ _ H) as [Hb | [Hn ->]]; [auto | right; split; [lia | reflexivity]].
Qed.

(* sound but not exact: [ca_ratio] forgets the ratio test (ratio_hit) and [ca_touch] the kCheckTime window; nothing below needs them *)
Inductive ca_spec (reach : bool) (nw : Z) (a : adapter) : adapter * bool * bool -> Prop :=
| ca_streak : ast a = true -> kFailInterval <= nw - tS a -> kFainN <= lfc a ->
    ca_spec reach nw a (mkA (aep a) false (fc a) (lfc a) (sc a) (tS a) nw (tC a) (gfail a), true, false)
| ca_ratio : ast a = true -> kCheckTime <= nw - tC a -> kOverN <= fc a ->
    ca_spec reach nw a (mkA (aep a) false (fc a) (lfc a) (sc a) (tS a) nw (tC a) (gfail a), true, false)
| ca_touch : ast a = true -> ~ (kFailInterval <= nw - tS a /\ kFainN <= lfc a) ->
    ca_spec reach nw a (mkA (aep a) true (fc a) (lfc a) (sc a) (tS a) nw (tC a) (gfail a), false, false)
| ca_keep : ~ (ast a = true /\ kFailInterval <= nw - tS a /\ kFainN <= lfc a) -> (ast a = false -> nw - tB a < kTry) ->
    ca_spec reach nw a (a, false, false)
| ca_probe : ast a = false -> kTry <= nw - tB a ->
    ca_spec reach nw a (mkA (aep a) false (fc a) (lfc a) (sc a) (tS a) nw (tC a) (gfail a), false, reach).

Lemma check_activeP : forall reach nw a, ca_spec reach nw a (check_active reach nw a).
Proof.
  intros reach nw a. unfold check_active.
  destruct (ast a) eqn:Hst.
  - destruct ((kFailInterval <=? nw - tS a) && (kFainN <=? lfc a)) eqn:H1.
    + apply andb_true_iff in H1. destruct H1. apply ca_streak; auto; lia.
    + assert (Hn : ~ (kFailInterval <= nw - tS a /\ kFainN <= lfc a)).
      { intros [? ?]. apply andb_false_iff in H1. destruct H1; lia. }
      destruct (kCheckTime <=? nw - tC a) eqn:H2.
      * destruct ((kOverN <=? fc a) && ratio_hit a) eqn:H3.
        -- apply andb_true_iff in H3. destruct H3. apply ca_ratio; auto; lia.
        -- apply ca_touch; auto.
      * apply ca_keep; [tauto | congruence].
  - destruct (kTry <=? nw - tB a) eqn:H1.
    + apply ca_probe; auto; lia.
    + apply ca_keep; [intros [? _]; congruence | intros; lia].
Qed.

(* What a status check can do to a health record, as a normal form: only the status and the stamp tB move; an active record
   is blocked only for the streak or the ratio rule.  Reflexive and transitive, so it describes a whole checkStatus too. *)
Definition chk (nw : Z) (a a' : adapter) : Prop :=
  exists st tb, a' = mkA (aep a) st (fc a) (lfc a) (sc a) (tS a) tb (tC a) (gfail a) /\
    (tb = tB a \/ tb = nw) /\ (ast a = false -> st = false) /\
    (st = false -> ast a = false \/ kFainN <= lfc a \/ kOverN <= fc a).

Lemma chk_refl : forall nw a, chk nw a a.
Proof. intros nw a. exists (ast a), (tB a). destruct a; simpl; auto. Qed.
Lemma chk_trans : forall nw a b c, chk nw a b -> chk nw b c -> chk nw a c.
Proof.
  intros nw a b c (st & tb & -> & H1 & H2 & H3) (st' & tb' & -> & G1 & G2 & G3); simpl in *.
  exists st', tb'. repeat split.
  - destruct G1 as [-> | ->]; [exact H1 | right; reflexivity].
  - intros Ha. exact (G2 (H2 Ha)).
  - intros Hs. destruct (G3 Hs) as [Hst | G]; [exact (H3 Hst) | right; exact G].
Qed.
Lemma chk_aep : forall nw a a', chk nw a a' -> aep a' = aep a.
Proof. intros nw a a' (st & tb & -> & _). reflexivity. Qed.
Lemma ca_spec_chk : forall reach nw a a' f n, ca_spec reach nw a (a', f, n) -> chk nw a a'.
Proof.
  intros reach nw a a' f n H. inversion H; subst; try apply chk_refl;
    (eexists _, _; split; [reflexivity |]; intuition congruence).
Qed.

Lemma ca_spec_first : forall reach nw a a' f n, ca_spec reach nw a (a', f, n) ->
  if f then ast a = true /\ ast a' = false else ast a' = ast a.
Proof. intros reach nw a a' f n H. inversion H; subst; simpl; auto. Qed.
Lemma ca_spec_need : forall reach nw a a' f, ca_spec reach nw a (a', f, true) ->
  reach = true /\ ast a = false /\ kTry <= nw - tB a /\ tB a' = nw.
Proof. intros reach nw a a' f H. inversion H; subst; simpl; auto. Qed.
(* the streak rule decides: with >= fainN consecutive failures and no success for >= failInterval, not active afterwards *)
Lemma ca_spec_streak : forall reach nw a a' f n, ca_spec reach nw a (a', f, n) ->
  kFailInterval <= nw - tS a -> kFainN <= lfc a -> ast a' = false /\ (ast a = true -> f = true).
Proof.
  intros reach nw a a' f n H H1 H2. inversion H; subst; simpl; auto; [tauto | | split; [reflexivity | congruence]].
  destruct (ast a') eqn:Hs; [tauto | split; [reflexivity | congruence]].
Qed.
Lemma check_active_streak : forall reach nw a, kFailInterval <= nw - tS a -> kFainN <= lfc a ->
  ast (fst (fst (check_active reach nw a))) = false /\
  (ast a = true -> snd (fst (check_active reach nw a)) = true).
Proof.
  intros reach nw a. pose proof (check_activeP reach nw a) as H. destruct (check_active reach nw a) as [[a' f] n].
  exact (ca_spec_streak _ _ _ _ _ _ H).
Qed.
Lemma ca_spec_due : forall reach nw a a' f n, ca_spec reach nw a (a', f, n) ->
  ast a = false -> kTry <= nw - tB a -> n = reach.
Proof. intros reach nw a a' f n H Hst Hd. inversion H as [| | | _ Hb |]; subst; try congruence. specialize (Hb Hst). lia. Qed.

(* one record replaced; the rotation lists and the ghosts of calls in flight are whatever the transition says *)
Definition upd_state (s : state) (ai : N) (a' : adapter) (act sl pc ri : list N) : state :=
  mkS (now s) (reg s) (upd (N.to_nat ai) a' (objs s)) (att s) act sl (probeq s) (pset s) pc ri (reqlog s) (probelog s) (shrunk s).

(* one iteration of checkStatus that finds a record: nothing else, or this state *)
Definition chk_state (s : state) (e ai : N) (a' : adapter) (first need : bool) : state :=
  let queue := need && negb (memN e (pset s)) in
  mkS (now s) (reg s) (upd (N.to_nat ai) a' (objs s)) (att s)
      (if first then remove_first e (active s) else active s) (if first then remove_all e (sel s) else sel s)
      (if queue then probeq s ++ [ai] else probeq s) (if queue then e :: pset s else pset s)
      (pcalls s) (reinst s) (if need then (e, ai, now s) :: reqlog s else reqlog s) (probelog s) (shrunk s).

(* the first call to an endpoint creates its record; a changed registry answer rebuilds attachment and rotation *)
Definition create_state (s : state) (e : N) : state :=
  mkS (now s) (reg s) (objs s ++ [new_adapter e]) ((e, N.of_nat (length (objs s))) :: att s) (active s) (sel s)
      (probeq s) (pset s) (pcalls s) (reinst s) (reqlog s) (probelog s) (shrunk s).
Definition refresh_state (s : state) (l i : list N) : state :=
  let att' := filter (fun p => memN (fst p) (l ++ i)) (att s) in
  let rot := filter (rot_ok s att') l in
  mkS (now s) l (objs s) att' rot rot (probeq s) (pset s) (pcalls s) (reinst s) (reqlog s) (probelog s)
      (shrunk s || existsb (fun p => negb (memN (fst p) (l ++ i))) (att s)).

Inductive check_one_spec (r : list N) (s : state) (e : N) : state -> Prop :=
| co_skip : (forall ai a, lookup e (att s) = Some ai -> get ai s = Some a -> False) -> check_one_spec r s e s
| co_eff : forall ai a a' first need, lookup e (att s) = Some ai -> get ai s = Some a ->
    ca_spec (memN e r) (now s) a (a', first, need) -> check_one_spec r s e (chk_state s e ai a' first need).

Lemma check_oneP : forall r s e, check_one_spec r s e (check_one r s e).
Proof.
  intros r s e. unfold check_one.
  destruct (lookup e (att s)) as [ai |] eqn:Hl; [| left; congruence].
  destruct (get ai s) as [a |] eqn:Hg; [| left; congruence].
  pose proof (check_activeP (memN e r) (now s) a) as Hsp.
  destruct (check_active (memN e r) (now s) a) as [[a' first] need].
  apply (eq_ind _ (check_one_spec r s e) (co_eff r s e ai a a' first need Hl Hg Hsp)).
  unfold chk_state. destruct first, need; cbn [pset w_rot put w_objs]; try destruct (memN e (pset s)); reflexivity.
Qed.

(* a step: one constructor per enabled transition, the new state written out *)
Inductive step_spec (s : state) : label -> state -> Prop :=
| sp_advance : forall d, step_spec s (Advance d) (w_now (now s + Z.of_N d) s)
| sp_out : forall ai ok probe a, get ai s = Some a ->
    step_spec s (Out ai ok probe)
      (upd_state s ai (if ok then succ_add (now s) a else fail_add a) (active s) (sel s)
         (if probe then remove_first ai (pcalls s) else pcalls s) (if probe && ok then ai :: reinst s else reinst s))
| sp_sent : forall ai probe a, get ai s = Some a ->
    step_spec s (Sent ai probe)
      (upd_state s ai (succ_add (now s) a) (active s) (sel s) (if probe then remove_first ai (pcalls s) else pcalls s) (reinst s))
| sp_reinstate : forall ai a, get ai s = Some a -> memN ai (reinst s) = true ->
    step_spec s (Reinstate ai)
      (upd_state s ai (reset (now s) a) (active s ++ [aep a]) (add_set (aep a) (sel s)) (pcalls s) (remove_first ai (reinst s)))
| sp_check : forall r, step_spec s (Check r) (fold_left (check_one r) (reg s) s)
| sp_selprobe : forall ai rest a, probeq s = ai :: rest -> get ai s = Some a ->
    step_spec s (SelProbe ai)
      (mkS (now s) (reg s) (objs s) (att s) (active s) (sel s) rest (remove_all (aep a) (pset s))
           (ai :: pcalls s) (reinst s) (reqlog s) (ai :: probelog s) (shrunk s))
| sp_pick_new : forall e, (match sel s with [] => memN e (reg s) | _ :: _ => memN e (sel s) end) = true ->
    lookup e (att s) = None ->
    step_spec s (SelPick e (N.of_nat (length (objs s)))) (create_state s e)
| sp_refresh : forall l i, step_spec s (Refresh l i) (refresh_state s l i)
| sp_idle : forall l, (* a selection that finds its adapter or none at all, an unchanged registry answer, a late reply *)
    match l with SelPick _ _ | SelNone | Refresh _ _ | Late _ => True | _ => False end -> step_spec s l s.

Lemma stepP : forall s l s', step s l = Some s' -> step_spec s l s'.
Proof.
  intros s l s'. destruct l; cbn [step].
  - intros [= <-]. constructor.
  - destruct (get ai s) as [a |] eqn:Hg; [| discriminate]. destruct (probe && negb _); [discriminate |].
    intros [= <-]. destruct probe, ok; exact (sp_out s ai _ _ a Hg).
  - intros [= <-]. constructor.
  - destruct (reg s) eqn:Hr; [discriminate | rewrite <- Hr]. destruct (probeq s) as [| q rest] eqn:Hq; [discriminate |].
    destruct (get ai s) as [a |] eqn:Hg; [| discriminate]. destruct (N.eqb_spec q ai) as [-> |]; [| discriminate].
    intros [= <-]. eapply sp_selprobe; eauto.
  - destruct (reg s) eqn:Hr; [discriminate | rewrite <- Hr]. destruct (probeq s) eqn:Hq; [rewrite <- Hq | discriminate].
    destruct (match sel s with [] => _ | _ :: _ => _ end) eqn:Hm; [| discriminate].
    destruct (lookup e (att s)) as [aj |] eqn:Hl.
    + destruct (N.eqb aj ai); intros [= <-]. apply sp_idle. exact I.
    + destruct (N.eqb_spec ai (N.of_nat (length (objs s)))) as [-> |]; intros [= <-]. apply sp_pick_new; assumption.
  - destruct (reg s); intros [= <-]. apply sp_idle. exact I.
  - destruct (get ai s) as [a |] eqn:Hg; [| discriminate]. destruct (memN ai (reinst s)) eqn:Hm; [| discriminate].
    intros [= <-]. exact (sp_reinstate s ai a Hg Hm).
  - destruct (negb (sorted_strict l)); [discriminate |]. destruct l as [| x l]; [intros [= <-]; apply sp_idle; exact I |].
    destruct (list_eqN (x :: l) (reg s)); intros [= <-]; [apply sp_idle; exact I | apply sp_refresh].
  - destruct (get ai s); intros [= <-]. apply sp_idle. exact I.
  - destruct (get ai s) as [a |] eqn:Hg; [| discriminate]. destruct (probe && negb _); [discriminate |].
    intros [= <-]. destruct probe; exact (sp_sent s ai _ a Hg).
Qed.
