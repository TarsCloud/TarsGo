(* C14 at manager level: the manager's routing state is a function of the last non-empty registry answer alone, so two
   clients whose registry histories end in the same answer route every (hash type, code) alike; for consistent hashing
   (NoCollision) it is enough that the two answers contain the same endpoints, in any order. *)
From Coq Require Import List NArith ZArith Bool Lia.
From TarsV Require Import Base.Hex Gen.Consts Select.Selectors Select.WeightProofs Select.SelProofs Select.RingProofs Select.Manager.
Import ListNotations.

Lemma ep_eqb_eq a b : ep_eqb a b = true <-> a = b.
Proof.
  unfold ep_eqb. rewrite !andb_true_iff, !bytes_eqb_eq, !Z.eqb_eq. destruct a, b; cbn. split.
  - intros [[[-> ->] ->] ->]. reflexivity.
  - intros H. inversion H. auto.
Qed.
Lemma eps_eqb_eq a b : eps_eqb a b = true <-> a = b.
Proof. apply list_eqb_eq. apply ep_eqb_eq. Qed.

Section manager.
  Variable order : list ep -> list ep.

  Definition mgr_of (a : list ep) : mgr :=
    match a with [] => mgr0 | _ => {| m_raw := a; m_eps := order a; m_weighted := weight_mode a |} end.

  Lemma mgr_refresh_of a answer : mgr_refresh order (mgr_of a) answer = mgr_of (last_answer [answer] a).
  Proof.
    unfold mgr_refresh. destruct (eps_eqb answer (m_raw (mgr_of a))) eqn:E.
    - apply eps_eqb_eq in E. destruct answer as [|x t]; cbn [last_answer]; [reflexivity|].
      destruct a as [|y u]; cbn [mgr_of m_raw] in E; [discriminate|]. rewrite E. reflexivity.
    - destruct answer as [|x t]; reflexivity.
  Qed.

  (* history independence over refresh histories: whatever the registry said earlier *)
  Theorem mgr_state_last answers : mgr_state order answers = mgr_of (last_answer answers []).
  Proof.
    unfold mgr_state. change mgr0 with (mgr_of []). generalize (@nil ep) as a. induction answers as [|x r IH]; intros a; cbn [fold_left last_answer]; [reflexivity|].
    rewrite mgr_refresh_of. cbn [last_answer]. destruct x; apply IH.
  Qed.

  Variable points : list N -> nat -> list N.

  Theorem mgr_route_history_independent as1 as2 k code :
    last_answer as1 [] = last_answer as2 [] ->
    mgr_route points (mgr_state order as1) k code = mgr_route points (mgr_state order as2) k code.
  Proof. intros E. rewrite !mgr_state_last, E. reflexivity. Qed.

  (* the weight mode is recomputed from scratch: it is the mode of the last non-empty answer *)
  Theorem mgr_weight_mode answers : m_weighted (mgr_state order answers) = weight_mode (last_answer answers []).
  Proof. rewrite mgr_state_last. destruct (last_answer answers []); reflexivity. Qed.

  (* refresh while endpoints are out: nobody out = the plain refresh; otherwise exactly the listed endpoints that are not
     out are installed, and every selector kind routes only to those *)
  Lemma mgr_refresh_h_nil m answer : mgr_refresh_h order [] m answer = mgr_refresh order m answer.
  Proof.
    unfold mgr_refresh_h, mgr_refresh. destruct (eps_eqb answer (m_raw m)); [reflexivity|]. destruct answer as [|x t]; [reflexivity|].
    f_equal. f_equal. assert (H : forall l : list ep, filter (fun e => negb (is_down [] e)) l = l) by (unfold is_down; induction l as [|y l IH]; simpl in *; [reflexivity|f_equal; exact IH]).
    apply H.
  Qed.

  Theorem mgr_refresh_h_installed down m answer : (forall l e, In e (order l) <-> In e l) ->
    answer <> [] -> answer <> m_raw m -> forall e,
    In e (m_eps (mgr_refresh_h order down m answer)) <-> In e answer /\ is_down down e = false.
  Proof.
    intros Hord Hne Hch e. unfold mgr_refresh_h. destruct (eps_eqb answer (m_raw m)) eqn:E; [apply eps_eqb_eq in E; contradiction|].
    destruct answer as [|x t]; [contradiction|]. cbn [m_eps]. rewrite Hord, filter_In. destruct (is_down down e); cbn; intuition congruence.
  Qed.

  Theorem mgr_route_excludes_down down m answer k code e : (forall l e, In e (order l) <-> In e l) ->
    answer <> [] -> answer <> m_raw m ->
    mgr_route points (mgr_refresh_h order down m answer) k code = RSel e -> In e answer /\ is_down down e = false.
  Proof.
    intros Hord Hne Hch Hr. apply (mgr_refresh_h_installed down m answer Hord Hne Hch).
    set (m' := mgr_refresh_h order down m answer) in *. unfold mgr_route in Hr.
    pose proof (member points k (m_weighted m') [Refresh (m_eps m') 0 0] code 0 e) as Hm.
    pose proof (state_after_snoc points k (m_weighted m') [] (Refresh (m_eps m') 0 0)) as Hs. cbn [app] in Hs.
    change (state_after points k (m_weighted m') []) with sel0 in Hs. rewrite Hs in Hm.
    specialize (Hm Hr). unfold set_of_history in Hm. cbn [fold_left set_step] in Hm. now apply refresh_eps_in.
  Qed.

  (* consistent hashing: the same endpoints in the two final answers, in any order and whatever [order] does with them,
     as long as it keeps the elements *)
  Theorem mgr_conhash_same_set (U : list N -> Prop) : NoCollision points U -> (forall l e, In e (order l) <-> In e l) ->
    forall as1 as2 code, let a1 := last_answer as1 [] in let a2 := last_answer as2 [] in
    (forall e, In e a1 -> U (host e)) -> (forall e, In e a2 -> U (host e)) ->
    (forall e, In e (refresh_eps (order a1)) <-> In e (refresh_eps (order a2))) -> weight_mode a1 = weight_mode a2 ->
    mgr_route points (mgr_state order as1) ConHash code = mgr_route points (mgr_state order as2) ConHash code.
  Proof.
    cbn zeta. intros Hnc Hord as1 as2 code H1 H2 Hset Hw. rewrite !mgr_state_last.
    set (a1 := last_answer as1 []) in *. set (a2 := last_answer as2 []) in *.
    assert (Hm : forall a, m_weighted (mgr_of a) = weight_mode a) by (intros [|x t]; reflexivity).
    assert (He : forall a, m_eps (mgr_of a) = order a).
    { intros [|x t]; [|reflexivity]. cbn [mgr_of m_eps mgr0]. destruct (order []) as [|e0 t0] eqn:Eo; [reflexivity|].
      exfalso. apply (proj1 (Hord [] e0)). rewrite Eo. now left. }
    unfold mgr_route. rewrite !Hm, !He, <- Hw.
    pose proof (route_history_independent points (weight_mode a1) U Hnc [Refresh (order a1) 0 0] [Refresh (order a2) 0 0] code) as R.
    unfold route, state_after in R. cbn [run step fst snd] in R |- *. apply R.
    - constructor; [|constructor]. intros e Hin. apply H1, Hord, Hin.
    - constructor; [|constructor]. intros e Hin. apply H2, Hord, Hin.
    - unfold set_of_history. cbn [fold_left set_step]. exact Hset.
  Qed.
End manager.

(* the weight mode of an answer: on only when every endpoint is static-weighted (a mixed or empty answer turns it off) *)
Example weight_mode_examples :
  weight_mode [ep_w 97 100; ep_w 98 100] = true /\
  weight_mode [ep_w 97 100; {| host := [99%N]; skey := [99%N]; wgt := 0; wty := 0 |}] = false /\
  weight_mode [{| host := [99%N]; skey := [99%N]; wgt := 0; wty := 0 |}] = false /\ weight_mode [] = false.
Proof. vm_compute. repeat split; reflexivity. Qed.
