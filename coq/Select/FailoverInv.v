(* C15 proofs, part 2: what a step does to one health record, to the tables and to the ghosts, and the invariant of the
   machine (one record, Inv), kept by every step. *)
From Coq Require Import List NArith ZArith Bool Lia ZifyBool ZifyNat ZifyN.
From TarsV Require Base.Lts Base.Lists.
From TarsV Require Import Gen.Consts Select.Failover Select.FailoverProofs.
Import ListNotations.
Open Scope Z_scope.

(* what a status check never touches *)
(* [run] of Failover.v is the generic one: the lemmas of Base/Lts.v apply after rewriting with this *)
Lemma run_is : forall ls s, run s ls = Lts.run step s ls.
Proof. apply Lts.run_unique; reflexivity. Qed.

Definition frame (s s' : state) : Prop :=
  now s' = now s /\ reg s' = reg s /\ att s' = att s /\ shrunk s' = shrunk s /\ reinst s' = reinst s /\
  length (objs s') = length (objs s).

Lemma check_one_frame : forall r s e, frame s (check_one r s e).
Proof. intros r s e. unfold frame. destruct (check_oneP r s e); cbn; rewrite ?length_upd; auto 7. Qed.

Lemma fold_check_frame : forall r l s, frame s (fold_left (check_one r) l s).
Proof.
  intros r l. unfold frame. induction l as [| e l IH]; simpl; intros s; [auto 7 |].
  destruct (IH (check_one r s e)) as (-> & -> & -> & -> & -> & ->). apply check_one_frame.
Qed.

Lemma check_one_get : forall r s e aj b, get aj s = Some b ->
  exists b', get aj (check_one r s e) = Some b' /\ chk (now s) b b'.
Proof.
  intros r s e aj b Hb. destruct (check_oneP r s e) as [_ | ai a a' f n _ Hg Hsp]; [eauto using chk_refl |].
  destruct (N.eq_dec aj ai) as [-> | Hne].
  - exists a'. split; [exact (get_put_same s ai a' a Hg) |]. rewrite Hg in Hb. injection Hb as <-. eapply ca_spec_chk; eauto.
  - exists b. split; [rewrite <- Hb; apply (get_put_other s ai aj a'); congruence | apply chk_refl].
Qed.
Lemma fold_check_get : forall r l s aj b, get aj s = Some b ->
  exists b', get aj (fold_left (check_one r) l s) = Some b' /\ chk (now s) b b'.
Proof.
  intros r l. induction l as [| e l IH]; simpl; intros s aj b Hb; [eauto using chk_refl |].
  destruct (check_one_get r s e aj b Hb) as (b1 & Hb1 & Hc1). destruct (IH _ aj b1 Hb1) as (b2 & Hb2 & Hc2).
  rewrite (proj1 (check_one_frame r s e)) in Hc2. eauto using chk_trans.
Qed.

(* every label but Check acts on a record as a function, by the same case split as the history folds of Failover.v *)
Definition lbl_adapter (nw : Z) (ai : N) (l : label) (a : adapter) : adapter :=
  match l with
  | Out aj ok _ => if N.eqb aj ai then (if ok then succ_add nw a else fail_add a) else a
  | Sent aj _ => if N.eqb aj ai then succ_add nw a else a
  | Reinstate aj => if N.eqb aj ai then reset nw a else a
  | _ => a
  end.

Lemma lbl_adapter_aep : forall nw ai l a, aep (lbl_adapter nw ai l a) = aep a.
Proof. intros nw ai l a. destruct l; cbn; try destruct (N.eqb _ ai); try destruct ok; reflexivity. Qed.
Lemma lbl_adapter_ast : forall nw ai l a,
  ast (lbl_adapter nw ai l a) = ast a \/ (l = Reinstate ai /\ ast (lbl_adapter nw ai l a) = true).
Proof.
  intros nw ai l a. destruct l as [d | aj ok p | r | aj | e aj | | aj | l i | aj | aj p]; cbn; auto; destruct (N.eqb_spec aj ai) as [-> |]; try destruct ok; auto.
Qed.
Lemma lbl_adapter_hist : forall nw ai l a,
  gfail (lbl_adapter nw ai l a) = upd_fails ai (gfail a) l /\ lfc (lbl_adapter nw ai l a) = upd_streak ai (lfc a) l /\
  tS (lbl_adapter nw ai l a) = snd (upd_lastok ai (nw, tS a) l).
Proof. intros nw ai l a. destruct l; cbn; try destruct (N.eqb _ ai); try destruct ok; auto. Qed.

Definition adapter_step (s : state) (l : label) (ai : N) (a a' : adapter) : Prop :=
  (exists r, l = Check r) /\ chk (now s) a a' \/ a' = lbl_adapter (now s) ai l a.

Lemma get_upd_state : forall s aj a0 (f : adapter -> adapter) act sl pc ri ai a, get aj s = Some a0 -> get ai s = Some a ->
  get ai (upd_state s aj (f a0) act sl pc ri) = Some (if N.eqb aj ai then f a else a).
Proof.
  intros s aj a0 f act sl pc ri ai a H0 Ha. destruct (N.eqb_spec aj ai) as [<- | Hne].
  - rewrite H0 in Ha. injection Ha as <-. exact (get_put_same s aj (f a0) a0 H0).
  - rewrite <- Ha. exact (get_put_other s aj ai (f a0) Hne).
Qed.

Lemma step_adapter : forall s l s' ai a, step s l = Some s' -> get ai s = Some a ->
  exists a', get ai s' = Some a' /\ adapter_step s l ai a a'.
Proof.
  intros s l s' ai a Hs Ha. unfold adapter_step.
  destruct (stepP _ _ _ Hs) as [d | aj ok p a0 Hg | aj p a0 Hg | aj a0 Hg Hm | r | aj rest a0 Hq Hg | e Hm Hl | l i | l Hl];
    try (exists a; split; [exact Ha | right; reflexivity]).
  - eexists. split; [exact (get_upd_state s aj a0 (fun x => if ok then succ_add (now s) x else fail_add x) _ _ _ _ ai a Hg Ha) | right; reflexivity].
  - eexists. split; [exact (get_upd_state s aj a0 (succ_add (now s)) _ _ _ _ ai a Hg Ha) | right; reflexivity].
  - eexists. split; [exact (get_upd_state s aj a0 (reset (now s)) _ _ _ _ ai a Hg Ha) | right; reflexivity].
  - destruct (fold_check_get r (reg s) s ai a Ha) as (b & Hb & Hc). eauto 6.
  - exists a. split; [eapply get_snoc_old; [exact Ha | reflexivity] | right; reflexivity].
  - exists a. split; [exact Ha | right]. destruct l; try contradiction; reflexivity.
Qed.

Lemma adapter_step_aep : forall s l ai a a', adapter_step s l ai a a' -> aep a' = aep a.
Proof. intros s l ai a a' [[_ Hc] | ->]; [exact (chk_aep _ _ _ Hc) | apply lbl_adapter_aep]. Qed.

Lemma run_adapter : forall ls s s' ai a, run s ls = Some s' -> get ai s = Some a ->
  exists a', get ai s' = Some a' /\ aep a' = aep a.
Proof.
  intros ls s s' ai a Hr. rewrite run_is in Hr. revert a.
  apply (Lts.run_ind step (fun s _ s' => forall a, get ai s = Some a -> exists a', get ai s' = Some a' /\ aep a' = aep a))
    with (ls := ls); [eauto | | exact Hr].
  clear. intros s l m ls s' Hs IH a Ha. destruct (step_adapter _ _ _ _ _ Hs Ha) as (b & Hb & Hc).
  destruct (IH b Hb) as (c & Hc' & He). exists c. split; [exact Hc' |]. rewrite He. eapply adapter_step_aep; eauto.
Qed.

Lemma step_len : forall s l s', step s l = Some s' ->
  length (objs s') = length (objs s) \/
  exists e, l = SelPick e (N.of_nat (length (objs s))) /\ objs s' = objs s ++ [new_adapter e].
Proof.
  intros s l s' Hs. destruct (stepP _ _ _ Hs); cbn; rewrite ?length_upd; eauto. left. apply fold_check_frame.
Qed.
Lemma step_created : forall s l s' ai a', step s l = Some s' -> get ai s = None -> get ai s' = Some a' ->
  exists e, l = SelPick e ai /\ a' = new_adapter e.
Proof.
  intros s l s' ai a' Hs Hn Ha. destruct (step_len _ _ _ Hs) as [Hl | (e & -> & Ho)].
  - apply get_None_len in Hn. rewrite <- Hl in Hn. apply get_None_len in Hn. congruence.
  - destruct (get_snoc _ _ _ _ _ Ho Ha) as [Hold | [-> ->]]; [congruence | eauto].
Qed.

Lemma step_now : forall s l s', step s l = Some s' -> now s' = upd_clock (now s) l.
Proof.
  intros s l s' Hs. destruct (stepP _ _ _ Hs); cbn; try reflexivity; [apply fold_check_frame |].
  destruct l; try contradiction; reflexivity.
Qed.

Lemma step_reinst : forall s l s', step s l = Some s' ->
  reinst s' = reinst s \/
  (exists ai, l = Out ai true true /\ reinst s' = ai :: reinst s) \/
  (exists ai, l = Reinstate ai /\ reinst s' = remove_first ai (reinst s)).
Proof.
  intros s l s' Hs. destruct (stepP _ _ _ Hs) as [| ai ok p | | | | | | |]; cbn; eauto; [| left; apply fold_check_frame].
  destruct p, ok; cbn; eauto.
Qed.

(* leaving the scope "no refresh has dropped an endpoint that had an adapter" is final; inside it attachments persist *)
Lemma step_scope : forall s l s', step s l = Some s' -> shrunk s' = false ->
  shrunk s = false /\ forall e ai, lookup e (att s) = Some ai -> lookup e (att s') = Some ai.
Proof.
  intros s l s' Hs. destruct (stepP _ _ _ Hs) as [| | | | r | | e0 _ Hno | l i |]; cbn [shrunk att upd_state w_now create_state refresh_state]; auto.
  - destruct (fold_check_frame r (reg s) s) as (_ & _ & -> & -> & _). auto.
  - intros Hsh. split; [exact Hsh |]. intros e ai Hl. cbn. destruct (N.eqb_spec e e0) as [-> |]; [congruence | exact Hl].
  - intros Hsh. apply orb_false_iff in Hsh. destruct Hsh as [Hsh Hex]. rewrite (filter_keep_all _ _ Hex). auto.
Qed.

Lemma run_scope : forall ls s s', run s ls = Some s' -> shrunk s' = false ->
  shrunk s = false /\ forall e ai, lookup e (att s) = Some ai -> lookup e (att s') = Some ai.
Proof.
  intros ls s s'. rewrite run_is. apply (Lts.run_ind step (fun s _ s' => shrunk s' = false ->
    shrunk s = false /\ forall e ai, lookup e (att s) = Some ai -> lookup e (att s') = Some ai)); [auto |].
  clear. intros s l m ls s' Hs IH Hsh. destruct (IH Hsh) as [Hm Ha]. destruct (step_scope _ _ _ Hs Hm) as [H0 Ha0]. auto.
Qed.

Definition aok (nw : Z) (a : adapter) : Prop :=
  0 <= lfc a <= fc a /\ fc a = gfail a /\ (ast a = false -> 2 <= gfail a) /\ tB a <= nw.

Lemma aok_mono : forall nw nw' a, aok nw a -> nw <= nw' -> aok nw' a.
Proof. intros nw nw' a (A1 & A2 & A3 & A4) H. unfold aok. repeat split; auto; lia. Qed.
Lemma aok_succ_add : forall nw t a, aok nw a -> aok nw (succ_add t a).
Proof. intros nw t a (A1 & A2 & A3 & A4). unfold aok; cbn. repeat split; auto; lia. Qed.
Lemma aok_fail_add : forall nw a, aok nw a -> aok nw (fail_add a).
Proof. intros nw a (A1 & A2 & A3 & A4). unfold aok; cbn. repeat split; lia. Qed.
Lemma aok_reset : forall nw a, aok nw (reset nw a).
Proof. intros nw a. unfold aok; cbn. repeat split; lia. Qed.
Lemma aok_new : forall nw e, 0 <= nw -> aok nw (new_adapter e).
Proof. intros nw e H. unfold aok; cbn. repeat split; lia. Qed.
(* a status check blocks an active record only with five failures in a row or two in all *)
Lemma aok_chk : forall nw a a', aok nw a -> chk nw a a' -> aok nw a' /\ tB a <= tB a'.
Proof.
  intros nw a a' (A1 & A2 & A3 & A4) (st & tb & -> & Htb & _ & Hst). rewrite k_fainN, k_overN in Hst.
  unfold aok; cbn. repeat split; lia.
Qed.

(* the groups A-H of design/C15.md *)
Record Inv (s : state) : Prop := {
  (* A: every record is well formed *)
  inv_now : 0 <= now s;
  inv_aok : forall ai a, get ai s = Some a -> aok (now s) a;
  (* B: the tables point at existing records, of the right endpoint *)
  inv_att : forall e ai, lookup e (att s) = Some ai -> exists a, get ai s = Some a /\ aep a = e;
  inv_queue : forall ai, In ai (probeq s) -> exists a, get ai s = Some a;
  (* C: whoever has no record yet, or a record in good standing, is in the selectors *)
  inv_sel_new : forall e, In e (reg s) -> lookup e (att s) = None -> In e (sel s);
  inv_sel_act : forall e ai a, In e (reg s) -> lookup e (att s) = Some ai -> get ai s = Some a -> ast a = true -> In e (sel s);
  (* D, E: in scope every record is attached, and an endpoint whose record is blocked is in no selector *)
  inv_attached : shrunk s = false -> forall ai a, get ai s = Some a -> lookup (aep a) (att s) = Some ai;
  inv_sel_blocked : shrunk s = false -> forall e ai a, lookup e (att s) = Some ai -> get ai s = Some a -> ast a = false ->
    ~ In e (sel s);
  (* F, G, H: probe requests are spaced per record, because each is stamped into tB; per endpoint in scope; each is
     consumed at most once *)
  inv_spaced : spaced (reqlog s);
  inv_req : forall e ai t, In (e, ai, t) (reqlog s) -> exists a, get ai s = Some a /\ t <= tB a;
  inv_req_att : shrunk s = false -> forall e ai t, In (e, ai, t) (reqlog s) -> lookup e (att s) = Some ai;
  inv_count : forall ai, (countN ai (probelog s) + countN ai (probeq s) <= req_count ai (reqlog s))%nat }.

Lemma inv_att_aep : forall s e ai a, Inv s -> lookup e (att s) = Some ai -> get ai s = Some a -> aep a = e.
Proof. intros s e ai a HI Hl Hg. destruct (inv_att _ HI e ai Hl) as (a0 & Ha0 & <-). congruence. Qed.

Lemma req_count_cons : forall aj e ai t l, req_count aj ((e, ai, t) :: l) = ((if N.eqb aj ai then 1 else 0) + req_count aj l)%nat.
Proof. intros. unfold req_count. simpl. destruct (N.eqb aj ai); reflexivity. Qed.
Lemma countN_cons : forall aj ai l, countN aj (ai :: l) = ((if N.eqb aj ai then 1 else 0) + countN aj l)%nat.
Proof. intros. unfold countN. simpl. destruct (N.eqb aj ai); reflexivity. Qed.
Lemma countN_snoc : forall aj ai l, countN aj (l ++ [ai]) = (countN aj l + (if N.eqb aj ai then 1 else 0))%nat.
Proof. intros. unfold countN. rewrite filter_app, app_length. simpl. destruct (N.eqb aj ai); reflexivity. Qed.

Lemma Inv_init : Inv init.
Proof.
  assert (Hno : forall ai a, get ai init = Some a -> False) by (intros ai a; unfold get; cbn; destruct (N.to_nat ai); discriminate).
  (* no record, no table entry, no log entry: every field but the first and the last is about nothing *)
  constructor; cbn.
  - unfold T0. lia.
  - intros ai a Hg. destruct (Hno ai a Hg).
  - discriminate.
  - intros ai [].
  - intros e [].
  - intros e ai a [].
  - intros _ ai a Hg. destruct (Hno ai a Hg).
  - discriminate.
  - exact I.
  - intros e ai t [].
  - intros _ e ai t [].
  - intros ai. lia.
Qed.

(* Replacing the record of [ai] keeps the invariant if its endpoint stays, its stamp tB does not go back, and the selectors
   change at most by its endpoint, in step with its status.  (Here and below: the fields that do not mention what a transition
   changes are those of s up to computation, which is what [destruct HI; assumption] says.) *)
Lemma Inv_upd : forall s ai a a' act sl pc ri, Inv s -> get ai s = Some a ->
  aep a' = aep a -> aok (now s) a' -> tB a <= tB a' ->
  (forall x, In x sl -> In x (sel s) \/ x = aep a /\ ast a' = true) ->
  (forall x, In x (sel s) -> In x sl \/ lookup x (att s) = Some ai /\ ast a' = false) ->
  (ast a' = true -> ast a = true \/ In (aep a) sl) ->
  (ast a' = false -> ast a = false \/ ~ In (aep a) sl) ->
  Inv (upd_state s ai a' act sl pc ri).
Proof.
  intros s ai a a' act sl pc ri HI Hg He Hok Ht S1 S2 S3 S4.
  assert (Hget : forall aj b, get aj (upd_state s ai a' act sl pc ri) = Some b ->
                 (aj = ai /\ b = a') \/ (aj <> ai /\ get aj s = Some b)) by (intros aj b; apply (get_put s ai aj a' a b Hg)).
  assert (Hext : forall aj b, get aj s = Some b ->
                 exists b', get aj (upd_state s ai a' act sl pc ri) = Some b' /\ aep b' = aep b /\ tB b <= tB b').
  { intros aj b Hb. exists (if N.eqb ai aj then a' else b).
    split; [exact (get_upd_state s ai a (fun _ => a') act sl pc ri aj b Hg Hb) |].
    destruct (N.eqb_spec ai aj) as [<- |]; [rewrite Hg in Hb; injection Hb as <-; auto | split; [reflexivity | lia]]. }
  assert (Hai : forall e, lookup e (att s) = Some ai -> e = aep a) by (intros e Hl; symmetry; exact (inv_att_aep s e ai a HI Hl Hg)).
  constructor; cbn [upd_state now reg att sel probeq reqlog probelog shrunk]; try (destruct HI; assumption).
  - intros aj b Hb. destruct (Hget aj b Hb) as [[-> ->] | [_ Hb']]; [exact Hok | exact (inv_aok _ HI _ _ Hb')].
  - intros e aj Hl. destruct (inv_att _ HI e aj Hl) as (b & Hb & Hbe). destruct (Hext aj b Hb) as (b' & Hb' & Hbe' & _).
    exists b'. split; [exact Hb' | congruence].
  - intros aj Hin. destruct (inv_queue _ HI aj Hin) as (b & Hb). destruct (Hext aj b Hb) as (b' & Hb' & _). eauto.
  - intros e Hin Hno. destruct (S2 e (inv_sel_new _ HI e Hin Hno)) as [H | [H _]]; [exact H | congruence].
  - intros e aj b Hin Hl Hb Hst. destruct (Hget aj b Hb) as [[-> ->] | [Hne Hb']].
    + pose proof (Hai e Hl) as ->. destruct (S3 Hst) as [Hsa | H]; [| exact H].
      destruct (S2 _ (inv_sel_act _ HI _ _ _ Hin Hl Hg Hsa)) as [H | [_ H]]; [exact H | congruence].
    + destruct (S2 e (inv_sel_act _ HI e aj b Hin Hl Hb' Hst)) as [H | [H _]]; [exact H | congruence].
  - intros Hsh aj b Hb. destruct (Hget aj b Hb) as [[-> ->] | [_ Hb']]; [rewrite He |]; eapply inv_attached; eauto.
  - intros Hsh e aj b Hl Hb Hst Hin. destruct (Hget aj b Hb) as [[-> ->] | [Hne Hb']].
    + pose proof (Hai e Hl) as ->. destruct (S4 Hst) as [Hsa | H]; [| exact (H Hin)].
      destruct (S1 _ Hin) as [H | [_ H]]; [exact (inv_sel_blocked _ HI Hsh _ _ _ Hl Hg Hsa H) | congruence].
    + destruct (S1 e Hin) as [H | [-> _]]; [exact (inv_sel_blocked _ HI Hsh e aj b Hl Hb' Hst H) |].
      rewrite (inv_attached _ HI Hsh ai a Hg) in Hl. congruence.
  - intros e aj t Hin. destruct (inv_req _ HI e aj t Hin) as (b & Hb & Hle). destruct (Hext aj b Hb) as (b' & Hb' & _ & Ht').
    exists b'. split; [exact Hb' | lia].
Qed.

Lemma Inv_call : forall s ai a a' pc ri, Inv s -> get ai s = Some a ->
  aep a' = aep a -> ast a' = ast a -> tB a' = tB a -> aok (now s) a' -> Inv (upd_state s ai a' (active s) (sel s) pc ri).
Proof. intros s ai a a' pc ri HI Hg He Hs Ht Hok. apply (Inv_upd s ai a); rewrite ?Hs, ?Ht; auto; lia. Qed.

(* Logging a probe request for a record stamped now and not requested for kTry; the probe may be queued or deduplicated. *)
Lemma Inv_req : forall s e ai a (queue : bool) p, Inv s -> lookup e (att s) = Some ai -> get ai s = Some a -> tB a = now s ->
  (forall e' t', In (e', ai, t') (reqlog s) -> kTry <= now s - t') ->
  Inv (w_req (if queue then probeq s ++ [ai] else probeq s) p ((e, ai, now s) :: reqlog s) s).
Proof.
  intros s e ai a queue p HI Hl Hg Ht Hsp. constructor; cbn [w_req now reg objs att sel probeq reqlog probelog shrunk]; try (destruct HI; assumption).
  - intros x Hin. assert (Hx : In x (probeq s) \/ x = ai).
    { destruct queue; [apply in_app_or in Hin; destruct Hin as [H | [H | []]] |]; auto. }
    destruct Hx as [H | ->]; [exact (inv_queue _ HI x H) | eauto].
  - split; [exact Hsp | apply HI].
  - intros e1 aj t [[= <- <- <-] | Hin]; [exists a; split; [exact Hg | lia] | exact (inv_req _ HI _ _ _ Hin)].
  - intros Hsh e1 aj t [[= <- <- <-] | Hin]; [exact Hl | exact (inv_req_att _ HI Hsh _ _ _ Hin)].
  - intros x. pose proof (inv_count _ HI x). rewrite req_count_cons. destruct queue; rewrite ?countN_snoc; destruct (N.eqb x ai); lia.
Qed.

Lemma Inv_check_one : forall r s e, Inv s -> Inv (check_one r s e).
Proof.
  intros r s e HI. destruct (check_oneP r s e) as [_ | ai a a' first need Hl Hg Hsp]; [exact HI |].
  pose proof (inv_att_aep s e ai a HI Hl Hg) as He.
  pose proof (ca_spec_chk _ _ _ _ _ _ Hsp) as Hc. pose proof (ca_spec_first _ _ _ _ _ _ Hsp) as Hf.
  destruct (aok_chk _ _ _ (inv_aok _ HI ai a Hg) Hc) as [Hok Ht].
  assert (H2 : Inv (chk_state s e ai a' first false)).
  { apply (Inv_upd s ai a a' _ _ (pcalls s) (reinst s) HI Hg (chk_aep _ _ _ Hc) Hok Ht).
    - intros x Hin. left. destruct first; [apply In_remove_all in Hin; tauto | exact Hin].
    - intros x Hin. destruct first; [| auto]. destruct (N.eq_dec x e) as [-> | Hne]; [right; tauto | left; apply In_remove_all; auto].
    - intros Hst. left. destruct first; [destruct Hf |]; congruence.
    - intros Hst. destruct first; [right; rewrite He, In_remove_all; tauto | left; congruence]. }
  destruct need; [| exact H2].
  destruct (ca_spec_need _ _ _ _ _ Hsp) as (_ & Hsa & Hdue & HtB).
  refine (Inv_req (chk_state s e ai a' first false) e ai a' (negb (memN e (pset s))) _ H2 Hl (get_put_same s ai a' a Hg) HtB _).
  intros e' t' Hin. destruct (inv_req _ HI e' ai t' Hin) as (b & Hb & Hle). rewrite Hg in Hb. injection Hb as <-. cbn [now chk_state]. clear - Hle Hdue. lia.
Qed.

Lemma Inv_create : forall s e, Inv s -> (match sel s with [] => memN e (reg s) | _ :: _ => memN e (sel s) end) = true ->
  lookup e (att s) = None -> Inv (create_state s e).
Proof.
  intros s e HI Hm Hl. set (n := N.of_nat (length (objs s))). set (s1 := create_state s e).
  assert (Hold : forall aj b, get aj s = Some b -> get aj s1 = Some b) by (intros aj b Hb; exact (get_snoc_old s aj b _ s1 Hb eq_refl)).
  assert (Hget : forall aj b, get aj s1 = Some b -> get aj s = Some b \/ (aj = n /\ b = new_adapter e))
    by (intros aj b; apply (get_snoc s aj b _ s1 eq_refl)).
  assert (Hn : get n s = None) by (apply get_None_len; subst n; lia).
  assert (Hatt : forall x aj, lookup x (att s) = Some aj -> x <> e /\ exists b, get aj s = Some b /\ aep b = x /\ get aj s1 = Some b).
  { intros x aj Hx. split; [congruence |]. destruct (inv_att _ HI x aj Hx) as (b & Hb & Hbe). eauto. }
  assert (Hin : In e (sel s)).
  { destruct (sel s) eqn:Hsel; [| apply memN_In; exact Hm]. rewrite <- Hsel. apply memN_In in Hm. exact (inv_sel_new _ HI e Hm Hl). }
  constructor; unfold s1; cbn [create_state now reg att sel probeq reqlog probelog shrunk lookup]; fold s1; try (destruct HI; assumption).
  - intros aj b Hb. destruct (Hget aj b Hb) as [Hb' | [_ ->]]; [exact (inv_aok _ HI _ _ Hb') | exact (aok_new _ e (inv_now _ HI))].
  - intros x aj. destruct (N.eqb_spec x e) as [-> |]; intros Hx.
    + injection Hx as <-. exists (new_adapter e). split; [| reflexivity].
      unfold get; cbn. rewrite nth_error_app2 by lia. replace (_ - _)%nat with 0%nat by lia. reflexivity.
    + destruct (Hatt x aj Hx) as (_ & b & _ & Hbe & Hb1). eauto.
  - intros aj Hq. destruct (inv_queue _ HI aj Hq) as (b & Hb). eauto.
  - intros x Hx. destruct (N.eqb x e); [discriminate | exact (inv_sel_new _ HI x Hx)].
  - intros x aj b Hx. destruct (N.eqb_spec x e) as [-> |]; intros Hlx Hb Hst; [exact Hin |].
    destruct (Hatt x aj Hlx) as (_ & b0 & Hb0 & _ & Hb1). rewrite Hb in Hb1. injection Hb1 as <-. eapply inv_sel_act; eauto.
  - intros Hsh aj b Hb. destruct (Hget aj b Hb) as [Hb' | [-> ->]]; [| cbn; rewrite N.eqb_refl; reflexivity].
    pose proof (inv_attached _ HI Hsh aj b Hb') as Hx. destruct (Hatt _ _ Hx) as [Hne _].
    destruct (N.eqb_spec (aep b) e); [contradiction | exact Hx].
  - intros Hsh x aj b. destruct (N.eqb_spec x e) as [-> |]; intros Hlx Hb Hst.
    + injection Hlx as <-. destruct (Hget n b Hb) as [Hb' | [_ ->]]; [congruence | discriminate].
    + destruct (Hatt x aj Hlx) as (_ & b0 & Hb0 & _ & Hb1). rewrite Hb in Hb1. injection Hb1 as <-. eapply inv_sel_blocked; eauto.
  - intros x aj t Hx. destruct (inv_req _ HI x aj t Hx) as (b & Hb & Hle). eauto.
  - intros Hsh x aj t Hx. pose proof (inv_req_att _ HI Hsh x aj t Hx) as Hlx. destruct (Hatt _ _ Hlx) as [Hne _].
    destruct (N.eqb_spec x e); [contradiction | exact Hlx].
Qed.

Lemma Inv_refresh : forall s l i, Inv s -> Inv (refresh_state s l i).
Proof.
  intros s l i HI. constructor; cbn [refresh_state now reg objs att sel probeq reqlog probelog shrunk]; try (destruct HI; assumption).
  - intros x aj Hx. rewrite lookup_filter_keys in Hx. destruct (memN x (l ++ i)); [exact (inv_att _ HI x aj Hx) | discriminate].
  - intros x Hx Hno. apply filter_In. split; [exact Hx |]. unfold rot_ok. rewrite Hno. reflexivity.
  - intros x aj b Hx Hlx Hb Hst. change (get aj s = Some b) in Hb.
    apply filter_In. split; [exact Hx |]. unfold rot_ok. rewrite Hlx, Hb. exact Hst.
  - intros Hsh. apply orb_false_iff in Hsh. destruct Hsh as [Hsh Hex]. rewrite (filter_keep_all _ _ Hex). exact (inv_attached _ HI Hsh).
  - intros Hsh x aj b Hlx Hb Hst Hin. change (get aj s = Some b) in Hb.
    apply filter_In in Hin. destruct Hin as [_ Hok]. unfold rot_ok in Hok. rewrite Hlx, Hb in Hok. congruence.
  - intros Hsh. apply orb_false_iff in Hsh. destruct Hsh as [Hsh Hex]. rewrite (filter_keep_all _ _ Hex). exact (inv_req_att _ HI Hsh).
Qed.

Lemma Inv_step : forall s l s', Inv s -> step s l = Some s' -> Inv s'.
Proof.
  intros s l s' HI Hs.
  destruct (stepP _ _ _ Hs) as [d | ai ok p a Hg | ai p a Hg | ai a Hg Hm | r | ai rest a Hq Hg | e Hm Hl | l i | l _];
    [| | | | apply Lists.fold_left_inv; [intros; apply Inv_check_one; assumption | exact HI] | | | | exact HI].
  - (* time passes *)
    constructor; cbn [w_now now reg objs att sel probeq reqlog probelog shrunk]; try (destruct HI; assumption).
    + pose proof (inv_now _ HI). lia.
    + intros ai a Hg. apply (aok_mono (now s)); [exact (inv_aok _ HI ai a Hg) | lia].
  - (* a call's outcome *)
    pose proof (inv_aok _ HI ai a Hg). destruct ok; apply (Inv_call s ai a); auto using aok_succ_add, aok_fail_add.
  - (* a one-way call handed to the transport *)
    pose proof (inv_aok _ HI ai a Hg). apply (Inv_call s ai a); auto using aok_succ_add.
  - (* reinstatement *)
    destruct (inv_aok _ HI ai a Hg) as (_ & _ & _ & A4).
    apply (Inv_upd s ai a (reset (now s) a) _ _ _ _ HI Hg eq_refl (aok_reset _ a) A4); cbn [ast reset]; try discriminate.
    + intros x Hin. apply In_add_set in Hin. tauto.
    + intros x Hin. left. apply In_add_set. auto.
    + intros _. right. apply In_add_set. auto.
  - (* a queued probe is handed out *)
    constructor; cbn [now reg objs att sel probeq reqlog probelog shrunk]; try (destruct HI; assumption).
    + intros x Hin. apply (inv_queue _ HI). rewrite Hq. right. exact Hin.
    + intros x. pose proof (inv_count _ HI x) as H. rewrite Hq in H. rewrite !countN_cons in *. lia.
  - exact (Inv_create s e HI Hm Hl).
  - exact (Inv_refresh s l i HI).
Qed.

Lemma Inv_reachable : forall s, reachable s -> Inv s.
Proof. intros s [ls Hr]. rewrite run_is in Hr. exact (Lts.run_inv step Inv Inv_step ls init s Inv_init Hr). Qed.

Lemma run_app : forall l1 l2 s, run s (l1 ++ l2) = match run s l1 with Some s1 => run s1 l2 | None => None end.
Proof.
  intros l1 l2 s. rewrite (run_is (l1 ++ l2)), (run_is l1), Lts.run_app. destruct (Lts.run step s l1) as [s1 |]; [symmetry; apply run_is | reflexivity].
Qed.

Lemma reachable_run : forall ls s s', reachable s -> run s ls = Some s' -> reachable s'.
Proof. intros ls s s' [l0 H0] Hr. exists (l0 ++ ls). rewrite run_app, H0. exact Hr. Qed.
