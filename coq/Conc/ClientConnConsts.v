(* C11 — constants of the tree the model depends on (regenerated into Gen/Consts.v on every run). *)
From Coq Require Import NArith.
From TarsV Require Import Gen.Consts.

(* the model's failure queue holds one request: LSRequeue / LSFailPush are enabled only when it is empty, and
   [inv_cap] (length (failQ s) <= 1) is part of the invariant of Conc/ClientConnProofs.v *)
Lemma failq_capacity_modelled : c_c11_failq_cap = 1%N.
Proof. reflexivity. Qed.
