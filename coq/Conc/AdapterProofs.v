(* C11 — proofs about the close-notification model (Conc/Adapter.v). *)
From Coq Require Import List Arith Bool Lia.
From TarsV Require Base.Lts.
From TarsV Require Import Conc.ClientConn Conc.ClientConnProofs Conc.Adapter.
Import ListNotations.
Local Arguments Nat.ltb : simpl never.

Lemma updc_same {A} (f : nat -> A) i v : updc f i v i = v.
Proof. unfold updc. now rewrite Nat.eqb_refl. Qed.
Lemma updc_other {A} (f : nat -> A) i v x : x <> i -> updc f i v x = f x.
Proof. unfold updc. intros H. apply Nat.eqb_neq in H. now rewrite H. Qed.

Lemma proj_snoc i als al : proj i (als ++ [al]) = proj i als ++ proj i [al].
Proof.
  induction als as [|x r IH]; cbn; [reflexivity|]. destruct x; cbn; rewrite ?IH; auto.
  - destruct (Nat.eqb i0 i); cbn; now rewrite ?IH.
  - destruct (Nat.eqb i0 i); cbn; now rewrite ?IH.
Qed.

Lemma arun_snoc als : forall a al a1 a', arun a als = Some a1 -> astep a1 al = Some a' -> arun a (als ++ [al]) = Some a'.
Proof.
  induction als as [|x r IH]; cbn; intros a al a1 a' R S.
  - injection R as <-. now rewrite S.
  - destruct (astep a x); [|discriminate]. eapply IH; eauto.
Qed.

(* invariant of adapter runs, stated on the run's label list (snoc induction) *)
Definition AInv (als : list alabel) (a : ast) : Prop :=
  1 <= ncli a /\
  (forall i, i < ncli a -> run true init (proj i als) = Some (cli a i)) /\
  (forall i, ncli a <= i -> cli a i = init /\ proj i als = []) /\
  (forall i, graced a i = true -> S i < ncli a) /\
  (forall i, S i = ncli a -> ~ In LUserClose (proj i als)).

Lemma AInv_step als a al a' : AInv als a -> astep a al = Some a' -> AInv (als ++ [al]) a'.
Proof.
  intros (N1 & P & F & G & U) H. destruct al as [i l|g|i]; cbn [astep] in H.
  - destruct ((i <? ncli a) && negb (user_close l) && (negb (caller_label l) || Nat.eqb (S i) (ncli a))) eqn:C; [|discriminate].
    destruct (step true (cli a i) l) as [s'|] eqn:S; [|discriminate]. injection H as <-.
    apply andb_prop in C. destruct C as [C _]. apply andb_prop in C. destruct C as [L NU]. apply Nat.ltb_lt in L.
    apply negb_true_iff in NU.
    unfold AInv; cbn. split; [auto|]. split; [|split; [|split]].
    + intros j Lj. rewrite proj_snoc. cbn. destruct (Nat.eqb_spec i j).
      * subst. rewrite updc_same. eapply (Lts.run_step (step true)); eauto.
      * rewrite app_nil_r, updc_other by auto. auto.
    + intros j Lj. rewrite proj_snoc. cbn. destruct (Nat.eqb_spec i j); [lia|]. rewrite app_nil_r, updc_other by auto. auto.
    + auto.
    + intros j Ej. rewrite proj_snoc. cbn. destruct (Nat.eqb_spec i j).
      * subst. rewrite in_app_iff. intros [X|[X|[]]]; [eapply U; eauto|]. subst l. discriminate.
      * rewrite app_nil_r. auto.
  - destruct (rp (gens (cli a (ncli a - 1)) g)); try discriminate.
    destruct ((g <? ngen (cli a (ncli a - 1))) && negb (dead (gens (cli a (ncli a - 1)) g)) && memn g (lpc (cli a (ncli a - 1)))); [|discriminate].
    injection H as <-. unfold AInv; cbn. split; [lia|]. split; [|split; [|split]].
    + intros j Lj. rewrite proj_snoc. cbn. rewrite app_nil_r. destruct (Nat.eq_dec j (ncli a)).
      * subst. rewrite updc_same. destruct (F (ncli a)) as [_ ->]; auto.
      * rewrite updc_other by auto. apply P. lia.
    + intros j Lj. rewrite proj_snoc. cbn. rewrite app_nil_r, updc_other by lia. apply F. lia.
    + intros j. unfold updc. destruct (Nat.eqb_spec j (ncli a - 1)); [lia|]. intros X. apply G in X. lia.
    + intros j Ej. injection Ej as ->. rewrite proj_snoc. cbn. rewrite app_nil_r. destruct (F (ncli a)) as [_ ->]; auto.
  - destruct (graced a i) eqn:GR; [|discriminate].
    destruct (step true (cli a i) LUserClose) as [s'|] eqn:S; [|discriminate]. injection H as <-.
    pose proof (G i GR) as L.
    unfold AInv; cbn. split; [auto|]. split; [|split; [|split]].
    + intros j Lj. rewrite proj_snoc. cbn. destruct (Nat.eqb_spec i j).
      * subst. rewrite updc_same. eapply (Lts.run_step (step true)); eauto.
      * rewrite app_nil_r, updc_other by auto. auto.
    + intros j Lj. rewrite proj_snoc. cbn. destruct (Nat.eqb_spec i j); [lia|]. rewrite app_nil_r, updc_other by auto. auto.
    + intros j. unfold updc. destruct (Nat.eqb_spec j i); [discriminate|]. auto.
    + intros j Ej. rewrite proj_snoc. cbn. destruct (Nat.eqb_spec i j); [lia|]. rewrite app_nil_r. auto.
Qed.

Lemma AInv_init : AInv [] ainit.
Proof. unfold AInv, ainit; cbn. repeat split; auto; intros; try discriminate; try lia; try (assert (i = 0) by lia; now subst). Qed.

Lemma arun_inv als a : arun ainit als = Some a -> AInv als a.
Proof. apply (Lts.run_ind_r astep ainit AInv AInv_init). intros ls s l s' _. apply AInv_step. Qed.

(* every client of an adapter run is a run of the client model: all theorems of Props/C11.v apply to each client *)
Theorem client_is_client_run als a i : arun ainit als = Some a -> i < ncli a -> run true init (proj i als) = Some (cli a i).
Proof. intros R L. destruct (arun_inv _ _ R) as (_ & P & _). auto. Qed.

(* the swap never aims the grace close at the new client: TarsClient.Close has never been applied to the current
   client, and a grace close is pending for, hence applied to, replaced clients only *)
Theorem current_never_closed_by_swap als a : arun ainit als = Some a ->
  ~ In LUserClose (proj (ncli a - 1) als) /\ graced a (ncli a - 1) = false.
Proof.
  intros R. destruct (arun_inv _ _ R) as (N1 & _ & _ & G & U). split.
  - apply U. lia.
  - destruct (graced a (ncli a - 1)) eqn:E; auto. apply G in E. lia.
Qed.

Theorem grace_close_hits_replaced_client_only als a i a' : arun ainit als = Some a -> astep a (AGrace i) = Some a' -> S i < ncli a.
Proof.
  intros R S. destruct (arun_inv _ _ R) as (_ & _ & _ & G & _). cbn in S. destruct (graced a i) eqn:E; [auto|discriminate].
Qed.

Lemma no_client_close ls : ~ In LUserClose ls -> (forall g, ~ In (LSIdleClose g) ls) -> Forall (fun l => client_close l = false) ls.
Proof.
  intros U I. apply Forall_forall. intros l Hl. destruct l; try reflexivity.
  - contradiction. - exfalso. eapply I; eauto.
Qed.

(* hence, unless its own send goroutine idle-closes it, the current client closes a connection only after the
   server has closed it or announced its close, its closed flag is set only then, and its log is accepted *)
Theorem current_client_healthy_stays als a : arun ainit als = Some a ->
  let c := ncli a - 1 in
  (forall g, ~ In (LSIdleClose g) (proj c als)) ->
  (forall g, dead (gens (cli a c) g) = true -> peerc (gens (cli a c) g) = true /\ In g (lpc (cli a c))) /\
  c11_accepts (log (cli a c)) = true.
Proof.
  intros R c NI. destruct (current_never_closed_by_swap _ _ R) as [NU _].
  assert (L : c < ncli a). { destruct (arun_inv _ _ R) as (N1 & _). unfold c. lia. }
  pose proof (client_is_client_run _ _ c R L) as RC. pose proof (no_client_close _ NU NI) as F. split.
  - intros g D. eapply dead_only_after_peer_close; eauto.
  - eapply spec_machine_sound; eauto.
Qed.

(* the seeded variant (oldClient read after the new client is installed): the grace close hits the new client's
   healthy connection, which the server has neither closed nor announced to close *)
Definition sched_swapped : list alabel :=
  [ACli 0 LReconnect; ACli 0 (LLogPClose 0); APush 0; ACli 1 LReconnect; AGrace 1].

Lemma swapped_refuted : exists a, arun_swapped ainit sched_swapped = Some a /\ ncli a = 2 /\
  dead (gens (cli a 1) 0) = true /\ peerc (gens (cli a 1) 0) = false /\ lpc (cli a 1) = [] /\ closedF (cli a 1) = true /\
  dead (gens (cli a 0) 0) = false.
Proof. eexists. split; [apply (Lts.some_the ainit); vm_compute; reflexivity|]. vm_compute. repeat split. Qed.

Lemma swap_example : exists a, arun ainit [ACli 0 LReconnect; ACli 0 (LLogPClose 0); APush 0; ACli 1 LReconnect; AGrace 0] = Some a /\
  ncli a = 2 /\ dead (gens (cli a 1) 0) = false /\ closedF (cli a 1) = false /\ dead (gens (cli a 0) 0) = true /\
  arun ainit sched_swapped = None.
Proof. eexists. split; [apply (Lts.some_the ainit); vm_compute; reflexivity|]. vm_compute. repeat split. Qed.
