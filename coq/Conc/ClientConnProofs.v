(* C11 — proofs about the client connection model (Conc/ClientConn.v), repaired code ([fixed = true]) unless
   stated otherwise.  Invariants by induction over all label sequences. *)
From Coq Require Import List Arith Bool Lia.
From TarsV Require Base.Lts.
From TarsV Require Import Conc.ClientConn.
Import ListNotations.
Local Arguments Nat.ltb : simpl never.
Local Arguments Nat.leb : simpl never.

Lemma run_is f s ls : run f s ls = Lts.run (step f) s ls.
Proof. reflexivity. Qed.

Lemma run_app f ls1 : forall ls2 s, run f s (ls1 ++ ls2) = match run f s ls1 with Some s1 => run f s1 ls2 | None => None end.
Proof. intros ls2 s. rewrite !run_is. apply Lts.run_app. Qed.

Lemma run_inv_on (ok : label -> Prop) (P : st -> Prop) :
  (forall s l s', ok l -> P s -> step true s l = Some s' -> P s') ->
  forall ls s s', Forall ok ls -> P s -> run true s ls = Some s' -> P s'.
Proof.
  intros HS. induction ls as [|l r IH]; cbn [run]; intros s s' F HP R. { now injection R as <-. }
  destruct (step true s l) as [s1|] eqn:E; [|discriminate]. inversion F; subst. eauto.
Qed.

Lemma upd_same f g v : upd f g v g = v.
Proof. unfold upd. now rewrite Nat.eqb_refl. Qed.
Lemma upd_other f g v x : x <> g -> upd f g v x = f x.
Proof. unfold upd. intros H. apply Nat.eqb_neq in H. now rewrite H. Qed.
Lemma upd_cases f g v x : x = g /\ upd f g v x = v \/ x <> g /\ upd f g v x = f x.
Proof. destruct (Nat.eq_dec x g) as [->|N]; [left; split; [|apply upd_same] | right; split; [|apply upd_other]]; auto. Qed.

Lemma add_late_eq x m :
  add_late x m = mkGen (peerc x) (dead x) (done x) (rp x) (sp x) (if dead x then late x ++ [m] else late x) (got x).
Proof. unfold add_late. destruct x as [? [|] ? ? ? ? ?]; reflexivity. Qed.
Lemma add_late_gen0 m : add_late gen0 m = gen0. Proof. reflexivity. Qed.

Lemma memn_In x l : memn x l = true <-> In x l.
Proof. unfold memn. rewrite existsb_exists. split. - intros (y & Hy & E). apply Nat.eqb_eq in E. now subst. - intros H. exists x. split; auto. apply Nat.eqb_refl. Qed.

Definition holds (p : spc) : option nat :=
  match p with SCheck m | SHook m | SWrite m | SRequeue m | SFailPush m => Some m | _ => None end.
Definition committed (p : spc) : option nat := match p with SHook m | SWrite m => Some m | _ => None end.
Definition lostpc (p : spc) : bool :=
  match p with SRequeue _ | SFailPush _ | SFailClose | SExit => true | _ => false end.

Lemma committed_holds p m : committed p = Some m -> holds p = Some m.
Proof. destruct p; cbn; congruence. Qed.

(* The invariant of the repaired client.  [inv_cur], [inv_old]: the closed flag speaks of the current connection, every
   other dialled one is known dead; [inv_new]: generations not yet dialled are untouched; [inv_late0] .. [inv_holds]:
   nothing enqueued after the loss of g gets committed to g, and whatever the client holds was enqueued;
   [inv_done] .. [inv_cap]: who can have left the loop, capacity of the failure queue. *)
Record Inv (s : st) : Prop := {
  inv_cur : match cur s with
            | None => closedF s = true /\ ngen s = 0
            | Some c => closedF s = dead (gens s c) /\ c < ngen s
            end;
  inv_old : forall g, g < ngen s -> cur s <> Some g -> dead (gens s g) = true;
  inv_new : forall g, ngen s <= g -> gens s g = gen0;
  inv_late0 : forall g, dead (gens s g) = false -> late (gens s g) = [];
  inv_comm : forall g m, committed (sp (gens s g)) = Some m -> ~ In m (late (gens s g));
  inv_att : forall g m b, In (g, m, b) (atts s) -> ~ In m (late (gens s g)) /\ In m (hist s);
  inv_sendQ : forall m, In m (sendQ s) -> In m (hist s);
  inv_failQ : forall m, In m (failQ s) -> In m (hist s);
  inv_holds : forall g m, holds (sp (gens s g)) = Some m -> In m (hist s);
  inv_done : forall g, done (gens s g) = true -> dead (gens s g) = true;
  inv_rp : forall g, rp (gens s g) <> RRun -> dead (gens s g) = true;
  inv_lost : forall g, lostpc (sp (gens s g)) = true -> dead (gens s g) = true \/ peerc (gens s g) = true;
  inv_cap : length (failQ s) <= 1
}.

Lemma Inv_init : Inv init.
Proof. constructor; cbn; intros; try lia; try contradiction; try discriminate; auto. Qed.

Lemma lt_ngen_of_sp s g : Inv s -> sp (gens s g) <> STop -> g < ngen s.
Proof. intros I H. destruct (Nat.lt_ge_cases g (ngen s)) as [L|L]; [exact L|]. now rewrite (inv_new s I g L) in H. Qed.

Lemma cur_dead s g : Inv s -> cur s = Some g -> dead (gens s g) = closedF s.
Proof. intros I E. pose proof (inv_cur s I) as C. rewrite E in C. symmetry. apply C. Qed.

Lemma not_current_dead s g : Inv s -> g < ngen s -> isCurrent s g = false -> dead (gens s g) = true.
Proof.
  intros I L C. unfold isCurrent, is_cur in C. destruct (cur s) as [c|] eqn:EC; [destruct (Nat.eqb_spec c g) as [->|N]|].
  - rewrite (cur_dead s g I EC). now destruct (closedF s).
  - apply (inv_old s I); congruence.
  - apply (inv_old s I); congruence.
Qed.
Lemma current_not_dead s g : Inv s -> isCurrent s g = true -> dead (gens s g) = false.
Proof.
  intros I C. unfold isCurrent, is_cur in C. apply andb_prop in C. destruct C as [F C].
  destruct (cur s) as [c|] eqn:EC; [|discriminate]. apply Nat.eqb_eq in C. subst c.
  rewrite (cur_dead s g I EC). now apply negb_true_iff.
Qed.

(* [Inv] under the setters the model builds its successor states from *)

(* the fields [Inv] does not read (the harness's bookkeeping and log) and the queues and attempts, which it bounds *)
Lemma Inv_frame s s' : Inv s ->
  closedF s' = closedF s -> cur s' = cur s -> ngen s' = ngen s -> gens s' = gens s -> hist s' = hist s ->
  (forall m, In m (sendQ s') -> In m (hist s)) -> (forall m, In m (failQ s') -> In m (hist s)) -> length (failQ s') <= 1 ->
  (forall g m b, In (g, m, b) (atts s') -> In (g, m, b) (atts s) \/ committed (sp (gens s g)) = Some m) ->
  Inv s'.
Proof.
  intros I E1 E2 E3 E4 E5 Q1 Q2 Q3 A. destruct I. constructor; rewrite ?E1, ?E2, ?E3, ?E4, ?E5; auto.
  intros g m b X. destruct (A g m b X) as [Y|Y]; [eauto|]. split; [auto|]. eapply inv_holds0, committed_holds, Y.
Qed.

Lemma Inv_ext s s' : Inv s ->
  closedF s' = closedF s -> cur s' = cur s -> ngen s' = ngen s -> gens s' = gens s -> hist s' = hist s ->
  sendQ s' = sendQ s -> failQ s' = failQ s -> atts s' = atts s -> Inv s'.
Proof. intros I E1 E2 E3 E4 E5 E6 E7 E8. apply (Inv_frame s _ I); auto; rewrite ?E6, ?E7, ?E8; auto; apply I. Qed.
Lemma Inv_w_failQ s q : Inv s -> (forall m, In m q -> In m (hist s)) -> length q <= 1 -> Inv (w_failQ s q).
Proof. intros I Q C. apply (Inv_frame s _ I); auto; apply I. Qed.
Lemma Inv_w_sendQ s q : Inv s -> (forall m, In m q -> In m (hist s)) -> Inv (w_sendQ s q).
Proof. intros I Q. apply (Inv_frame s _ I); auto; apply I. Qed.
Lemma Inv_w_atts s g m b : Inv s -> committed (sp (gens s g)) = Some m -> Inv (w_atts s (atts s ++ [(g, m, b)])).
Proof.
  intros I C. apply (Inv_frame s _ I); auto; try apply I.
  intros g0 m0 b0 X. apply in_app_or in X. destruct X as [X|[[= <- <- <-]|[]]]; auto.
Qed.

(* one record replaced, what is known of its death and what is late for it kept *)
Lemma Inv_w_gen s g x : Inv s -> g < ngen s ->
  dead x = dead (gens s g) -> late x = late (gens s g) ->
  (done x = true -> dead x = true) -> (rp x <> RRun -> dead x = true) ->
  (lostpc (sp x) = true -> dead x = true \/ peerc x = true) ->
  (forall m, committed (sp x) = Some m -> ~ In m (late x)) ->
  (forall m, holds (sp x) = Some m -> In m (hist s)) ->
  Inv (w_gen s g x).
Proof.
  intros I L D LT DN R LO C HO. rewrite D, LT in *. destruct I. constructor; cbn; auto.
  2-10: intros y; destruct (upd_cases (gens s) g x y) as [[-> ->]|[N ->]]; rewrite ?D, ?LT; auto.
  - destruct (cur s) as [c|]; [|auto]. destruct (upd_cases (gens s) g x c) as [[-> ->]|[N ->]]; [now rewrite D|auto].
  - lia.
  - apply inv_att0.
  - apply inv_att0.
  - apply inv_holds0.
Qed.

(* a move of the send goroutine of g from [p] to [p']: what it holds it held before or is in the history, it is newly
   committed only if g is not known dead, and it is lost only if it was or the connection is dead or peer-closed *)
Lemma Inv_sp_move s g p p' : Inv s -> g < ngen s -> sp (gens s g) = p ->
  (forall m, holds p' = Some m -> holds p = Some m \/ In m (hist s)) ->
  (forall m, committed p' = Some m -> committed p = Some m \/ dead (gens s g) = false) ->
  (lostpc p' = true -> lostpc p = true \/ dead (gens s g) = true \/ peerc (gens s g) = true) ->
  Inv (w_sp s g p').
Proof.
  intros I L <- HO C LO. apply (Inv_w_gen s g (set_sp (gens s g) p')); auto; try apply I; cbn.
  - intros X. destruct (LO X) as [Y|Y]; [now apply (inv_lost s I)|exact Y].
  - intros m X. destruct (C m X) as [Y|Y]; [now apply (inv_comm s I)|]. now rewrite (inv_late0 s I g Y).
  - intros m X. destruct (HO m X) as [Y|Y]; [now apply (inv_holds s I g)|exact Y].
Qed.

(* connection.close: the flag follows the current connection only *)
Lemma dead_do_close f s g : dead (gens (do_close f s g) g) = true.
Proof. cbn. now rewrite upd_same. Qed.

Lemma Inv_close s g : Inv s -> g < ngen s -> Inv (do_close true s g).
Proof.
  intros I L. destruct I. constructor; cbn; auto.
  2-10: intros y; destruct (upd_cases (gens s) g (set_dead (gens s g)) y) as [[-> ->]|[N ->]]; cbn; auto.
  - unfold is_cur. destruct (cur s) as [c|]; [|auto]. destruct inv_cur0 as [F Lc]. split; [|auto].
    destruct (upd_cases (gens s) g (set_dead (gens s g)) c) as [[-> ->]|[N ->]].
    + now rewrite Nat.eqb_refl.
    + apply Nat.eqb_neq in N. now rewrite N.
  - lia.
  - discriminate.
  - apply inv_att0.
  - apply inv_att0.
  - apply inv_holds0.
  - apply inv_holds0.
Qed.

(* ReConnect with the flag set: a fresh generation becomes the current connection *)
Lemma Inv_dial s : Inv s -> closedF s = true ->
  Inv (mkSt false (Some (ngen s)) (S (ngen s)) (upd (gens s) (ngen s) gen0) (sendQ s) (failQ s) (hist s) (atts s)
            (lenq s) (lpc s) (lsrv s) (ldial s) (log s)).
Proof.
  intros I F. pose proof (fun g => not_current_dead s g I) as ND.
  (* the record of the new generation is the untouched one already *)
  assert (E : forall y, upd (gens s) (ngen s) gen0 y = gens s y).
  { intros y. destruct (upd_cases (gens s) (ngen s) gen0 y) as [[-> ->]|[_ ->]]; [|reflexivity]. symmetry. now apply (inv_new s I). }
  destruct I. constructor; cbn; intros *; rewrite ?E; auto.
  - rewrite inv_new0; auto.
  - intros L C. apply ND; [assert (g <> ngen s) by congruence; lia | unfold isCurrent; now rewrite F].
  - intros L. apply inv_new0. lia.
  - apply inv_att0.
  - apply inv_holds0.
Qed.

(* TarsClient.Send: the request is late for every generation known dead; it is new, so nobody is committed to it *)
Lemma Inv_enq s m : Inv s -> ~ In m (hist s) ->
  Inv (w_hist (w_sendQ (w_gens s (fun x => add_late (gens s x) m)) (sendQ s ++ [m])) (hist s ++ [m])).
Proof.
  intros I NH. destruct I.
  assert (K : forall g m0, In m0 (hist s) -> ~ In m0 (late (gens s g)) ->
                ~ In m0 (if dead (gens s g) then late (gens s g) ++ [m] else late (gens s g))).
  { intros g m0 Hh NL. destruct (dead (gens s g)); [|auto]. rewrite in_app_iff. intros [X|[<-|[]]]; auto. }
  constructor; cbn; intros *; rewrite ?add_late_eq; cbn; rewrite ?in_app_iff; auto.
  - destruct (cur s); [rewrite add_late_eq|]; auto.
  - intros L. rewrite (inv_new0 g L). reflexivity.
  - intros D. rewrite D. auto.
  - intros C. apply K; eauto using committed_holds.
  - intros X. destruct (inv_att0 _ _ _ X). auto.
  - intros [X|X]; auto.
  - eauto.
Qed.

(* Case analysis on a successful step for [step_Step], one case for every test [step] makes.  The equations are named after what is
   tested: [Esp], [Erp] the program counters, [Eq] the queue read ([qtl] its tail), [Ecur] the current connection
   ([cu]); the boolean guards are [Gd], [Gd0] in the order [step] tests them. *)
Ltac dstep H :=
  repeat match type of H with
  | context [match ?x with _ => _ end] =>
      lazymatch x with
      | sp _ => destruct x eqn:Esp
      | rp _ => destruct x eqn:Erp
      | failQ _ => let t := fresh "qtl" in destruct x as [|? t] eqn:Eq
      | sendQ _ => let t := fresh "qtl" in destruct x as [|? t] eqn:Eq
      | cur _ => let c := fresh "cu" in destruct x as [c|] eqn:Ecur
      | _ => let G := fresh "Gd" in destruct x eqn:G
      end; try discriminate H
  end; try (injection H as <-).

(* The repaired client's step function as a relation: one rule per branch of [step true] that succeeds, its guards as
   named hypotheses ([L] the generation has been dialled, [P] / [R] the program counters, [Q] the queue read). *)
Inductive Step (s : st) : label -> st -> Prop :=
| SReconnect (F : closedF s = true) :
    Step s LReconnect (mkSt false (Some (ngen s)) (S (ngen s)) (upd (gens s) (ngen s) gen0) (sendQ s) (failQ s) (hist s) (atts s)
                             (lenq s) (lpc s) (lsrv s) (ldial s) (log s))
| SReconnectOpen (F : closedF s = false) : Step s LReconnect s
| SReconnectFail (F : closedF s = true) : Step s LReconnectFail s
| SEnq m (A : In m (lenq s)) (N : ~ In m (hist s)) :
    Step s (LEnq m) (w_hist (w_sendQ (w_gens s (fun x => add_late (gens s x) m)) (sendQ s ++ [m])) (hist s ++ [m]))
| SUserClose c (C : cur s = Some c) (F : closedF s = false) : Step s LUserClose (w_gen (w_closedF s true) c (set_dead (gens s c)))
| SUserCloseNop (C : cur s = None \/ closedF s = true) : Step s LUserClose s
| SPeerClose g (L : g < ngen s) (N : peerc (gens s g) = false) (A : In g (lpc s)) : Step s (LPeerClose g) (w_gen s g (set_peerc (gens s g)))
| SRClose g (R : rp (gens s g) = RRun) (L : g < ngen s) (D : peerc (gens s g) = true \/ dead (gens s g) = true) :
    Step s (LRClose g) (w_gen (do_close true s g) g (set_rp (gens (do_close true s g) g) RSignal))
| SRSignal g (R : rp (gens s g) = RSignal) : Step s (LRSignal g) (w_gen s g (set_rp (set_done (gens s g)) RExit))
| SSTopDone g (L : g < ngen s) (P : sp (gens s g) = STop) (D : done (gens s g) = true) : Step s (LSTop g) (w_sp s g SExit)
| SSTop g (L : g < ngen s) (P : sp (gens s g) = STop) (D : done (gens s g) = false) : Step s (LSTop g) (w_sp s g SPollFail)
| SSPoll g m r (P : sp (gens s g) = SPollFail) (Q : failQ s = m :: r) : Step s (LSPoll g) (w_sp (w_failQ s r) g (SCheck m))
| SSPollEmpty g (P : sp (gens s g) = SPollFail) (Q : failQ s = []) : Step s (LSPoll g) (w_sp s g SBlock)
| SSBlkDone g (P : sp (gens s g) = SBlock) (D : done (gens s g) = true) : Step s (LSBlkDone g) (w_sp s g SExit)
| SSBlkFail g m r (P : sp (gens s g) = SBlock) (Q : failQ s = m :: r) : Step s (LSBlkFail g) (w_sp (w_failQ s r) g (SCheck m))
| SSBlkQueue g m r (P : sp (gens s g) = SBlock) (Q : sendQ s = m :: r) : Step s (LSBlkQueue g) (w_sp (w_sendQ s r) g (SCheck m))
| SSBlkTick g (P : sp (gens s g) = SBlock) : Step s (LSBlkTick g) (w_sp s g STick)
| SSTickStale g (P : sp (gens s g) = STick) (C : isCurrent s g = false) : Step s (LSTick g) (w_sp s g SExit)
| SSTick g (P : sp (gens s g) = STick) (C : isCurrent s g = true) : Step s (LSTick g) (w_sp s g SIdle)
| SSIdleNo g (P : sp (gens s g) = SIdle) : Step s (LSIdleNo g) (w_sp s g STop)
| SSIdleClose g (P : sp (gens s g) = SIdle) : Step s (LSIdleClose g) (w_sp (do_close true s g) g SExit)
| SSCheck g m (P : sp (gens s g) = SCheck m) (C : isCurrent s g = true) : Step s (LSCheck g) (w_sp s g (SHook m))
| SSCheckStale g m (P : sp (gens s g) = SCheck m) (C : isCurrent s g = false) : Step s (LSCheck g) (w_sp s g (SRequeue m))
| SSRequeue g m (P : sp (gens s g) = SRequeue m) (Q : failQ s = []) : Step s (LSRequeue g) (w_sp (w_failQ s [m]) g SExit)
| SSHook g m (P : sp (gens s g) = SHook m) :
    Step s (LSHook g) (w_log (w_sp s g (SWrite m)) (EWrite g m (dead (gens s g) || negb (is_cur s g))))
| SSWriteOkClosed g m (P : sp (gens s g) = SWrite m) (D : dead (gens s g) = false) (N : peerc (gens s g) = true) :
    Step s (LSWriteOk g) (w_sp (w_atts s (atts s ++ [(g, m, false)])) g STop)
| SSWriteOk g m (P : sp (gens s g) = SWrite m) (D : dead (gens s g) = false) (N : peerc (gens s g) = false) :
    Step s (LSWriteOk g) (w_gen (w_atts s (atts s ++ [(g, m, false)])) g (set_sp (add_got (gens s g) m) STop))
| SSWriteErr g m (P : sp (gens s g) = SWrite m) (D : dead (gens s g) || peerc (gens s g) = true) :
    Step s (LSWriteErr g) (w_sp (w_atts s (atts s ++ [(g, m, dead (gens s g))])) g (SFailPush m))
| SSFailPush g m (P : sp (gens s g) = SFailPush m) (Q : failQ s = []) : Step s (LSFailPush g) (w_sp (w_failQ s [m]) g SFailClose)
| SSFailClose g (P : sp (gens s g) = SFailClose) : Step s (LSFailClose g) (w_sp (do_close true s g) g SExit)
| SLogEnq id (N : memn id (lenq s) = false) : Step s (LLogEnq id) (w_log (w_lenq s (lenq s ++ [id])) (EEnq id))
| SLogPClose g (L : g < ngen s) (N : memn g (lpc s) = false) : Step s (LLogPClose g) (w_log (w_lpc s (lpc s ++ [g])) (EPeerClose g))
| SLogObs g (F : closedF s = true) (C : is_cur s g = true) : Step s (LLogObs g) (w_log s (EObsClosed g))
| SLogSrv g id (L : g < ngen s) (A : In id (got (gens s g))) (N : memp g id (lsrv s) = false) :
    Step s (LLogSrv g id) (w_log (w_lsrv s (lsrv s ++ [(g, id)])) (ESrv g id))
| SLogReply id (A : mem2 id (lsrv s) = true) : Step s (LLogReply id) (w_log s (EReply id))
| SLogFail id (A : In id (lenq s)) : Step s (LLogFail id) (w_log s (EFail id))
| SLogDial g (E : g = ldial s) (L : g < ngen s) : Step s (LLogDial g) (w_log (w_ldial s (S g)) (EDial g))
| SLogCliClose g (L : g < ngen s) (D : dead (gens s g) = true) : Step s (LLogCliClose g) (w_log s (ECliClose g))
| SLogCFlag g (C : is_cur s g = true) : Step s (LLogCFlag g) (w_log s (ECFlag g (closedF s))).

Lemma step_Step s l s' : step true s l = Some s' -> Step s l s'.
Proof.
  (* a rule whose guards are the equations [step] tests is closed by them; the others first turn a boolean guard into its proposition *)
  intros H. destruct l; cbn [step] in H; dstep H; try (econstructor; first [eassumption | left; eassumption | right; eassumption]).
  - (* LEnq *) apply andb_prop in Gd. destruct Gd as [A N]. apply memn_In in A. constructor; [exact A|].
    intros X. apply memn_In in X. rewrite X in N. discriminate.
  - (* LPeerClose *) apply andb_prop in Gd. destruct Gd as [Gd A]. apply andb_prop in Gd. destruct Gd as [L N].
    constructor; [now apply Nat.ltb_lt | now apply negb_true_iff | now apply memn_In].
  - (* LRClose *) apply andb_prop in Gd. destruct Gd as [L D]. apply (SRClose s g Erp); [now apply Nat.ltb_lt | now apply orb_prop].
  - (* LSTop *) constructor; [now apply Nat.ltb_lt | exact Esp | exact Gd0].
  - constructor; [now apply Nat.ltb_lt | exact Esp | exact Gd0].
  - (* LSTick *) apply negb_true_iff in Gd. now constructor.
  - apply negb_false_iff in Gd. now constructor.
  - (* LLogPClose *) apply andb_prop in Gd. destruct Gd as [L N]. constructor; [now apply Nat.ltb_lt | now apply negb_true_iff].
  - (* LLogObs *) apply andb_prop in Gd. destruct Gd. now constructor.
  - (* LLogSrv *) apply andb_prop in Gd. destruct Gd as [Gd N]. apply andb_prop in Gd. destruct Gd as [L A].
    constructor; [now apply Nat.ltb_lt | now apply memn_In | now apply negb_true_iff].
  - (* LLogFail *) constructor. now apply memn_In.
  - (* LLogDial *) apply andb_prop in Gd. destruct Gd as [E L]. constructor; [now apply Nat.eqb_eq | now apply Nat.ltb_lt].
  - (* LLogCliClose *) apply andb_prop in Gd. destruct Gd as [L D]. constructor; [now apply Nat.ltb_lt | exact D].
Qed.

(* the generation whose goroutine (or peer) a label belongs to *)
Definition of_gen (l : label) : option nat :=
  match l with
  | LPeerClose g | LRClose g | LRSignal g | LSTop g | LSPoll g | LSBlkDone g | LSBlkFail g | LSBlkQueue g | LSBlkTick g
  | LSTick g | LSIdleNo g | LSIdleClose g | LSCheck g | LSRequeue g | LSHook g | LSWriteOk g | LSWriteErr g
  | LSFailPush g | LSFailClose g => Some g
  | _ => None
  end.

(* ... has been dialled: an untouched generation is at the loop top with its receiver running, and that step is guarded *)
Lemma step_lt f s l s' g : (forall y, ngen s <= y -> gens s y = gen0) -> step f s l = Some s' -> of_gen l = Some g -> g < ngen s.
Proof.
  intros N H G. destruct l; try discriminate G; injection G as ->; revert H; cbn [step].
  all: destruct (Nat.ltb_spec g (ngen s)) as [|GE]; auto; rewrite ?(N g GE); cbn; discriminate.
Qed.

Lemma Inv_deq_fail s m r : Inv s -> failQ s = m :: r -> In m (hist s) /\ Inv (w_failQ s r).
Proof.
  intros I E. pose proof (inv_cap s I) as C. pose proof (inv_failQ s I) as Q. rewrite E in C, Q. cbn in C, Q.
  split; [auto|]. apply Inv_w_failQ; auto. lia.
Qed.
Lemma Inv_deq_send s m r : Inv s -> sendQ s = m :: r -> In m (hist s) /\ Inv (w_sendQ s r).
Proof. intros I E. pose proof (inv_sendQ s I) as Q. rewrite E in Q. cbn in Q. split; [auto|]. apply Inv_w_sendQ; auto. Qed.
Lemma Inv_push_fail s g m : Inv s -> holds (sp (gens s g)) = Some m -> Inv (w_failQ s [m]).
Proof. intros I HO. apply Inv_w_failQ; auto. intros x [<-|[]]. apply (inv_holds s I g), HO. Qed.

(* An obligation about concrete program counters (of [Inv_sp_move], of [quiet]): once evaluated, its premise is absurd or is
   its conclusion, or the first alternative of it. ([easy] closes them too, but is three times as dear to check.) *)
Ltac pcs := cbn; intros; first [discriminate | auto].

Lemma Inv_step s l s' : Inv s -> step true s l = Some s' -> Inv s'.
Proof.
  intros I H. pose proof (fun g => step_lt _ _ _ _ g (inv_new s I) H) as Lt.
  apply step_Step in H. destruct H; cbn [of_gen] in *; try specialize (Lt _ eq_refl).
  (* the harness's labels, and calls that find nothing to do *)
  all: try (apply (Inv_ext s _ I); reflexivity).
  - (* LReconnect *) now apply Inv_dial.
  - (* LEnq *) apply Inv_enq; [exact I|exact N].
  - (* LUserClose *)
    pose proof (Inv_close s c I) as X. unfold do_close, is_cur in X. rewrite C, Nat.eqb_refl in X. apply X.
    pose proof (inv_cur s I) as IC. rewrite C in IC. apply IC.
  - (* LPeerClose *) apply Inv_w_gen; auto; apply I.
  - (* LRClose *)
    pose proof (Inv_close s g I Lt) as I1. apply Inv_w_gen; auto; try apply I1. intros _. exact (dead_do_close true s g).
  - (* LRSignal: the receiver has closed the connection before it signals *)
    assert (D : dead (gens s g) = true) by (apply (inv_rp s I); now rewrite R).
    apply Inv_w_gen; auto; apply I.
  - (* LSTop, done *) apply (Inv_sp_move s g _ _ I Lt P); try solve [pcs]. intros _. right. left. now apply (inv_done s I).
  - (* LSTop *) apply (Inv_sp_move s g _ _ I Lt P); pcs.
  - (* LSPoll *) destruct (Inv_deq_fail s _ _ I Q) as [Hm I1]. apply (Inv_sp_move _ g _ _ I1 Lt P); try solve [pcs]. intros ? [= <-]. auto.
  - apply (Inv_sp_move s g _ _ I Lt P); pcs.
  - (* LSBlkDone *) apply (Inv_sp_move s g _ _ I Lt P); try solve [pcs]. intros _. right. left. now apply (inv_done s I).
  - (* LSBlkFail *) destruct (Inv_deq_fail s _ _ I Q) as [Hm I1]. apply (Inv_sp_move _ g _ _ I1 Lt P); try solve [pcs]. intros ? [= <-]. auto.
  - (* LSBlkQueue *) destruct (Inv_deq_send s _ _ I Q) as [Hm I1]. apply (Inv_sp_move _ g _ _ I1 Lt P); try solve [pcs]. intros ? [= <-]. auto.
  - (* LSBlkTick *) apply (Inv_sp_move s g _ _ I Lt P); pcs.
  - (* LSTick, not current *) apply (Inv_sp_move s g _ _ I Lt P); try solve [pcs]. intros _. right. left. now apply not_current_dead.
  - (* LSTick *) apply (Inv_sp_move s g _ _ I Lt P); pcs.
  - (* LSIdleNo *) apply (Inv_sp_move s g _ _ I Lt P); pcs.
  - (* LSIdleClose *)
    apply (Inv_sp_move _ g _ _ (Inv_close s g I Lt) Lt eq_refl); try solve [pcs]. intros _. right. left. exact (dead_do_close true s g).
  - (* LSCheck, current: not known dead, so nothing is late for it *)
    apply (Inv_sp_move s g _ _ I Lt P); auto; try solve [pcs]. intros ? _. right. now apply current_not_dead.
  - (* LSCheck, not current *)
    apply (Inv_sp_move s g _ _ I Lt P); auto; try solve [pcs]. intros _. right. left. now apply not_current_dead.
  - (* LSRequeue *)
    assert (HO : holds (sp (gens s g)) = Some m) by now rewrite P.
    apply (Inv_sp_move _ g _ _ (Inv_push_fail s g m I HO) Lt P); auto; pcs.
  - (* LSHook *)
    apply (Inv_ext (w_sp s g (SWrite m))); try reflexivity. apply (Inv_sp_move s g _ _ I Lt P); auto; pcs.
  - (* LSWriteOk, the peer has closed: nothing arrives *)
    assert (I1 : Inv (w_atts s (atts s ++ [(g, m, false)]))) by (apply Inv_w_atts; auto; now rewrite P).
    apply (Inv_sp_move _ g _ _ I1 Lt P); pcs.
  - (* LSWriteOk *)
    assert (I1 : Inv (w_atts s (atts s ++ [(g, m, false)]))) by (apply Inv_w_atts; auto; now rewrite P).
    apply Inv_w_gen; auto; try solve [pcs]; apply I1.
  - (* LSWriteErr *)
    assert (I1 : Inv (w_atts s (atts s ++ [(g, m, dead (gens s g))]))) by (apply Inv_w_atts; auto; now rewrite P).
    apply (Inv_sp_move _ g _ _ I1 Lt P); auto; try solve [pcs]. intros _. right. now apply orb_prop.
  - (* LSFailPush *)
    assert (HO : holds (sp (gens s g)) = Some m) by now rewrite P.
    apply (Inv_sp_move _ g _ _ (Inv_push_fail s g m I HO) Lt P); auto; pcs.
  - (* LSFailClose *)
    apply (Inv_sp_move _ g _ _ (Inv_close s g I Lt) Lt eq_refl); try solve [pcs]. intros _. right. left. exact (dead_do_close true s g).
Qed.

Lemma Inv_run ls s s' : Inv s -> run true s ls = Some s' -> Inv s'.
Proof. apply (Lts.run_inv (step true)), Inv_step. Qed.

Lemma reach_Inv ls s : run true init ls = Some s -> Inv s.
Proof. apply Inv_run, Inv_init. Qed.

(* known dead is stable, and so are being late for a generation and having reached its peer *)
Definition grows (x x' : gen) : Prop :=
  (dead x = true -> dead x' = true) /\ (forall m, In m (late x) -> In m (late x')) /\ (forall m, In m (got x) -> In m (got x')).

Lemma grows_refl x : grows x x.
Proof. unfold grows. auto. Qed.
Lemma grows_trans x y z : grows x y -> grows y z -> grows x z.
Proof. unfold grows. intros (A & B & C) (A' & B' & C'). auto. Qed.
Lemma grows_upd f g x y : grows (f g) x -> grows (f y) (upd f g x y).
Proof. intros G. destruct (upd_cases f g x y) as [[-> ->]|[_ ->]]; [exact G|apply grows_refl]. Qed.

Lemma step_grows s l s' g : Inv s -> step true s l = Some s' -> grows (gens s g) (gens s' g).
Proof.
  intros I H. pose proof (inv_new s I (ngen s) (le_n _)) as N. apply step_Step in H. destruct H; cbn.
  all: try apply grows_refl.
  all: try apply grows_upd.
  (* connection.close, then the goroutine's own record *)
  all: try (eapply grows_trans; apply grows_upd).
  all: try (unfold grows; cbn; auto using in_or_app; fail).
  - rewrite N. apply grows_refl.
  - rewrite add_late_eq. unfold grows; cbn. destruct (dead (gens s g)); auto using in_or_app.
Qed.

Lemma run_grows ls s s' g : Inv s -> run true s ls = Some s' -> grows (gens s g) (gens s' g).
Proof.
  intros I H. revert I. apply (Lts.run_ind (step true) (fun a _ b => Inv a -> grows (gens a g) (gens b g))) with (ls := ls); auto.
  - intros; apply grows_refl.
  - intros a l m r b E IH I. eapply grows_trans; [eapply step_grows|apply IH; eapply Inv_step]; eauto.
Qed.

(* the closed flag says exactly whether the CURRENT connection is known dead *)
Theorem closed_flag_is_current ls s : run true init ls = Some s ->
  match cur s with
  | Some c => closedF s = dead (gens s c) /\ c < ngen s
  | None => closedF s = true /\ ngen s = 0
  end.
Proof. intros H. apply (inv_cur s), (reach_Inv _ _ H). Qed.

(* every generation other than the current one is known dead: a connection is only replaced after its loss *)
Theorem only_current_alive ls s g : run true init ls = Some s -> g < ngen s -> dead (gens s g) = false -> cur s = Some g.
Proof.
  intros H L D. destruct (cur s) as [c|] eqn:E; [destruct (Nat.eq_dec c g) as [->|N]; [reflexivity|]|].
  all: rewrite (inv_old s (reach_Inv _ _ H) g) in D; congruence.
Qed.

(* steps by which a goroutine bound to generation g gives that generation up *)
Definition closes (l : label) : option nat :=
  match l with LRClose g | LSIdleClose g | LSFailClose g => Some g | _ => None end.

(* each of them is connection.close followed by a change to g's own record *)
Lemma closes_shape s l s' g : step true s l = Some s' -> closes l = Some g ->
  exists x, s' = w_gen (do_close true s g) g x.
Proof.
  intros H CL. apply step_Step in H. destruct H; cbn in CL; try discriminate CL; injection CL as <-; eexists; reflexivity.
Qed.

(* the loss of generation g does not touch the closed flag, the current connection or its state
   when g is not the current connection (any state, reachable or not) *)
Theorem close_is_local s l s' g c : step true s l = Some s' -> closes l = Some g -> cur s = Some c -> c <> g ->
  closedF s' = closedF s /\ cur s' = Some c /\ dead (gens s' c) = dead (gens s c) /\ sp (gens s' c) = sp (gens s c).
Proof.
  intros H CL EC NE. destruct (closes_shape s l s' g H CL) as (x & ->). cbn. rewrite !upd_other by exact NE.
  unfold is_cur. rewrite EC. apply Nat.eqb_neq in NE. rewrite NE. auto.
Qed.

(* a healthy current connection is never treated as closed because an earlier one was lost *)
Corollary healthy_not_closed ls s c : run true init ls = Some s -> cur s = Some c -> dead (gens s c) = false -> closedF s = false.
Proof. intros H E D. now rewrite <- (cur_dead s c (reach_Inv _ _ H) E). Qed.

(* once g is known dead, a request enqueued later is never written to g: it is late for g ever after, and no write
   attempt on g carries a request that is late for it *)
Theorem no_write_after_known_dead l1 l2 m g s1 s : run true init l1 = Some s1 -> dead (gens s1 g) = true ->
  run true s1 (LEnq m :: l2) = Some s -> forall b, ~ In (g, m, b) (atts s).
Proof.
  intros H1 D H2 b HIn. pose proof (reach_Inv _ _ H1) as I1.
  cbn [run] in H2. destruct (step true s1 (LEnq m)) as [s2|] eqn:E; [|discriminate].
  assert (L2 : In m (late (gens s2 g))).
  { cbn [step] in E. destruct (memn m (lenq s1) && negb (memn m (hist s1))); [|discriminate]. injection E as <-.
    cbn. rewrite add_late_eq. cbn. rewrite D, in_app_iff. right. now left. }
  pose proof (Inv_step _ _ _ I1 E) as I2.
  apply (run_grows l2 s2 s g I2 H2) in L2. now apply (inv_att s (Inv_run _ _ _ I2 H2)) in HIn.
Qed.

(* a send goroutine that is about to write (hook position) or writing holds a request that is not late for its generation *)
Theorem committed_not_late ls s g m : run true init ls = Some s -> committed (sp (gens s g)) = Some m -> ~ In m (late (gens s g)).
Proof. intros H. apply (inv_comm s), (reach_Inv _ _ H). Qed.

(* the pinned code ([fixed = false]) violates all three; the schedule is the one observed on the real client:
   the send goroutine of the closed connection 0 takes the request of the next call, writes it to the dead
   connection, its close marks the healthy connection 1 closed, and the send goroutine of 1 leaves at its next tick *)
Definition sched_defect : list label :=
  [LLogEnq 0; LReconnect; LEnq 0; LSTop 0; LSPoll 0; LSBlkQueue 0; LSHook 0; LSWriteOk 0; LSTop 0; LSPoll 0;
   LLogPClose 0; LPeerClose 0; LRClose 0; LRSignal 0; LLogObs 0;
   LLogEnq 1; LReconnect; LEnq 1; LSTop 1; LSPoll 1;
   LSBlkQueue 0; LSHook 0; LSWriteErr 0; LSFailPush 0; LSFailClose 0;
   LSBlkTick 1; LSTick 1].

Lemma pinned_refuted : exists s, run false init sched_defect = Some s /\
  In (0, 1, true) (atts s) /\ In 1 (late (gens s 0)) /\                       (* written to the connection known dead *)
  cur s = Some 1 /\ dead (gens s 1) = false /\ peerc (gens s 1) = false /\ closedF s = true /\   (* healthy, treated as closed *)
  failQ s = [1] /\ sp (gens s 1) = SExit /\ sp (gens s 0) = SExit /\ got (gens s 1) = [] /\       (* request 1 waits for another call *)
  c11_accepts (log s) = false.                                        (* and the specification machine rejects the log *)
Proof. eexists. split; [apply (Lts.some_the init); vm_compute; reflexivity|]. vm_compute. repeat split; auto. Qed.

(* the repaired code under the corresponding schedule: the stale goroutine hands the request over *)
Definition sched_repaired : list label :=
  [LLogEnq 0; LReconnect; LEnq 0; LSTop 0; LSPoll 0; LSBlkQueue 0; LSCheck 0; LSHook 0; LSWriteOk 0; LSTop 0; LSPoll 0;
   LLogPClose 0; LPeerClose 0; LRClose 0; LRSignal 0; LLogObs 0;
   LLogEnq 1; LReconnect; LEnq 1; LSTop 1; LSPoll 1;
   LSBlkQueue 0; LSCheck 0; LSRequeue 0;
   LSBlkFail 1; LSCheck 1; LSHook 1; LSWriteOk 1].

Lemma repaired_example : exists s, run true init sched_repaired = Some s /\
  atts s = [(0, 0, false); (1, 1, false)] /\ got (gens s 1) = [1] /\ closedF s = false /\ cur s = Some 1 /\
  sp (gens s 0) = SExit /\ failQ s = [] /\ sendQ s = [] /\ c11_accepts (log s) = true.
Proof. eexists. split; [apply (Lts.some_the init); vm_compute; reflexivity|]. vm_compute. repeat split; auto. Qed.

(* the pinned schedule is not a behaviour of the repaired code *)
Lemma repaired_rejects_defect : run true init sched_defect = None.
Proof. vm_compute. reflexivity. Qed.

(* the literal reading "no write attempt while the generation is known dead" fails for any client that does
   not hold a lock across test and write: the connection is lost between isCurrent and conn.Write *)
Definition sched_window : list label :=
  [LLogEnq 0; LReconnect; LEnq 0; LSTop 0; LSPoll 0; LSBlkQueue 0; LSCheck 0; LLogPClose 0; LPeerClose 0; LRClose 0;
   LSHook 0; LSWriteErr 0].

Lemma literal_no_write_to_dead_refuted : exists s, run true init sched_window = Some s /\ In (0, 0, true) (atts s) /\ late (gens s 0) = [].
Proof. eexists. split; [apply (Lts.some_the init); vm_compute; reflexivity|]. vm_compute. split; auto. Qed.

(* progress without further calls: schedules of the client's own goroutines *)
Definition reach_int (s s' : st) : Prop := exists ls, Forall (fun l => internal l = true) ls /\ run true s ls = Some s'.

Lemma reach_refl s : reach_int s s.
Proof. exists []. split; [constructor|reflexivity]. Qed.
Lemma reach_trans s1 s2 s3 : reach_int s1 s2 -> reach_int s2 s3 -> reach_int s1 s3.
Proof.
  intros (l1 & F1 & R1) (l2 & F2 & R2). exists (l1 ++ l2). split; [apply Forall_app; auto|]. now rewrite run_app, R1.
Qed.
Lemma reach_step s l s' : internal l = true -> step true s l = Some s' -> reach_int s s'.
Proof. intros I H. exists [l]. split; [repeat constructor; auto|]. cbn. now rewrite H. Qed.

Definition healthy (s : st) (c : nat) : Prop :=
  cur s = Some c /\ closedF s = false /\ dead (gens s c) = false /\ peerc (gens s c) = false.

Definition pending (s : st) (m : nat) : Prop :=
  In m (sendQ s) \/ In m (failQ s) \/ exists g, holds (sp (gens s g)) = Some m.

(* a request is in at most one place: a queue, the hands of one send goroutine, or delivered to one peer *)
Fixpoint cnt (m : nat) (l : list nat) : nat :=
  match l with [] => 0 | x :: r => (if Nat.eqb x m then 1 else 0) + cnt m r end.
Lemma cnt_app m a b : cnt m (a ++ b) = cnt m a + cnt m b.
Proof. induction a as [|x r IH]; cbn; auto. rewrite IH. lia. Qed.
Lemma cnt_In m l : In m l -> 1 <= cnt m l.
Proof. induction l as [|x r IH]; cbn; [tauto|]. intros [->|H]; [rewrite Nat.eqb_refl; lia|]. specialize (IH H). lia. Qed.

Definition hcnt (m : nat) (p : spc) : nat :=
  match holds p with Some x => if Nat.eqb x m then 1 else 0 | None => 0 end.
Definition gocc (m : nat) (x : gen) : nat := hcnt m (sp x) + cnt m (got x).

(* sums of a weight over the generations dialled so far *)
Section Sumw.
  Variable w : gen -> nat.
  Fixpoint sumw (f : nat -> gen) (n : nat) : nat := match n with 0 => 0 | S k => sumw f k + w (f k) end.

  Lemma sumw_ext f f' n : (forall k, k < n -> w (f' k) = w (f k)) -> sumw f' n = sumw f n.
  Proof. induction n as [|n IH]; cbn; intros H; auto. rewrite IH, H; auto. Qed.
  Lemma sumw_ge f g n : g < n -> w (f g) <= sumw f n.
  Proof. induction n as [|n IH]; intros L; [lia|]. cbn. destruct (Nat.eq_dec g n) as [->|N]; [lia|]. assert (g < n) by lia. specialize (IH H). lia. Qed.
  Lemma sumw_ge2 f g g' n : g < n -> g' < n -> g <> g' -> w (f g) + w (f g') <= sumw f n.
  Proof.
    induction n as [|n IH]; intros L L' N; [lia|]. cbn.
    destruct (Nat.eq_dec g n) as [->|N1]; [|destruct (Nat.eq_dec g' n) as [->|N2]].
    - pose proof (sumw_ge f g' n). lia.
    - pose proof (sumw_ge f g n). lia.
    - assert (g < n) by lia. assert (g' < n) by lia. specialize (IH H H0 N). lia.
  Qed.
  Lemma sumw_upd f g x n : g < n -> sumw (upd f g x) n + w (f g) = sumw f n + w x.
  Proof.
    induction n as [|n IH]; intros L; [lia|]. cbn. destruct (Nat.eq_dec g n) as [->|N].
    - rewrite upd_same, (sumw_ext f (upd f n x) n); [lia|]. intros k Hk. rewrite upd_other by lia. reflexivity.
    - rewrite (upd_other f g x n) by auto. assert (g < n) by lia. specialize (IH H). lia.
  Qed.
End Sumw.

Definition occ (s : st) (m : nat) : nat := cnt m (sendQ s) + cnt m (failQ s) + sumw (gocc m) (gens s) (ngen s).

Lemma occ_w_gen s g x m k : g < ngen s -> gocc m x + occ s m <= k + gocc m (gens s g) -> occ (w_gen s g x) m <= k.
Proof. intros L. unfold occ; cbn. pose proof (sumw_upd (gocc m) (gens s) g x (ngen s) L). lia. Qed.
Lemma occ_do_close s g m : occ (do_close true s g) m = occ s m.
Proof.
  unfold occ; cbn. f_equal. apply sumw_ext. intros k _. destruct (upd_cases (gens s) g (set_dead (gens s g)) k) as [[-> ->]|[_ ->]]; reflexivity.
Qed.

Definition is_enq (l : label) (m : nat) : bool := match l with LEnq x => Nat.eqb x m | _ => false end.

Lemma occ_step s l s' m : Inv s -> step true s l = Some s' ->
  occ s' m <= occ s m + (if is_enq l m then 1 else 0).
Proof.
  intros I H. pose proof (fun g => step_lt _ _ _ _ g (inv_new s I) H) as Lt.
  apply step_Step in H. destruct H; cbn [of_gen is_enq] in *; try specialize (Lt _ eq_refl).
  (* a step that touches neither a queue nor a record leaves [occ] as it is *)
  all: try exact (Nat.le_add_r _ _).
  (* a goroutine's step: its record against the queues *)
  all: unfold w_sp.
  all: try (apply occ_w_gen; [exact Lt|]; rewrite ?occ_do_close; unfold occ, gocc, hcnt; cbn;
                         rewrite ?upd_same; cbn; rewrite ?P, ?Q, ?cnt_app; cbn; lia).
  - (* LReconnect *)
    unfold occ; cbn. rewrite (sumw_ext (gocc m) (gens s) (upd (gens s) (ngen s) gen0) (ngen s)).
    + rewrite upd_same. cbn. lia.
    + intros k Hk. rewrite upd_other by lia. reflexivity.
  - (* LEnq *)
    unfold occ; cbn. rewrite cnt_app. cbn. rewrite (sumw_ext (gocc m) (gens s) (fun x => add_late (gens s x) m0)); [lia|].
    intros k _. now rewrite add_late_eq.
  - (* LUserClose *)
    pose proof (inv_cur s I) as IC. rewrite C in IC. apply occ_w_gen; [apply IC|]. unfold occ, gocc; cbn. lia.
Qed.

Definition AtMostOnePlace (s : st) : Prop := forall m, occ s m <= 1 /\ (~ In m (hist s) -> occ s m = 0).

Lemma hist_step s l s' x : step true s l = Some s' -> In x (hist s) -> In x (hist s').
Proof. intros H. apply step_Step in H. destruct H; cbn; auto. rewrite in_app_iff. auto. Qed.

Lemma AtMostOnePlace_step s l s' : Inv s -> AtMostOnePlace s -> step true s l = Some s' -> AtMostOnePlace s'.
Proof.
  intros I U H m. destruct (U m) as [U1 U2]. pose proof (occ_step s l s' m I H) as O.
  destruct (is_enq l m) eqn:E.
  - destruct l; cbn in E; try discriminate. apply Nat.eqb_eq in E. subst m0.
    cbn [step] in H. destruct (memn m (lenq s) && negb (memn m (hist s))) eqn:G; [|discriminate]. injection H as <-.
    apply andb_prop in G. destruct G as [_ G]. apply negb_true_iff in G.
    assert (NI : ~ In m (hist s)). { intros X. apply memn_In in X. congruence. }
    specialize (U2 NI). split; [lia|]. cbn. rewrite in_app_iff. intros X. exfalso. apply X. right. now left.
  - split; [lia|]. intros NI. rewrite U2 in O; [lia|]. intros X. apply NI. eapply hist_step; eauto.
Qed.

Lemma AtMostOnePlace_init : AtMostOnePlace init.
Proof. intros m. unfold occ, init; cbn. split; auto. Qed.

Lemma reach_InvU ls s : run true init ls = Some s -> Inv s /\ AtMostOnePlace s.
Proof.
  apply (Lts.run_inv (step true) (fun s => Inv s /\ AtMostOnePlace s)); [|split; [apply Inv_init|apply AtMostOnePlace_init]].
  intros a l b [I U] E. split; [eapply Inv_step|eapply AtMostOnePlace_step]; eauto.
Qed.

Lemma amo_state s m g g' : AtMostOnePlace s -> g < ngen s -> g' < ngen s -> In m (got (gens s g)) -> In m (got (gens s g')) -> g = g'.
Proof.
  intros U L L' G G'. destruct (U m) as [U1 _]. unfold occ in U1.
  pose proof (cnt_In _ _ G) as C. pose proof (cnt_In _ _ G') as C'.
  destruct (Nat.eq_dec g g'); auto. pose proof (sumw_ge2 (gocc m) (gens s) g g' (ngen s) L L' n). unfold gocc in *. lia.
Qed.

(* AT MOST ONCE: over all connections together a request reaches the peer at most once, and a request that has
   reached a peer is nowhere else in the client (no queue, no send goroutine holds it) *)
Theorem at_most_once ls s m g g' : run true init ls = Some s -> g < ngen s -> g' < ngen s ->
  In m (got (gens s g)) -> In m (got (gens s g')) ->
  g = g' /\ cnt m (got (gens s g)) = 1 /\ ~ In m (sendQ s) /\ ~ In m (failQ s) /\ (forall h, h < ngen s -> holds (sp (gens s h)) <> Some m).
Proof.
  intros R L L' G G'. destruct (proj2 (reach_InvU ls s R) m) as [U _]. unfold occ in U.
  pose proof (cnt_In _ _ G) as C. pose proof (cnt_In _ _ G') as C'.
  assert (g = g') by (eapply amo_state; eauto; apply (reach_InvU ls s R)). subst g'. pose proof (sumw_ge (gocc m) (gens s) g (ngen s) L) as S1. unfold gocc in *.
  split; [auto|]. split; [lia|]. split; [|split].
  - intros X. apply cnt_In in X. lia.
  - intros X. apply cnt_In in X. lia.
  - intros h Lh X. destruct (Nat.eq_dec h g) as [->|N].
    + unfold hcnt in *. rewrite X, Nat.eqb_refl in S1. lia.
    + pose proof (sumw_ge2 (gocc m) (gens s) h g (ngen s) Lh L N) as S2. unfold gocc, hcnt in *. rewrite X, Nat.eqb_refl in S2. lia.
Qed.

Lemma memp_In g m l : memp g m l = true <-> In (g, m) l.
Proof.
  unfold memp. rewrite existsb_exists. split.
  - intros ((a & b) & Hy & E). cbn in E. apply andb_prop in E. destruct E as [E1 E2]. apply Nat.eqb_eq in E1, E2. now subst.
  - intros H. exists (g, m). split; auto. cbn. now rewrite !Nat.eqb_refl.
Qed.
Lemma mem2_In m l : mem2 m l = true <-> exists g, In (g, m) l.
Proof.
  unfold mem2. rewrite existsb_exists. split.
  - intros ((a & b) & Hy & E). cbn in E. apply Nat.eqb_eq in E. subst. eauto.
  - intros (g & H). exists (g, m). split; auto. cbn. apply Nat.eqb_refl.
Qed.

(* holds only along runs without [client_close] (the harness's scripts contain neither TarsClient.Close nor an idle close) *)
Definition NoCliClose (s : st) : Prop :=
  (forall m, In m (hist s) -> In m (lenq s)) /\
  (forall g, dead (gens s g) = true -> peerc (gens s g) = true) /\
  (forall g, peerc (gens s g) = true -> In g (lpc s)) /\
  (forall c, cur s = Some c -> S c = ngen s) /\
  ldial s <= ngen s.

Lemma NoCliClose_w_gen s g x : NoCliClose s -> (dead x = true -> peerc x = true) -> (peerc x = true -> In g (lpc s)) -> NoCliClose (w_gen s g x).
Proof.
  intros (H1 & H2 & H3 & H4 & H5) D P. unfold NoCliClose; cbn. repeat split; auto.
  all: intros y; destruct (upd_cases (gens s) g x y) as [[-> ->]|[_ ->]]; auto.
Qed.

Lemma NoCliClose_step s l s' : Inv s -> NoCliClose s -> client_close l = false -> step true s l = Some s' -> NoCliClose s'.
Proof.
  intros I J CC H. pose proof J as (H1 & H2 & H3 & H4 & H5).
  apply step_Step in H. destruct H; try discriminate CC; unfold w_sp, do_close.
  (* [NoCliClose] does not read the queues, the attempts, the flag or the log *)
  all: try exact J.
  all: try (apply NoCliClose_w_gen; [exact J|apply J|apply J]).
  - (* LReconnect *)
    unfold NoCliClose; cbn. repeat split; auto.
    1-2: intros y; destruct (upd_cases (gens s) (ngen s) gen0 y) as [[-> ->]|[_ ->]]; auto; discriminate.
    intros c [= <-]. reflexivity.
  - (* LEnq *)
    unfold NoCliClose; cbn. repeat split; auto; intros *; rewrite ?add_late_eq; cbn; auto.
    rewrite in_app_iff. intros [X|[<-|[]]]; auto.
  - (* LPeerClose *) apply NoCliClose_w_gen; auto.
  - (* LRClose: the read fails on a connection the peer has closed, or one already known dead *)
    assert (PC : peerc (gens s g) = true) by (destruct D; auto).
    apply NoCliClose_w_gen; cbn; rewrite ?upd_same; auto. apply NoCliClose_w_gen; auto.
  - (* LSFailClose: the write has failed *)
    assert (PC : peerc (gens s g) = true) by (destruct (inv_lost s I g); auto; now rewrite P).
    apply NoCliClose_w_gen; cbn; rewrite ?upd_same; auto. apply NoCliClose_w_gen; auto.
  - (* LLogEnq *) unfold NoCliClose; cbn. repeat split; auto. intros m X. rewrite in_app_iff. auto.
  - (* LLogPClose *) unfold NoCliClose; cbn. repeat split; auto. intros y X. rewrite in_app_iff. auto.
  - (* LLogDial *) unfold NoCliClose; cbn. repeat split; auto.
Qed.

(* every arrival the harness has logged is an arrival *)
Definition LsrvSound (s : st) : Prop := forall g id, In (g, id) (lsrv s) -> g < ngen s /\ In id (got (gens s g)).

Lemma LsrvSound_step s l s' : Inv s -> LsrvSound s -> step true s l = Some s' -> LsrvSound s'.
Proof.
  intros I V H g id X. pose proof (step_grows s l s' g I H) as (_ & _ & G).
  assert (A : g < ngen s' /\ In id (got (gens s g))); [|split; [|apply G]; apply A].
  apply step_Step in H. destruct H; cbn in *; try (apply V, X).
  - (* LReconnect *) destruct (V g id X). auto.
  - (* LLogSrv *) apply in_app_or in X. destruct X as [X|[[= <- <-]|[]]]; [now apply V | auto].
Qed.

Definition Sim (s : st) (k : chk) : Prop :=
  k_dialed k = ldial s /\ k_pclosed k = lpc s /\ k_enq k = lenq s /\ k_srvs k = lsrv s /\
  (forall g, In g (k_obs k) -> dead (gens s g) = true) /\
  (forall g id, In (g, id) (k_late k) -> dead (gens s g) = true /\ (In id (hist s) -> In id (late (gens s g)))) /\
  (forall g m, sp (gens s g) = SWrite m -> In (g, m) (k_writes k)) /\
  (forall g m, In m (got (gens s g)) -> In (g, m) (k_writes k)).

Definition logs (l : label) : bool :=
  match l with LSHook _ | LLogEnq _ | LLogPClose _ | LLogObs _ | LLogSrv _ _ | LLogReply _ | LLogFail _ | LLogDial _ | LLogCliClose _ | LLogCFlag _ => true | _ => false end.

(* across a step the harness does not log, no sender comes to the write, and what arrives is what a sender was writing *)
Definition quiet (x x' : gen) : Prop :=
  (forall m, sp x' = SWrite m -> sp x = SWrite m) /\ (forall m, In m (got x') -> In m (got x) \/ sp x = SWrite m).

Lemma quiet_refl x : quiet x x.
Proof. unfold quiet. auto. Qed.
Lemma quiet_trans x y z : quiet x y -> quiet y z -> quiet x z.
Proof. unfold quiet. intros (A & B) (A' & B'). split; [auto|]. intros m X. destruct (B' m X); auto. Qed.
Lemma quiet_upd f g x y : quiet (f g) x -> quiet (f y) (upd f g x y).
Proof. intros G. destruct (upd_cases f g x y) as [[-> ->]|[_ ->]]; [exact G|apply quiet_refl]. Qed.

(* such a step also leaves the harness's bookkeeping alone, and a request enqueued by it is late for every generation known dead *)
Lemma silent_step s l s' g : logs l = false -> step true s l = Some s' ->
  log s' = log s /\ ldial s' = ldial s /\ lpc s' = lpc s /\ lenq s' = lenq s /\ lsrv s' = lsrv s /\
  (dead (gens s g) = true -> forall id, In id (hist s') -> In id (hist s) \/ In id (late (gens s' g))) /\
  quiet (gens s g) (gens s' g).
Proof.
  intros LG H. apply step_Step in H. destruct H; try discriminate LG; cbn; repeat (split; [reflexivity|]).
  all: split; [auto|].
  all: try apply quiet_refl.
  all: try apply quiet_upd.
  all: try (eapply quiet_trans; apply quiet_upd).
  all: try (unfold quiet; cbn; split; [pcs|auto]; fail).
  - (* LReconnect *) unfold quiet; cbn. split; easy.
  - (* LEnq *) intros D id X. rewrite add_late_eq. cbn. rewrite D. apply in_app_or in X. rewrite in_app_iff. tauto.
  - rewrite add_late_eq. unfold quiet; cbn. auto.
  - (* LSWriteOk *) unfold quiet; cbn. split; [pcs|]. intros m0 X. apply in_app_or in X. destruct X as [X|[<-|[]]]; auto.
Qed.

Lemma Sim_silent s l s' k : Inv s -> Sim s k -> logs l = false -> step true s l = Some s' -> log s' = log s /\ Sim s' k.
Proof.
  intros I (S1 & S2 & S3 & S4 & S5 & S6 & S7 & S8) LG H.
  pose proof (fun g => step_grows s l s' g I H) as G. pose proof (fun g => silent_step s l s' g LG H) as Q.
  destruct (Q 0) as (E0 & E1 & E2 & E3 & E4 & _). split; [exact E0|]. unfold Sim. rewrite E1, E2, E3, E4.
  split; [exact S1|]. split; [exact S2|]. split; [exact S3|]. split; [exact S4|].
  split; [|split; [|split]].
  - intros g X. apply G, S5, X.
  - intros g id X. destruct (S6 g id X) as [A B]. split; [apply G, A|]. intros Hh.
    destruct (Q g) as (_ & _ & _ & _ & _ & HL & _). destruct (HL A id Hh) as [Y|Y]; [apply G, B, Y|exact Y].
  - intros g m X. destruct (Q g) as (_ & _ & _ & _ & _ & _ & QW & _). apply S7, QW, X.
  - intros g m X. destruct (Q g) as (_ & _ & _ & _ & _ & _ & _ & QG). destruct (QG m X); auto.
Qed.

Lemma chk_run_snoc es k e : chk_run k (es ++ [e]) = match chk_run k es with Some k' => chk_step k' e | None => None end.
Proof. exact (Lts.run_snoc chk_step es k e). Qed.

Lemma Sim_log s l s' k : Inv s -> NoCliClose s -> AtMostOnePlace s -> LsrvSound s -> Sim s k -> logs l = true -> step true s l = Some s' ->
  exists e k', log s' = log s ++ [e] /\ chk_step k e = Some k' /\ Sim s' k'.
Proof.
  intros I (J1 & J2 & J3 & J4 & J5) IU I5 (S1 & S2 & S3 & S4 & S5 & S6 & S7 & S8) LG H.
  apply step_Step in H. destruct H; try discriminate LG.
  all: eexists; eexists; split; [reflexivity|].
  - (* LSHook *)
    assert (Hh : In m (hist s)). { apply (inv_holds s I g). rewrite P. reflexivity. }
    assert (E1 : memn m (k_enq k) = true). { rewrite S3. apply memn_In. auto. }
    assert (E2 : memp g m (k_late k) = false).
    { destruct (memp g m (k_late k)) eqn:E; auto. apply memp_In in E. destruct (S6 g m E) as [_ B].
      exfalso. apply (inv_comm s I g m); [rewrite P; reflexivity|auto]. }
    assert (E3 : negb (dead (gens s g) || negb (is_cur s g)) || memn g (k_pclosed k) = true).
    { destruct (dead (gens s g) || negb (is_cur s g)) eqn:E; [|reflexivity]. cbn. rewrite S2. apply memn_In. apply J3, J2.
      apply orb_prop in E. destruct E as [E|E]; auto. apply negb_true_iff in E.
      apply (inv_old s I). - apply lt_ngen_of_sp; auto. congruence.
      - unfold is_cur in E. destruct (cur s); [|congruence]. intros [= ->]. now rewrite Nat.eqb_refl in E. }
    cbn [chk_step]. rewrite E1, E2, E3. cbn. split; [reflexivity|].
    unfold Sim; cbn. split; [exact S1|]. split; [exact S2|]. split; [exact S3|]. split; [exact S4|].
    unfold upd.
    split. { intros g0 X. destruct (g0 =? g) eqn:Q; cbn; auto. apply Nat.eqb_eq in Q. subst. auto. }
    split. { intros g0 id X. destruct (S6 g0 id X) as [A B]. destruct (g0 =? g) eqn:Q; cbn; auto. apply Nat.eqb_eq in Q. subst. auto. }
    split. { intros g0 m0. rewrite in_app_iff. destruct (g0 =? g) eqn:Q; cbn. - apply Nat.eqb_eq in Q. subst. intros [= ->]. right. now left. - intros X. left. auto. }
    { intros g0 m0. rewrite in_app_iff. destruct (g0 =? g) eqn:Q; cbn. - apply Nat.eqb_eq in Q. subst. intros X. left. auto. - intros X. left. auto. }
  - (* LLogEnq *)
    cbn [chk_step]. rewrite S3, N. split; [reflexivity|].
    unfold Sim; cbn. split; [exact S1|]. split; [exact S2|]. split; [rewrite ?S3; reflexivity|]. split; [exact S4|].
    split; [exact S5|]. split; [|split; [exact S7|exact S8]].
    intros g id0. rewrite in_app_iff, in_map_iff. intros [X|(g' & [= <- <-] & X)]; [apply S6; auto|].
    split; [apply S5; auto|]. intros Hh. apply J1 in Hh. apply memn_In in Hh. congruence.
  - (* LLogPClose *)
    cbn [chk_step]. rewrite S2, N. split; [reflexivity|].
    unfold Sim; cbn. split; [exact S1|]. split; [rewrite ?S2; reflexivity|]. split; [exact S3|]. split; [exact S4|]. auto.
  - (* LLogObs *)
    unfold is_cur in C. destruct (cur s) as [c|] eqn:EC; [|discriminate]. apply Nat.eqb_eq in C. subst c.
    assert (D : dead (gens s g) = true) by (now rewrite (cur_dead s g I EC)).
    assert (E1 : memn g (k_pclosed k) = true). { rewrite S2. apply memn_In. auto. }
    cbn [chk_step]. rewrite E1. split; [reflexivity|].
    unfold Sim; cbn. split; [exact S1|]. split; [exact S2|]. split; [exact S3|]. split; [exact S4|].
    split; [|auto]. intros g0. destruct (memn g (k_obs k)); [apply S5|]. rewrite in_app_iff. intros [X|[<-|[]]]; auto.
  - (* LLogSrv *)
    assert (E1 : memp g id (k_writes k) = true). { apply memp_In. auto. }
    assert (E2 : mem2 id (k_srvs k) = false).
    { destruct (mem2 id (k_srvs k)) eqn:E; auto. apply mem2_In in E. destruct E as (g' & E). rewrite S4 in E.
      destruct (I5 g' id E) as [L' G']. assert (g' = g) by (eapply amo_state; eauto). subst g'.
      apply memp_In in E. congruence. }
    cbn [chk_step]. rewrite E1, E2. split; [reflexivity|].
    unfold Sim; cbn. split; [exact S1|]. split; [exact S2|]. split; [exact S3|]. split; [rewrite S4; reflexivity|]. auto.
  - (* LLogReply *)
    cbn [chk_step]. rewrite S4, A. split; [reflexivity|].
    unfold Sim; cbn. rewrite <- S4. auto 10.
  - (* LLogFail *)
    cbn [chk_step]. rewrite S3, (proj2 (memn_In _ _) A). split; [reflexivity|].
    unfold Sim; cbn. rewrite <- S3. auto 10.
  - (* LLogDial *)
    subst g.
    assert (E1 : (match ldial s with 0 => true | S p => memn p (k_pclosed k) end) = true).
    { destruct (ldial s) as [|p] eqn:EL; auto. rewrite S2. apply memn_In, J3, J2.
      apply (inv_old s I); [lia|]. intros EC. apply J4 in EC. lia. }
    cbn [chk_step]. rewrite S1, Nat.eqb_refl, E1. split; [reflexivity|].
    unfold Sim; cbn. auto 10.
  - (* LLogCliClose *)
    assert (E1 : memn g (k_pclosed k) = true). { rewrite S2. apply memn_In. auto. }
    cbn [chk_step]. rewrite E1. split; [reflexivity|]. unfold Sim; cbn. auto 10.
  - (* LLogCFlag *)
    assert (E1 : negb (closedF s) || memn g (k_pclosed k) = true).
    { destruct (closedF s) eqn:CF; [|reflexivity]. cbn. rewrite S2. apply memn_In, J3, J2.
      unfold is_cur in C. destruct (cur s) as [c|] eqn:EC; [|discriminate].
      apply Nat.eqb_eq in C. subst c. now rewrite (cur_dead s g I EC). }
    cbn [chk_step]. rewrite E1. split; [reflexivity|]. unfold Sim; cbn. auto 10.
Qed.

(* what holds along runs in which the client itself does not give up a connection *)
Definition Spec (s : st) : Prop :=
  Inv s /\ NoCliClose s /\ AtMostOnePlace s /\ LsrvSound s /\ exists k, chk_run chk0 (log s) = Some k /\ Sim s k.

Lemma Spec_init : Spec init.
Proof.
  split; [apply Inv_init|]. split; [|split; [apply AtMostOnePlace_init|split; [intros g id []|exists chk0; split; [reflexivity|]]]].
  all: unfold NoCliClose, Sim, init, chk0; cbn; repeat split; intros; try discriminate; try contradiction; auto.
Qed.

Lemma Spec_step s l s' : client_close l = false -> Spec s -> step true s l = Some s' -> Spec s'.
Proof.
  intros CC (I & J & U & V & k & K & S) E.
  split; [eapply Inv_step; eauto|]. split; [eapply NoCliClose_step; eauto|]. split; [eapply AtMostOnePlace_step; eauto|].
  split; [eapply LsrvSound_step; eauto|]. destruct (logs l) eqn:LG.
  - destruct (Sim_log s l s' k I J U V S LG E) as (e & k1 & L1 & C1 & S1).
    exists k1. split; [|exact S1]. now rewrite L1, chk_run_snoc, K.
  - destruct (Sim_silent s l s' k I S LG E) as (L1 & S1). exists k. split; [|exact S1]. now rewrite L1.
Qed.

Lemma Spec_run ls s : run true init ls = Some s -> Forall (fun l => client_close l = false) ls -> Spec s.
Proof. intros R F. exact (run_inv_on _ Spec Spec_step ls init s F Spec_init R). Qed.

(* every log the model can produce (all schedules; no TarsClient.Close, no idle close) is accepted *)
Theorem spec_machine_sound ls s : run true init ls = Some s -> Forall (fun l => client_close l = false) ls ->
  c11_accepts (log s) = true.
Proof. intros R F. destruct (Spec_run ls s R F) as (_ & _ & _ & _ & k & K & _). unfold c11_accepts. now rewrite K. Qed.

(* as long as the client itself does not give up a connection (no TarsClient.Close, no idle close) it only closes
   connections the peer has closed (or announced to close: the harness logs both as EPeerClose) *)
Theorem dead_only_after_peer_close ls s g : run true init ls = Some s -> Forall (fun l => client_close l = false) ls ->
  dead (gens s g) = true -> peerc (gens s g) = true /\ In g (lpc s).
Proof. intros R F D. destruct (Spec_run ls s R F) as (_ & (_ & J2 & J3 & _) & _). auto. Qed.

(* every schedule of the client's own goroutines terminates, and when nothing more can be done every request
   that was pending has reached the peer over the healthy current connection *)

(* [spot] counts a sender's steps down to its next blocking select along the loop
     SCheck 16 > SHook 15 > SWrite 14 > STop 13 > SPollFail 12 > SBlock 11        (ticker side: STick 15 > SIdle 14 > STop).
   Taking a request climbs from at most 12 to 16 and is paid by the 6 a queued request weighs in [mu] (the six steps of one
   turn of the loop); putting one back costs 6 and ends the sender: SRequeue 8 -> SExit 0, SFailPush 13 -> SFailClose 1 -> SExit. *)
Definition spot (p : spc) : nat :=
  match p with
  | STop => 13 | SPollFail => 12 | SBlock => 11 | STick => 15 | SIdle => 14
  | SCheck _ => 16 | SHook _ => 15 | SWrite _ => 14 | SRequeue _ => 8 | SFailPush _ => 13 | SFailClose => 1 | SExit => 0
  end.
Definition rpot (r : rpc) : nat := match r with RRun => 2 | RSignal => 1 | RExit => 0 end.
Definition gpot (x : gen) : nat := spot (sp x) + rpot (rp x).
Fixpoint sumg (f : nat -> gen) (n : nat) : nat := match n with 0 => 0 | S k => sumg f k + gpot (f k) end.
Definition mu (s : st) : nat := sumg (gens s) (ngen s) + 6 * (length (sendQ s) + length (failQ s)).

Lemma sumg_upd f g x n : g < n -> sumg (upd f g x) n + gpot (f g) = sumg f n + gpot x.
Proof. exact (sumw_upd gpot f g x n). Qed.
Lemma sumg_ext f f' n : (forall k, k < n -> gpot (f' k) = gpot (f k)) -> sumg f' n = sumg f n.
Proof. exact (sumw_ext gpot f f' n). Qed.

Lemma mu_w_gen s g x k : g < ngen s -> gpot x + mu s < k + gpot (gens s g) -> mu (w_gen s g x) < k.
Proof. intros L. unfold mu; cbn. pose proof (sumg_upd (gens s) g x (ngen s) L). lia. Qed.
Lemma mu_do_close s g : mu (do_close true s g) = mu s.
Proof.
  unfold mu; cbn. f_equal. apply sumg_ext. intros k _.
  destruct (upd_cases (gens s) g (set_dead (gens s g)) k) as [[-> ->]|[_ ->]]; reflexivity.
Qed.

Lemma mu_w_sp s g p : g < ngen s -> spot p < spot (sp (gens s g)) -> mu (w_sp s g p) < mu s.
Proof. intros L G. apply mu_w_gen; [exact L|]. unfold gpot; cbn. lia. Qed.

Lemma mu_step s l s' : Inv s -> internal l = true -> step true s l = Some s' -> mu s' < mu s.
Proof.
  intros I IL H. pose proof (fun g => step_lt _ _ _ _ g (inv_new s I) H) as Lt.
  apply step_Step in H. destruct H; try discriminate IL; cbn [of_gen] in Lt; specialize (Lt _ eq_refl).
  (* a move of one sender that leaves the queues alone *)
  all: try (apply mu_w_sp; [exact Lt|]; rewrite P; apply Nat.ltb_lt; reflexivity).
  all: unfold w_sp; apply mu_w_gen; [exact Lt|]; rewrite ?mu_do_close; unfold mu, gpot; cbn; rewrite ?upd_same; cbn.
  all: rewrite ?P, ?R, ?Q; cbn; lia.
Qed.

Lemma healthy_w_gen s c g x : healthy s c -> dead x = dead (gens s g) -> peerc x = peerc (gens s g) -> healthy (w_gen s g x) c.
Proof.
  intros (H1 & H2 & H3 & H4) D P. unfold healthy; cbn.
  destruct (upd_cases (gens s) g x c) as [[-> ->]|[_ ->]]; rewrite ?D, ?P; auto.
Qed.
Lemma healthy_w_sp s c g p : g <> c -> healthy s c -> healthy (w_sp s g p) c.
Proof. intros _ H. now apply healthy_w_gen. Qed.
Lemma healthy_do_close s c g : healthy s c -> g <> c -> healthy (do_close true s g) c.
Proof.
  intros (H1 & H2 & H3 & H4) N. unfold healthy; cbn. rewrite upd_other by auto. unfold is_cur. rewrite H1.
  destruct (Nat.eqb_spec c g); [congruence|auto].
Qed.

(* the goroutines never close the healthy connection: its receiver reads no error, its sender's writes succeed *)
Lemma healthy_internal_step s l s' c : Inv s -> healthy s c -> internal l = true -> step true s l = Some s' -> healthy s' c.
Proof.
  intros I Hh IL H. pose proof Hh as (H1 & H2 & H3 & H4).
  apply step_Step in H. destruct H; try discriminate IL; unfold w_sp.
  all: try (apply healthy_w_gen; auto; fail).
  - (* LRClose *)
    assert (N : g <> c). { intros ->. destruct D; congruence. }
    apply healthy_w_gen; auto using healthy_do_close.
  - (* LSFailClose *)
    assert (N : g <> c). { intros ->. destruct (inv_lost s I c) as [X|X]; [now rewrite P| |]; congruence. }
    apply healthy_w_gen; auto using healthy_do_close.
Qed.

Definition quiescent (s : st) : Prop := forall l, internal l = true -> step true s l = None.

Lemma quiescent_none_pending s c m : Inv s -> healthy s c -> quiescent s -> ~ pending s m.
Proof.
  intros I H Q PE. destruct H as (H1 & H2 & H3 & H4).
  (* the healthy connection's sender is in the loop *)
  assert (NL : lostpc (sp (gens s c)) = false).
  { destruct (lostpc (sp (gens s c))) eqn:E; [|reflexivity]. destruct (inv_lost s I c E); congruence. }
  assert (L : c < ngen s). { pose proof (inv_cur s I) as HA. rewrite H1 in HA. tauto. }
  assert (D : done (gens s c) = false). { destruct (done (gens s c)) eqn:E; auto. apply (inv_done s I) in E. congruence. }
  assert (ST : forall g, g <> c -> sp (gens s g) <> STop -> dead (gens s g) = true).
  { intros g N P. apply (inv_old s I); [apply lt_ngen_of_sp; auto|congruence]. }
  apply Nat.ltb_lt in L.
  destruct (sp (gens s c)) eqn:P; try discriminate NL.
  - specialize (Q (LSTop c) eq_refl). cbn in Q. rewrite L, P in Q. discriminate.
  - specialize (Q (LSPoll c) eq_refl). cbn in Q. rewrite P in Q. destruct (failQ s); discriminate.
  - (* SBlock *)
    destruct (failQ s) as [|x r] eqn:EF.
    2: { specialize (Q (LSBlkFail c) eq_refl). cbn in Q. rewrite P, EF in Q. discriminate. }
    destruct (sendQ s) as [|y r] eqn:ES.
    2: { specialize (Q (LSBlkQueue c) eq_refl). cbn in Q. rewrite P, ES in Q. discriminate. }
    unfold pending in PE. rewrite ES, EF in PE. destruct PE as [[]|[[]|(g & X)]].
    destruct (Nat.eq_dec g c) as [->|N]. { rewrite P in X. discriminate. }
    destruct (sp (gens s g)) eqn:PG; cbn in X; try discriminate; injection X as ->.
    + specialize (Q (LSCheck g) eq_refl). cbn in Q. rewrite PG in Q. discriminate.
    + specialize (Q (LSHook g) eq_refl). cbn in Q. rewrite PG in Q. discriminate.
    + pose proof (ST g N) as DG. rewrite PG in DG. specialize (DG ltac:(discriminate)). specialize (Q (LSWriteErr g) eq_refl). cbn in Q. rewrite PG, DG in Q. discriminate.
    + specialize (Q (LSRequeue g) eq_refl). cbn in Q. rewrite PG, EF in Q. discriminate.
    + specialize (Q (LSFailPush g) eq_refl). cbn in Q. rewrite PG, EF in Q. discriminate.
  - specialize (Q (LSTick c) eq_refl). cbn in Q. rewrite P in Q. discriminate.
  - specialize (Q (LSIdleNo c) eq_refl). cbn in Q. rewrite P in Q. discriminate.
  - specialize (Q (LSCheck c) eq_refl). cbn in Q. rewrite P in Q. discriminate.
  - specialize (Q (LSHook c) eq_refl). cbn in Q. rewrite P in Q. discriminate.
  - specialize (Q (LSWriteOk c) eq_refl). cbn in Q. rewrite P, H3 in Q. discriminate.
Qed.

(* a pending request stays pending until it has reached the peer over the current connection: a record replaced
   by one that holds the same, a request taken from a queue, a request handed to the failure queue *)
Lemma pending_w_gen s g x m : (holds (sp (gens s g)) = Some m -> holds (sp x) = Some m) -> pending s m -> pending (w_gen s g x) m.
Proof.
  intros K [P|[P|(g0 & P)]]; [left; exact P|right; left; exact P|]. right; right. exists g0. cbn.
  destruct (upd_cases (gens s) g x g0) as [[-> ->]|[_ ->]]; auto.
Qed.
Lemma pending_deq s s1 g x m : gens s1 = gens s ->
  (forall y, In y (sendQ s) -> y = x \/ In y (sendQ s1)) -> (forall y, In y (failQ s) -> y = x \/ In y (failQ s1)) ->
  holds (sp (gens s g)) = None -> pending s m -> pending (w_sp s1 g (SCheck x)) m.
Proof.
  intros E Q1 Q2 HN [P|[P|(g0 & P)]].
  - destruct (Q1 m P) as [->|P']; [|left; exact P']. right; right. exists g. cbn. now rewrite upd_same.
  - destruct (Q2 m P) as [->|P']; [|right; left; exact P']. right; right. exists g. cbn. now rewrite upd_same.
  - right; right. exists g0. cbn. rewrite E. destruct (upd_cases (gens s) g (set_sp (gens s g) (SCheck x)) g0) as [[-> ->]|[_ ->]]; congruence.
Qed.
Lemma pending_push s g x p m : failQ s = [] -> holds (sp (gens s g)) = Some x -> pending s m -> pending (w_sp (w_failQ s [x]) g p) m.
Proof.
  intros Q HO [P|[P|(g0 & P)]]; [left; exact P|now rewrite Q in P|].
  destruct (Nat.eq_dec g0 g) as [->|N].
  - right; left. left. congruence.
  - right; right. exists g0. cbn. now rewrite upd_other.
Qed.

Lemma alive_current s g c : Inv s -> cur s = Some c -> sp (gens s g) <> STop -> dead (gens s g) = false -> g = c.
Proof.
  intros I C P D. destruct (Nat.eq_dec g c); auto. rewrite (inv_old s I) in D; [discriminate|apply lt_ngen_of_sp; auto|congruence].
Qed.

Lemma keep_step s l s' c m : Inv s -> healthy s c -> internal l = true -> step true s l = Some s' ->
  pending s m \/ In m (got (gens s c)) -> pending s' m \/ In m (got (gens s' c)).
Proof.
  intros I Hh IL H [PE|G]; [|right; now apply (step_grows s l s' c I H)]. pose proof Hh as (H1 & H2 & H3 & H4).
  apply step_Step in H. destruct H; try discriminate IL; unfold w_sp, do_close.
  (* what the goroutine holds, if anything, it keeps *)
  all: try (left; repeat (apply pending_w_gen; [cbn; rewrite ?upd_same; cbn; rewrite ?P; cbn; (discriminate || auto)|]); exact PE).
  - (* LSPoll *)
    left. apply (pending_deq s (w_failQ s r)); auto; [rewrite Q; intros y [<-|Y]; auto | now rewrite P].
  - (* LSBlkFail *)
    left. apply (pending_deq s (w_failQ s r)); auto; [rewrite Q; intros y [<-|Y]; auto | now rewrite P].
  - (* LSBlkQueue *)
    left. apply (pending_deq s (w_sendQ s r)); auto; [rewrite Q; intros y [<-|Y]; auto | now rewrite P].
  - (* LSRequeue *) left. apply pending_push; auto. now rewrite P.
  - (* LSWriteOk, peer closed: not the healthy connection *)
    exfalso. rewrite (alive_current s g c I) in N by (auto; congruence). congruence.
  - (* LSWriteOk *)
    assert (E : g = c) by (apply (alive_current s g c I); auto; congruence). subst g.
    destruct (Nat.eq_dec m0 m) as [->|NE].
    + right. cbn. rewrite upd_same. cbn. rewrite in_app_iff. right. now left.
    + left. apply (pending_w_gen (w_atts s _)); [|exact PE]. cbn. rewrite P. cbn. congruence.
  - (* LSFailPush *) left. apply pending_push; auto. now rewrite P.
Qed.

(* what the goroutines keep while request m is on its way over the healthy connection c *)
Definition Live (c m : nat) (s : st) : Prop := Inv s /\ healthy s c /\ (pending s m \/ In m (got (gens s c))).

Lemma Live_rest c m s : Live c m s -> quiescent s -> healthy s c /\ In m (got (gens s c)).
Proof. intros (I & H & [PE|G]) Q; [|auto]. destruct (quiescent_none_pending s c m I H Q PE). Qed.

Lemma Live_step c m s l s' : internal l = true -> Live c m s -> step true s l = Some s' -> Live c m s'.
Proof.
  intros IL (I & H & PE) E. split; [eapply Inv_step; eauto|]. split; [eapply healthy_internal_step; eauto|eapply keep_step; eauto].
Qed.

Lemma Live_reach ls s c m : run true init ls = Some s ->
  cur s = Some c -> dead (gens s c) = false -> peerc (gens s c) = false -> pending s m -> Live c m s.
Proof.
  intros R C D P PE. pose proof (reach_Inv _ _ R) as I. split; [exact I|]. split; [|auto].
  unfold healthy. rewrite <- (cur_dead s c I C). auto.
Qed.

Lemma mu_run ls : forall s s', Inv s -> Forall (fun l => internal l = true) ls -> run true s ls = Some s' -> length ls + mu s' <= mu s.
Proof.
  induction ls as [|l r IH]; cbn [run]; intros s s' I F R.
  - injection R as <-. cbn. lia.
  - destruct (step true s l) as [s1|] eqn:E; [|discriminate]. inversion F as [|? ? Fl Fr]; subst.
    specialize (IH s1 s' (Inv_step _ _ _ I E) Fr R). pose proof (mu_step s l s1 I Fl E). cbn. lia.
Qed.

(* INEVITABILITY: from a reachable state with a healthy current connection and a pending request, let the client's
   goroutines run under ANY schedule (no further call, peer action or ticker).  (a) Every such run has at most
   [mu s] steps; (b) when it has come to a state in which no goroutine can move, the request has reached the
   peer over the current connection, which is still healthy. *)
Theorem delivery_inevitable ls s c m ls' s' : run true init ls = Some s ->
  cur s = Some c -> dead (gens s c) = false -> peerc (gens s c) = false -> pending s m ->
  Forall (fun l => internal l = true) ls' -> run true s ls' = Some s' ->
  length ls' + mu s' <= mu s /\
  (quiescent s' -> In m (got (gens s' c)) /\ cur s' = Some c /\ dead (gens s' c) = false /\ peerc (gens s' c) = false).
Proof.
  intros R C D P PE F R'. pose proof (Live_reach ls s c m R C D P PE) as LV.
  split. { eapply mu_run; eauto. apply LV. }
  intros Q. destruct (Live_rest c m s' (run_inv_on _ (Live c m) (Live_step c m) ls' s s' F LV R') Q) as ((A & _ & B & B') & G). auto.
Qed.

(* Either no goroutine of the client can move or one can: the goroutines of the generations dialled so far are
   finitely many, and those of the others are not enabled. *)
Definition int_labels (g : nat) : list label :=
  [LRClose g; LRSignal g; LSTop g; LSPoll g; LSBlkDone g; LSBlkFail g; LSBlkQueue g; LSTick g; LSIdleNo g; LSCheck g;
   LSRequeue g; LSHook g; LSWriteOk g; LSWriteErr g; LSFailPush g; LSFailClose g].

Lemma int_labels_of g l : In l (int_labels g) -> internal l = true /\ of_gen l = Some g.
Proof. cbn. intros H. repeat (destruct H as [<-|H]; [split; reflexivity|]). destruct H. Qed.
Lemma internal_in l : internal l = true -> exists g, In l (int_labels g).
Proof. destruct l; try discriminate; intros _; exists g; cbn; tauto. Qed.

Lemma enabled_dec s (ls : list label) :
  (forall l, In l ls -> step true s l = None) \/ (exists l s', In l ls /\ step true s l = Some s').
Proof.
  induction ls as [|l r [A|(l' & s' & X & E)]]; [left; intros l []| |right; exists l', s'; cbn; auto].
  destruct (step true s l) as [s'|] eqn:E; [right; exists l, s'; cbn; auto|]. left. intros l' [<-|X]; auto.
Qed.

Lemma quiescent_dec s : Inv s -> quiescent s \/ exists l s', internal l = true /\ step true s l = Some s'.
Proof.
  intros I. destruct (enabled_dec s (flat_map int_labels (seq 0 (ngen s)))) as [A|(l & s' & X & E)].
  - left. intros l IL. destruct (step true s l) as [s'|] eqn:E; [|reflexivity].
    destruct (internal_in l IL) as (g & X). rewrite <- E. apply A, in_flat_map. exists g. split; [|exact X].
    apply in_seq. pose proof (step_lt _ _ _ _ g (inv_new s I) E (proj2 (int_labels_of g l X))). lia.
  - right. exists l, s'. split; [|exact E]. apply in_flat_map in X. destruct X as (g & _ & X). apply (int_labels_of g l X).
Qed.

(* ... so the goroutines, left alone, come to rest, by then with the request delivered *)
Lemma Live_delivers c m : forall n s, mu s <= n -> Live c m s ->
  exists s', reach_int s s' /\ healthy s' c /\ In m (got (gens s' c)).
Proof.
  induction n as [|n IH]; intros s M LV; pose proof LV as (I & _); destruct (quiescent_dec s I) as [Q|(l & s1 & IL & E)].
  - exists s. split; [apply reach_refl | now apply Live_rest].
  - pose proof (mu_step s l s1 I IL E). lia.
  - exists s. split; [apply reach_refl | now apply Live_rest].
  - destruct (IH s1) as (s' & R & X); [pose proof (mu_step s l s1 I IL E); lia|eapply Live_step; eauto|].
    exists s'. split; [|exact X]. eapply reach_trans; [eapply reach_step|]; eauto.
Qed.

(* DELIVERY: whenever the current connection is healthy (not known dead, not closed by the peer) and a request is
   pending anywhere in the client (send queue, failure queue, hands of any send goroutine, current or stale),
   the client's goroutines alone (no further call, no timer) can bring it to the peer over the current connection *)
Theorem delivery_possible ls s c m : run true init ls = Some s ->
  cur s = Some c -> dead (gens s c) = false -> peerc (gens s c) = false -> pending s m ->
  exists s', reach_int s s' /\ cur s' = Some c /\ dead (gens s' c) = false /\ peerc (gens s' c) = false /\ In m (got (gens s' c)).
Proof.
  intros R C D P PE. destruct (Live_delivers c m (mu s) s (le_n _) (Live_reach ls s c m R C D P PE)) as (s' & R' & (A & _ & B & B') & G).
  exists s'. auto.
Qed.

(* a call issued when the loss is known (closed flag set): ReConnect dials a fresh connection, the request is
   enqueued, and the client's goroutines alone can bring it to the peer over that connection *)
Theorem call_after_known_close ls s m s1 : run true init ls = Some s -> closedF s = true ->
  run true s [LReconnect; LEnq m] = Some s1 ->
  cur s1 = Some (ngen s) /\ closedF s1 = false /\
  exists s', reach_int s1 s' /\ cur s' = Some (ngen s) /\ dead (gens s' (ngen s)) = false /\ In m (got (gens s' (ngen s))).
Proof.
  intros R C R1.
  assert (RR : run true init (ls ++ [LReconnect; LEnq m]) = Some s1). { rewrite run_app, R. exact R1. }
  cbn [run step] in R1. rewrite C in R1.
  match type of R1 with context [if ?b then _ else _] => destruct b eqn:E end; [|discriminate]. injection R1 as <-.
  split; [reflexivity|]. split; [reflexivity|].
  destruct (delivery_possible _ _ (ngen s) m RR) as (s' & R' & A & B & _ & G).
  - reflexivity.
  - cbn. unfold upd. rewrite Nat.eqb_refl. reflexivity.
  - cbn. unfold upd. rewrite Nat.eqb_refl. reflexivity.
  - left. cbn. rewrite in_app_iff. right. now left.
  - exists s'. auto.
Qed.

(* non-vacuity of the hypotheses of [delivery_possible]: the request of the second call is in the hands of the
   stale send goroutine of generation 0 while generation 1 is healthy *)
Lemma delivery_example : exists s, run true init
    [LLogEnq 0; LReconnect; LEnq 0; LSTop 0; LSPoll 0; LSBlkQueue 0; LSCheck 0; LSHook 0; LSWriteOk 0; LSTop 0; LSPoll 0;
     LLogPClose 0; LPeerClose 0; LRClose 0; LLogEnq 1; LReconnect; LEnq 1; LSBlkQueue 0] = Some s /\
  cur s = Some 1 /\ dead (gens s 1) = false /\ peerc (gens s 1) = false /\ pending s 1 /\ sp (gens s 0) = SCheck 1.
Proof.
  eexists. split; [apply (Lts.some_the init); vm_compute; reflexivity|]. do 3 (split; [vm_compute; reflexivity|]).
  (* [pending] quantifies over the generations: evaluated only at the one that holds the request *)
  split; [|vm_compute; reflexivity]. right. right. exists 0. vm_compute. reflexivity.
Qed.

(* failed dial (endpoint down): the client stays closed, so the next call dials again *)
Theorem failed_dial_leaves_closed s s' : step true s LReconnectFail = Some s' -> s' = s /\ closedF s' = true.
Proof. cbn. destruct (closedF s) eqn:C; [|discriminate]. intros [= <-]. auto. Qed.

Theorem call_after_failed_dial ls s s1 m s2 : run true init ls = Some s -> step true s LReconnectFail = Some s1 ->
  run true s1 [LReconnect; LEnq m] = Some s2 ->
  cur s2 = Some (ngen s) /\ closedF s2 = false /\
  exists s', reach_int s2 s' /\ cur s' = Some (ngen s) /\ dead (gens s' (ngen s)) = false /\ In m (got (gens s' (ngen s))).
Proof.
  intros R F R2. destruct (failed_dial_leaves_closed _ _ F) as [-> C]. eapply call_after_known_close; eauto.
Qed.

(* the seeded variant C11-m3 (flag cleared before the dial): after the server closed the connection and one dial
   failed, the next call does not dial: its request sits in the send queue, the flag says open, there is no
   connection and every goroutine of the client has left *)
Definition sched_down : list label := [LReconnect; LLogPClose 0; LPeerClose 0; LRClose 0; LRSignal 0; LSTop 0].

Lemma m3_refuted : exists s0 s2, run true init sched_down = Some s0 /\ closedF s0 = true /\
  run true (dial_fail_m3 s0) [LReconnect; LLogEnq 1; LEnq 1] = Some s2 /\
  closedF s2 = false /\ cur s2 = None /\ ngen s2 = 1 /\ sendQ s2 = [1] /\
  sp (gens s2 0) = SExit /\ rp (gens s2 0) = RExit /\ got (gens s2 0) = [].
Proof. eexists. eexists. split; [apply (Lts.some_the init); vm_compute; reflexivity|]. split; [vm_compute; reflexivity|]. split; [apply (Lts.some_the init); vm_compute; reflexivity|]. vm_compute. repeat split. Qed.

Lemma failed_dial_example : exists s0 s1 s2, run true init sched_down = Some s0 /\ step true s0 LReconnectFail = Some s1 /\
  run true s1 [LReconnect; LLogEnq 1; LEnq 1; LSTop 1; LSPoll 1; LSBlkQueue 1; LSCheck 1; LSHook 1; LSWriteOk 1] = Some s2 /\
  cur s2 = Some 1 /\ got (gens s2 1) = [1] /\ c11_accepts (log s2) = true.
Proof. eexists. eexists. eexists. split; [apply (Lts.some_the init); vm_compute; reflexivity|]. split; [apply (Lts.some_the init); vm_compute; reflexivity|]. split; [apply (Lts.some_the init); vm_compute; reflexivity|]. vm_compute. repeat split. Qed.

(* connection.close is atomic with respect to the swap of the current connection: the identity test and the
   write of the flag happen in ONE step (under connLock, which ReConnect holds for the whole dial), so the test
   is decided on the state in which the flag is written *)
Theorem close_atomic s l s' g : step true s l = Some s' -> closes l = Some g ->
  closedF s' = (if is_cur s g then true else closedF s) /\ cur s' = cur s.
Proof. intros H CL. destruct (closes_shape s l s' g H CL) as (x & ->). auto. Qed.

(* the seeded variant C11-m11 (test before the lock, flag after it): the loss of connection 0 is reported a second
   time while the re-dial is in progress; the test sees 0 still current, the flag lands on the new connection 1 *)
Lemma m11_refuted : exists s0 s1, run true init [LReconnect; LLogPClose 0; LPeerClose 0; LRClose 0] = Some s0 /\
  close_decide_m11 s0 0 = true /\ step true s0 LReconnect = Some s1 /\
  let s2 := close_commit_m11 s1 0 in
  closedF s2 = true /\ cur s2 = Some 1 /\ dead (gens s2 1) = false /\ peerc (gens s2 1) = false /\
  (* whereas the atomic close of the model, taken in the same state, leaves the new connection alone *)
  closedF (do_close true s1 0) = false.
Proof. eexists. eexists. split; [apply (Lts.some_the init); vm_compute; reflexivity|]. split; [vm_compute; reflexivity|]. split; [apply (Lts.some_the init); vm_compute; reflexivity|]. vm_compute. repeat split. Qed.
