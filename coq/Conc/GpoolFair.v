(* C19 — progress of ONE job while other submitters keep sending (the pool never becomes quiescent).
   [mu j s] ranks how far job j is from having finished: its position in the FIFO JobQueue, the dispatcher's and the
   workers' distance from taking it, then the three steps of the job itself. Before Release is accepted by the dispatcher:
     (a) no step of anybody increases [mu j] (later submits queue up BEHIND j and cannot delay it),
     (b) while j waits in the queue or in the dispatcher's hand EVERY step of the pool and of running jobs decreases it,
       and one is always enabled; while j occupies a worker its own next step decreases it and is always enabled,
     (c) an enabled step of the pool stays enabled until it is taken (so weak fairness is enough).
   These are the premises of the usual weak-fairness rule; the finite consequence proved here: an execution that contains
   [mu j s] helpful steps has finished j. *)
From Coq Require Import List Arith NArith Lia Bool Permutation.
From TarsV Require Import Base.Lists Conc.Gpool Conc.GpoolProofs Conc.GpoolLive.
Import ListNotations.

(* position of j in the queue counted from 1; 0 when it is not there *)
Fixpoint qpos (j : job) (l : list job) : nat :=
  match l with
  | [] => 0
  | x :: r => if N.eqb j x then 1 else match qpos j r with O => O | S k => S (S k) end
  end.
Definition wrank1 (j : job) (p : wpc) : nat :=
  match p with
  | WGot x => if N.eqb j x then 3 else 0
  | WRun x => if N.eqb j x then 2 else 0
  | WEnded x => if N.eqb j x then 1 else 0
  | _ => 0
  end.
Fixpoint wrank (j : job) (l : list wpc) : nat := match l with [] => 0 | p :: r => wrank1 j p + wrank j r end.

(* the weights of GpoolLive.measure, with only the jobs in front of j counted; the 4 keeps a waiting job above one that a worker
   holds (3, 2, 1 steps left) *)
Definition mu1 (j : job) (s : st) : nat := 8 * qpos j (jobq s) + length (wq s) + wsum (wk s) + dcost (dp s).
Definition mu (j : job) (s : st) : nat :=
  if mem j (fin s) then 0 else match wrank j (wk s) with S r => S r | O => 4 + mu1 j s end.

Lemma mem_app j a b : mem j (a ++ b) = mem j a || mem j b.
Proof. unfold mem. apply existsb_app. Qed.

Lemma qpos_notin j l : ~ In j l -> qpos j l = 0.
Proof.
  induction l as [|x l IH]; cbn; [reflexivity|]. intros H. destruct (N.eqb j x) eqn:E.
  - apply N.eqb_eq in E. subst. tauto.
  - rewrite IH; tauto.
Qed.
Lemma qpos_in j l : In j l -> 1 <= qpos j l.
Proof.
  induction l as [|x l IH]; cbn; [tauto|]. intros H. destruct (N.eqb j x) eqn:E; [lia|].
  destruct H as [H|H]; [subst; rewrite N.eqb_refl in E; discriminate|]. specialize (IH H). destruct (qpos j l); lia.
Qed.
Lemma qpos_snoc_other j l x : j <> x -> qpos j (l ++ [x]) = qpos j l.
Proof.
  intros Hne. apply N.eqb_neq in Hne. induction l as [|y l IH]; cbn; [now rewrite Hne|]. now rewrite IH.
Qed.
Lemma qpos_cons_other j x r : N.eqb j x = false -> In j r -> qpos j (x :: r) = S (qpos j r).
Proof. intros E H. cbn. rewrite E. pose proof (qpos_in j r H). destruct (qpos j r); lia. Qed.

Lemma wrank_upd j l : forall w p x, nth_error l w = Some p -> wrank j (upd w x l) + wrank1 j p = wrank j l + wrank1 j x.
Proof.
  induction l as [|a l IH]; intros [|w] p x H; cbn [nth_error upd wrank] in *; try discriminate.
  - inversion H; subst. lia.
  - specialize (IH _ _ x H). lia.
Qed.
Lemma wrank_ge j l : forall w p, nth_error l w = Some p -> wrank1 j p <= wrank j l.
Proof.
  induction l as [|a l IH]; intros [|w] p H; cbn [nth_error wrank] in *; try discriminate.
  - inversion H; subst. lia.
  - specialize (IH _ _ H). lia.
Qed.
(* no worker holds j: after a worker's move, j is held where the move put it *)
Lemma wrank_upd0 j l w p x : wrank j l = 0 -> nth_error l w = Some p -> wrank j (upd w x l) = wrank1 j x /\ wrank1 j p = 0.
Proof. intros H0 Hw. pose proof (wrank_upd j l w p x Hw). pose proof (wrank_ge j l w p Hw). lia. Qed.
Lemma wrank_notin j l : ~ In j (occupying l) -> wrank j l = 0.
Proof.
  unfold occupying, jobs_of. induction l as [|a l IH]; cbn [flat_map wrank]; [reflexivity|]. intros H.
  rewrite IH; [|intros X; apply H; apply in_or_app; now right].
  assert (wrank1 j a = 0); [|lia].
  destruct a; cbn in *; try reflexivity; destruct (N.eqb j j0) eqn:E; try reflexivity; apply N.eqb_eq in E; subst; tauto.
Qed.
Lemma wrank_in j l : In j (occupying l) -> exists w p, nth_error l w = Some p /\ f_occ p = Some j /\ 1 <= wrank1 j p.
Proof.
  unfold occupying, jobs_of. induction l as [|a l IH]; cbn [flat_map]; [intros []|]. intros H. apply in_app_or in H.
  destruct H as [H|H].
  - exists 0, a. destruct a; cbn in H; try tauto; destruct H as [<-|[]]; cbn; rewrite N.eqb_refl; repeat split; lia.
  - destruct (IH H) as (w & p & A & B & C). exists (S w), p. auto.
Qed.

(* the steps that bring j closer: any step of the pool while j waits in the queue or in the dispatcher's hand;
   the next step of the worker that holds j afterwards *)
Definition helpful_for (j : job) (s : st) (l : label) : Prop :=
  (In j (jobq s ++ held (dp s)) /\ internal l = true /\ l <> RelCall) \/
  (exists w p, nth_error (wk s) w = Some p /\ f_occ p = Some j /\ own_step w p = Some l).

Definition label_eq_dec (a b : label) : {a = b} + {a <> b}.
Proof. decide equality; try apply N.eq_dec; apply Nat.eq_dec. Defined.

Section Fair.
Variable W Q : nat.
Notation step := (step W Q). Notation run := (run W Q).
Notation init := (init W). Notation reachable := (reachable W Q).

Lemma step_subm_mono s l s' j : step s l = Some s' -> In j (subm s) -> In j (subm s').
Proof. intros Hs Hj. apply step_Step in Hs. destruct Hs; simp; auto with datatypes. Qed.
Lemma step_fin_mono s l s' j : step s l = Some s' -> In j (fin s) -> In j (fin s').
Proof. intros Hs Hj. apply step_Step in Hs. destruct Hs; simp; auto with datatypes. Qed.
Lemma pre_release_step s l s' : pre_release (dp s) = true -> l <> RelCall -> step s l = Some s' -> pre_release (dp s') = true.
Proof. intros Hp Hl Hs. apply step_Step in Hs. destruct Hs; simp; auto; try congruence; rewrite Hd in Hp; discriminate. Qed.
Lemma pre_release_rp s : reachable s -> pre_release (dp s) = true -> rp s = RNot \/ rp s = RCalled.
Proof.
  intros Hr Hp. destruct (reachable_good _ _ _ Hr) as [[_ _ _ _ _ R _] _]. apply phase_pre in Hp.
  destruct (rp s); cbn in R; auto; congruence.
Qed.

Lemma job_place s j : reachable s -> In j (subm s) -> ~ In j (fin s) ->
  (In j (jobq s ++ held (dp s)) /\ ~ In j (occupying (wk s))) \/
  (In j (occupying (wk s)) /\ ~ In j (jobq s) /\ ~ In j (held (dp s))).
Proof.
  intros Hr Hs Hf. destruct (conservation W Q s Hr) as [HP HN].
  apply (Permutation_in _ HP) in Hs. rewrite app_assoc in Hs, HN. apply in_app_or in Hs. destruct Hs as [Hs|Hs].
  - left. split; auto. intros X. eapply NoDup_app_disj; [exact HN|exact Hs|]. apply in_or_app. now left.
  - apply in_app_or in Hs. destruct Hs as [Hs|Hs]; [|tauto]. right. split; auto.
    assert (~ In j (jobq s ++ held (dp s))).
    { intros X. eapply NoDup_app_disj; [exact HN|exact X|]. apply in_or_app. now left. }
    split; intros X; apply H; apply in_or_app; tauto.
Qed.

Lemma pending_not_occupying s j : reachable s -> In j (jobq s ++ held (dp s)) -> ~ In j (occupying (wk s)) /\ ~ In j (fin s).
Proof.
  intros Hr Hp. destruct (conservation W Q s Hr) as [_ HN]. rewrite app_assoc in HN.
  split; intros X; eapply NoDup_app_disj; try exact HN; try exact Hp; apply in_or_app; [now left|now right].
Qed.

Lemma mu_holder s j w p : ~ In j (fin s) -> nth_error (wk s) w = Some p -> 1 <= wrank1 j p -> mu j s = wrank j (wk s).
Proof.
  intros Hf Hw H1. apply mem_nIn in Hf. pose proof (wrank_ge j _ _ _ Hw). unfold mu. rewrite Hf.
  destruct (wrank j (wk s)); [lia|reflexivity].
Qed.

Lemma pending_step s l s' j : reachable s -> pre_release (dp s) = true -> In j (jobq s ++ held (dp s)) ->
  ~ In j (occupying (wk s)) -> ~ In j (fin s) -> l <> RelCall -> step s l = Some s' ->
  mu j s = 4 + mu1 j s /\ (if internal l then mu j s' < mu j s else mu j s' = mu j s).
Proof.
  intros Hre Hp Hpend Hocc Hfin Hl Hs.
  pose proof (wrank_notin _ _ Hocc) as Hw0. apply mem_nIn in Hfin.
  assert (Hmu : mu j s = 4 + mu1 j s) by (unfold mu; now rewrite Hfin, Hw0).
  split; [exact Hmu|]. rewrite Hmu. clear Hmu.
  destruct (conservation W Q s Hre) as [HP HN].
  apply step_Step in Hs. destruct Hs; try congruence; cbn [internal]; unfold mu, mu1; simp; rewrite ?Hfin, ?Hw0; try reflexivity;
    try (rewrite Hd in Hp; discriminate); rewrite ?Hd, ?Hq in *.
  - (* Submit: the new job queues up behind j *)
    assert (Hne : j <> j0).
    { intros ->. apply (calling_not_subm W Q s j0 Hre Hc), (Permutation_in _ (Permutation_sym HP)).
      rewrite app_assoc. apply in_or_app. now left. }
    now rewrite (qpos_snoc_other j _ j0 Hne).
  - (* SubmitH: the queue is empty and the dispatcher holds nothing *) destruct Hpend.
  - (* WorkerReg *)
    destruct (wrank_upd0 j _ w _ WWait Hw0 Hw) as [-> _]. pose proof (wsum_upd _ _ _ WWait Hw) as F.
    cbn [wrank1 wcost] in *. rewrite app_length. cbn [length]. lia.
  - (* DTake *)
    cbn [held app dcost] in *. rewrite app_nil_r in Hpend. cbn [qpos].
    destruct (N.eqb j j0) eqn:E.
    + apply N.eqb_eq in E. subst j0. inversion HN; subst.
      rewrite (qpos_notin j r). 2:{ intros X. apply H1. apply in_or_app. now left. } lia.
    + destruct Hpend as [X|X]; [subst; rewrite N.eqb_refl in E; discriminate|].
      pose proof (qpos_in j r X) as Hq1. destruct (qpos j r); lia.
  - (* DWorker *) cbn [length dcost]. lia.
  - (* Hand: if it is j that is handed over, three steps of its own are left *)
    destruct (wrank_upd0 j _ w _ (WGot j0) Hw0 Hw) as [-> _]. pose proof (wsum_upd _ _ _ (WGot j0) Hw) as F.
    cbn [wrank1 wcost dcost] in *. destruct (N.eqb j j0); lia.
  - (* JStart: the job that starts is not j, which no worker holds *)
    destruct (wrank_upd0 j _ w _ (WRun j0) Hw0 Hw) as [-> E]. pose proof (wsum_upd _ _ _ (WRun j0) Hw) as F.
    cbn [wrank1 wcost] in *. destruct (N.eqb j j0); [discriminate|lia].
  - (* JEnd *)
    destruct (wrank_upd0 j _ w _ (WEnded j0) Hw0 Hw) as [-> E]. pose proof (wsum_upd _ _ _ (WEnded j0) Hw) as F.
    cbn [wrank1 wcost] in *. destruct (N.eqb j j0); [discriminate|lia].
  - (* JobEnd *)
    destruct (wrank_upd0 j _ w _ WReg Hw0 Hw) as [-> E]. pose proof (wsum_upd _ _ _ WReg Hw) as F.
    rewrite mem_app, Hfin. cbn [mem existsb wrank1 wcost orb] in *. destruct (N.eqb j j0); [discriminate|cbn [orb]; lia].
  - (* RelRetLog: Release cannot have been acknowledged while the dispatcher is still dispatching *)
    destruct (pre_release_rp s Hre Hp); congruence.
Qed.

Lemma occupying_step s l s' j : reachable s -> pre_release (dp s) = true -> In j (occupying (wk s)) ->
  ~ In j (held (dp s)) -> ~ In j (fin s) -> l <> RelCall -> step s l = Some s' ->
  mu j s = wrank j (wk s) /\ 1 <= wrank j (wk s) /\ mu j s' <= mu j s.
Proof.
  intros Hre Hp Hocc Hheld Hfin Hl Hs.
  destruct (wrank_in _ _ Hocc) as (w0 & p0 & Hw0 & _ & Hp0). pose proof (wrank_ge j _ _ _ Hw0) as Hge.
  rewrite (mu_holder s j w0 p0 Hfin Hw0 Hp0). split; [reflexivity|]. split; [lia|]. apply mem_nIn in Hfin.
  apply step_Step in Hs. destruct Hs; try congruence; unfold mu; simp; rewrite ?Hfin;
    try (destruct (wrank j (wk s)); lia); try (rewrite Hd in Hp; discriminate).
  (* a worker moves: j's worker keeps it, or lets it finish; another worker's move does not touch its rank *)
  - (* WorkerReg *)
    pose proof (wrank_upd j _ _ _ WWait Hw) as F. cbn [wrank1] in F. destruct (wrank j (upd w WWait (wk s))); lia.
  - (* Hand: the job in the dispatcher's hand is not j *)
    rewrite Hd in Hheld. cbn [held] in Hheld.
    assert (E : N.eqb j j0 = false). { apply N.eqb_neq. intros ->. apply Hheld. now left. }
    pose proof (wrank_upd j _ _ _ (WGot j0) Hw) as F. cbn [wrank1] in F. rewrite E in F. destruct (wrank j (upd w (WGot j0) (wk s))); lia.
  - (* JStart *)
    pose proof (wrank_upd j _ _ _ (WRun j0) Hw) as F. pose proof (wrank_ge j _ _ _ Hw) as G. cbn [wrank1] in F, G.
    destruct (N.eqb j j0); destruct (wrank j (upd w (WRun j0) (wk s))); lia.
  - (* JEnd *)
    pose proof (wrank_upd j _ _ _ (WEnded j0) Hw) as F. pose proof (wrank_ge j _ _ _ Hw) as G. cbn [wrank1] in F, G.
    destruct (N.eqb j j0); destruct (wrank j (upd w (WEnded j0) (wk s))); lia.
  - (* JobEnd *)
    pose proof (wrank_upd j _ _ _ WReg Hw) as F. cbn [wrank1] in F. rewrite mem_app, Hfin. cbn [mem existsb orb].
    destruct (N.eqb j j0); cbn [orb]; [lia|]. destruct (wrank j (upd w WReg (wk s))); lia.
Qed.

Theorem mu_zero_iff s j : mu j s = 0 <-> In j (fin s).
Proof.
  unfold mu. destruct (mem j (fin s)) eqn:E.
  - apply mem_In in E. tauto.
  - apply mem_nIn in E. split; [|tauto]. destruct (wrank j (wk s)); lia.
Qed.

(* (a) nobody's step moves j further away from completion — in particular not the submits of other jobs *)
Theorem mu_nonincreasing s l s' j : reachable s -> pre_release (dp s) = true -> In j (subm s) -> l <> RelCall ->
  step s l = Some s' -> mu j s' <= mu j s.
Proof.
  intros Hr Hp Hj Hl Hs. destruct (in_dec N.eq_dec j (fin s)) as [Hf|Hf].
  - apply (step_fin_mono _ _ _ _ Hs) in Hf. apply mu_zero_iff in Hf. lia.
  - destruct (job_place s j Hr Hj Hf) as [[A B]|[A [B C]]].
    + destruct (pending_step s l s' j Hr Hp A B Hf Hl Hs) as [_ H]. destruct (internal l); lia.
    + destruct (occupying_step s l s' j Hr Hp A C Hf Hl Hs) as (_ & _ & H). exact H.
Qed.

(* (b) while j has not finished a helpful step is enabled, and taking it lowers the rank *)
Lemma helpful_decreases s j l s1 : reachable s -> pre_release (dp s) = true -> ~ In j (fin s) ->
  helpful_for j s l -> step s l = Some s1 -> mu j s1 < mu j s.
Proof.
  intros Hr Hp Hf [(A & Hi & Hl)|(w & p & Hw & Ho & Hown)] Hs.
  - destruct (pending_not_occupying s j Hr A) as [B _].
    destruct (pending_step s l s1 j Hr Hp A B Hf Hl Hs) as [_ H]. now rewrite Hi in H.
  - (* the own step of the worker that holds j *)
    pose proof (wrank_ge j _ _ _ Hw) as G.
    destruct p; cbn in Ho, Hown; try discriminate; injection Ho as ->; injection Hown as <-; cbn [wrank1] in G; rewrite N.eqb_refl in G;
      rewrite (mu_holder s j w _ Hf Hw) by (cbn; rewrite N.eqb_refl; lia); apply mem_nIn in Hf;
      unfold Gpool.step in Hs; rewrite Hw in Hs; injection Hs as <-; unfold mu; simp.
    + rewrite Hf. pose proof (wrank_upd j _ _ _ (WRun j) Hw) as F. cbn [wrank1] in F. rewrite N.eqb_refl in F.
      destruct (wrank j (upd w (WRun j) (wk s))); lia.
    + rewrite Hf. pose proof (wrank_upd j _ _ _ (WEnded j) Hw) as F. cbn [wrank1] in F. rewrite N.eqb_refl in F.
      destruct (wrank j (upd w (WEnded j) (wk s))); lia.
    + rewrite mem_app. cbn [mem existsb]. rewrite N.eqb_refl, orb_true_r. cbn. lia.
Qed.

Lemma helpful_enabled s j : 1 <= W -> reachable s -> pre_release (dp s) = true -> In j (subm s) -> ~ In j (fin s) ->
  exists l, helpful_for j s l /\ internal l = true /\ l <> RelCall /\ step s l <> None.
Proof.
  intros HW Hr Hp Hj Hf. destruct (job_place s j Hr Hj Hf) as [[A B]|[A [B C]]].
  - assert (E : exists l s', internal l = true /\ l <> RelCall /\ step s l = Some s').
    { destruct (no_deadlock W Q s HW Hr) as (l & s' & Hi & Hs).
      { left. split; [now apply pre_release_rp|].
        apply in_app_or in A. destruct A as [A|A]; [left|right]; intros X; rewrite X in A; destruct A. }
      destruct (label_eq_dec l RelCall) as [->|Hl]; [|now exists l, s'].
      (* the enabled step is RelCall: the dispatcher is at its select, so j is in the queue and DTake is enabled as well *)
      apply step_Step in Hs. inversion Hs. rewrite Hd in A. cbn [held] in A. rewrite app_nil_r in A.
      destruct (jobq s) as [|x r] eqn:Hq; [destruct A|].
      exists DTake. eexists. split; [reflexivity|]. split; [discriminate|]. apply step_Step. econstructor; eauto. }
    destruct E as (l & s' & Hi & Hl & Hs). exists l. repeat split; auto; [left; auto|congruence].
  - destruct (wrank_in _ _ A) as (w & p & Hw & Ho & _).
    destruct (own_step w p) as [l|] eqn:Hown; [|destruct p; discriminate].
    destruct (own_step_enabled W Q s w p l Hw Hown) as (Hi & s' & Hs). apply step_Step in Hs.
    exists l. repeat split; auto; [right; now exists w, p| |congruence]. destruct p; inversion Hown; discriminate.
Qed.

Theorem helpful_step_enabled s j : 1 <= W -> reachable s -> pre_release (dp s) = true -> In j (subm s) -> ~ In j (fin s) ->
  exists l s', internal l = true /\ l <> RelCall /\ step s l = Some s' /\ mu j s' < mu j s.
Proof.
  intros HW Hr Hp Hj Hf. destruct (helpful_enabled s j HW Hr Hp Hj Hf) as (l & Hh & Hi & Hl & Hen).
  destruct (step s l) as [s'|] eqn:E; [|contradiction]. exists l, s'. repeat split; auto. eapply helpful_decreases; eauto.
Qed.

(* (c) an enabled step of the pool or of a running job stays enabled until it is taken: no other step disables it *)
Theorem enabled_step_persists s l l' s' : pre_release (dp s) = true -> internal l = true -> l <> RelCall ->
  step s l <> None -> step s l' = Some s' -> l' <> l -> l' <> RelCall -> step s' l <> None.
Proof.
  intros Hp Hi Hl Hen Hs Hne Hl'. destruct (step s l) as [s1|] eqn:El; [clear Hen|contradiction].
  assert (K : forall s2, Step W Q s' l s2 -> step s' l <> None) by (intros s2 H; apply step_Step in H; congruence).
  apply step_Step in El. destruct El; try discriminate; try congruence; try (rewrite Hd in Hp; discriminate);
    (* a worker's own step (WorkerReg, JStart, JEnd, JobEnd): nobody else moves that worker *)
    try (eapply K; econstructor; exact (own_step_persists W Q s l' s' w _ _ Hw eq_refl Hs Hne)).
  (* the dispatcher's steps: only the dispatcher leaves DSel / DHave / DHand, queues are only appended to, and
     nobody else takes the waiting worker *)
  all: apply step_Step in Hs; destruct Hs; try congruence; eapply K; econstructor; simp; rewrite ?Hq; eauto; try reflexivity.
  all: rewrite nth_upd_neq; [exact Hw|intros ->; congruence].
Qed.

(* number of steps of an execution that bring j closer to completion *)
Fixpoint helpful (j : job) (s : st) (ls : list label) : nat :=
  match ls with
  | [] => 0
  | l :: r => match step s l with
              | Some s1 => (if mu j s1 <? mu j s then 1 else 0) + helpful j s1 r
              | None => 0 end
  end.

Theorem helpful_steps_finish ls : forall s s' j, reachable s -> pre_release (dp s) = true -> In j (subm s) ->
  ~ In RelCall ls -> run s ls = Some s' ->
  helpful j s ls + mu j s' <= mu j s /\ (mu j s <= helpful j s ls -> In j (fin s')).
Proof.
  assert (G : forall s s' j, reachable s -> pre_release (dp s) = true -> In j (subm s) ->
              ~ In RelCall ls -> run s ls = Some s' -> helpful j s ls + mu j s' <= mu j s).
  { induction ls as [|l ls IH]; cbn [Gpool.run helpful]; intros s s' j Hr Hp Hj Hn Hrun.
    - inversion Hrun; subst. lia.
    - destruct (step s l) as [s1|] eqn:E; [|discriminate].
      assert (Hl : l <> RelCall) by (intros ->; apply Hn; now left).
      pose proof (mu_nonincreasing s l s1 j Hr Hp Hj Hl E) as Hle.
      specialize (IH s1 s' j (reachable_step _ _ _ _ _ Hr E) (pre_release_step _ _ _ Hp Hl E) (step_subm_mono _ _ _ _ E Hj)
                     (fun X => Hn (or_intror X)) Hrun).
      destruct (mu j s1 <? mu j s) eqn:C; [apply Nat.ltb_lt in C|]; lia. }
  intros s s' j Hr Hp Hj Hn Hrun. pose proof (G s s' j Hr Hp Hj Hn Hrun) as H. split; [exact H|].
  intros Hge. apply mu_zero_iff. lia.
Qed.
End Fair.

(* a concrete instance: two workers, a queue of one; job 3 is queued behind job 2 (in the dispatcher's hand) and job 1 (running);
   while jobs 4 and 5 are sent behind it, 13 of the 19 steps bring job 3 closer and it finishes; job 5 is still queued *)
Example fair_example :
  let s := match run 2 1 (init 2) [SubCall 1; SubCall 2; SubCall 3; Submit 1; DTake; Submit 2; WorkerReg 0; DWorker; Hand; DTake; Submit 3]%N with
           | Some s => s | None => init 2 end in
  let sched := [SubCall 4; JStart 0; WorkerReg 1; DWorker; Hand; DTake; Submit 4; SubCall 5; JEnd 0; JobEnd 0; WorkerReg 0;
                DWorker; Hand; DTake; Submit 5; JStart 0; SubCall 6; JEnd 0; JobEnd 0]%N in
  pre_release (dp s) = true /\ In 3%N (subm s) /\ mu 3%N s = 33 /\ mu 1%N s = 3 /\ mu 2%N s = 25 /\ helpful 2 1 3%N s sched = 13 /\
  match run 2 1 s sched with Some s' => mu 3%N s' = 0 /\ fin s' = [1; 3]%N /\ jobq s' = [5]%N | None => False end.
Proof. vm_compute. repeat split; auto. Qed.
