(* C19 — what the SOURCE of the tree (coq/Gen/C19Src.v, regenerated on every run) says, tied to the models:
   * gpool.go is, statement for statement, the program that the transition system of Conc/Gpool.v models;
   * the handlers route a request to the pool exactly when MaxInvoke > 0 (whatever QueueCap is, 0 included), by a
     blocking send, and build the pool under the same condition with W = MaxInvoke workers and a queue of QueueCap;
   * the statement order in tcpHandler.Handle / handleConn / recv is the one for which Conc/PoolUseProofs.v proves that
     the pool is released only when every request handed to it has been executed.
   Any edit of these functions changes the regenerated terms and re-opens these proofs. *)
From Coq Require Import List String ZArith Bool.
From TarsV Require Import Conc.PoolSrc Gen.C19Src Conc.PoolUse Conc.PoolUseProofs.
Import ListNotations.
Open Scope string_scope.

(* gpool.go as modelled (labels of Conc/Gpool.v in the comments) *)
Definition modelled_Worker_Start : list outline := [
  Node "go func" [
    Node "decl var job Job" [];
    Node "for" [
      Node "send w.WorkerQueue <- w" [];                       (* WorkerReg w : WReg -> WWait *)
      Node "select" [
        Node "case recv w.JobChannel into job" [               (* Hand : WWait -> WGot j *)
          Node "call job()" [] ];                              (* JStart / JEnd / JobEnd : ... -> WReg *)
        Node "case recv w.Stop" [                              (* StopSend : WWait -> WStopping *)
          Node "send w.Stop <- struct{}{}" [];                 (* StopAck : WStopping -> WDone *)
          Node "return" [] ] ] ] ] ].
Definition modelled_newWorker : list outline := [
  Node "return &Worker" [
    Node "field WorkerQueue: pool" [];
    Node "field JobChannel: make(chan Job)" [];
    Node "field Stop: make(chan struct{})" [] ] ].
Definition modelled_NewPool : list outline := [
  Node "assign jobQueue := make(chan Job, jobQueueLen)" [];
  Node "assign workerQueue := make(chan *Worker, numWorkers)" [];
  Node "assign pool := &Pool{ JobQueue: jobQueue, WorkerQueue: workerQueue, stop: make(chan struct{}), }" [];
  Node "call pool.Start()" [];
  Node "return pool" [] ].
Definition modelled_Pool_Start : list outline := [
  Node "for i := 0; i < cap(p.WorkerQueue); i++" [             (* W workers: init = repeat WReg W *)
    Node "assign worker := newWorker(p.WorkerQueue)" [];
    Node "call worker.Start()" [] ];
  Node "go p.dispatch()" [] ].
Definition modelled_Pool_dispatch : list outline := [
  Node "for" [
    Node "select" [                                            (* DSel *)
      Node "case recv p.JobQueue into job" [                   (* DTake / SubmitH : DSel -> DHave j *)
        Node "recv p.WorkerQueue into worker" [];              (* DWorker : DHave j -> DHand j w *)
        Node "send worker.JobChannel <- job" [] ];             (* Hand : DHand j w -> DSel *)
      Node "case recv p.stop" [                                (* RelCall : DSel -> DCollect 0 *)
        Node "for i := 0; i < cap(p.WorkerQueue); i++" [       (* DColFin when i = W *)
          Node "recv p.WorkerQueue into worker" [];            (* DColTake : DCollect i -> DStop i w *)
          Node "send worker.Stop <- struct{}{}" [];            (* StopSend : DStop i w -> DWaitAck i w *)
          Node "recv worker.Stop" [] ];                        (* StopAck : DWaitAck i w -> DCollect (S i) *)
        Node "send p.stop <- struct{}{}" [];                   (* RelRet : DAck -> DDone *)
        Node "return" [] ] ] ] ].
Definition modelled_Pool_Release : list outline := [
  Node "send p.stop <- struct{}{}" [];                         (* RelCall : RCalled -> RSent *)
  Node "recv p.stop" [] ].                                     (* RelRet : RSent -> RAcked *)

Definition modelled_functions : list string := ["NewPool"; "Pool.Release"; "Pool.Start"; "Pool.dispatch"; "Worker.Start"; "newWorker"].
Theorem gpool_source_is_the_modelled_program :
  src_gpool_functions = modelled_functions /\
  src_gpool_Worker_Start = modelled_Worker_Start /\ src_gpool_newWorker = modelled_newWorker /\
  src_gpool_NewPool = modelled_NewPool /\ src_gpool_Pool_Start = modelled_Pool_Start /\
  src_gpool_Pool_dispatch = modelled_Pool_dispatch /\ src_gpool_Pool_Release = modelled_Pool_Release.
Proof. repeat split; reflexivity. Qed.

(* capacities: JobQueue has the second parameter, WorkerQueue the first, every other channel is unbuffered *)
Definition modelled_NewPool_params : list string := ["numWorkers"; "jobQueueLen"].
Definition modelled_NewPool_chans : list (string * cexpr) :=
  [("jobQueue", CVar "jobQueueLen"); ("workerQueue", CVar "numWorkers"); ("stop", CInt 0)].
Definition modelled_newWorker_chans : list (string * cexpr) := [("JobChannel", CInt 0); ("Stop", CInt 0)].
Theorem gpool_channel_capacities :
  src_gpool_NewPool_params = modelled_NewPool_params /\ src_gpool_NewPool_chans = modelled_NewPool_chans /\
  src_gpool_newWorker_chans = modelled_newWorker_chans.
Proof. repeat split; reflexivity. Qed.

Definition routing (max_invoke : Z) : route := if (0 <? max_invoke)%Z then ToPool else ToGoroutine.

Theorem handlers_route_by_MaxInvoke : forall max_invoke queue_cap,
  route_of src_tcp_route_cond max_invoke queue_cap = Some (routing max_invoke) /\
  route_of src_udp_route_cond max_invoke queue_cap = Some (routing max_invoke) /\
  (* the pool exists exactly when requests are routed to it, with W = MaxInvoke and Q = QueueCap *)
  cond_value src_tcp_pool_cond max_invoke queue_cap = Some (0 <? max_invoke)%Z /\
  cond_value src_udp_pool_cond max_invoke queue_cap = Some (0 <? max_invoke)%Z /\
  arg_values src_tcp_pool_args max_invoke queue_cap = [Some (VZ max_invoke); Some (VZ queue_cap)] /\
  arg_values src_udp_pool_args max_invoke queue_cap = [Some (VZ max_invoke); Some (VZ queue_cap)].
Proof.
  intros mi qc. unfold route_of, routing, cond_value, arg_values. cbn. destruct (0 <? mi)%Z; repeat split; reflexivity.
Qed.
(* in particular a queue capacity of 0 is an ordinary configuration: requests still go through the pool *)
Corollary queue_cap_zero_still_pooled : forall max_invoke, (0 < max_invoke)%Z ->
  route_of src_tcp_route_cond max_invoke 0 = Some ToPool /\ route_of src_udp_route_cond max_invoke 0 = Some ToPool.
Proof.
  intros mi H. destruct (handlers_route_by_MaxInvoke mi 0) as (A & B & _). rewrite A, B. unfold routing.
  apply Z.ltb_lt in H. rewrite H. split; reflexivity.
Qed.
(* the pooled branch is the blocking send and nothing else; the other branch is `go handler()` *)
Definition tcp_submit_is_blocking_send : bool := routing_shape "send t.pool.JobQueue <- handler" "if cfg.MaxInvoke > 0" src_tcp_handleConn.
Definition udp_submit_is_blocking_send : bool := routing_shape "send u.pool.JobQueue <- handler" "if cfg.MaxInvoke > 0" src_udp_handleUDPAddr.
Theorem handlers_submit_by_blocking_send : tcp_submit_is_blocking_send = true /\ udp_submit_is_blocking_send = true.
Proof. split; reflexivity. Qed.

(* Listen builds the pool once, under that condition, and does nothing else with it (NewPool starts the workers itself) *)
Definition modelled_tcp_Listen : list outline :=
  [Node "if cfg.MaxInvoke > 0" [Node "assign t.pool = gpool.NewPool(int(cfg.MaxInvoke), cfg.QueueCap)" []]].
Definition modelled_udp_Listen : list outline :=
  [Node "if cfg.MaxInvoke > 0" [Node "assign u.pool = gpool.NewPool(int(cfg.MaxInvoke), cfg.QueueCap)" []]].
Theorem listen_builds_the_pool_once : src_tcp_Listen = modelled_tcp_Listen /\ src_udp_Listen = modelled_udp_Listen.
Proof. split; reflexivity. Qed.

Definition source_flags : flags := handle_flags src_tcp_Handle src_tcp_handleConn src_tcp_recv.
Theorem source_statement_order : source_flags = good_flags.
Proof. reflexivity. Qed.

(* with that order every theorem of Conc/PoolUseProofs.v about [good_flags] is one about the source; for instance: *)
Theorem source_no_lost_request : forall s, treachable source_flags s -> lost_request s = false.
Proof. rewrite source_statement_order. exact no_lost_request. Qed.
