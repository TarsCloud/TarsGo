(* C19 — proofs about Conc/PoolUse.v: with the statement order that the source has (flags read off it by
   PoolSrc.handle_flags) the pool is released only when every request ever handed to it has been executed, for every number
   of connections and requests and every schedule, Shutdown racing with accepts and submissions included; with any one of
   the three orders reversed there is a schedule that releases the pool over a pending request (witnesses). *)
From Coq Require Import List Arith NArith Lia Bool Permutation.
From TarsV Require Import Base.Lts Base.Lists Conc.Gpool Conc.GpoolProofs Conc.PoolSrc Conc.PoolUse.
Import ListNotations.

Lemma pj_eqb_eq a b : pj_eqb a b = true <-> a = b.
Proof.
  unfold pj_eqb. destruct a as [a1 a2], b as [b1 b2]; cbn. rewrite andb_true_iff, Nat.eqb_eq, N.eqb_eq.
  split; [intros [-> ->]; reflexivity|intros E; inversion E; auto].
Qed.
Lemma memp_In p l : memp p l = true <-> In p l.
Proof.
  unfold memp. rewrite existsb_exists. split.
  - intros (x & Hx & E). apply pj_eqb_eq in E. now subst.
  - intros H. exists p. split; auto. now apply pj_eqb_eq.
Qed.
Lemma memp_nIn p l : memp p l = false <-> ~ In p l.
Proof. rewrite <- memp_In. destruct (memp p l); split; intros; try congruence; tauto. Qed.
Lemma rmp_perm p l : In p l -> Permutation l (p :: rmp p l).
Proof.
  induction l as [|x l IH]; cbn; [tauto|]. intros H.
  destruct (pj_eqb p x) eqn:E. { apply pj_eqb_eq in E. now subst. }
  destruct H as [H|H]. { subst. assert (pj_eqb p p = true) by now apply pj_eqb_eq. congruence. }
  rewrite (IH H) at 1. apply perm_swap.
Qed.
Lemma rmp_in p l x : In p l -> (In x l <-> p = x \/ In x (rmp p l)).
Proof. intros H. pose proof (rmp_perm p l H) as P. split; [apply (Permutation_in _ P)|apply (Permutation_in _ (Permutation_sym P))]. Qed.
Lemma in_rmp p x l : In x (rmp p l) -> In x l.
Proof.
  induction l as [|y l IH]; cbn; [tauto|]. destruct (pj_eqb p y); [tauto|]. intros [H|H]; [now left|right; auto].
Qed.
Lemma owned_app i a b : owned i (a ++ b) = owned i a + owned i b.
Proof. unfold owned. rewrite filter_app, app_length. reflexivity. Qed.
Lemma owned_single i p : owned i [p] = if ownedb i p then 1 else 0.
Proof. unfold owned. cbn. destruct (ownedb i p); reflexivity. Qed.
Lemma owned_insert i a p b : owned i ((a ++ [p]) ++ b) = owned i (a ++ b) + (if ownedb i p then 1 else 0).
Proof. rewrite !owned_app. unfold owned at 2. cbn [filter]. destruct (ownedb i p); cbn [length]; lia. Qed.
Lemma owned_rmp i p l : In p l -> owned i l = owned i (rmp p l) + (if ownedb i p then 1 else 0).
Proof.
  intros H. unfold owned. pose proof (rmp_perm p l H) as P.
  assert (E : length (filter (ownedb i) l) = length (filter (ownedb i) (p :: rmp p l))).
  { apply Permutation_length. clear - P. induction P; cbn; auto.
    - destruct (ownedb i x); auto.
    - destruct (ownedb i x), (ownedb i y); auto. apply perm_swap.
    - etransitivity; eauto. }
  rewrite E. cbn. destruct (ownedb i p); cbn; lia.
Qed.
Lemma owned_zero_nil n l : (forall p, In p l -> fst p < n) -> (forall i, i < n -> owned i l = 0) -> l = [].
Proof.
  intros Hb Hz. destruct l as [|p l]; [reflexivity|]. exfalso.
  specialize (Hz (fst p) (Hb p (or_introl eq_refl))). unfold owned, ownedb in Hz. cbn in Hz. rewrite Nat.eqb_refl in Hz. discriminate.
Qed.

Definition isdonec (p : cpc) : bool := match p with CDone => true | _ => false end.
Definition act (c : conn) : nat := if c_added c && negb (isdonec (c_pc c)) then 1 else 0.
Fixpoint active (l : list conn) : nat := match l with [] => 0 | c :: r => act c + active r end.
Lemma active_upd l : forall i c x, nth_error l i = Some c -> active (upd i x l) + act c = active l + act x.
Proof.
  induction l as [|a l IH]; intros [|i] c x H; cbn [nth_error upd active] in *; try discriminate.
  - inversion H; subst. lia.
  - specialize (IH _ _ x H). lia.
Qed.
Lemma active_app a b : active (a ++ b) = active a + active b.
Proof. induction a; cbn; lia. Qed.
Lemma active_zero l : active l = 0 -> Forall (fun c => c_added c = true) l -> Forall (fun c => c_pc c = CDone) l.
Proof.
  induction l as [|c l IH]; intros H F; [constructor|]. inversion F; subst. cbn in H. unfold act in H. rewrite H2 in H.
  constructor; [destruct (c_pc c); cbn in H; try lia; reflexivity|apply IH; auto; lia].
Qed.
Lemma Forall_upd {A} (P : A -> Prop) l : forall i x, Forall P l -> P x -> Forall P (upd i x l).
Proof.
  induction l as [|a l IH]; intros [|i] x F Hx; cbn; auto; inversion F; subst; constructor; auto.
Qed.
Lemma Forall_nth {A} (P : A -> Prop) l i x : Forall P l -> nth_error l i = Some x -> P x.
Proof. intros F H. rewrite Forall_forall in F. apply F. eapply nth_error_In; eauto. Qed.

Lemma bump_length up i l : length (bump up i l) = length l.
Proof. unfold bump. destruct (nth_error l i); [apply upd_length|reflexivity]. Qed.
Lemma nth_bump up i l k c' : nth_error (bump up i l) k = Some c' ->
  exists c, nth_error l k = Some c /\ c_pc c' = c_pc c /\ c_added c' = c_added c /\
            c_ninv c' = if Nat.eqb i k then (if up then S (c_ninv c) else pred (c_ninv c)) else c_ninv c.
Proof.
  unfold bump. destruct (nth_error l i) as [c|] eqn:E; intros H.
  - apply nth_upd in H. destruct H as [[-> ->]|[Hne H]]; [exists c; now rewrite Nat.eqb_refl|].
    exists c'. apply not_eq_sym, Nat.eqb_neq in Hne. now rewrite Hne.
  - exists c'. destruct (Nat.eqb_spec i k) as [->|]; [congruence|auto].
Qed.
Lemma active_bump up i l : active (bump up i l) = active l.
Proof.
  unfold bump. destruct (nth_error l i) as [c|] eqn:E; [|reflexivity].
  pose proof (active_upd l i c (mkconn (c_pc c) (if up then S (c_ninv c) else pred (c_ninv c)) (c_added c)) E) as H.
  unfold act in H. cbn [c_added c_pc] in H. lia.
Qed.
Lemma Forall_bump (P : conn -> Prop) up i l :
  (forall c n, P c -> P (mkconn (c_pc c) n (c_added c))) -> Forall P l -> Forall P (bump up i l).
Proof.
  intros HP F. unfold bump. destruct (nth_error l i) as [c|] eqn:E; [|exact F].
  apply Forall_upd; auto. apply HP. eapply Forall_nth; eauto.
Qed.

Definition pj_dec (a b : pj) : {a = b} + {a <> b}.
Proof. decide equality; [apply N.eq_dec|apply Nat.eq_dec]. Defined.
(* permutation goals over request lists, decided by counting occurrences *)
Ltac ppc :=
  let x0 := fresh "x0" in
  apply (Permutation_count_occ pj_dec); intros x0;
  repeat match goal with H : Permutation ?a ?b |- _ =>
    let H' := fresh in pose proof (proj1 (Permutation_count_occ pj_dec a b) H x0) as H'; clear H end;
  rewrite ?count_occ_app in *; cbn [count_occ] in *;
  repeat match goal with
         | |- context [pj_dec ?a x0] => destruct (pj_dec a x0)
         | H : context [pj_dec ?a x0] |- _ => destruct (pj_dec a x0)
         end; lia.

Ltac tsimp := cbn [t_closed t_ap t_conns t_wg t_pend t_runn t_exec t_handed t_released
                   set_closed set_ap set_conns set_wg set_pend set_runn set_exec set_handed set_released] in *.

Definition after_wait (a : apc) : bool := match a with AWaited | AReleasing | AReleased | ADone => true | _ => false end.
Definition rel_of (a : apc) : bool := match a with AReleasing | AReleased | ADone => true | _ => false end.

(* recvDone counts the live connection goroutines plus the one the accept loop has announced and not yet spawned; a connection's
   in-flight counter is the number of its requests in the pool; once recvDone.Wait has returned every connection has ended *)
Record Inv (s : tst) : Prop := mkInv {
  i_wg : t_wg s = active (t_conns s) + (match t_ap s with AAdded => 1 | _ => 0 end);
  i_added : Forall (fun c => c_added c = true) (t_conns s);
  i_inflight : forall i c, nth_error (t_conns s) i = Some c -> c_ninv c = owned i (t_pend s ++ t_runn s);
  i_owner : forall p, In p (t_pend s ++ t_runn s) -> fst p < length (t_conns s);
  i_ended : forall i c, nth_error (t_conns s) i = Some c -> c_pc c = CDone -> c_ninv c = 0;
  i_waited : after_wait (t_ap s) = true -> Forall (fun c => c_pc c = CDone) (t_conns s);
  i_released : t_released s = rel_of (t_ap s) /\ t_ap s <> AReleased;
  i_handed : Permutation (t_handed s) (t_pend s ++ t_runn s ++ t_exec s) /\ NoDup (t_handed s) }.

Notation gstep := (tstep good_flags).

Inductive GStep (s : tst) : tlabel -> tst -> Prop :=
| GShutdown : GStep s TShutdown (set_closed s true)
| GCheck (Ha : t_ap s = ALoop) : GStep s ACheck (set_ap s (if t_closed s then ATail else AAccepting))
| GAccept (Ha : t_ap s = AAccepting) : GStep s AAccept (set_ap s AGot)
| GTimeout (Ha : t_ap s = AAccepting) : GStep s ATimeout (set_ap s ALoop)
| GWgAdd (Ha : t_ap s = AGot) : GStep s AWgAdd (set_ap (set_wg s (S (t_wg s))) AAdded)
| GSpawn (Ha : t_ap s = AAdded) : GStep s ASpawn (set_ap (set_conns s (t_conns s ++ [mkconn CNew 0 true])) ALoop)
| GBegin i c (Hc : nth_error (t_conns s) i = Some c) (Hp : c_pc c = CNew) :
    GStep s (CBegin i) (set_conns s (upd i (mkconn CRecv (c_ninv c) (c_added c)) (t_conns s)))
| GSubmit i n c (Hc : nth_error (t_conns s) i = Some c) (Hp : c_pc c = CRecv) (Hn : ~ In (i, n) (t_handed s)) :
    GStep s (CSubmit i n)
      (set_conns (set_handed (set_pend s (t_pend s ++ [(i, n)])) (t_handed s ++ [(i, n)])) (bump true i (t_conns s)))
| GLeave i c (Hc : nth_error (t_conns s) i = Some c) (Hp : c_pc c = CRecv) :
    GStep s (CLeave i) (set_conns s (upd i (mkconn CDrain (c_ninv c) (c_added c)) (t_conns s)))
| GDrained i c (Hc : nth_error (t_conns s) i = Some c) (Hp : c_pc c = CDrain) (Hn : c_ninv c = 0) :
    GStep s (CDrained i) (set_wg (set_conns s (upd i (mkconn CDone 0 (c_added c)) (t_conns s))) (pred (t_wg s)))
| GStart p (Hm : In p (t_pend s)) (Hr : t_released s = false) :
    GStep s (PStart p) (set_runn (set_pend s (rmp p (t_pend s))) (t_runn s ++ [p]))
| GEnd p (Hm : In p (t_runn s)) :
    GStep s (PEnd p) (set_conns (set_exec (set_runn s (rmp p (t_runn s))) (t_exec s ++ [p])) (bump false (fst p) (t_conns s)))
| GWait (Hw : t_wg s = 0) (Ha : t_ap s = ATail) : GStep s AWait (set_ap s AWaited)
| GRelCall (Ha : t_ap s = AWaited) : GStep s ARelCall (set_ap (set_released s true) AReleasing)
| GRelRet (Ha : t_ap s = AReleasing) (Hr : t_runn s = []) : GStep s ARelRet (set_ap s ADone).

Lemma gstep_GStep s l s' : gstep s l = Some s' <-> GStep s l s'.
Proof.
  split.
  - destruct l; cbn; intros H.
    (* the labels guarded by the accept loop's counter alone; ACheck's new counter is an [if] that must stay whole *)
    all: try (destruct (t_ap s) eqn:Ha; try discriminate; injection H as <-; now constructor).
    all: repeat match type of H with context [match ?x with _ => _ end] => destruct x eqn:? end; try discriminate.
    all: injection H as <-; rewrite ?andb_true_iff, ?negb_true_iff, ?memp_In, ?memp_nIn in *; econstructor; eauto; tauto.
  - intros []; cbn; rewrite <- ?memp_nIn, <- ?memp_In in *; rewrite ?Ha, ?Hc, ?Hp, ?Hn, ?Hm, ?Hr, ?Hw; reflexivity.
Qed.

Lemma Inv_init : Inv tinit.
Proof.
  constructor; cbn; auto; try (intros [|i] c H; discriminate); try tauto.
  - split; [reflexivity|discriminate].
  - split; [reflexivity|constructor].
Qed.

(* a connection goroutine that has not ended moves on, its in-flight counter unchanged: recvDone drops when it ends *)
Lemma Inv_conn s i c x : Inv s -> nth_error (t_conns s) i = Some c -> c_pc c <> CDone ->
  c_ninv x = c_ninv c -> c_added x = c_added c -> (c_pc x = CDone -> c_ninv x = 0) ->
  Inv (set_wg (set_conns s (upd i x (t_conns s))) (if isdonec (c_pc x) then pred (t_wg s) else t_wg s)).
Proof.
  intros [A B C D E F G H] Hc Hp Hn Ha Hd. pose proof (Forall_nth _ _ _ _ B Hc) as Hadd. cbn in Hadd.
  pose proof (active_upd _ _ _ x Hc) as U. unfold act in U. rewrite Ha, Hadd in U.
  assert (Hp' : isdonec (c_pc c) = false) by (destruct (c_pc c) eqn:X; cbn; congruence). rewrite Hp' in U.
  constructor; tsimp; auto.
  - destruct (isdonec (c_pc x)); cbn in U; lia.
  - apply Forall_upd; auto. congruence.
  - intros k c' Hk. apply nth_upd in Hk. destruct Hk as [[-> ->]|[_ Hk]]; [rewrite Hn|]; eauto.
  - now rewrite upd_length.
  - intros k c' Hk Hdn. apply nth_upd in Hk. destruct Hk as [[-> ->]|[_ Hk]]; eauto.
  - intros Hw. now pose proof (Forall_nth _ _ _ _ (F Hw) Hc).
Qed.

Lemma Inv_step s l s' : Inv s -> gstep s l = Some s' -> Inv s'.
Proof.
  intros HI Hs. apply gstep_GStep in Hs. pose proof HI as [A B C D E F [G G'] [H H']]. destruct Hs.
  - (* TShutdown *) constructor; tsimp; auto.
  - (* ACheck *) rewrite Ha in *. constructor; tsimp; auto; destruct (t_closed s); cbn; auto; try discriminate; try (split; [auto|discriminate]).
  - (* AAccept *) rewrite Ha in *. constructor; tsimp; auto; cbn; try discriminate. split; [auto|discriminate].
  - (* ATimeout *) rewrite Ha in *. constructor; tsimp; auto; cbn; try discriminate. split; [auto|discriminate].
  - (* AWgAdd *) rewrite Ha in *. constructor; tsimp; auto; cbn; try discriminate; [lia|split; [auto|discriminate]].
  - (* ASpawn *)
    rewrite Ha in *. constructor; tsimp; cbn; try discriminate.
    + rewrite active_app. cbn. lia.
    + apply Forall_app. split; [exact B|repeat constructor].
    + intros i c Hn. destruct (Nat.lt_ge_cases i (length (t_conns s))) as [Hl|Hl].
      * rewrite nth_error_app1 in Hn by exact Hl. auto.
      * rewrite nth_error_app2 in Hn by exact Hl. destruct (i - length (t_conns s)) as [|k] eqn:Ek; cbn in Hn; [|destruct k; discriminate].
        injection Hn as <-. cbn. symmetry.
        assert (Z : forall q, In q (t_pend s ++ t_runn s) -> ownedb i q = false).
        { intros q Hq. apply D in Hq. unfold ownedb. apply Nat.eqb_neq. lia. }
        unfold owned. clear - Z. induction (t_pend s ++ t_runn s) as [|q r IH]; [reflexivity|]. cbn.
        rewrite (Z q (or_introl eq_refl)). apply IH. intros x Hx. apply Z. now right.
    + intros p Hp. apply D in Hp. rewrite app_length. cbn. lia.
    + intros i c Hn Hd. destruct (Nat.lt_ge_cases i (length (t_conns s))) as [Hl|Hl].
      * rewrite nth_error_app1 in Hn by exact Hl. eauto.
      * rewrite nth_error_app2 in Hn by exact Hl. destruct (i - length (t_conns s)) as [|k]; cbn in Hn; [|destruct k; discriminate].
        injection Hn as <-. reflexivity.
    + split; [auto|discriminate].
    + split; auto.
  - (* CBegin *) apply (Inv_conn s i c (mkconn CRecv (c_ninv c) (c_added c)) HI Hc); cbn; congruence.
  - (* CSubmit *)
    constructor; tsimp; auto.
    + rewrite active_bump. exact A.
    + apply Forall_bump; auto.
    + intros k c' Hk. destruct (nth_bump _ _ _ _ _ Hk) as (c0 & H0 & _ & _ & ->).
      rewrite (C _ _ H0), owned_insert. unfold ownedb. cbn [fst]. destruct (i =? k); lia.
    + intros p Hin. rewrite bump_length. rewrite <- app_assoc in Hin. apply in_app_or in Hin. destruct Hin as [Hin|Hin].
      * apply D. apply in_or_app. now left.
      * destruct Hin as [<-|Hin]; [cbn; eapply nth_some_lt; eauto|apply D; apply in_or_app; now right].
    + intros k c' Hk Hd. destruct (nth_bump _ _ _ _ _ Hk) as (c0 & H0 & Ep & _ & ->). rewrite Ep in Hd.
      destruct (Nat.eqb_spec i k) as [<-|]; [congruence|eauto].
    + intros Hw. specialize (F Hw). pose proof (Forall_nth _ _ _ _ F Hc) as Z. cbn in Z. congruence.
    + split; [clear - H; ppc|apply NoDup_snoc; auto].
  - (* CLeave *) apply (Inv_conn s i c (mkconn CDrain (c_ninv c) (c_added c)) HI Hc); cbn; congruence.
  - (* CDrained *) apply (Inv_conn s i c (mkconn CDone 0 (c_added c)) HI Hc); cbn; congruence.
  - (* PStart *)
    constructor; tsimp; auto.
    + intros k c Hk. rewrite (C _ _ Hk). rewrite !owned_app. rewrite (owned_rmp k p _ Hm), owned_single.
      destruct (ownedb k p); lia.
    + intros q Hq. apply D. apply in_app_or in Hq. apply in_or_app. destruct Hq as [Hq|Hq]; [left; eapply in_rmp; eauto|].
      apply in_app_or in Hq. destruct Hq as [Hq|[<-|[]]]; [now right|now left].
    + split; [|exact H']. pose proof (rmp_perm p _ Hm) as P. clear - H P. ppc.
  - (* PEnd *)
    constructor; tsimp; auto.
    + rewrite active_bump. exact A.
    + apply Forall_bump; auto.
    + intros k c Hk. destruct (nth_bump _ _ _ _ _ Hk) as (c0 & H0 & _ & _ & ->).
      rewrite (C _ _ H0), !owned_app, (owned_rmp k p _ Hm). unfold ownedb. destruct (fst p =? k); lia.
    + intros q Hq. rewrite bump_length. apply D. apply in_app_or in Hq. apply in_or_app.
      destruct Hq as [Hq|Hq]; [now left|right; eapply in_rmp; eauto].
    + intros k c Hk Hd. destruct (nth_bump _ _ _ _ _ Hk) as (c0 & H0 & Ep & _ & ->). rewrite Ep in Hd.
      rewrite (E _ _ H0 Hd). now destruct (fst p =? k).
    + intros Hw'. apply Forall_bump; auto.
    + split; [|exact H']. pose proof (rmp_perm p _ Hm) as P. clear - H P. ppc.
  - (* AWait *)
    rewrite Ha in *. constructor; tsimp; auto; cbn; try discriminate.
    + intros _. apply active_zero; auto. lia.
    + split; [auto|discriminate].
  - (* ARelCall *)
    rewrite Ha in *. constructor; tsimp; auto; cbn; try discriminate; try lia; try (split; [reflexivity|discriminate]).
  - (* ARelRet *)
    rewrite Ha in *. constructor; tsimp; auto; cbn; try discriminate; try (rewrite Hr; auto; fail); try lia.
    split; [rewrite G; reflexivity|discriminate].
Qed.

Lemma reachable_Inv s : treachable good_flags s -> Inv s.
Proof. intros [ls H]. exact (run_inv gstep Inv Inv_step ls _ _ Inv_init H). Qed.

(* every request handed to the pool is, at any time, pending, running or executed — once each *)
Theorem handed_once s : treachable good_flags s ->
  Permutation (t_handed s) (t_pend s ++ t_runn s ++ t_exec s) /\ NoDup (t_pend s ++ t_runn s ++ t_exec s).
Proof.
  intros Hr. destruct (i_handed s (reachable_Inv s Hr)) as [H H']. split; auto. eapply Permutation_NoDup; eauto.
Qed.

(* the pool accepts Release only when every request ever handed to it has been executed, and every connection goroutine has
   ended: nothing is pending, nothing runs, nothing can be handed over afterwards *)
Theorem released_only_when_drained s : treachable good_flags s -> t_released s = true ->
  t_pend s = [] /\ t_runn s = [] /\ Permutation (t_handed s) (t_exec s) /\ Forall (fun c => c_pc c = CDone) (t_conns s).
Proof.
  intros Hr Hrel. destruct (reachable_Inv s Hr) as [A B C D E F [G G'] [H H']].
  assert (Hw : after_wait (t_ap s) = true).
  { rewrite G in Hrel. destruct (t_ap s); cbn in *; congruence. }
  specialize (F Hw).
  assert (Z : t_pend s ++ t_runn s = []).
  { apply (owned_zero_nil (length (t_conns s))); [exact D|]. intros i Hi.
    destruct (nth_error (t_conns s) i) as [c|] eqn:Hc; [|apply nth_error_None in Hc; lia].
    rewrite <- (C _ _ Hc). apply (E _ _ Hc). exact (Forall_nth _ _ _ _ F Hc). }
  apply app_eq_nil in Z. destruct Z as [Z1 Z2]. rewrite Z1, Z2 in H. repeat split; auto.
Qed.

Corollary nothing_handed_over_after_release s i n s' : treachable good_flags s -> t_released s = true ->
  gstep s (CSubmit i n) = Some s' -> False.
Proof.
  intros Hr Hrel Hs. destruct (released_only_when_drained s Hr Hrel) as (_ & _ & _ & F).
  apply gstep_GStep in Hs. inversion Hs; subst. pose proof (Forall_nth _ _ _ _ F Hc) as Z. cbn in Z. congruence.
Qed.

(* and the shutdown is not stuck: a step is enabled until Handle has returned (jobs terminate, peers may leave) *)
Theorem shutdown_progress s : treachable good_flags s -> t_closed s = true -> t_ap s <> ADone ->
  exists l s', l <> TShutdown /\ gstep s l = Some s'.
Proof.
  intros Hr Hcl Hnd. destruct (reachable_Inv s Hr) as [A B C D E F [G G'] [H H']].
  assert (M : forall l s', GStep s l s' -> l <> TShutdown -> exists l s', l <> TShutdown /\ gstep s l = Some s').
  { intros l s' Hs Hl. exists l, s'. split; [exact Hl|now apply gstep_GStep]. }
  (* a connection that has not ended, or a request in the pool, can move *)
  assert (Hconn : forall i c, nth_error (t_conns s) i = Some c -> c_pc c <> CDone -> t_released s = false ->
                  exists l s', l <> TShutdown /\ gstep s l = Some s').
  { intros i c Hc Hp Hrel. destruct (c_pc c) eqn:Ep; try congruence.
    - exact (M _ _ (GBegin s i c Hc Ep) ltac:(discriminate)).
    - exact (M _ _ (GLeave s i c Hc Ep) ltac:(discriminate)).
    - destruct (c_ninv c) eqn:En; [exact (M _ _ (GDrained s i c Hc Ep En) ltac:(discriminate))|].
      (* one of its requests is pending or running *)
      pose proof (C _ _ Hc) as Z. rewrite En, owned_app in Z.
      destruct (t_runn s) as [|q r] eqn:Er.
      + destruct (t_pend s) as [|q r] eqn:Epd; [cbn in Z; lia|].
        refine (M _ _ (GStart s q _ Hrel) ltac:(discriminate)). rewrite Epd. now left.
      + refine (M _ _ (GEnd s q _) ltac:(discriminate)). rewrite Er. now left. }
  destruct (t_ap s) eqn:Ha; try congruence.
  - exact (M _ _ (GCheck s Ha) ltac:(discriminate)).
  - exact (M _ _ (GTimeout s Ha) ltac:(discriminate)).
  - exact (M _ _ (GWgAdd s Ha) ltac:(discriminate)).
  - exact (M _ _ (GSpawn s Ha) ltac:(discriminate)).
  - (* ATail: either recvDone is zero, or a counted connection has not ended *)
    destruct (t_wg s) eqn:Hw; [exact (M _ _ (GWait s Hw Ha) ltac:(discriminate))|].
    assert (Hex : exists i c, nth_error (t_conns s) i = Some c /\ c_pc c <> CDone).
    { assert (Hact : 0 < active (t_conns s)) by lia. clear - Hact. induction (t_conns s) as [|c l IH]; cbn in Hact; [lia|].
      unfold act in Hact at 1. destruct (c_added c && negb (isdonec (c_pc c))) eqn:Ec.
      - exists 0, c. split; [reflexivity|]. apply andb_true_iff in Ec. destruct Ec as [_ Ec]. destruct (c_pc c); cbn in Ec; congruence.
      - destruct IH as (i & c' & Hc' & Hp'); [lia|]. exists (S i), c'. auto. }
    destruct Hex as (i & c & Hc & Hp). apply (Hconn i c Hc Hp). rewrite G. reflexivity.
  - exact (M _ _ (GRelCall s Ha) ltac:(discriminate)).
  - (* AReleasing: nothing runs (everything was drained before the release) *)
    assert (Hrel : t_released s = true) by (rewrite G; reflexivity).
    destruct (released_only_when_drained s Hr Hrel) as (_ & Hrn & _).
    exact (M _ _ (GRelRet s Ha Hrn) ltac:(discriminate)).
Qed.

Lemma pruns_app σ a b : pruns σ (a ++ b) = match pruns σ a with Some σ' => pruns σ' b | None => None end.
Proof. exact (Lts.run_app pstep a σ b). Qed.

Definition PSim (s : tst) (σ : pst) : Prop :=
  p_read σ = t_handed s /\
  (forall x, In x (p_started σ) <-> In x (t_runn s ++ t_exec s)) /\
  (forall x, In x (p_ended σ) <-> In x (t_exec s)) /\
  (p_rel σ = true <-> t_ap s = ADone).

Lemma reachable_tstep s l s' : treachable good_flags s -> gstep s l = Some s' -> treachable good_flags s'.
Proof.
  intros [ls H] Hs. exists (ls ++ [l]). change (Lts.run gstep tinit (ls ++ [l]) = Some s'). rewrite run_snoc.
  change (Lts.run gstep tinit ls) with (trun good_flags tinit ls). now rewrite H.
Qed.

(* only the return of Release takes Handle to its end *)
Lemma GStep_ap s l s' : GStep s l s' -> l <> ARelRet -> (t_ap s' = ADone <-> t_ap s = ADone).
Proof.
  intros [] Hl; tsimp; try tauto; try congruence; rewrite Ha; split; try discriminate. destruct (t_closed s); discriminate.
Qed.

Lemma psim_step s l s' σ : treachable good_flags s -> gstep s l = Some s' -> PSim s σ ->
  exists σ', pruns σ (pev l) = Some σ' /\ PSim s' σ'.
Proof.
  intros Hr Hs (S1 & S2 & S3 & S4).
  destruct (reachable_Inv s Hr) as [A B C D E F [G G'] [H H']].
  destruct (handed_once s Hr) as [_ HN].
  assert (Hrel : p_rel σ = true -> t_released s = true).
  { intros X. apply S4 in X. rewrite G, X. reflexivity. }
  assert (Hnrel : t_released s = false -> p_rel σ = false).
  { intros X. destruct (p_rel σ) eqn:Y; [|reflexivity]. rewrite (Hrel eq_refl) in X. discriminate. }
  apply gstep_GStep in Hs. pose proof (GStep_ap _ _ _ Hs) as Hap. destruct Hs; cbn [pev pruns];
    try (exists σ; split; [reflexivity|]; split; [exact S1|]; split; [exact S2|]; split; [exact S3|]; rewrite Hap by discriminate; exact S4).
  - (* CSubmit *)
    assert (R : p_rel σ = false).
    { destruct (p_rel σ) eqn:Y; [|reflexivity]. exfalso. eapply (nothing_handed_over_after_release s i n); [exact Hr|exact (Hrel eq_refl)|].
      apply gstep_GStep. econstructor; eauto. }
    apply memp_nIn in Hn. unfold pstep. rewrite R, S1, Hn. cbn [orb]. eexists. split; [reflexivity|].
    split; [reflexivity|]. split; [exact S2|]. split; [exact S3|]. cbn [p_rel]. now rewrite R in S4.
  - (* PStart *)
    assert (R1 : memp p (p_read σ) = true).
    { apply memp_In. rewrite S1. eapply Permutation_in; [symmetry; exact H|]. apply in_or_app. now left. }
    assert (R2 : memp p (p_started σ) = false).
    { apply memp_nIn. intros X. apply S2 in X. eapply NoDup_app_disj; [exact HN|exact Hm|exact X]. }
    unfold pstep. rewrite (Hnrel Hr0), R1, R2. cbn [orb negb]. eexists. split; [reflexivity|].
    split; [exact S1|]. split; [|split; [exact S3|cbn [p_rel]; now rewrite (Hnrel Hr0) in S4]].
    intros x. tsimp; cbn [p_started]. rewrite !in_app_iff, S2, in_app_iff. clear. tauto.
  - (* PEnd *)
    assert (R1 : memp p (p_started σ) = true). { apply memp_In. apply S2. apply in_or_app. now left. }
    assert (R2 : memp p (p_ended σ) = false).
    { apply memp_nIn. intros X. apply S3 in X. apply NoDup_app_tail in HN. eapply NoDup_app_disj; [exact HN|exact Hm|exact X]. }
    unfold pstep. rewrite R1, R2. cbn [andb negb]. eexists. split; [reflexivity|].
    split; [exact S1|]. split; [|split; [|exact S4]]; intros x; tsimp; cbn [p_started p_ended].
    + rewrite S2, !in_app_iff, (rmp_in p _ x Hm). cbn. clear. tauto.
    + rewrite !in_app_iff, S3. clear. tauto.
  - (* ARelRet *)
    assert (Hrl : t_released s = true) by (rewrite G, Ha; reflexivity).
    destruct (released_only_when_drained s Hr Hrl) as (_ & _ & HP & _).
    assert (R : p_rel σ = false).
    { destruct (p_rel σ) eqn:Y; [|reflexivity]. destruct S4 as [S4a _]. specialize (S4a eq_refl). congruence. }
    assert (R2 : forallb (fun p => memp p (p_ended σ)) (p_read σ) = true).
    { apply forallb_forall. intros x Hx. apply memp_In. apply S3. rewrite S1 in Hx. eapply Permutation_in; eauto. }
    unfold pstep. rewrite R, R2. cbn [negb andb]. eexists. split; [reflexivity|].
    split; [exact S1|]. split; [exact S2|]. split; [exact S3|]. now split.
Qed.

Theorem server_traces_accepted ls s : trun good_flags tinit ls = Some s -> puse_ok (ptrace good_flags tinit ls) = true.
Proof.
  intros Hrun.
  assert (G : forall ls s0 s1 σ, treachable good_flags s0 -> trun good_flags s0 ls = Some s1 -> PSim s0 σ ->
              exists σ', pruns σ (ptrace good_flags s0 ls) = Some σ').
  { clear. induction ls as [|l ls IH]; cbn; intros s0 s1 σ Hr Hrun HS. { eauto. }
    destruct (gstep s0 l) as [s'|] eqn:E; [|discriminate].
    destruct (psim_step s0 l s' σ Hr E HS) as (σ1 & P1 & S1).
    destruct (IH s' s1 σ1 (reachable_tstep _ _ _ Hr E) Hrun S1) as (σ' & P').
    exists σ'. rewrite pruns_app, P1. exact P'. }
  assert (R0 : treachable good_flags tinit) by (exists []; reflexivity).
  assert (S0 : PSim tinit pinit).
  { unfold PSim. cbn. repeat split; auto; try tauto; intros X; discriminate. }
  destruct (G ls tinit s pinit R0 Hrun S0) as (σ' & P). unfold puse_ok. now rewrite P.
Qed.

(* the check is not vacuous: it rejects a return of Handle over a request that was read and not executed, a request read after the
   return, a start after the return *)
Example puse_rejects :
  let a : pj := (0, 1%N) in let b : pj := (0, 2%N) in
  puse_ok [PRead a; PStartE a; PEndE a; PRead b; PRelRetE] = false /\
  puse_ok [PRead a; PStartE a; PEndE a; PRelRetE; PRead b] = false /\
  puse_ok [PRead a; PRead b; PStartE a; PEndE a; PRelRetE] = false /\
  puse_ok [PRead a; PRead b; PStartE a; PStartE b; PEndE b; PEndE a; PRelRetE] = true.
Proof. vm_compute. repeat split. Qed.

(* each of the other statement orders loses requests *)
Definition witness_add_inside : list tlabel :=      (* recvDone.Add(1) inside the connection goroutine (seeded C19-m14) *)
  [ACheck; AAccept; ASpawn; TShutdown; ACheck; AWait; ARelCall; ARelRet; CBegin 0; CSubmit 0 1%N].
Definition witness_release_first : list tlabel :=   (* pool.Release() before recvDone.Wait() (seeded C19-m8 / the unrepaired Handle) *)
  [ACheck; AAccept; AWgAdd; ASpawn; CBegin 0; CSubmit 0 1%N; TShutdown; ACheck; ARelCall].
Definition witness_count_at_start : list tlabel :=  (* numInvoke incremented when the handler starts (seeded C19-m5) *)
  [ACheck; AAccept; AWgAdd; ASpawn; CBegin 0; CSubmit 0 1%N; TShutdown; CLeave 0; CDrained 0; ACheck; AWait; ARelCall].

Theorem add_inside_loses_requests :
  exists s, trun (mkflags false true true) tinit witness_add_inside = Some s /\ lost_request s = true /\ t_ap s = ADone.
Proof. eexists. split; [vm_compute; reflexivity|]. split; reflexivity. Qed.
Theorem release_first_loses_requests :
  exists s, trun (mkflags true false true) tinit witness_release_first = Some s /\ lost_request s = true.
Proof. eexists. split; [vm_compute; reflexivity|]. reflexivity. Qed.
Theorem count_at_start_loses_requests :
  exists s, trun (mkflags true true false) tinit witness_count_at_start = Some s /\ lost_request s = true.
Proof. eexists. split; [vm_compute; reflexivity|]. reflexivity. Qed.
(* with the order of the source no reachable state has a lost request *)
Theorem no_lost_request s : treachable good_flags s -> lost_request s = false.
Proof.
  intros Hr. unfold lost_request. destruct (t_released s) eqn:Hrel; [|reflexivity].
  destruct (released_only_when_drained s Hr Hrel) as (-> & _). reflexivity.
Qed.

(* a concrete run of the good order: two connections, three requests, Shutdown while two of them are queued; Handle returns with
   all three executed *)
Example pooluse_example :
  let a : pj := (0, 1%N) in let b : pj := (1, 1%N) in let c : pj := (1, 2%N) in
  match trun good_flags tinit
    [ACheck; AAccept; AWgAdd; ASpawn; ACheck; AAccept; AWgAdd; ASpawn; CBegin 0; CBegin 1; CSubmit 0 1%N; CSubmit 1 1%N; CSubmit 1 2%N;
     PStart a; TShutdown; ACheck; CLeave 1; CLeave 0; PEnd a; CDrained 0; PStart b; PStart c; PEnd c; PEnd b;
     CDrained 1; AWait; ARelCall; ARelRet] with
  | Some s => t_ap s = ADone /\ t_released s = true /\ t_exec s = [a; c; b] /\ t_pend s = [] /\ t_wg s = 0
  | None => False end.
Proof. vm_compute. repeat split. Qed.
