(* C09: the time wheel closes the channel returned by After exactly at the (pos+1)-th following tick *)
From Coq Require Import List NArith Arith Bool Lia ZifyBool ZifyNat ZifyN.
From TarsV Require Import Gen.C09Consts Conc.TimeWheel.
Import ListNotations.
Open Scope nat_scope.

Definition wf (w : wheel) : Prop := (0 < w_size w /\ w_cur w < w_size w /\ length (w_gen w) = w_size w)%nat.

Lemma bump_length : forall l i, length (bump i l) = length l.
Proof. induction l as [|g t IH]; intros [|i]; cbn; auto. Qed.
Lemma bump_same : forall l i, (i < length l)%nat -> nth i (bump i l) 0 = S (nth i l 0).
Proof. induction l as [|g t IH]; intros [|i] H; cbn in *; try lia; auto. apply IH. lia. Qed.
Lemma bump_other : forall l i j, i <> j -> nth j (bump i l) 0 = nth j l 0.
Proof. induction l as [|g t IH]; intros [|i] [|j] H; cbn; try reflexivity; try congruence. apply IH. congruence. Qed.

Lemma wf_new : forall size, (0 < size)%nat -> wf (new_wheel size).
Proof. intros size H. unfold wf, new_wheel; cbn. rewrite repeat_length. lia. Qed.
Lemma wf_tick : forall w, wf w -> wf (wtick w).
Proof.
  intros w [H1 [H2 H3]]. unfold wf, wtick; cbn. rewrite bump_length. repeat split; auto.
  apply Nat.mod_upper_bound. lia.
Qed.

Lemma slot_not_cur : forall size cur pos, (cur < size -> 1 <= pos -> pos < size -> (cur + pos) mod size <> cur)%nat.
Proof.
  intros size cur pos Hc H1 Hp. destruct (Nat.lt_ge_cases (cur + pos) size) as [Hs|Hs].
  - rewrite Nat.mod_small by exact Hs. lia.
  - replace (cur + pos)%nat with ((cur + pos - size) + 1 * size)%nat by lia.
    rewrite Nat.mod_add by lia. rewrite Nat.mod_small by lia. lia.
Qed.
Lemma slot_shift : forall size cur p, (0 < size -> ((cur + 1) mod size + p) mod size = (cur + S p) mod size)%nat.
Proof. intros size cur p H. rewrite Nat.add_mod_idemp_l by lia. f_equal. lia. Qed.

(* the channel in slot (cur + pos) survives pos ticks and is closed by the next one *)
Lemma fires_at : forall pos w, wf w -> (pos < w_size w)%nat ->
  let target := ((w_cur w + pos) mod w_size w)%nat in
  (forall n, (n <= pos)%nat -> nth target (w_gen (wticks n w)) 0 = nth target (w_gen w) 0) /\
  nth target (w_gen (wticks (S pos) w)) 0 = S (nth target (w_gen w) 0).
Proof.
  induction pos as [|p IH]; intros w Hwf Hp target.
  - destruct Hwf as [H1 [H2 H3]]. assert (Ht : target = w_cur w) by (unfold target; rewrite Nat.add_0_r; apply Nat.mod_small; exact H2).
    split.
    + intros n Hn. assert (n = 0)%nat by lia. subst n. reflexivity.
    + cbn [wticks wtick w_gen]. rewrite Ht. apply bump_same. lia.
  - pose proof (wf_tick w Hwf) as Hwf'. destruct Hwf as [H1 [H2 H3]].
    assert (Hsz : w_size (wtick w) = w_size w) by reflexivity.
    specialize (IH (wtick w) Hwf' ltac:(rewrite Hsz; lia)). cbv zeta in IH.
    assert (Ht : ((w_cur (wtick w) + p) mod w_size (wtick w))%nat = target).
    { unfold target. cbn [wtick w_cur w_size]. apply slot_shift; exact H1. }
    rewrite Ht in IH. destruct IH as [IHa IHb].
    assert (Hkeep : nth target (w_gen (wtick w)) 0 = nth target (w_gen w) 0).
    { cbn [wtick w_gen]. apply bump_other. intros E. apply (slot_not_cur (w_size w) (w_cur w) (S p)); try lia; unfold target in E; congruence. }
    split.
    + intros [|n] Hn; [reflexivity|]. cbn [wticks]. rewrite IHa by lia. exact Hkeep.
    + change (wticks (S (S p)) w) with (wticks (S p) (wtick w)). rewrite IHb, Hkeep. reflexivity.
Qed.

Lemma bump_ge : forall l i j, nth j l 0 <= nth j (bump i l) 0.
Proof. induction l as [|g t IH]; intros [|i] [|j]; cbn; try lia. apply IH. Qed.
Lemma gen_mono : forall n w j, (nth j (w_gen w) 0 <= nth j (w_gen (wticks n w)) 0)%nat.
Proof.
  induction n as [|n IH]; intros w j; cbn [wticks]; [lia|].
  eapply Nat.le_trans; [|apply IH]. cbn [wtick w_gen]. apply bump_ge.
Qed.
Lemma wticks_add : forall a b w, wticks (a + b) w = wticks b (wticks a w).
Proof. induction a as [|a IH]; intros b w; cbn; auto. Qed.

(* After(timeout): not closed during the first pos ticks, closed from tick pos+1 on, for ever *)
Theorem after_fires : forall t timeout w ch, (0 < t)%N -> wf w -> after t timeout w = Some ch ->
  let pos := after_pos t timeout in
  (forall n, (n <= pos)%nat -> closed (wticks n w) ch = false) /\
  (forall n, (pos < n)%nat -> closed (wticks n w) ch = true).
Proof.
  intros t timeout w ch Ht Hwf Ha pos. unfold after in Ha.
  destruct (t * N.of_nat (w_size w) <=? timeout)%N eqn:Hm; [discriminate|]. inversion Ha; subst ch; clear Ha.
  assert (Hp : (pos < w_size w)%nat).
  { unfold pos, after_pos. apply N.leb_gt in Hm.
    assert (timeout / t < N.of_nat (w_size w))%N by (apply N.div_lt_upper_bound; lia). destruct Hwf as [H1 _]. lia. }
  destruct (fires_at pos w Hwf Hp) as [Hkeep Hfire]. fold pos. unfold closed; cbn [fst snd]. split.
  - intros n Hn. rewrite (Hkeep n Hn). rewrite Nat.eqb_refl. reflexivity.
  - intros n Hn. replace n with (S pos + (n - S pos))%nat by lia. rewrite wticks_add.
    pose proof (gen_mono (n - S pos) (wticks (S pos) w) ((w_cur w + pos) mod w_size w)) as Hmono.
    rewrite Hfire in Hmono. apply negb_true_iff. apply Nat.eqb_neq. lia.
Qed.

Lemma rt_tick_multiple : forall q, rt_tick (c_rtimer_accuracy * q) = q.
Proof. intros q. unfold rt_tick. rewrite N.mul_comm. apply N.div_mul. discriminate. Qed.

(* rtimer.After(T) for T a positive multiple of the accuracy (every duration configured in milliseconds is): the channel
   is closed by exactly the accuracy-th tick, and After does not panic *)
Theorem rt_after_pos : forall q, (0 < q)%N -> after_pos (rt_tick (c_rtimer_accuracy * q)) (c_rtimer_accuracy * q) = pred (N.to_nat c_rtimer_accuracy).
Proof. intros q Hq. unfold after_pos. rewrite rt_tick_multiple, N.div_mul by lia. reflexivity. Qed.
Theorem rt_after_no_panic : forall q w, (0 < q)%N -> w_size w = rt_size -> rt_after (c_rtimer_accuracy * q) w <> None.
Proof.
  intros q w Hq Hs. unfold rt_after, after. rewrite rt_tick_multiple, Hs.
  (* the wheel has accuracy + 1 slots (rt_size): one turn of it is longer than T *)
  rewrite (proj2 (N.leb_gt _ _)); [discriminate|]. unfold rt_size, c_rtimer_accuracy. lia.
Qed.
(* durations in milliseconds are multiples of the accuracy (time.Millisecond = 10^6 ns) *)
Theorem ms_is_multiple : forall ms, exists q, (ms * 1000000 = c_rtimer_accuracy * q)%N.
Proof. intros ms. exists (ms * 50000)%N. unfold c_rtimer_accuracy. lia. Qed.
(* a duration that is not such a multiple can make After panic: 39 ns *)
Example rt_after_can_panic : rt_after 39 (new_wheel rt_size) = None.
Proof. vm_compute. reflexivity. Qed.
Example rt_after_600ms : exists ch, rt_after 600000000 (new_wheel rt_size) = Some ch /\
  closed (wticks 19 (new_wheel rt_size)) ch = false /\ closed (wticks 20 (new_wheel rt_size)) ch = true.
Proof. eexists. vm_compute. repeat split; reflexivity. Qed.

(* in time: ticks come every t; if the first tick after the After call comes phi later (0 < phi <= t) the accuracy-th tick
   comes at phi + (accuracy-1)*t, i.e. later than T - T/accuracy and no later than T, for T = accuracy * t *)
Theorem fire_time_window : forall t phi, (0 < phi <= t)%N ->
  let T := (c_rtimer_accuracy * t)%N in
  let fire := (phi + (c_rtimer_accuracy - 1) * t)%N in
  (T - T / c_rtimer_accuracy < fire /\ fire <= T)%N.
Proof.
  intros t phi H T fire. unfold T, fire. fold (rt_tick (c_rtimer_accuracy * t)). rewrite rt_tick_multiple. unfold c_rtimer_accuracy. lia.
Qed.

(* After never leaves the table of wheels locked, whether it returns a channel or panics *)
Theorem rt_after_unlocks : forall T w, snd (rt_after_full T w) = false.
Proof. intros T w. unfold rt_after_full. destruct (rt_tick T =? 0)%N; [reflexivity|]. destruct (rt_after T w); reflexivity. Qed.
(* it panics for every duration below the accuracy (the read timeout 0 included) *)
Theorem rt_after_tiny_panics : forall T, (T < c_rtimer_accuracy)%N -> rt_panics T = true.
Proof.
  intros T H. unfold rt_panics, rt_after_full, rt_tick. rewrite (N.div_small T c_rtimer_accuracy H). reflexivity.
Qed.
