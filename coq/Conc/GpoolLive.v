(* C19 — progress of the pool (liveness-style statements about the transition system of Gpool.v).
   A weighted count of the work left ([measure]) drops with every step of the pool's own goroutines, of a running job
   and of a Release in progress, and rises by at most 8 with a submit. Hence: the pool cannot run for ever on its own
   (no livelock), every run of internal steps is bounded, a state in which no internal step is enabled has finished
   every job sent into it (before Release) or has returned from Release — so under ANY schedule that does not simply
   stop the pool, every submitted job is run and Release returns. *)
From Coq Require Import List Arith NArith Lia Bool Permutation.
From TarsV Require Import Conc.Gpool Conc.GpoolProofs.
Import ListNotations.

(* The weights make every internal step lower [measure] by at least 1.  A queued job weighs 8: DTake raises the dispatcher by 7
   (DSel 3 -> DHave 10); DWorker gives back 1 and a WorkerQueue slot; Hand's 6 (DHand 9 -> DSel 3) pay for the worker's 2 -> 7.
   The worker then counts down 7, 6, 5 to WReg 4, and its registration (4 -> WWait 2) pays for its slot in WorkerQueue.  The stop
   loop counts the dispatcher down from 2 and each worker from 2 to 0.  A submit adds the 8 of a queued job (SubmitH: 7). *)
Definition wcost (p : wpc) : nat :=
  match p with WDone => 0 | WStopping => 1 | WWait => 2 | WReg => 4 | WEnded _ => 5 | WRun _ => 6 | WGot _ => 7 end.
Definition dcost (d : dpc) : nat :=
  match d with DDone => 0 | DAck => 1 | DCollect _ | DStop _ _ | DWaitAck _ _ => 2 | DSel => 3 | DHand _ _ => 9 | DHave _ => 10 end.
Definition rcost (r : rpc) : nat := match r with RDone => 0 | _ => 1 end.
Fixpoint wsum (l : list wpc) : nat := match l with [] => 0 | p :: r => wcost p + wsum r end.
Definition measure (s : st) : nat :=
  8 * length (jobq s) + length (wq s) + wsum (wk s) + dcost (dp s) + rcost (rp s).

Lemma wsum_upd l : forall w p x, nth_error l w = Some p -> wsum (upd w x l) + wcost p = wsum l + wcost x.
Proof.
  induction l as [|a l IH]; intros [|w] p x H; cbn [nth_error upd wsum] in *; try discriminate.
  - inversion H; subst. lia.
  - specialize (IH _ _ x H). lia.
Qed.

Definition is_submit (l : label) : bool := match l with Submit _ | SubmitH _ => true | _ => false end.
Definition ninternal (ls : list label) : nat := length (filter internal ls).
Definition nsubmit (ls : list label) : nat := length (filter is_submit ls).

Section Live.
Variable W Q : nat.
Notation step := (step W Q). Notation run := (run W Q).
Notation init := (init W). Notation reachable := (reachable W Q).

Lemma step_measure s l s' : step s l = Some s' ->
  measure s' + (if internal l then 1 else 0) <= measure s + (if is_submit l then 8 else 0).
Proof.
  intros Hs. apply step_Step in Hs. destruct Hs; destruct s; unfold measure; simp; subst;
    rewrite ?app_length; cbn [length dcost rcost internal is_submit]; try lia.
  all: match goal with |- context [upd _ ?x _] => pose proof (wsum_upd _ _ _ x Hw) end; cbn [wcost] in *; lia.
Qed.

Lemma internal_step_decreases s l s' : step s l = Some s' -> internal l = true -> measure s' < measure s.
Proof. intros Hs Hi. apply step_measure in Hs. rewrite Hi in Hs. destruct l; try discriminate; cbn [is_submit] in Hs; lia. Qed.

(* no livelock: in every execution the number of internal steps is bounded by the work present at its start plus 8 per submit *)
Theorem work_bounded ls : forall s s', run s ls = Some s' ->
  ninternal ls + measure s' <= measure s + 8 * nsubmit ls.
Proof.
  unfold ninternal, nsubmit. induction ls as [|l ls IH]; cbn [Gpool.run filter]; intros s s' Hr.
  - injection Hr as <-. cbn. lia.
  - destruct (step s l) as [s1|] eqn:E; [|discriminate]. specialize (IH _ _ Hr). apply step_measure in E.
    destruct (internal l), (is_submit l); cbn [length]; lia.
Qed.

Corollary internal_runs_bounded ls s s' : Forall (fun l => internal l = true) ls -> run s ls = Some s' ->
  length ls + measure s' <= measure s.
Proof.
  intros Hf Hr. pose proof (work_bounded ls s s' Hr) as H. unfold ninternal, nsubmit in H.
  assert (E : filter internal ls = ls /\ filter is_submit ls = []).
  { clear Hr H. induction Hf as [|l ls Hl _ [IH1 IH2]]; cbn; [auto|]. rewrite Hl, IH1. destruct l; try discriminate; auto. }
  destruct E as [E1 E2]. rewrite E1, E2 in H. cbn [length] in H. lia.
Qed.

Definition cands (s : st) : list label :=
  [DTake; DWorker; Hand; RelCall; DColTake; DColFin; StopSend; StopAck; RelRet; RelRetLog] ++
  flat_map (fun w => [WorkerReg w; JStart w; JEnd w; JobEnd w]) (seq 0 (length (wk s))).
Definition enabled (s : st) (l : label) : bool := match step s l with Some _ => true | None => false end.
Definition next_internal (s : st) : option label := find (enabled s) (cands s).

Lemma cands_internal s l : In l (cands s) -> internal l = true.
Proof.
  unfold cands. intros H. apply in_app_or in H. destruct H as [H|H].
  - cbn in H. repeat (destruct H as [<-|H]; [reflexivity|]). contradiction.
  - apply in_flat_map in H. destruct H as (w & _ & H). cbn in H.
    repeat (destruct H as [<-|H]; [reflexivity|]). contradiction.
Qed.
Lemma cands_complete s l s' : step s l = Some s' -> internal l = true -> In l (cands s).
Proof.
  intros Hs Hi. unfold cands. apply in_or_app.
  apply step_Step in Hs. destruct Hs; try discriminate; try (left; cbn; tauto); right; apply in_flat_map; exists w.
  all: apply nth_some_lt in Hw; split; [apply in_seq; lia|cbn; tauto].
Qed.
Lemma next_some s l : next_internal s = Some l -> internal l = true /\ exists s', step s l = Some s'.
Proof.
  unfold next_internal. intros H. apply find_some in H. destruct H as [Hin He]. split; [eapply cands_internal; eauto|].
  unfold enabled in He. destruct (step s l); [eauto|discriminate].
Qed.
Lemma next_none s : next_internal s = None -> forall l, internal l = true -> step s l = None.
Proof.
  unfold next_internal. intros H l Hi. destruct (step s l) as [s'|] eqn:E; [|reflexivity].
  pose proof (find_none _ _ H l (cands_complete _ _ _ E Hi)) as Hn. unfold enabled in Hn. rewrite E in Hn. discriminate.
Qed.

Definition quiescent (s : st) : Prop := forall l, internal l = true -> step s l = None.

(* from ANY state the pool reaches, by its own steps, a state in which none of its steps is enabled *)
Lemma run_to_quiescence_n n : forall s, measure s < n ->
  exists ls s', Forall (fun l => internal l = true) ls /\ run s ls = Some s' /\ quiescent s'.
Proof.
  induction n as [|n IH]; intros s Hm; [lia|]. destruct (next_internal s) as [l|] eqn:E.
  - destruct (next_some _ _ E) as (Hi & s1 & Hs). pose proof (internal_step_decreases _ _ _ Hs Hi) as Hd.
    destruct (IH s1) as (ls & s' & Hf & Hr & Hq); [lia|].
    exists (l :: ls), s'. repeat split; auto. cbn. rewrite Hs. exact Hr.
  - exists [], s. repeat split; auto. exact (next_none _ E).
Qed.
Lemma run_to_quiescence s : exists ls s', Forall (fun l => internal l = true) ls /\ run s ls = Some s' /\ quiescent s'.
Proof. apply (run_to_quiescence_n (S (measure s))). lia. Qed.

Theorem quiescent_state s : 1 <= W -> reachable s -> quiescent s ->
  (rp s = RNot /\ jobq s = [] /\ dp s = DSel /\ occupying (wk s) = [] /\ Permutation (subm s) (fin s) /\
   (forall w p, nth_error (wk s) w = Some p -> p = WWait /\ In w (wq s)))
  \/ rp s = RDone.
Proof.
  intros HW Hre Hq.
  assert (Hno : ~ exists l s', internal l = true /\ step s l = Some s').
  { intros (l & s' & Hi & Hs). rewrite (Hq l Hi) in Hs. discriminate. }
  (* so none of the situations in which [no_deadlock] finds a step holds *)
  assert (Hrel : rp s = RCalled \/ rp s = RSent \/ rp s = RAcked -> False) by (intros X; apply Hno, no_deadlock; auto).
  assert (Hpend : rp s = RNot -> jobq s <> [] \/ held (dp s) <> [] -> False) by (intros X Y; apply Hno, no_deadlock; auto).
  destruct (rp s) eqn:Hrp; [left|exfalso; apply Hrel; auto ..|now right].
  destruct (reachable_good _ _ _ Hre) as [G _]. pose proof G as [_ F S _ _ R _]. rewrite Hrp in R. destruct R as [R Hnd].
  (* nothing is queued or in the dispatcher's hand: the dispatcher is at its select *)
  destruct (jobq s) as [|j0 r0] eqn:Ej; [|exfalso; apply (Hpend eq_refl); left; discriminate].
  destruct (dp s) eqn:Hd; try discriminate R; try (exfalso; apply (Hpend eq_refl); right; discriminate).
  assert (Hwk : forall w p, nth_error (wk s) w = Some p -> p = WWait /\ In w (wq s)).
  { intros w p Hw. destruct (worker_cases W Q s w p G Hw) as [[l Ho]|[X|[X|X]]]; [exfalso|exact X|rewrite Hd in X; discriminate X|].
    - destruct (own_step_enabled W Q s w p l Hw Ho) as (Hi & s' & Hs). eapply Hno, moves; eauto.
    - subst p. apply ndone_pos in Hw. lia. }
  assert (Ho : occupying (wk s) = []) by (apply jobs_none; intros w p Hw; now destruct (Hwk w p Hw) as [-> _]).
  repeat split; auto; try apply (Hwk w p H). rewrite F, S, Ho. cbn. now rewrite app_nil_r.
Qed.

Lemma internal_keeps s l s' : step s l = Some s' -> internal l = true ->
  subm s' = subm s /\ calling s' = calling s /\ (rp s = RNot <-> rp s' = RNot).
Proof.
  intros Hs Hi. apply step_Step in Hs. destruct Hs; try discriminate; simp; repeat split; auto; congruence.
Qed.
Lemma internal_run_keeps ls : forall s s', Forall (fun l => internal l = true) ls -> run s ls = Some s' ->
  subm s' = subm s /\ calling s' = calling s /\ (rp s = RNot <-> rp s' = RNot).
Proof.
  induction ls as [|l ls IH]; cbn; intros s s' Hf Hr. { injection Hr as <-. tauto. }
  destruct (step s l) as [s1|] eqn:E; [|discriminate]. inversion Hf; subst.
  destruct (internal_keeps _ _ _ E H1) as (A & B & C), (IH _ _ H2 Hr) as (A' & B' & C'). rewrite A', B', C. auto.
Qed.

(* a run of the pool's own steps that cannot be extended: before Release everything sent has finished and the pool is idle,
   after a call of Release it has returned *)
Lemma run_to_end s ls s' : 1 <= W -> reachable s -> Forall (fun l => internal l = true) ls -> run s ls = Some s' -> quiescent s' ->
  subm s' = subm s /\ calling s' = calling s /\
  (rp s = RNot /\ jobq s' = [] /\ dp s' = DSel /\ occupying (wk s') = [] /\ Permutation (subm s') (fin s') /\
   (forall w p, nth_error (wk s') w = Some p -> p = WWait /\ In w (wq s'))
   \/ rp s <> RNot /\ rp s' = RDone).
Proof.
  intros HW Hre Hf Hrun Hq. destruct (internal_run_keeps _ _ _ Hf Hrun) as (A & B & C). split; [exact A|]. split; [exact B|].
  destruct (quiescent_state s' HW (reachable_run _ _ _ _ _ Hre Hrun) Hq) as [(E & H)|E]; [left; tauto|right].
  split; [|exact E]. rewrite C, E. discriminate.
Qed.

(* every job sent into a pool that is not being released can be brought to completion by steps of the pool and of jobs *)
Theorem progress s j : 1 <= W -> reachable s -> rp s = RNot -> In j (subm s) ->
  exists ls s', Forall (fun l => internal l = true) ls /\ run s ls = Some s' /\ In j (fin s').
Proof.
  intros HW Hr Hrp Hj. destruct (run_to_quiescence s) as (ls & s' & Hf & Hrun & Hq).
  exists ls, s'. repeat split; auto.
  destruct (run_to_end s ls s' HW Hr Hf Hrun Hq) as (A & _ & [(_ & _ & _ & _ & HP & _)|[X _]]); [|contradiction].
  eapply Permutation_in; [exact HP|]. now rewrite A.
Qed.

(* ... and no schedule can avoid it: EVERY run of pool/job steps from such a state is at most [measure s] long, and when it
   cannot be extended every job sent into the pool has finished, the queue is empty and all W workers are registered again *)
Theorem every_schedule_completes s ls s' : 1 <= W -> reachable s -> rp s = RNot ->
  Forall (fun l => internal l = true) ls -> run s ls = Some s' ->
  length ls <= measure s /\
  (quiescent s' -> Permutation (subm s) (fin s') /\ jobq s' = [] /\ occupying (wk s') = [] /\ length (wq s') = W).
Proof.
  intros HW Hr Hrp Hf Hrun. split. { pose proof (internal_runs_bounded _ _ _ Hf Hrun). lia. }
  intros Hq. destruct (run_to_end s ls s' HW Hr Hf Hrun Hq) as (A & _ & [(_ & Hj & _ & Ho & HP & Hw)|[X _]]); [|contradiction].
  rewrite <- A. repeat split; auto.
  pose proof (reachable_run _ _ _ _ _ Hr Hrun) as Hr'. pose proof (g_len _ _ s' (proj1 (reachable_good _ _ _ Hr'))) as HL.
  apply Nat.le_antisymm; [now apply worker_queue_within_capacity with (Q := Q)|].
  rewrite <- HL, <- (seq_length (length (wk s')) 0). apply NoDup_incl_length; [apply seq_NoDup|].
  intros w Hw'. apply in_seq in Hw'. destruct (nth_error (wk s') w) eqn:E; [apply (Hw w w0 E)|]. apply nth_error_None in E. lia.
Qed.

(* a blocked submitter: the pool can always make room for its send by its own steps *)
Theorem blocked_submit_gets_room s j : 1 <= W -> reachable s -> rp s = RNot -> In j (calling s) ->
  exists ls s', Forall (fun l => internal l = true) ls /\ run s ls = Some s' /\
    exists s'', step s' (if Q =? 0 then SubmitH j else Submit j) = Some s''.
Proof.
  intros HW Hr Hrp Hj. destruct (run_to_quiescence s) as (ls & s' & Hf & Hrun & Hq).
  exists ls, s'. repeat split; auto.
  destruct (run_to_end s ls s' HW Hr Hf Hrun Hq) as (_ & B & [(_ & Hjq & Hd & _)|[X _]]); [|contradiction].
  rewrite <- B in Hj. destruct (submit_enabled_when_room W Q s' j Hj) as [S1 S2].
  destruct (Q =? 0) eqn:EQ; [now apply S2|]. apply S1. rewrite Hjq. cbn. apply Nat.eqb_neq in EQ. lia.
Qed.

(* once Release has been called it can be brought to its return by steps of the pool and of jobs; every such run is bounded and
   can only stop with Release returned *)
Theorem release_returns s : 1 <= W -> reachable s -> rp s <> RNot ->
  (exists ls s', Forall (fun l => internal l = true) ls /\ run s ls = Some s' /\ rp s' = RDone) /\
  (forall ls s', Forall (fun l => internal l = true) ls -> run s ls = Some s' ->
     length ls <= measure s /\ (quiescent s' -> rp s' = RDone)).
Proof.
  intros HW Hr Hrp.
  assert (G : forall ls s', Forall (fun l => internal l = true) ls -> run s ls = Some s' -> quiescent s' -> rp s' = RDone).
  { intros ls s' Hf Hrun Hq. now destruct (run_to_end s ls s' HW Hr Hf Hrun Hq) as (_ & _ & [(X & _)|[_ X]]). }
  split.
  - destruct (run_to_quiescence s) as (ls & s' & Hf & Hrun & Hq). exists ls, s'. repeat split; eauto.
  - intros ls s' Hf Hrun. split; [|eauto]. pose proof (internal_runs_bounded _ _ _ Hf Hrun). lia.
Qed.
End Live.

(* a concrete instance: two workers, a queue of one, three jobs sent (one running, one in the dispatcher's hand, one
   queued, the second worker not yet registered); the pool finishes all of them on its own within [measure] steps *)
Fixpoint drive (W Q n : nat) (s : st) : st :=
  match n with
  | O => s
  | S k => match next_internal W Q s with
           | Some l => match step W Q s l with Some s' => drive W Q k s' | None => s end
           | None => s end
  end.
Example live_example :
  let s := match run 2 1 (init 2) [SubCall 1; SubCall 2; SubCall 3; Submit 1; DTake; Submit 2; WorkerReg 0; DWorker; Hand; DTake; Submit 3]%N with
           | Some s => s | None => init 2 end in
  subm s = [1; 2; 3]%N /\ fin s = [] /\ jobq s = [3]%N /\ measure s = 30 /\ next_internal 2 1 s = Some (JStart 0) /\
  let s' := drive 2 1 30 s in
  next_internal 2 1 s' = None /\ fin s' = [1; 2; 3]%N /\ jobq s' = [] /\ wq s' = [0; 1].
Proof. vm_compute. repeat split. Qed.
