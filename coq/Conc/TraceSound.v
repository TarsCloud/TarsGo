(* C09: every run of the call-life LTS, seen through the harness's observation points (CallLife.project), is accepted by
   the specification machine that validates the implementation's event traces (CallLife.accepts / arun). *)
From Coq Require Import List NArith ZArith Bool Arith Lia ZifyBool ZifyNat ZifyN.
From TarsV Require Import Base.Lts Conc.CallLife Conc.CallLifeProofs.
Import ListNotations.
Open Scope N_scope.

Lemma aget_aset_eq : forall a c k st rt rc sd er, aget (mkast (aset a c k) st rt rc sd er) c = k.
Proof. intros a c k st rt rc sd er. unfold aget, aset. cbn [acs find fst snd]. rewrite Nat.eqb_refl. reflexivity. Qed.

Lemma find_filter_neq : forall (l : list (nat * acall)) c c', c <> c' ->
  find (fun x => Nat.eqb (fst x) c') (filter (fun x => negb (Nat.eqb (fst x) c)) l) = find (fun x => Nat.eqb (fst x) c') l.
Proof.
  induction l as [|[j k] t IH]; intros c c' H; cbn; [reflexivity|].
  destruct (Nat.eqb j c) eqn:E1; cbn.
  - apply Nat.eqb_eq in E1. subst j. destruct (Nat.eqb c c') eqn:E2; [apply Nat.eqb_eq in E2; congruence|]. apply IH; exact H.
  - destruct (Nat.eqb j c'); [reflexivity|]. apply IH; exact H.
Qed.

Lemma aget_aset_neq : forall a c k c' st rt rc sd er, c <> c' -> aget (mkast (aset a c k) st rt rc sd er) c' = aget a c'.
Proof.
  intros a c k c' st rt rc sd er H. unfold aget, aset. cbn [acs find fst snd].
  destruct (Nat.eqb c c') eqn:E; [apply Nat.eqb_eq in E; congruence|]. rewrite find_filter_neq by exact H. reflexivity.
Qed.

Lemma keys_filter : forall (l : list (nat * acall)) c, NoDup (map fst l) -> NoDup (map fst (filter (fun x => negb (Nat.eqb (fst x) c)) l)) /\
  ~ In c (map fst (filter (fun x => negb (Nat.eqb (fst x) c)) l)).
Proof.
  induction l as [|[j k] t IH]; intros c H; cbn; [split; [constructor|tauto]|].
  inversion H; subst. destruct (IH c H3) as [IH1 IH2]. destruct (Nat.eqb j c) eqn:E; cbn.
  - split; assumption.
  - split.
    + constructor; [|exact IH1]. intros Hin. apply H2. apply in_map_iff in Hin. destruct Hin as [x [Hx Hin]].
      apply filter_In in Hin. apply in_map_iff. exists x. tauto.
    + intros [A|A]; [apply Nat.eqb_neq in E; congruence|contradiction].
Qed.

Lemma aset_keys : forall a c k, NoDup (map fst (acs a)) -> NoDup (map fst (aset a c k)).
Proof. intros a c k H. unfold aset. cbn. destruct (keys_filter (acs a) c H). constructor; assumption. Qed.

Lemma aset_in : forall a c k c' k', In (c', k') (aset a c k) -> (c' = c /\ k' = k) \/ (c' <> c /\ In (c', k') (acs a)).
Proof.
  intros a c k c' k' H. unfold aset in H. destruct H as [H|H]; [inversion H; auto|].
  apply filter_In in H. destruct H as [H1 H2]. cbn in H2. right. split; [|exact H1].
  intros ->. rewrite Nat.eqb_refl in H2. discriminate.
Qed.

Lemma find_in_nodup : forall (l : list (nat * acall)) c k, NoDup (map fst l) -> In (c, k) l ->
  find (fun x => Nat.eqb (fst x) c) l = Some (c, k).
Proof.
  induction l as [|[j kj] t IH]; intros c k Hn Hin; [contradiction|]. cbn. inversion Hn; subst.
  destruct Hin as [Hin|Hin].
  - inversion Hin; subst. rewrite Nat.eqb_refl. reflexivity.
  - destruct (Nat.eqb j c) eqn:E; [|apply IH; assumption]. apply Nat.eqb_eq in E. subst j.
    exfalso. apply H1. apply in_map_iff. exists (c, k). auto.
Qed.
Lemma aget_in : forall a c k, NoDup (map fst (acs a)) -> In (c, k) (acs a) -> aget a c = k.
Proof. intros a c k Hn Hin. unfold aget. rewrite (find_in_nodup _ _ _ Hn Hin). reflexivity. Qed.
Lemma aget_none : forall a c, (forall k, ~ In (c, k) (acs a)) -> ph (aget a c) = PhNone.
Proof.
  intros a c H. unfold aget. destruct (find (fun x => Nat.eqb (fst x) c) (acs a)) as [[j k]|] eqn:E; [|reflexivity].
  apply find_some in E. destruct E as [Hin He]. cbn in He. apply Nat.eqb_eq in He. subst j. exfalso. apply (H k Hin).
Qed.
Lemma aget_some_in : forall a c, ph (aget a c) <> PhNone -> In (c, aget a c) (acs a).
Proof.
  intros a c H. unfold aget in *. destruct (find (fun x => Nat.eqb (fst x) c) (acs a)) as [[j k]|] eqn:E; [|cbn in H; congruence].
  apply find_some in E. destruct E as [Hin He]. cbn in He. apply Nat.eqb_eq in He. subst j. exact Hin.
Qed.

Lemma id_of_inj : forall i j, id_of i = id_of j -> i = j.
Proof. unfold id_of. intros. lia. Qed.
Lemma id_of_nz : forall i, (id_of i =? 0) = false.
Proof. unfold id_of. intros. lia. Qed.
Lemma memN_in : forall x l, memN x l = true <-> In x l.
Proof.
  intros x l. unfold memN. rewrite existsb_exists. split.
  - intros [y [Hy He]]. apply N.eqb_eq in He. subst. exact Hy.
  - intros H. exists x. split; [exact H|apply N.eqb_refl].
Qed.

Definition is_ret (k : call) : bool := match k_pc k with Returned => true | _ => false end.
Definition nret (s : state) : Z := cnt is_ret (calls s).

Lemma cnt_le_length : forall f l, (cnt f l <= Z.of_nat (length l))%Z.
Proof. induction l as [|h t IH]; cbn [cnt length]; [lia|destruct (f h); lia]. Qed.

Lemma cnt_disjoint : forall f g l, (forall x, f x = true -> g x = false) -> (cnt f l + cnt g l <= Z.of_nat (length l))%Z.
Proof.
  intros f g l Hd. induction l as [|x t IH]; cbn [cnt length]; [lia|].
  destruct (f x) eqn:E; [rewrite (Hd _ E); lia|destruct (g x); lia].
Qed.
Lemma cnt_two_bound : forall f g l i k, (forall x, f x = true -> g x = false) -> nth_error l i = Some k -> f k = false -> g k = false ->
  (cnt f l + cnt g l + 1 <= Z.of_nat (length l))%Z.
Proof.
  induction l as [|h t IH]; intros [|i] k Hd Hk Hf Hg; cbn in Hk; try discriminate.
  - inversion Hk; subst. cbn [cnt length]. rewrite Hf, Hg. pose proof (cnt_disjoint f g t Hd). lia.
  - specialize (IH i k Hd Hk Hf Hg). cbn [cnt length]. destruct (f h) eqn:E; [rewrite (Hd _ E); lia|destruct (g h); lia].
Qed.
Lemma cnt_and_le : forall f g l, (cnt (fun k => f k && g k) l <= cnt f l)%Z.
Proof. induction l as [|h t IH]; cbn [cnt]; [lia|]. destruct (f h), (g h); cbn [andb]; lia. Qed.
Lemma cnt_all_true : forall f l, (forall i k, nth_error l i = Some k -> f k = true) -> cnt f l = Z.of_nat (length l).
Proof.
  induction l as [|h t IH]; intros H; cbn [cnt length]; [reflexivity|].
  rewrite (H O h eq_refl), IH; [lia|]. intros i k Hk. apply (H (S i) k Hk).
Qed.

(* ---------- P. the pending-reply table has as many entries as there are calls between Store and Delete ---------- *)
Definition InvP (s : state) : Prop := Z.of_nat (length (resp s)) = cnt inside (calls s).

Lemma remove_nat_length : forall i l, NoDup l -> In i l -> S (length (remove_nat i l)) = length l.
Proof.
  induction l as [|h t IH]; intros Hn Hin; [contradiction|]. inversion Hn; subst. unfold remove_nat in *. cbn [filter].
  destruct (Nat.eqb i h) eqn:E; cbn [negb].
  - apply Nat.eqb_eq in E. subst h. cbn [length]. f_equal.
    assert (Hf : filter (fun j => negb (Nat.eqb i j)) t = t).
    { clear -H1. induction t as [|x t IH]; [reflexivity|]. cbn. destruct (Nat.eqb i x) eqn:E.
      - apply Nat.eqb_eq in E. subst. exfalso. apply H1. left; reflexivity.
      - cbn. f_equal. apply IH. intros A. apply H1. right; exact A. }
    rewrite Hf. reflexivity.
  - cbn [length]. f_equal. apply IH; [exact H2|]. destruct Hin as [->|Hin]; [rewrite Nat.eqb_refl in E; discriminate|exact Hin].
Qed.

Lemma InvP_step : forall c s l s', InvA s -> InvP s -> step c s l = Some s' -> InvP s'.
Proof.
  intros c s l s' [_ _ Hr Hd] HP H. unfold InvP in *. destruct (step_spec _ _ _ _ H) as (Hc & _ & _ & _ & _ & Er & _).
  rewrite Er. destruct (subject s l) as [i|] eqn:Hs.
  - destruct Hc as (k & Hk & Hp & ->). rewrite (cnt_upd _ _ _ _ _ Hk), <- HP. unfold inside at 1. rewrite Hp.
    destruct l; try discriminate Hs; cbn in Hs |- *; try injection Hs as ->; try lia.
    + destruct (conn_open s); cbn; lia.
    + unfold set_enq. destruct (k_ow k); cbn; lia.
    + (* LClean: the entry is there, once *)
      assert (Hin : In i (resp s)) by (apply Hr; exists k; unfold inside; rewrite Hp; auto).
      pose proof (remove_nat_length i (resp s) Hd Hin). lia.
  - rewrite Hc. destruct l; try discriminate Hs; try exact HP. rewrite cnt_app. cbn. lia.
Qed.
Theorem InvP_reach : forall c s, reach c s -> InvP s.
Proof. intros c. induction 1; [reflexivity|eapply InvP_step; eauto using InvA_reach]. Qed.

Lemma inside_not_ret : forall x, inside x = true -> is_ret x = false.
Proof. intros x. unfold inside, is_ret. destruct (k_pc x); intros; try discriminate; reflexivity. Qed.
Lemma counted_not_ret : forall x, counted x = true -> is_ret x = false.
Proof. intros x. unfold counted, is_ret. destruct (k_pc x); intros; try discriminate; reflexivity. Qed.
Lemma invoked_not_ret : forall x, invoked x = true -> is_ret x = false.
Proof. intros x. unfold invoked, is_ret. destruct (k_pc x); intros; try discriminate; reflexivity. Qed.

(* what the specification machine checks at a return: with call i at Cleaned, its proxy's queueLen, invokeNum without
   this call and the table each count only calls that have started, have not returned and are not call i *)
Lemma counters_at_return c s i k : reach c s -> nth_error (calls s) i = Some k -> k_pc k = Cleaned ->
  let ub := (Z.of_nat (length (calls s)) - nret s - 1)%Z in
  (queueLen s (k_px k) <= ub /\ invokeNum s - 1 <= ub /\ Z.of_nat (length (resp s)) <= ub)%Z.
Proof.
  intros H Hk Hp. destruct (InvA_reach c s H) as [Aq An _ _]. pose proof (InvP_reach c s H) as HP. unfold InvP in HP.
  assert (Hr : is_ret k = false) by (unfold is_ret; rewrite Hp; reflexivity).
  pose proof (cnt_two_bound inside is_ret (calls s) i k inside_not_ret Hk ltac:(unfold inside; rewrite Hp; reflexivity) Hr) as B1.
  pose proof (cnt_two_bound counted is_ret (calls s) i k counted_not_ret Hk ltac:(unfold counted; rewrite Hp; reflexivity) Hr) as B3.
  pose proof (cnt_disjoint invoked is_ret (calls s) invoked_not_ret) as B2.
  pose proof (cnt_and_le counted (fun x => Nat.eqb (k_px k) (k_px x)) (calls s)) as Ble.
  cbv zeta. fold (nret s) in B1, B2, B3. rewrite (Aq (k_px k)), An. unfold counted_by in *. lia.
Qed.

Definition phase_of (p : pc) : phase :=
  match p with Init | Pre => PhStarted | Counted | Reg | Dialing | Enq | Waiting | Done | Uncounted => PhPre | Cleaned => PhPost | Returned => PhRet end.

(* The specification machine bounds the counters reported at a return by started - retd_at_post - 1, where retd_at_post is
   the number of returns it had seen at the call's post-filter point: the simulation remembers that this number is at most
   the model's count of returned calls. *)
Definition call_sim (s : state) (a : astate) (i : nat) (k : call) : Prop :=
  ph (aget a i) = phase_of (k_pc k) /\
  (match phase_of (k_pc k) with PhStarted | PhNone => True | _ => aid (aget a i) = id_of i end) /\
  (k_pc k = Cleaned -> (Z.of_N (retd_at_post (aget a i)) <= nret s)%Z).

Record Sim (s : state) (a : astate) : Prop := {
  s_keys : NoDup (map fst (acs a));
  s_dom : forall c k, In (c, k) (acs a) -> (c < length (calls s))%nat;
  s_get : all_calls (call_sim s a) (calls s);
  s_started : started a = N.of_nat (length (calls s));
  s_returned : Z.of_N (returned a) = nret s;
  s_recvd : forall id, In id (recvd a) -> exists i, In i (wire s) /\ id = id_of i;
  s_sends : sends a = sent s;
  s_err : forall id, In id (errored a) -> exists i k, nth_error (calls s) i = Some k /\ id = id_of i /\ k_pc k = Returned /\ k_out k = Some Error }.

Lemma Sim_init : Sim init (mkast [] 0 0 [] [] []).
Proof.
  split; cbn [acs calls init length map started returned recvd sends errored wire sent].
  - constructor.
  - intros c0 k0 [].
  - intros [|i0] k0 H0; discriminate.
  - reflexivity.
  - reflexivity.
  - intros id [].
  - reflexivity.
  - intros id [].
Qed.

Lemma Sim_env : forall s s' a a', Sim s a -> calls s' = calls s ->
  acs a' = acs a -> started a' = started a -> returned a' = returned a -> errored a' = errored a ->
  (forall id, In id (recvd a') -> exists i, In i (wire s') /\ id = id_of i) -> sends a' = sent s' -> Sim s' a'.
Proof.
  intros s s' a a' [H1 H2 H3 H4 H5 H6 H7 H8] Hc E1 E2 E3 E4 Hr Hs.
  assert (Hn : nret s' = nret s) by (unfold nret; rewrite Hc; reflexivity).
  split; rewrite ?E1, ?E2, ?E3, ?E4, ?Hc, ?Hn; auto.
  intros i k Hk. specialize (H3 i k Hk). unfold call_sim, aget in *. rewrite E1, Hn. exact H3.
Qed.

(* call i moves within one phase (never from or to Returned / Cleaned boundaries) *)
Lemma Sim_same_phase : forall s s' a i k x, Sim s a -> nth_error (calls s) i = Some k ->
  calls s' = upd (calls s) i x -> phase_of (k_pc x) = phase_of (k_pc k) -> k_pc k <> Returned ->
  wire s' = wire s -> sent s' = sent s -> Sim s' a.
Proof.
  intros s s' a i k x [H1 H2 H3 H4 H5 H6 H7 H8] Hk Hc Hp Hnr Hw Hs.
  assert (Hr : is_ret x = is_ret k).
  { unfold is_ret. destruct (k_pc x), (k_pc k); cbn in Hp; try discriminate; reflexivity. }
  assert (Hn : nret s' = nret s) by (unfold nret; rewrite Hc, (cnt_upd _ _ _ _ x Hk), Hr; lia).
  assert (Hcl : k_pc x = Cleaned <-> k_pc k = Cleaned).
  { destruct (k_pc x), (k_pc k); cbn in Hp; try discriminate; split; intros; try discriminate; reflexivity. }
  split; rewrite ?Hw, ?Hs, ?Hn; auto.
  - intros c kc Hin. rewrite Hc, upd_length. eauto.
  - rewrite Hc. apply (all_upd2 _ _ _ _ _ Hk).
    + intros j kj _ Hj. specialize (H3 j kj Hj). unfold call_sim in *. rewrite Hn. exact H3.
    + specialize (H3 i k Hk). unfold call_sim in *. rewrite Hn, Hp. destruct H3 as [A [B C]]. repeat split; auto.
      intros Hx. apply C. apply Hcl. exact Hx.
  - rewrite Hc, upd_length. exact H4.
  - intros id Hid. destruct (H8 id Hid) as [j [kj [Hj [E1 [E2 E3]]]]]. rewrite Hc.
    destruct (Nat.eq_dec j i) as [->|Hne].
    + rewrite Hk in Hj. inversion Hj; subst kj. contradiction.
    + exists j, kj. rewrite nth_upd_neq by congruence. auto.
Qed.

Lemma upd_upd : forall A (l : list A) i x y, upd (upd l i x) i y = upd l i y.
Proof. induction l as [|h t IH]; intros [|i] x y; cbn; try reflexivity. rewrite IH. reflexivity. Qed.

Lemma nret_of : forall s' s i k x, calls s' = upd (calls s) i x -> nth_error (calls s) i = Some k -> is_ret k = false ->
  nret s' = (nret s + (if is_ret x then 1 else 0))%Z.
Proof. intros s' s i k x Hc Hk Hr. unfold nret. rewrite Hc, (cnt_upd _ _ _ _ x Hk), Hr. lia. Qed.

(* call i enters a new phase; its bookkeeping entry is replaced *)
Lemma Sim_set : forall s s' a i k x ka rt er,
  Sim s a -> nth_error (calls s) i = Some k -> calls s' = upd (calls s) i x ->
  wire s' = wire s -> sent s' = sent s -> k_pc k <> Returned ->
  ph ka = phase_of (k_pc x) ->
  (match phase_of (k_pc x) with PhStarted | PhNone => True | _ => aid ka = id_of i end) ->
  (k_pc x = Cleaned -> (Z.of_N (retd_at_post ka) <= nret s)%Z) ->
  Z.of_N rt = (nret s + (if is_ret x then 1 else 0))%Z ->
  (forall id, In id er -> In id (errored a) \/ (id = id_of i /\ k_pc x = Returned /\ k_out x = Some Error)) ->
  Sim s' (mkast (aset a i ka) (started a) rt (recvd a) (sends a) er).
Proof.
  intros s s' a i k x ka rt er [H1 H2 H3 H4 H5 H6 H7 H8] Hk Hc Hw Hs Hnr Hph Hid Hrd Hrt Her.
  assert (Hi : (i < length (calls s))%nat) by (apply nth_error_Some; congruence).
  assert (Hn : nret s' = (nret s + (if is_ret x then 1 else 0))%Z)
    by (apply (nret_of s' s i k x Hc Hk); unfold is_ret; destruct (k_pc k); congruence).
  split; cbn [acs started returned recvd sends errored]; rewrite ?Hw, ?Hs; auto.
  - apply aset_keys. exact H1.
  - intros c kc Hin. rewrite Hc, upd_length. apply aset_in in Hin. destruct Hin as [[-> _]|[_ Hin]]; [exact Hi|eauto].
  - rewrite Hc. apply (all_upd2 _ _ _ _ _ Hk).
    + intros j kj Hne Hj. specialize (H3 j kj Hj). unfold call_sim in *. rewrite aget_aset_neq by congruence.
      destruct H3 as [A [B C]]. repeat split; auto. intros Hx. specialize (C Hx). destruct (is_ret x); lia.
    + unfold call_sim. rewrite aget_aset_eq. repeat split; auto. intros Hx. specialize (Hrd Hx). destruct (is_ret x); lia.
  - rewrite Hc, upd_length. exact H4.
  - congruence.
  - intros id Hin. destruct (Her id Hin) as [Hold|[-> [E1 E2]]].
    + destruct (H8 id Hold) as [j [kj [Hj [F1 [F2 F3]]]]]. rewrite Hc. destruct (Nat.eq_dec j i) as [->|Hne].
      * rewrite Hk in Hj. inversion Hj; subst kj. contradiction.
      * exists j, kj. rewrite nth_upd_neq by congruence. auto.
    + exists i, x. rewrite Hc. split; [eapply nth_upd_eq; eauto|auto].
Qed.

Lemma arun_is a es : arun a es = Lts.run astep a es.
Proof. revert es a. apply Lts.run_unique; reflexivity. Qed.

(* the labels without an observation point *)
Definition silent (l : label) : Prop :=
  match l with
  | Start _ _ _ | LCount _ | LQueueFull _ | LFilterErr _ | LClean _ | LPost _ | LSendTake | LPeerPkt _ _ => False
  | _ => True end.

Lemma sim_silent c s a l s' : silent l -> Sim s a -> step c s l = Some s' -> Sim s' a.
Proof.
  intros Hl HS H. destruct (step_spec _ _ _ _ H) as (Hc & _ & _ & _ & _ & _ & _ & _ & _ & _ & Ew & Es & _).
  assert (Hw : wire s' = wire s) by (destruct l; try contradiction; exact Ew).
  assert (Hs' : sent s' = sent s) by (destruct l; try contradiction; exact Es).
  destruct (subject s l) as [i|] eqn:Hs.
  - (* the call stays within its phase *)
    destruct Hc as (k & Hk & Hp & Hc). apply (Sim_same_phase s s' a i k (moved s l k) HS Hk Hc); try assumption; rewrite Hp;
      destruct l; try contradiction; try discriminate Hs; cbn; try reflexivity; try discriminate.
    + destruct (conn_open s); reflexivity.
    + unfold set_enq. destruct (k_ow k); reflexivity.
  - apply (Sim_env s s' a a HS); try reflexivity; rewrite ?Hw, ?Hs'; [destruct l; try contradiction; exact Hc | apply HS | apply HS].
Qed.

(* the id of a call that has not passed the pre-filter point is not in use *)
Lemma id_fresh s a i k : Sim s a -> nth_error (calls s) i = Some k -> k_pc k = Pre ->
  (id_of i =? 0) || id_used a (id_of i) = false.
Proof.
  intros HS Hk Hp. rewrite id_of_nz. cbn [orb]. destruct (id_used a (id_of i)) eqn:E; [|reflexivity]. exfalso.
  unfold id_used in E. apply existsb_exists in E. destruct E as [[cc kk] [Hin Hm]]. cbn [snd] in Hm.
  pose proof (aget_in a cc kk (s_keys s a HS) Hin) as Hg. pose proof (s_dom s a HS _ _ Hin) as Hlt.
  apply nth_error_Some in Hlt. destruct (nth_error (calls s) cc) as [kc|] eqn:Hkc; [|congruence].
  pose proof (s_get s a HS _ _ Hkc) as [Cp [Ci _]]. rewrite Hg in Cp, Ci.
  (* an entry whose id is in use carries the id of its own call: it is call i's, which has none yet *)
  assert (Hcc : cc = i).
  { rewrite <- Cp in Ci. destruct (ph kk); try discriminate Hm; apply N.eqb_eq in Hm; rewrite Ci in Hm; exact (id_of_inj _ _ Hm). }
  subst cc. rewrite Hk in Hkc. injection Hkc as <-. rewrite Hp in Cp. cbn in Cp. rewrite Cp in Hm. discriminate Hm.
Qed.

(* a call turned away before doInvoke (full invoke queue, rejecting filter): pre-filter and post-filter with nothing
   registered in between; seen as a registration followed at once by its cleanup. [smid], the call set to Reg without being
   counted, is no state of the run: Sim speaks of neither queueLen nor the table, so it holds of it all the same. *)
Lemma sim_reject s s' a i k : Sim s a -> nth_error (calls s) i = Some k -> k_pc k = Pre ->
  calls s' = upd (calls s) i (set_full k) -> wire s' = wire s -> sent s' = sent s ->
  exists a1, arun a [EPre i (id_of i); EPost i] = Some a1 /\ Sim s' a1.
Proof.
  intros HS Hk Hp Hc Hw Hs. pose proof (s_get s a HS _ _ Hk) as [Gp _]. rewrite Hp in Gp. cbn [phase_of] in Gp.
  pose proof (s_returned s a HS) as Hrt.
  set (smid := with_calls s (upd (calls s) i (set_pc k Reg))).
  assert (Smid : Sim smid (mkast (aset a i (mkacall PhPre (id_of i) 0)) (started a) (returned a) (recvd a) (sends a) (errored a))).
  { apply (Sim_set s smid a i k (set_pc k Reg)); auto; try reflexivity; try congruence; try discriminate. cbn. lia. }
  assert (Hkm : nth_error (calls smid) i = Some (set_pc k Reg)) by (apply (nth_upd_eq _ _ _ _ _ Hk)).
  assert (Hnm : nret smid = nret s) by (rewrite (nret_of smid s i k _ eq_refl Hk); [cbn; lia | unfold is_ret; rewrite Hp; reflexivity]).
  cbn [arun astep]. rewrite Gp, (id_fresh s a i k HS Hk Hp). cbn [arun astep]. rewrite aget_aset_eq. cbn [ph aid].
  eexists. split; [reflexivity|].
  apply (Sim_set smid s' _ i (set_pc k Reg) (set_full k)); auto; try reflexivity; try discriminate; cbn [retd_at_post returned errored is_ret set_full k_pc].
  - unfold smid, with_calls. cbn [calls]. rewrite upd_upd. exact Hc.
  - intros _. rewrite Hnm. lia.
  - rewrite Hnm. lia.
Qed.

Lemma sim_step : forall c s a l s1, reach c s -> Sim s a -> step c s l = Some s1 ->
  exists a1, arun a (events_of s l s1) = Some a1 /\ Sim s1 a1.
Proof.
  intros c s a l s1 Hreach HS H. destruct (step_spec _ _ _ _ H) as (Hc & Hg & _ & Eq & En & Er & _ & _ & _ & _ & Ew & Es & _).
  pose proof (s_returned s a HS) as Hrt.
  destruct l; try (exists a; split; [reflexivity | refine (sim_silent c s a _ s1 _ HS H); exact I]); cbn in Hc.
  - (* Start *) cbn [events_of arun astep].
    assert (Hnone : ph (aget a (length (calls s))) = PhNone).
    { apply aget_none. intros k Hin. pose proof (s_dom s a HS _ _ Hin). lia. }
    rewrite Hnone. eexists. split; [reflexivity|].
    destruct HS as [H1 H2 H3 H4 H5 H6 H7 H8].
    assert (Hn : nret s1 = nret s) by (unfold nret; rewrite Hc, cnt_app; cbn; lia).
    split; cbn [acs started returned recvd sends errored]; rewrite ?Hc, ?Ew, ?Es, ?Hn; auto.
    + apply aset_keys. exact H1.
    + intros c0 kc Hin. rewrite app_length. cbn [length]. apply aset_in in Hin. destruct Hin as [[-> _]|[_ Hin]]; [lia|specialize (H2 _ _ Hin); lia].
    + apply all_app.
      * intros j kj Hj. specialize (H3 j kj Hj). unfold call_sim in *.
        assert (j < length (calls s))%nat by (apply nth_error_Some; congruence).
        rewrite aget_aset_neq by lia. rewrite Hn. exact H3.
      * unfold call_sim. rewrite aget_aset_eq. cbn. repeat split; auto. intros; discriminate.
    + rewrite app_length. cbn [length]. lia.
    + intros id Hin. destruct (H8 id Hin) as [j [kj [Hj Hrest]]]. exists j, kj. split; [|exact Hrest].
      rewrite nth_error_app1; [exact Hj|apply nth_error_Some; congruence].
  - (* LQueueFull *) destruct Hc as (k & Hk & Hp & Hc). exact (sim_reject s s1 a i k HS Hk Hp Hc Ew Es).
  - (* LClean: post-filter *)
    destruct Hc as (k & Hk & Hp & Hc). cbn [events_of arun astep].
    pose proof (s_get s a HS _ _ Hk) as [Gp [Gi Gc]]. rewrite Hp in Gp, Gi. cbn [phase_of] in Gp, Gi. rewrite Gp.
    eexists. split; [reflexivity|].
    apply (Sim_set s s1 a i k (set_pc k Cleaned)); auto; try reflexivity; try congruence; cbn [retd_at_post is_ret set_pc k_pc]; lia.
  - (* LPost: return, with the counters as they are then *)
    destruct Hc as (k & Hk & Hp & Hc). cbn [events_of]. rewrite Hc, (nth_upd_eq _ _ _ _ _ Hk), Eq, En, Er.
    change (k_px (set_ret k (now s))) with (k_px k). change (k_out (set_ret k (now s))) with (k_out k).
    pose proof (s_get s a HS _ _ Hk) as [Gp [Gi Gc]]. rewrite Hp in Gp, Gi. cbn [phase_of] in Gp, Gi. specialize (Gc Hp).
    destruct (InvO_reach c s Hreach) as [HO _]. pose proof (HO _ _ Hk) as [O1 [O2 [_ [O4 _]]]]. rewrite Hp in O1. destruct O1 as [o Ho].
    pose proof (counters_at_return c s i k Hreach Hk Hp) as Hub. cbv zeta in Hub. pose proof (s_started s a HS) as Hst.
    assert (Hokc : ((Z.to_N (queueLen s (k_px k)) <=? started a - retd_at_post (aget a i) - 1)
                 && (Z.to_N (invokeNum s - 1) <=? started a - retd_at_post (aget a i) - 1)
                 && (N.of_nat (length (resp s)) <=? started a - retd_at_post (aget a i) - 1)) = true) by lia.
    assert (Hoko : match cls_of (k_out k) with
                   | OReply => existsb (fun x : N * N => let '(i0, py) := x in (i0 =? aid (aget a i)) && (py =? match k_out k with Some (Reply p) => p | _ => 0 end)) (sends a)
                   | OError => negb (memN (aid (aget a i)) (recvd a))
                   | OOther => false | _ => true end = true).
    { rewrite Ho. destruct o as [p| | | |]; cbn [cls_of]; try reflexivity.
      - apply existsb_exists. exists (id_of i, p). split; [rewrite (s_sends s a HS); apply O2; exact Ho|]. rewrite Gi, !N.eqb_refl. reflexivity.
      - (* error: the request never reached the peer *)
        destruct (memN (aid (aget a i)) (recvd a)) eqn:E; [|reflexivity]. exfalso. apply memN_in in E.
        destruct (s_recvd s a HS _ E) as [j [Hj Hid]]. rewrite Gi in Hid. apply id_of_inj in Hid. subst j.
        destruct (O4 Ho) as [_ Hw]. contradiction. }
    cbn [arun astep]. rewrite Gp. cbv zeta. rewrite Hokc, Hoko. cbn [andb]. eexists. split; [reflexivity|].
    apply (Sim_set s s1 a i k (set_ret k (now s))); auto; try reflexivity; try congruence; try discriminate; cbn [is_ret set_ret k_pc k_out]; [lia|].
    rewrite Gi, Ho. intros id Hin. destruct o; cbn [cls_of] in Hin; auto. destruct Hin as [<-|Hin]; auto.
  - (* LSendTake: the peer reads a request *)
    destruct (InvO_reach c s Hreach) as [HO HOI].
    destruct (sendq s) as [|n q] eqn:Eql; [contradiction|]. cbn [events_of]. rewrite Eql. cbn [arun astep firstn app] in *.
    assert (Hlt : (n < length (calls s))%nat) by (apply HOI; left; left; reflexivity).
    apply nth_error_Some in Hlt. destruct (nth_error (calls s) n) as [kn|] eqn:Hkn; [|congruence].
    pose proof (HO _ _ Hkn) as [O1 [_ [_ [O4 _]]]].
    pose proof (s_get s a HS _ _ Hkn) as [Gp [Gi _]].
    assert (Hph : phase_of (k_pc kn) = PhPre \/ phase_of (k_pc kn) = PhPost \/ phase_of (k_pc kn) = PhRet).
    { destruct (k_pc kn); cbn; auto; destruct O1 as [_ Hq]; exfalso; apply (proj1 Hq); rewrite Eql; left; reflexivity. }
    assert (Hused : id_used a (id_of n) = true).
    { unfold id_used. apply existsb_exists. exists (n, aget a n). split.
      - apply aget_some_in. rewrite Gp. destruct Hph as [E|[E|E]]; rewrite E; discriminate.
      - cbn [snd]. rewrite Gp. destruct Hph as [E|[E|E]]; rewrite E in *; cbn beta iota in Gi; rewrite Gi; apply N.eqb_refl. }
    assert (Hnerr : memN (id_of n) (errored a) = false).
    { destruct (memN (id_of n) (errored a)) eqn:E; [|reflexivity]. exfalso. apply memN_in in E.
      destruct (s_err s a HS _ E) as [j [kj [Hj [F1 [F2 F3]]]]]. apply id_of_inj in F1. subst j.
      rewrite Hkn in Hj. inversion Hj; subst kj. apply (proj1 (O4 F3)). rewrite Eql. left; reflexivity. }
    rewrite Hused, Hnerr. cbn [andb negb]. eexists. split; [reflexivity|].
    apply (Sim_env s s1 a _ HS Hc); try reflexivity; cbn [recvd sends]; rewrite ?Ew, ?Es; [|apply HS].
    intros id [<-|Hid]; [exists n; split; [left; reflexivity|reflexivity]|].
    destruct (s_recvd s a HS id Hid) as [j [Hj ->]]. exists j. split; [right; exact Hj|reflexivity].
  - (* LPeerPkt *)
    cbn [events_of arun astep]. eexists. split; [reflexivity|].
    apply (Sim_env s s1 a _ HS Hc); try reflexivity; cbn [recvd sends]; rewrite ?Ew, ?Es; [apply HS|].
    rewrite (s_sends s a HS). reflexivity.
  - (* LFilterErr: the same observation points as a full invoke queue *)
    destruct Hc as (k & Hk & Hp & Hc). exact (sim_reject s s1 a i k HS Hk Hp Hc Ew Es).
  - (* LCount: the first instruction after the pre-filter *)
    destruct Hc as (k & Hk & Hp & Hc). cbn [events_of arun astep].
    pose proof (s_get s a HS _ _ Hk) as [Gp _]. rewrite Hp in Gp. cbn [phase_of] in Gp. rewrite Gp, (id_fresh s a i k HS Hk Hp).
    eexists. split; [reflexivity|].
    apply (Sim_set s s1 a i k (set_pc k Counted)); auto; try reflexivity; try congruence; try discriminate. cbn. lia.
Qed.

Lemma sim_run : forall c ls s a s', reach c s -> Sim s a -> run c s ls = Some s' ->
  exists a', arun a (project c s ls) = Some a' /\ Sim s' a'.
Proof.
  induction ls as [|l r IH]; intros s a s' Hr HS H; cbn [run project] in *.
  - inversion H; subst. exists a. split; [reflexivity|exact HS].
  - destruct (step c s l) as [s1|] eqn:E; [|discriminate].
    destruct (sim_step c s a l s1 Hr HS E) as [a1 [Ha1 HS1]].
    destruct (IH s1 a1 s' (reach_step c s l s1 Hr E) HS1 H) as [a' [Ha' HS']].
    exists a'. split; [|exact HS']. rewrite arun_is, Lts.run_app, <- !arun_is, Ha1. exact Ha'.
Qed.

(* every run of the model, observed at the harness's observation points, is accepted event by event *)
Theorem trace_sound : forall c ls s, run c init ls = Some s ->
  exists a, arun (mkast [] 0 0 [] [] []) (project c init ls) = Some a /\ Sim s a.
Proof. intros c ls s H. apply (sim_run c ls init _ s (reach_init c) Sim_init H). Qed.

(* ... and when every started call has returned the whole trace is accepted *)
Theorem trace_accepted : forall c ls s, run c init ls = Some s ->
  (forall i k, nth_error (calls s) i = Some k -> k_pc k = Returned) -> accepts (project c init ls) = true.
Proof.
  intros c ls s H Hall. destruct (trace_sound c ls s H) as [a [Ha HS]]. unfold accepts. rewrite Ha.
  pose proof (s_started s a HS) as H1. pose proof (s_returned s a HS) as H2. unfold nret in H2.
  rewrite (cnt_all_true is_ret (calls s)) in H2; [lia|]. intros i k Hk. unfold is_ret. rewrite (Hall i k Hk). reflexivity.
Qed.

(* ---------- the canonical run of a fault script is a run of the transition system ---------- *)
Lemma crun_is_run : forall fuel sc s e acc s' ls,
  run (sc_cfg sc) init (rev acc) = Some s -> crun fuel sc s e acc = (s', ls, true) -> run (sc_cfg sc) init (rev ls) = Some s'.
Proof.
  induction fuel as [|f IH]; intros sc s e acc s' ls Hr H; cbn [crun] in H; [discriminate|].
  destruct (finished sc s e).
  - inversion H; subst. exact Hr.
  - destruct (sched sc s e) as [l e']. destruct (step (sc_cfg sc) s l) as [s1|] eqn:E; [|discriminate].
    eapply IH; [|exact H]. cbn [rev]. rewrite run_is, Lts.run_snoc, <- run_is, Hr. exact E.
Qed.

Theorem canonical_is_run : forall sc s ls, canonical sc = (s, ls, true) ->
  run (sc_cfg sc) init (rev ls) = Some s /\ reach (sc_cfg sc) s.
Proof.
  intros sc s ls H. unfold canonical in H.
  assert (Hr : run (sc_cfg sc) init (rev ls) = Some s) by (eapply crun_is_run; [|exact H]; reflexivity).
  split; [exact Hr|]. eapply run_reach; [apply reach_init|exact Hr].
Qed.
