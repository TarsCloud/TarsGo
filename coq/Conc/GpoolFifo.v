(* C19 — the pool is FIFO: jobs are handed to workers in exactly the order in which their sends completed
   ([subm s = started s ++ held (dp s) ++ jobq s], for every W, Q and schedule); with one worker this order is visible in the
   event trace, and every trace of the transition system passes the executable check [fifo1_ok] that the harness applies to
   the traces of the real pool with W = 1. *)
From Coq Require Import List Arith NArith Lia Bool Permutation.
From TarsV Require Import Base.Lts Conc.Gpool Conc.GpoolProofs.
Import ListNotations.

(* position of the first occurrence; the length when absent *)
Fixpoint index (j : job) (l : list job) : nat :=
  match l with [] => 0 | x :: r => if N.eqb j x then 0 else S (index j r) end.
Lemma index_in j l : In j l <-> index j l < length l.
Proof.
  induction l as [|x l IH]; cbn; [split; [tauto|lia]|]. destruct (N.eqb j x) eqn:E.
  - apply N.eqb_eq in E. subst. split; [lia|tauto].
  - apply N.eqb_neq in E. rewrite IH. split; [intros [H|H]; [congruence|lia]|intros H; right; lia].
Qed.
Lemma index_app_in j l l' : In j l -> index j (l ++ l') = index j l.
Proof.
  induction l as [|x l IH]; cbn; [tauto|]. destruct (N.eqb j x) eqn:E; [reflexivity|].
  intros [H|H]; [subst; rewrite N.eqb_refl in E; discriminate|]. now rewrite IH.
Qed.
Lemma index_app_notin j l l' : ~ In j l -> index j (l ++ l') = length l + index j l'.
Proof.
  induction l as [|x l IH]; cbn; [reflexivity|]. intros H. destruct (N.eqb j x) eqn:E.
  - apply N.eqb_eq in E. subst. tauto.
  - rewrite IH; tauto.
Qed.
Definition before (a b : job) (l : list job) : Prop := index a l < index b l /\ In b l.

Lemma rm_in j l x : In j l -> (In x l <-> j = x \/ In x (rm j l)).
Proof. intros H. pose proof (rm_perm j l H) as P. split; [apply (Permutation_in _ P)|apply (Permutation_in _ (Permutation_sym P))]. Qed.
Lemma in_rm_other j x l : x <> j -> In x l -> In x (rm j l).
Proof.
  intros Hne. induction l as [|y l IH]; cbn; [tauto|]. destruct (N.eqb j y) eqn:E.
  - apply N.eqb_eq in E. subst. intros [H|H]; [congruence|exact H].
  - intros [H|H]; [now left|right; auto].
Qed.

Lemma fruns_app φ a b : fruns φ (a ++ b) = match fruns φ a with Some φ' => fruns φ' b | None => None end.
Proof. exact (Lts.run_app fstep a φ b). Qed.

Section Fifo.
Variable W Q : nat.
Notation step := (step W Q). Notation run := (run W Q). Notation trace := (trace W Q).
Notation init := (init W). Notation reachable := (reachable W Q).

Theorem hand_over_fifo s : reachable s -> subm s = started s ++ held (dp s) ++ jobq s.
Proof. intros Hr. now destruct (reachable_good _ _ _ Hr) as [[] _]. Qed.

(* a job sent before another one has been handed over whenever the other one has *)
Corollary sent_before_started_before s a b : reachable s -> before a b (subm s) -> In b (started s) -> In a (started s).
Proof.
  intros Hr [Hlt Hb] Hs. rewrite (hand_over_fifo s Hr) in Hlt.
  rewrite (index_app_in b _ _ Hs) in Hlt. apply index_in in Hs.
  destruct (in_dec N.eq_dec a (started s)) as [Ha|Ha]; [exact Ha|].
  rewrite (index_app_notin a _ _ Ha) in Hlt. lia.
Qed.
End Fifo.

Section One.
Variable Q : nat.
Notation step := (step 1 Q). Notation run := (run 1 Q). Notation trace := (trace 1 Q).
Notation init := (init 1). Notation reachable := (reachable 1 Q).

Definition G (s : st) (φ : fifo_st) : Prop :=
  (forall a, In a (f_ret φ) <-> In a (rlog s)) /\
  (forall a, In a (f_started φ) <-> In a (runl s ++ dlog s)) /\
  (forall b B a, In (b, B) (f_snaps φ) -> In a B -> In a (subm s) /\ (In b (calling s) \/ before a b (subm s))).

Lemma before_snoc a b l x : before a b l -> before a b (l ++ [x]).
Proof.
  intros [Hlt Hb]. split; [|apply in_or_app; now left].
  rewrite (index_app_in b _ _ Hb).
  destruct (in_dec N.eq_dec a l) as [Ha|Ha]; [now rewrite (index_app_in a _ _ Ha)|].
  apply index_in in Hb. rewrite index_in in Ha. lia.
Qed.
Lemma before_new a b l : In a l -> ~ In b l -> before a b (l ++ [b]).
Proof.
  intros Ha Hb. split; [|apply in_or_app; right; now left].
  rewrite (index_app_in a _ _ Ha), (index_app_notin b _ _ Hb). apply index_in in Ha. lia.
Qed.

(* a completed send: j leaves [calling] and comes last in [subm] *)
Lemma G_sent s j φ : reachable s -> In j (calling s) -> G s φ -> G (sent_now s j) φ.
Proof.
  intros Hr Hc (G1 & G2 & G3). pose proof (calling_not_subm 1 Q s j Hr Hc) as Hns.
  split; [exact G1|]. split; [exact G2|]. simp. intros b B a Hin Ha. destruct (G3 _ _ _ Hin Ha) as [Hs [X|X]].
  - split; [auto with datatypes|]. destruct (N.eq_dec b j) as [->|Hne]; [right; now apply before_new|left; now apply in_rm_other].
  - split; [auto with datatypes|]. right. now apply before_snoc.
Qed.

Lemma sim_fifo s l s' φ : reachable s -> step s l = Some s' -> G s φ ->
  exists φ', fruns φ (ev s l) = Some φ' /\ G s' φ'.
Proof.
  intros Hre Hs HG. pose proof HG as (G1 & G2 & G3).
  destruct (reachable_good _ _ _ Hre) as (G0 & C1 & C2 & C3 & C4 & C5). pose proof (g_len _ _ s G0) as HL. pose proof (g_started _ _ s G0) as HS.
  apply step_Step in Hs. destruct Hs; unfold ev; rewrite ?Hw; cbn [fruns fstep];
    try (exists φ; split; [reflexivity|exact HG]).
  - (* SubCall *)
    eexists. split; [reflexivity|]. split; [exact G1|]. split; [exact G2|]. simp; cbn [f_ret f_snaps f_started].
    intros b B a [E|Hin] Ha.
    + injection E as <- <-. apply G1 in Ha. split; [|left; auto with datatypes].
      eapply Permutation_in; [symmetry; exact C3|]. auto with datatypes.
    + destruct (G3 _ _ _ Hin Ha) as [X [Y|Y]]; auto with datatypes.
  - (* Submit *) exists φ. split; [reflexivity|]. now apply G_sent.
  - (* SubmitH *) exists φ. split; [reflexivity|]. now apply G_sent.
  - (* SubRet *)
    eexists. split; [reflexivity|]. split; [|split; [exact G2|exact G3]].
    intros a. simp; cbn [f_ret In]. rewrite G1, in_app_iff. cbn. clear. tauto.
  - (* JStart: every job returned before the call of j was sent before j, hence handed over before j; the single worker holds j,
       so it has finished *)
    assert (Hwk : wk s = [WGot j]).
    { destruct (wk s) as [|p [|q r]]; cbn in HL; try discriminate. destruct w as [|w]; cbn in Hw; [now inversion Hw|]. destruct w; discriminate. }
    assert (Hocc : occupying (wk s) = [j]) by (rewrite Hwk; reflexivity).
    assert (Hst : In j (started s)). { eapply Permutation_in; [symmetry; exact HS|]. rewrite Hocc. now left. }
    assert (Hsub : In j (subm s)). { apply (no_job_starts_twice 1 Q s Hre). exact Hst. }
    assert (Hchk : forallb (fun sn : job * list job => if N.eqb (fst sn) j then forallb (fun a => mem a (f_started φ)) (snd sn) else true) (f_snaps φ) = true).
    { apply forallb_forall. intros [b B] Hin. cbn [fst snd]. destruct (N.eqb b j) eqn:E; [|reflexivity]. apply N.eqb_eq in E. subst b.
      apply forallb_forall. intros a Ha. apply mem_In. apply G2.
      destruct (G3 _ _ _ Hin Ha) as [_ [X|X]]; [exfalso; eapply calling_not_subm; eauto|].
      pose proof (sent_before_started_before 1 Q s a j Hre X Hst) as Has.
      assert (Hne : a <> j). { intros ->. destruct X as [X _]. lia. }
      apply (Permutation_in _ HS) in Has. rewrite Hocc in Has. destruct Has as [Has|Has]; [congruence|].
      apply in_or_app. right. eapply Permutation_in; [symmetry; exact C5|]. apply in_or_app. now right. }
    rewrite Hchk. eexists. split; [reflexivity|]. split; [exact G1|split; [|exact G3]].
    intros a. simp; cbn [f_started In]. rewrite G2, !in_app_iff. cbn. clear. tauto.
  - (* JEnd *)
    assert (Hrun : In j (runl s)). { eapply Permutation_in; [symmetry; exact C4|]. eapply jobs_in; eauto. }
    exists φ. split; [reflexivity|]. split; [exact G1|split; [|exact G3]].
    intros a. simp. rewrite G2, !in_app_iff, (rm_in j _ a Hrun). cbn. clear. tauto.
Qed.

Lemma fifo_from ls : forall s s' φ, reachable s -> run s ls = Some s' -> G s φ -> exists φ', fruns φ (trace s ls) = Some φ' /\ G s' φ'.
Proof.
  induction ls as [|l ls IH]; cbn; intros s s' φ Hr H HG. { inversion H; subst. eauto. }
  destruct (step s l) as [s1|] eqn:E; [|discriminate].
  destruct (sim_fifo s l s1 φ Hr E HG) as (φ1 & F1 & G1).
  destruct (IH s1 s' φ1 (reachable_step _ _ _ _ _ Hr E) H G1) as (φ' & F' & G').
  exists φ'. split; [|exact G']. rewrite fruns_app, F1. exact F'.
Qed.

Theorem fifo1_traces ls s : run init ls = Some s -> fifo1_ok (trace init ls) = true.
Proof.
  intros H. assert (G0 : G init finit). { unfold G. cbn. repeat split; try tauto; intros; contradiction. }
  destruct (fifo_from ls init s finit (reachable_init 1 Q) H G0) as (φ' & F & _). unfold fifo1_ok. now rewrite F.
Qed.
End One.

(* the check is not vacuous: with one worker, a job whose send had returned before job 2 was even called cannot start after job 2 *)
Example fifo_rejects_overtaking :
  fifo1_ok [ESubCall 1; ESubRet 1; ESubCall 2; ESubRet 2; EStart 2; EEnd 2; EStart 1; EEnd 1]%N = false /\
  accepts 1 [ESubCall 1; ESubRet 1; ESubCall 2; ESubRet 2; EStart 2; EEnd 2; EStart 1; EEnd 1]%N = true /\
  fifo1_ok [ESubCall 1; ESubCall 2; ESubRet 2; ESubRet 1; EStart 2; EEnd 2; EStart 1; EEnd 1]%N = true.
Proof. vm_compute. repeat split. Qed.
