(* Invariants of the pending-reply table machine (Conc/Pending.v), over all label sequences. *)
From Coq Require Import List ZArith NArith Bool Lia Arith.
From TarsV Require Import Base.Lts Conc.Pending.
From TarsV Require Rpc.ReqIdProofs.
Import ListNotations.
Open Scope Z_scope.

(* [upd] is Rpc/ReqId.v's [set_nth] under another name *)
Lemma upd_length {A} (l : list A) n x : length (upd n x l) = length l.
Proof. exact (ReqIdProofs.set_nth_length l n x). Qed.

Lemma nth_error_upd_eq {A} (l : list A) n x y : nth_error l n = Some y -> nth_error (upd n x l) n = Some x.
Proof. exact (ReqIdProofs.nth_error_set_nth_eq l n x y). Qed.

Lemma nth_error_upd_neq {A} (l : list A) n m x : n <> m -> nth_error (upd n x l) m = nth_error l m.
Proof. exact (ReqIdProofs.nth_error_set_nth_neq l n m x). Qed.

Lemma nth_error_upd_inv {A} (l : list A) n x m y : nth_error (upd n x l) m = Some y ->
  (m = n /\ y = x) \/ (m <> n /\ nth_error l m = Some y).
Proof. exact (ReqIdProofs.nth_error_set_nth_inv l n x m y). Qed.

Lemma nth_lt {A} (l : list A) k c : nth_error l k = Some c -> (k < length l)%nat.
Proof. intros H. apply nth_error_Some. congruence. Qed.

Lemma nth_error_snoc_old {A} (l : list A) x m y : nth_error l m = Some y -> nth_error (l ++ [x]) m = Some y.
Proof. intros H. rewrite nth_error_app1; [exact H | eapply nth_lt, H]. Qed.

Lemma nth_error_snoc_new {A} (l : list A) x : nth_error (l ++ [x]) (length l) = Some x.
Proof. rewrite nth_error_app2, Nat.sub_diag by auto. reflexivity. Qed.

Lemma nth_error_snoc_inv {A} (l : list A) x m y : nth_error (l ++ [x]) m = Some y ->
  (m = length l /\ y = x) \/ nth_error l m = Some y.
Proof.
  intros H. destruct (Nat.lt_ge_cases m (length l)); [rewrite nth_error_app1 in H; auto|].
  rewrite nth_error_app2 in H by assumption. left. destruct (m - length l)%nat as [|[|d]] eqn:E; cbn in H; try discriminate. split; [lia | congruence].
Qed.

Lemma lookup_delete id id' t : lookup id (delete id' t) = if id' =? id then None else lookup id t.
Proof.
  induction t as [|[k v] t IH]; cbn [delete lookup].
  - destruct (id' =? id); reflexivity.
  - destruct (k =? id') eqn:E1.
    + apply Z.eqb_eq in E1. subst k. rewrite IH. destruct (id' =? id); reflexivity.
    + cbn [lookup]. rewrite IH. destruct (k =? id) eqn:E2; auto.
      apply Z.eqb_eq in E2. subst k. rewrite Z.eqb_sym, E1. reflexivity.
Qed.

Lemma lookup_store id id' ch t : lookup id (store id' ch t) = if id' =? id then Some ch else lookup id t.
Proof. unfold store. cbn [lookup]. rewrite lookup_delete. destruct (id' =? id); reflexivity. Qed.

Definition got_of (pc : cpc) : option packet :=
  match pc with CGot p | CRet (OReply p) => Some p | _ => None end.

Definition chan_of (pc : rpc) : option nat :=
  match pc with RSending ch | RDone ch | RGaveUp ch => Some ch | _ => None end.

(* the moves a call makes on its own: its Send finished or failed, its select timed out *)
Inductive cmove (c : call) : label -> nat -> cpc -> Prop :=
| MSendOk k : c_pc c = CReg -> cmove c (LSendOk k) k (if c_oneway c then COneWayDone else CWait)
| MSendFail k : c_pc c = CReg -> cmove c (LSendFail k) k CSendErr
| MTimeout k : c_pc c = CWait -> cmove c (LTimeout k) k CTimedOut.

Definition ret_of (pc : cpc) : option outcome :=
  match pc with CGot p => Some (OReply p) | CTimedOut => Some OTimeout | CSendErr => Some OErr | COneWayDone => Some OOneWay | _ => None end.

Definition looked_up (p : packet) (t : list (Z * nat)) : rpc :=
  if p_id p =? 0 then RPush else if p_oneway p then RDropped
  else match lookup (p_id p) t with Some ch => RSending ch | None => RDropped end.

(* [step] as a relation, for case analysis on a step that happened: eight cases for the fourteen of the function.
   The three moves a call makes on its own are one case (StMove), so are the four states a call returns from (StReturn). *)
Inductive Step (s : state) : label -> state -> Prop :=
| StRegister id ow :
    Step s (LRegister id ow) {| table := store id (length (calls s)) (table s);
                                calls := calls s ++ [{| c_id := id; c_oneway := ow; c_pc := CReg |}]; recvs := recvs s |}
| StMove l k c pc : nth_error (calls s) k = Some c -> cmove c l k pc ->
    Step s l {| table := table s; calls := upd k (set_cpc c pc) (calls s); recvs := recvs s |}
| StReturn k c o : nth_error (calls s) k = Some c -> ret_of (c_pc c) = Some o ->
    Step s (LReturn k) {| table := delete (c_id c) (table s); calls := upd k (set_cpc c (CRet o)) (calls s); recvs := recvs s |}
| StPacket p :
    Step s (LPacket p) {| table := table s; calls := calls s; recvs := recvs s ++ [{| r_pkt := p; r_pc := RStart |}] |}
| StGarbage : Step s LGarbage s
| StLookup r rc : nth_error (recvs s) r = Some rc -> r_pc rc = RStart ->
    Step s (LLookup r) {| table := table s; calls := calls s;
                          recvs := upd r (set_rpc rc (looked_up (r_pkt rc) (table s))) (recvs s) |}
| StHandoff r rc ch c : nth_error (recvs s) r = Some rc -> r_pc rc = RSending ch -> nth_error (calls s) ch = Some c -> c_pc c = CWait ->
    Step s (LHandoff r) {| table := table s; calls := upd ch (set_cpc c (CGot (r_pkt rc))) (calls s);
                           recvs := upd r (set_rpc rc (RDone ch)) (recvs s) |}
| StGiveUp r rc ch : nth_error (recvs s) r = Some rc -> r_pc rc = RSending ch ->
    Step s (LGiveUp r) {| table := table s; calls := calls s; recvs := upd r (set_rpc rc (RGaveUp ch)) (recvs s) |}.

Lemma step_Step s l s' : step s l = Some s' -> Step s l s'.
Proof.
  destruct l as [id ow|k|k|k|k|p| |r|r|r]; cbn [step].
  (* LSendOk, LSendFail, LTimeout: a move of the call's own *)
  2-4: destruct (nth_error (calls s) k) as [c|] eqn:Ec; [|discriminate]; destruct (c_pc c) eqn:Epc; try discriminate;
       intros [= <-]; eapply StMove; [exact Ec | constructor; exact Epc].
  - intros [= <-]. constructor.
  - destruct (nth_error (calls s) k) as [c|] eqn:Ec; [|discriminate].
    destruct (c_pc c) eqn:Epc; try discriminate; intros [= <-]; (eapply StReturn; [exact Ec | rewrite Epc; reflexivity]).
  - intros [= <-]. constructor.
  - intros [= <-]. constructor.
  - destruct (nth_error (recvs s) r) as [rc|] eqn:Er; [|discriminate]. destruct (r_pc rc) eqn:Epc; try discriminate.
    intros [= <-]. apply StLookup; assumption.
  - destruct (nth_error (recvs s) r) as [rc|] eqn:Er; [|discriminate]. destruct (r_pc rc) eqn:Epc; try discriminate.
    destruct (nth_error (calls s) ch) as [c|] eqn:Ec; [|discriminate]. destruct (c_pc c) eqn:Ecp; try discriminate.
    intros [= <-]. apply StHandoff; assumption.
  - destruct (nth_error (recvs s) r) as [rc|] eqn:Er; [|discriminate]. destruct (r_pc rc) eqn:Epc; try discriminate.
    intros [= <-]. apply StGiveUp; assumption.
Qed.

Lemma cmove_src c l k pc : cmove c l k pc -> c_pc c = CReg \/ c_pc c = CWait.
Proof. intros []; auto. Qed.

Lemma cmove_dst c l k pc : cmove c l k pc -> got_of pc = None /\ active (set_cpc c pc) = true.
Proof. intros []; [destruct (c_oneway c)|..]; auto. Qed.

Lemma ret_of_got pc o : ret_of pc = Some o -> got_of (CRet o) = got_of pc.
Proof. destruct pc; intros [= <-]; reflexivity. Qed.

Lemma ret_of_active c o : ret_of (c_pc c) = Some o -> active c = true.
Proof. unfold active. destruct (c_pc c); (discriminate || reflexivity). Qed.

Lemma looked_up_chan p t ch : chan_of (looked_up p t) = Some ch ->
  p_id p <> 0 /\ p_oneway p = false /\ lookup (p_id p) t = Some ch /\ looked_up p t = RSending ch.
Proof.
  unfold looked_up. destruct (Z.eqb_spec (p_id p) 0); [discriminate|]. destruct (p_oneway p); [discriminate|].
  destruct (lookup (p_id p) t); [|discriminate]. intros [= <-]. auto.
Qed.

Lemma upd_preserves {A} (P : A -> Prop) (l : list A) n x k y : nth_error l k = Some y -> P y -> (k = n -> P x) ->
  exists y', nth_error (upd n x l) k = Some y' /\ P y'.
Proof.
  intros H Py Px. destruct (Nat.eq_dec n k) as [->|Hne].
  - rewrite (nth_error_upd_eq _ _ _ _ H). eauto.
  - rewrite nth_error_upd_neq by exact Hne. eauto.
Qed.

(* calls are only appended; id and type of a call never change, a packet it holds stays *)
Lemma step_call_stable s l s' k c : step s l = Some s' -> nth_error (calls s) k = Some c ->
  exists c', nth_error (calls s') k = Some c' /\ c_id c' = c_id c /\ c_oneway c' = c_oneway c /\
             (forall p, got_of (c_pc c) = Some p -> got_of (c_pc c') = Some p).
Proof.
  intros E H.
  destruct (step_Step _ _ _ E) as [id ow|l k0 c0 pc H0 M|k0 c0 o H0 R|p| |r rc Hr Hpc|r rc ch c0 Hr Hpc H0 Hc|r rc ch Hr Hpc];
    cbn [calls]; try solve [exists c; auto using nth_error_snoc_old].
  (* the three steps that set the program counter of one call *)
  all: apply (upd_preserves (fun c' => c_id c' = c_id c /\ c_oneway c' = c_oneway c /\
                                       forall p, got_of (c_pc c) = Some p -> got_of (c_pc c') = Some p) _ _ _ _ _ H); auto.
  all: intros ->; rewrite H0 in H; injection H as <-; cbn [set_cpc c_id c_oneway c_pc]; repeat split; auto; intros p Hp.
  - destruct (cmove_src _ _ _ _ M) as [E1|E1]; rewrite E1 in Hp; discriminate.
  - rewrite (ret_of_got _ _ R). exact Hp.
  - rewrite Hc in Hp. discriminate.
Qed.

(* the other way round: the calls after a step that is not a registration are the calls before it *)
Lemma step_calls s l s' : step s l = Some s' ->
  (exists id ow, l = LRegister id ow) \/
  (length (calls s') = length (calls s) /\
   forall k c', nth_error (calls s') k = Some c' -> exists c, nth_error (calls s) k = Some c /\ c_id c = c_id c').
Proof.
  intros E.
  destruct (step_Step _ _ _ E) as [id ow|l k0 c0 pc H0 M|k0 c0 o H0 R|p| |r rc Hr Hpc|r rc ch c0 Hr Hpc H0 Hc|r rc ch Hr Hpc];
    [left; eauto|right..].
  (* the call list is the old one, or the old one with the state of one call updated *)
  all: cbn [calls]; rewrite ?upd_length; split; [reflexivity|intros k c' H; eauto].
  all: apply nth_error_upd_inv in H; destruct H as [[-> ->]|[_ H]]; eauto.
Qed.

(* every table entry points to a call that is still outstanding and has that id *)
Definition I_table (s : state) : Prop :=
  forall id ch, lookup id (table s) = Some ch ->
  exists c, nth_error (calls s) ch = Some c /\ c_id c = id /\ active c = true.

Lemma step_I_table s l s' : I_table s -> step s l = Some s' -> I_table s'.
Proof.
  intros I E id ch H.
  destruct (step_Step _ _ _ E) as [id0 ow|l k0 c0 pc H0 M|k0 c0 o H0 R|p| |r rc Hr Hpc|r rc ch0 c0 Hr Hpc H0 Hc|r rc ch0 Hr Hpc];
    cbn [table calls] in *; try exact (I _ _ H).
  - rewrite lookup_store in H. destruct (Z.eqb_spec id0 id) as [->|Hne].
    + injection H as <-. rewrite nth_error_snoc_new. eauto.
    + destruct (I _ _ H) as (c & A & B). eauto using nth_error_snoc_old.
  - destruct (I _ _ H) as (c & A & B). apply (upd_preserves (fun c => c_id c = id /\ active c = true) _ _ _ _ _ A B).
    intros ->. rewrite H0 in A. injection A as <-. split; [apply B | apply (cmove_dst _ _ _ _ M)].
  - rewrite lookup_delete in H. destruct (Z.eqb_spec (c_id c0) id) as [|Hne]; [discriminate|].
    destruct (I _ _ H) as (c & A & B). apply (upd_preserves (fun c => c_id c = id /\ active c = true) _ _ _ _ _ A B).
    intros ->. rewrite H0 in A. injection A as <-. destruct B. contradiction.
  - destruct (I _ _ H) as (c & A & B). apply (upd_preserves (fun c => c_id c = id /\ active c = true) _ _ _ _ _ A B).
    intros ->. rewrite H0 in A. injection A as <-. split; [apply B | reflexivity].
Qed.

(* a receiver that found a channel found the channel of a call registered under the packet's id *)
Definition I_recv (s : state) : Prop :=
  forall r rc ch, nth_error (recvs s) r = Some rc -> chan_of (r_pc rc) = Some ch ->
  exists c, nth_error (calls s) ch = Some c /\ c_id c = p_id (r_pkt rc) /\ p_id (r_pkt rc) <> 0 /\ p_oneway (r_pkt rc) = false.

Lemma step_I_recv s l s' : I_table s -> I_recv s -> step s l = Some s' -> I_recv s'.
Proof.
  intros IT I E r rc ch H1 H2.
  assert (T : forall r rc, nth_error (recvs s) r = Some rc -> chan_of (r_pc rc) = Some ch ->
              exists c, nth_error (calls s') ch = Some c /\ c_id c = p_id (r_pkt rc) /\ p_id (r_pkt rc) <> 0 /\ p_oneway (r_pkt rc) = false).
  { intros r0 rc0 A B. destruct (I _ _ _ A B) as (c & X & Y & Z). destruct (step_call_stable _ _ _ _ _ E X) as (c' & X' & Y' & _).
    exists c'. rewrite Y'. auto. }
  destruct (step_Step _ _ _ E) as [id0 ow|l k0 c0 pc H0 M|k0 c0 o H0 R|p| |r0 rc0 Hr Hpc|r0 rc0 ch0 c0 Hr Hpc H0 Hc|r0 rc0 ch0 Hr Hpc];
    cbn [recvs] in H1; eauto.
  - apply nth_error_snoc_inv in H1. destruct H1 as [[_ ->]|H1]; [discriminate|eauto].
  - apply nth_error_upd_inv in H1. destruct H1 as [[-> ->]|[_ H1]]; [|eauto]. cbn [set_rpc r_pc r_pkt] in *.
    destruct (looked_up_chan _ _ _ H2) as (Z1 & Z2 & L & _). destruct (IT _ _ L) as (c & A & B & _). eauto.
  - apply nth_error_upd_inv in H1. destruct H1 as [[-> ->]|[_ H1]]; [|eauto]. apply (T _ _ Hr). rewrite Hpc. exact H2.
  - apply nth_error_upd_inv in H1. destruct H1 as [[-> ->]|[_ H1]]; [|eauto]. apply (T _ _ Hr). rewrite Hpc. exact H2.
Qed.

Lemma step_done_stable s l s' r rc ch : step s l = Some s' ->
  nth_error (recvs s) r = Some rc -> r_pc rc = RDone ch -> nth_error (recvs s') r = Some rc.
Proof.
  intros E H1 H2.
  destruct (step_Step _ _ _ E) as [id0 ow|l k0 c0 pc H0 M|k0 c0 o H0 R|p| |r0 rc0 Hr Hpc|r0 rc0 ch0 c0 Hr Hpc H0 Hc|r0 rc0 ch0 Hr Hpc];
    cbn [recvs]; auto using nth_error_snoc_old.
  all: rewrite nth_error_upd_neq; [exact H1 | intros <-; congruence].
Qed.

(* a call that got a packet got it from a receiver that carried that packet and is done *)
Definition I_got (s : state) : Prop :=
  forall k c p, nth_error (calls s) k = Some c -> got_of (c_pc c) = Some p ->
  exists r rc, nth_error (recvs s) r = Some rc /\ r_pkt rc = p /\ r_pc rc = RDone k.

Lemma step_I_got s l s' : I_got s -> step s l = Some s' -> I_got s'.
Proof.
  intros I E k c p H1 H2.
  assert (T : forall c0, nth_error (calls s) k = Some c0 -> got_of (c_pc c0) = Some p ->
              exists r rc, nth_error (recvs s') r = Some rc /\ r_pkt rc = p /\ r_pc rc = RDone k).
  { intros c0 A B. destruct (I _ _ _ A B) as (r & rc & X & Y & Z). exists r, rc. eauto using step_done_stable. }
  destruct (step_Step _ _ _ E) as [id0 ow|l k0 c0 pc H0 M|k0 c0 o H0 R|p0| |r0 rc0 Hr Hpc|r0 rc0 ch0 c0 Hr Hpc H0 Hc|r0 rc0 ch0 Hr Hpc];
    cbn [calls] in H1; eauto.
  - apply nth_error_snoc_inv in H1. destruct H1 as [[_ ->]|H1]; [discriminate|eauto].
  - apply nth_error_upd_inv in H1. destruct H1 as [[-> ->]|[_ H1]]; [|eauto].
    destruct (cmove_dst _ _ _ _ M) as [N _]. cbn [set_cpc c_pc] in H2. congruence.
  - apply nth_error_upd_inv in H1. destruct H1 as [[-> ->]|[_ H1]]; [|eauto].
    cbn [set_cpc c_pc] in H2. rewrite (ret_of_got _ _ R) in H2. eauto.
  - apply nth_error_upd_inv in H1. destruct H1 as [[-> ->]|[_ H1]]; [|eauto].
    injection H2 as <-. exists r0, (set_rpc rc0 (RDone ch0)). cbn [recvs]. rewrite (nth_error_upd_eq _ _ _ _ Hr). auto.
Qed.

(* a receiver that handed its packet over did so to a call that now holds a packet; so no second hand-over to that call *)
Definition I_done (s : state) : Prop :=
  forall r rc ch, nth_error (recvs s) r = Some rc -> r_pc rc = RDone ch ->
  exists c p, nth_error (calls s) ch = Some c /\ got_of (c_pc c) = Some p.

Lemma step_done_origin s l s' r rc ch : step s l = Some s' ->
  nth_error (recvs s') r = Some rc -> r_pc rc = RDone ch ->
  nth_error (recvs s) r = Some rc \/
  (l = LHandoff r /\ exists c, nth_error (calls s) ch = Some c /\ c_pc c = CWait /\
                              nth_error (calls s') ch = Some (set_cpc c (CGot (r_pkt rc)))).
Proof.
  intros E H1 H2.
  destruct (step_Step _ _ _ E) as [id0 ow|l k0 c0 pc H0 M|k0 c0 o H0 R|p| |r0 rc0 Hr Hpc|r0 rc0 ch0 c0 Hr Hpc H0 Hc|r0 rc0 ch0 Hr Hpc];
    cbn [recvs calls] in *; auto.
  - apply nth_error_snoc_inv in H1. destruct H1 as [[_ ->]|H1]; [discriminate|auto].
  - apply nth_error_upd_inv in H1. destruct H1 as [[-> ->]|[_ H1]]; [|auto]. cbn [set_rpc r_pc] in H2.
    destruct (chan_of (looked_up (r_pkt rc0) (table s))) as [ch'|] eqn:L; [|rewrite H2 in L; discriminate].
    destruct (looked_up_chan _ _ _ L) as (_ & _ & _ & L'). congruence.
  - apply nth_error_upd_inv in H1. destruct H1 as [[-> ->]|[_ H1]]; [|auto]. injection H2 as <-.
    right. split; [reflexivity|]. exists c0. rewrite (nth_error_upd_eq _ _ _ _ H0). auto.
  - apply nth_error_upd_inv in H1. destruct H1 as [[-> ->]|[_ H1]]; [discriminate|auto].
Qed.

Lemma step_I_done s l s' : I_done s -> step s l = Some s' -> I_done s'.
Proof.
  intros I E r rc ch H1 H2. destruct (step_done_origin _ _ _ _ _ _ E H1 H2) as [O|(_ & c & _ & _ & O)].
  - destruct (I _ _ _ O H2) as (c & p & X & Y). destruct (step_call_stable _ _ _ _ _ E X) as (c' & X' & _ & _ & G). eauto.
  - rewrite O. eexists _, _. split; reflexivity.
Qed.

(* at most one receiver ever hands a packet to a given call: duplicates of a reply are not delivered twice *)
Definition I_once (s : state) : Prop :=
  forall r1 r2 rc1 rc2 ch, nth_error (recvs s) r1 = Some rc1 -> nth_error (recvs s) r2 = Some rc2 ->
  r_pc rc1 = RDone ch -> r_pc rc2 = RDone ch -> r1 = r2.

(* a hand-over to call [ch] needs it in [CWait]; a receiver that is already done with [ch] left it holding a packet *)
Lemma step_I_once s l s' : I_done s -> I_once s -> step s l = Some s' -> I_once s'.
Proof.
  intros ID I E r1 r2 rc1 rc2 ch A1 A2 B1 B2.
  destruct (step_done_origin _ _ _ _ _ _ E A1 B1) as [O1|(L1 & c1 & X1 & Y1 & _)];
  destruct (step_done_origin _ _ _ _ _ _ E A2 B2) as [O2|(L2 & c2 & X2 & Y2 & _)].
  - eapply I; eauto.
  - destruct (ID _ _ _ O1 B1) as (c & p & X & Y). rewrite X in X2. injection X2 as ->. rewrite Y2 in Y. discriminate.
  - destruct (ID _ _ _ O2 B2) as (c & p & X & Y). rewrite X in X1. injection X1 as ->. rewrite Y1 in Y. discriminate.
  - congruence.
Qed.

Definition inv (s : state) : Prop := I_table s /\ I_recv s /\ I_got s /\ I_done s /\ I_once s.

Lemma step_inv s l s' : inv s -> step s l = Some s' -> inv s'.
Proof.
  intros (A & B & C & D & F) E.
  repeat split; eauto using step_I_table, step_I_recv, step_I_got, step_I_done, step_I_once.
Qed.

(* [Pending.run] is [Lts.run step] written out (the same recursion, convertible), so the lemmas of Base/Lts.v apply to it as they stand *)
Lemma run_inv ls s : run init ls = Some s -> inv s.
Proof.
  apply (Lts.run_inv step inv step_inv). repeat split.
  - intros id ch H. discriminate.
  - intros [|r]; discriminate.
  - intros [|k]; discriminate.
  - intros [|r]; discriminate.
  - intros [|r]; discriminate.
Qed.

Lemma run_step ls s l s' : run init ls = Some s -> step s l = Some s' -> run init (ls ++ [l]) = Some s'.
Proof. exact (Lts.run_step step ls init s l s'). Qed.

(* a call only ever holds a packet that carries its own id (non-zero, two-way) and that the peer really sent *)
Theorem routing ls s k c p : run init ls = Some s ->
  nth_error (calls s) k = Some c -> (c_pc c = CGot p \/ c_pc c = CRet (OReply p)) ->
  p_id p = c_id c /\ p_id p <> 0 /\ p_oneway p = false /\
  exists r rc, nth_error (recvs s) r = Some rc /\ r_pkt rc = p /\ r_pc rc = RDone k.
Proof.
  intros E H1 H2. destruct (run_inv _ _ E) as (_ & B & C & _).
  assert (G : got_of (c_pc c) = Some p) by (destruct H2 as [-> | ->]; reflexivity).
  destruct (C _ _ _ H1 G) as (r & rc & X & <- & Z).
  destruct (B r rc k X) as (c' & X' & Y' & Z' & W'); [rewrite Z; reflexivity|].
  rewrite H1 in X'. injection X' as <-. eauto 8.
Qed.

(* a packet whose id is 0, whose type is one-way, or whose id no call ever registered reaches nobody *)
Theorem unknown_reaches_nobody ls s r rc : run init ls = Some s -> nth_error (recvs s) r = Some rc ->
  (p_id (r_pkt rc) = 0 \/ p_oneway (r_pkt rc) = true \/ (forall k c, nth_error (calls s) k = Some c -> c_id c <> p_id (r_pkt rc))) ->
  chan_of (r_pc rc) = None.
Proof.
  intros E H1 H2. destruct (run_inv _ _ E) as (_ & B & _).
  destruct (chan_of (r_pc rc)) as [ch|] eqn:Ec; auto. exfalso.
  destruct (B _ _ _ H1 Ec) as (c & X & Y & Z & W). destruct H2 as [H2|[H2|H2]]; [congruence|congruence|eapply H2; eauto].
Qed.

(* duplicates: two different receivers never both deliver to the same call *)
Theorem delivered_once ls s r1 r2 rc1 rc2 ch : run init ls = Some s ->
  nth_error (recvs s) r1 = Some rc1 -> nth_error (recvs s) r2 = Some rc2 ->
  r_pc rc1 = RDone ch -> r_pc rc2 = RDone ch -> r1 = r2.
Proof. intros E. apply (run_inv _ _ E). Qed.

(* cleanup: the table has entries only for outstanding calls, under their own ids; in particular a returned call has none *)
Theorem cleanup ls s : run init ls = Some s ->
  forall id ch, lookup id (table s) = Some ch ->
  exists c, nth_error (calls s) ch = Some c /\ c_id c = id /\ active c = true.
Proof. intros E. apply (run_inv _ _ E). Qed.

Corollary cleanup_returned ls s k c o : run init ls = Some s ->
  nth_error (calls s) k = Some c -> c_pc c = CRet o -> lookup (c_id c) (table s) <> Some k.
Proof.
  intros E H1 H2 H3. destruct (cleanup _ _ E _ _ H3) as (c' & X & _ & Z). rewrite H1 in X. injection X as <-.
  unfold active in Z. rewrite H2 in Z. discriminate.
Qed.

(* a reply that arrives when no outstanding call holds its id is dropped at the lookup: no call and no table entry changes,
   and the receiver can take no further step *)
Theorem late_reply_inert ls s r rc : run init ls = Some s ->
  nth_error (recvs s) r = Some rc -> r_pc rc = RStart ->
  (forall k c, nth_error (calls s) k = Some c -> c_id c = p_id (r_pkt rc) -> active c = false) ->
  exists s', step s (LLookup r) = Some s' /\ calls s' = calls s /\ table s' = table s /\
    (forall rc', nth_error (recvs s') r = Some rc' -> r_pc rc' = RPush \/ r_pc rc' = RDropped) /\
    step s' (LLookup r) = None /\ step s' (LHandoff r) = None /\ step s' (LGiveUp r) = None.
Proof.
  intros E H1 H2 H3.
  assert (P : looked_up (r_pkt rc) (table s) = RPush \/ looked_up (r_pkt rc) (table s) = RDropped).
  { unfold looked_up. destruct (p_id (r_pkt rc) =? 0); auto. destruct (p_oneway (r_pkt rc)); auto.
    destruct (lookup (p_id (r_pkt rc)) (table s)) as [ch|] eqn:El; auto.
    destruct (cleanup _ _ E _ _ El) as (c & X & Y & Z). rewrite (H3 _ _ X Y) in Z. discriminate. }
  eexists. split; [cbn [step]; rewrite H1, H2; reflexivity|]. fold (looked_up (r_pkt rc) (table s)). cbn [step calls table recvs].
  rewrite (nth_error_upd_eq _ _ _ _ H1). cbn [set_rpc r_pc]. repeat split.
  - intros rc' [= <-]. exact P.
  - destruct P as [-> | ->]; reflexivity.
  - destruct P as [-> | ->]; reflexivity.
  - destruct P as [-> | ->]; reflexivity.
Qed.

(* the table is exactly the set of outstanding calls: when all calls have returned it is empty *)
Theorem table_empty_when_quiet ls s : run init ls = Some s ->
  (forall k c, nth_error (calls s) k = Some c -> active c = false) -> table s = [].
Proof.
  intros E Q. destruct (table s) as [|[id ch] t] eqn:Et; auto. exfalso.
  destruct (cleanup _ _ E id ch) as (c & X & Y & Z); [rewrite Et; cbn; rewrite Z.eqb_refl; reflexivity|].
  rewrite (Q _ _ X) in Z. discriminate.
Qed.

(* what a caller can come back with: the reply carrying its own id, the timeout, a send error, or (one-way) nothing *)
Theorem outcome_cases ls s k c o : run init ls = Some s -> nth_error (calls s) k = Some c -> c_pc c = CRet o ->
  o = OTimeout \/ o = OErr \/ o = OOneWay \/ exists p, o = OReply p /\ p_id p = c_id c /\ p_id p <> 0 /\ p_oneway p = false.
Proof.
  intros E H Hpc. destruct o as [p| | |]; auto. right. right. right. exists p.
  destruct (routing _ _ _ _ p E H (or_intror Hpc)) as (A & B & C & _). auto.
Qed.

(* under the hypothesis discharged by the id generator: ids fresh among outstanding calls *)
Definition ginv (s : state) : Prop :=
  forall k c, nth_error (calls s) k = Some c -> active c = true ->
  c_id c <> 0 /\ lookup (c_id c) (table s) = Some k.

Lemma id_free_iff id cs : id_free id cs = true <-> forall k c, nth_error cs k = Some c -> active c = true -> c_id c <> id.
Proof.
  unfold id_free. rewrite forallb_forall. split.
  - intros F k c H A Heq. specialize (F c (nth_error_In _ _ H)). rewrite A, Heq, Z.eqb_refl in F. discriminate.
  - intros H c Hin. apply In_nth_error in Hin. destruct Hin as [k Hk]. destruct (active c) eqn:A; [|reflexivity].
    destruct (Z.eqb_spec (c_id c) id) as [Heq|]; [destruct (H _ _ Hk A Heq)|reflexivity].
Qed.

Lemma step_ginv s l s' : ginv s -> goodb s l = true -> step s l = Some s' -> ginv s'.
Proof.
  intros G Hg E k c H1 H2.
  destruct (step_Step _ _ _ E) as [id0 ow|l k0 c0 pc H0 M|k0 c0 o H0 R|p| |r0 rc0 Hr Hpc|r0 rc0 ch0 c0 Hr Hpc H0 Hc|r0 rc0 ch0 Hr Hpc];
    cbn [calls table] in *; auto.
  - cbn [goodb] in Hg. apply andb_true_iff in Hg. destruct Hg as [Hz Hf]. rewrite lookup_store.
    apply nth_error_snoc_inv in H1. destruct H1 as [[-> ->]|H1]; cbn [c_id].
    + rewrite Z.eqb_refl. split; [|reflexivity]. apply negb_true_iff, Z.eqb_neq in Hz. exact Hz.
    + pose proof (proj1 (id_free_iff _ _) Hf _ _ H1 H2) as N. destruct (Z.eqb_spec id0 (c_id c)); [congruence|auto].
  - apply nth_error_upd_inv in H1. destruct H1 as [[-> ->]|[_ H1]]; [|auto]. apply (G _ _ H0).
    unfold active. destruct (cmove_src _ _ _ _ M) as [-> | ->]; reflexivity.
  - apply nth_error_upd_inv in H1. destruct H1 as [[-> ->]|[Hne H1]]; [discriminate|].
    destruct (G _ _ H1 H2) as [X Y]. destruct (G _ _ H0 (ret_of_active _ _ R)) as [_ Y0]. split; [exact X|].
    rewrite lookup_delete. destruct (Z.eqb_spec (c_id c0) (c_id c)) as [Eq|]; [|exact Y]. rewrite Eq in Y0. congruence.
  - apply nth_error_upd_inv in H1. destruct H1 as [[-> ->]|[_ H1]]; [|auto]. apply (G _ _ H0).
    unfold active. rewrite Hc. reflexivity.
Qed.

Lemma good_run_ginv ls : forall s s', ginv s -> good_run s ls = true -> run s ls = Some s' -> ginv s'.
Proof.
  induction ls as [|l ls IH]; intros s s' G Hg E; cbn [run good_run] in *.
  - injection E as <-. exact G.
  - apply andb_true_iff in Hg. destruct Hg as [Hg1 Hg2]. destruct (step s l) eqn:E1; [|discriminate].
    eauto using step_ginv.
Qed.

(* the entry of an outstanding call is its own: nobody overwrote or deleted it, so a matching reply finds this call *)
Theorem own_entry ls s k c : good_run init ls = true -> run init ls = Some s ->
  nth_error (calls s) k = Some c -> active c = true -> c_id c <> 0 /\ lookup (c_id c) (table s) = Some k.
Proof. intros Hg E. apply (good_run_ginv _ _ _) with (2 := Hg) (3 := E). intros [|k']; discriminate. Qed.

(* outstanding calls have pairwise distinct ids *)
Theorem outstanding_distinct ls s k1 k2 c1 c2 : good_run init ls = true -> run init ls = Some s ->
  nth_error (calls s) k1 = Some c1 -> nth_error (calls s) k2 = Some c2 -> active c1 = true -> active c2 = true ->
  c_id c1 = c_id c2 -> k1 = k2.
Proof.
  intros Hg E H1 H2 A1 A2 Eq. destruct (own_entry _ _ _ _ Hg E H1 A1) as [_ L1]. destruct (own_entry _ _ _ _ Hg E H2 A2) as [_ L2].
  rewrite Eq in L1. congruence.
Qed.

(* several adapters: a good run of the product is a good run of the adapter machine on every component *)
Lemma mstep_inv ms al ms' : mstep ms al = Some ms' ->
  exists s s', nth_error ms (fst al) = Some s /\ step s (snd al) = Some s' /\ ms' = upd (fst al) s' ms.
Proof.
  unfold mstep. destruct (nth_error ms (fst al)) as [s|]; [|discriminate]. destruct (step s (snd al)) as [s'|] eqn:E; [|discriminate].
  intros [= <-]. exists s, s'. auto.
Qed.

Lemma mgoodb_proj ms al s : mgoodb ms al = true -> nth_error ms (fst al) = Some s -> goodb s (snd al) = true.
Proof.
  unfold mgoodb, goodb. destruct (snd al); auto. intros G H. apply andb_prop in G. destruct G as [Z F]. rewrite Z.
  rewrite forallb_forall in F. apply F. eapply nth_error_In, H.
Qed.

Theorem mgood_run_proj ls : forall ms ms', mgood_run ms ls = true -> mrun ms ls = Some ms' ->
  forall a s', nth_error ms' a = Some s' ->
  exists s pls, nth_error ms a = Some s /\ run s pls = Some s' /\ good_run s pls = true.
Proof.
  induction ls as [|al ls IH]; intros ms ms' G R a s' H; cbn [mgood_run mrun] in G, R.
  - injection R as <-. exists s', []. auto.
  - apply andb_prop in G. destruct G as [G1 G2]. destruct (mstep ms al) as [ms1|] eqn:E1; [|discriminate].
    destruct (IH _ _ G2 R _ _ H) as (s1 & pls & A & B & C).
    destruct (mstep_inv _ _ _ E1) as (s0 & sx & X & Y & ->).
    apply nth_error_upd_inv in A. destruct A as [[-> ->]|[_ A]]; [|eauto].
    exists s0, (snd al :: pls). cbn [run good_run]. rewrite Y, B, C, (mgoodb_proj _ _ _ G1 X). auto.
Qed.

(* hence every connection of a trace accepted by [maccepts] is a good run of the adapter machine from [init]: the theorems
   of this file (routing, own_entry, cleanup ...) apply to what was observed *)
Corollary maccepts_components n ls obs snaps lft pu : maccepts (n, ls, obs, snaps, lft, pu) = true ->
  exists ms, mrun (repeat init n) ls = Some ms /\
    forall a s', nth_error ms a = Some s' -> exists pls, run init pls = Some s' /\ good_run init pls = true.
Proof.
  unfold maccepts. intros H. apply andb_prop in H. destruct H as [H1 H2]. apply andb_prop in H1. destruct H1 as [G _].
  destruct (mrun (repeat init n) ls) as [ms|] eqn:R; [|discriminate]. exists ms. split; auto.
  intros a s' Hs. destruct (mgood_run_proj _ _ _ G R a s' Hs) as (s & pls & A & B & C).
  apply nth_error_In, repeat_spec in A. subst s. eauto.
Qed.

Definition pk (id : Z) (n : N) : packet := {| p_id := id; p_pay := n; p_oneway := false |}.

(* two callers, replies in reverse order, a duplicate, a forged id 0, an id nobody registered, a late reply *)
Example accepts_ex : accepts
  ([LRegister 7 false; LRegister 8 false; LSendOk 0; LSendOk 1;
    LPacket (pk 8 101); LPacket (pk 0 100); LPacket (pk 99 100); LPacket (pk 7 100); LPacket (pk 8 100);
    LLookup 0; LLookup 1; LLookup 2; LLookup 3; LLookup 4;
    LHandoff 3; LHandoff 0; LReturn 0; LReturn 1; LGiveUp 4; LPacket (pk 7 101); LLookup 5],
   [Some 100%N; Some 101%N], [(4%nat, [8; 7]); (17%nat, [8])], []) = true.
Proof. vm_compute. reflexivity. Qed.

(* a caller that ends up with another caller's payload is not a run of the machine *)
Example rejects_cross : accepts
  ([LRegister 7 false; LRegister 8 false; LSendOk 0; LSendOk 1; LPacket (pk 8 101); LLookup 0; LHandoff 0;
    LReturn 1; LTimeout 0; LReturn 0], [Some 101%N; None], [], []) = false.
Proof. vm_compute. reflexivity. Qed.

(* an implementation table holding an id the machine's table does not hold, or an entry left behind, is rejected *)
Example rejects_snap : accepts
  ([LRegister 7 false; LSendOk 0; LTimeout 0; LReturn 0], [None], [(2%nat, [8])], []) = false.
Proof. vm_compute. reflexivity. Qed.
Example rejects_left : accepts
  ([LRegister 7 false; LSendOk 0; LTimeout 0; LReturn 0], [None], [(2%nat, [7])], [7]) = false.
Proof. vm_compute. reflexivity. Qed.

(* two connections: the reply to the call on connection 0 arrives on connection 1 and is dropped there; a second copy on
   connection 0 is delivered *)
Example maccepts_ex : maccepts
  (2%nat, [(0%nat, LRegister 7 false); (0%nat, LSendOk 0); (1%nat, LRegister 8 false); (1%nat, LSendOk 0);
           (1%nat, LPacket (pk 7 100)); (1%nat, LLookup 0); (0%nat, LPacket (pk 7 100)); (0%nat, LLookup 0); (0%nat, LHandoff 0);
           (0%nat, LReturn 0); (1%nat, LTimeout 0); (1%nat, LReturn 0)],
   [[Some 100%N]; [None]], [(4%nat, [7; 8])], [], ([], [])) = true.
Proof. vm_compute. reflexivity. Qed.

(* the same id outstanding on two connections at once is not a good run: ids are process-wide *)
Example mrejects_shared : maccepts
  (2%nat, [(0%nat, LRegister 7 false); (0%nat, LSendOk 0); (1%nat, LRegister 7 false); (1%nat, LSendOk 0);
           (0%nat, LTimeout 0); (0%nat, LReturn 0); (1%nat, LTimeout 0); (1%nat, LReturn 0)],
   [[None]; [None]], [], [], ([], [])) = false.
Proof. vm_compute. reflexivity. Qed.

(* a reply delivered across connections is not a run *)
Example mrejects_cross_conn : maccepts
  (2%nat, [(0%nat, LRegister 7 false); (0%nat, LSendOk 0); (1%nat, LPacket (pk 7 100)); (1%nat, LLookup 0); (1%nat, LHandoff 0);
           (0%nat, LReturn 0)], [[Some 100%N]; []], [], [], ([], [])) = false.
Proof. vm_compute. reflexivity. Qed.

(* an id-0 packet on a connection whose adapter has a push callback: the callback must have seen exactly that payload *)
Example maccepts_push : maccepts
  (1%nat, [(0%nat, LPacket (pk 0 55)); (0%nat, LLookup 0)], [[]], [], [], ([0%nat], [55%N])) = true.
Proof. vm_compute. reflexivity. Qed.
Example mrejects_push_lost : maccepts
  (1%nat, [(0%nat, LPacket (pk 0 55)); (0%nat, LLookup 0)], [[]], [], [], ([0%nat], [])) = false.
Proof. vm_compute. reflexivity. Qed.

(* the hypothesis is needed: if two outstanding calls share an id, the second Store overwrites the first entry and the
   second call's deferred Delete removes it — the first caller is still waiting but unreachable *)
Example shared_id_breaks_entry :
  exists s c, run init [LRegister 5 false; LRegister 5 false; LSendOk 0; LSendOk 1; LTimeout 1; LReturn 1] = Some s /\
    nth_error (calls s) 0 = Some c /\ c_pc c = CWait /\ lookup (c_id c) (table s) = None.
Proof. eexists. eexists. vm_compute. repeat split. Qed.
