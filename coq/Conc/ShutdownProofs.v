(* C12 — proofs about the shutdown transition system of Conc/Shutdown.v: invariants over ALL label sequences
   (any number of connections and requests, any pool size and queue capacity, any interleaving).
   [step] is characterised once, label by label ([step_inv], [step_intro]); every proof about a step goes through
   that characterisation, so the boolean guards of [step] are decoded in one place only. *)
From Coq Require Import List NArith Bool Arith Lia.
From TarsV Require Import Base.Lts Conc.Shutdown.
Import ListNotations.

Lemma req_eqb_eq : forall a b, req_eqb a b = true <-> a = b.
Proof.
  intros [a1 a2] [b1 b2]. unfold req_eqb. cbn. rewrite andb_true_iff, !Nat.eqb_eq. split.
  - intros [-> ->]. reflexivity.
  - intros H. inversion H. auto.
Qed.

Lemma req_eqb_refl : forall a, req_eqb a a = true.
Proof. intros. apply req_eqb_eq. reflexivity. Qed.

Lemma existsb_req_in : forall q l, existsb (req_eqb q) l = true <-> In q l.
Proof.
  intros. rewrite existsb_exists. split.
  - intros [x [Hin He]]. apply req_eqb_eq in He. subst. auto.
  - intros. exists q. split; auto. apply req_eqb_refl.
Qed.

Lemma in_filter_out A (eqb : A -> A -> bool) q x l : (forall a b, eqb a b = true <-> a = b) ->
  In x (filter (fun y => negb (eqb y q)) l) <-> In x l /\ x <> q.
Proof.
  intros Heq. rewrite filter_In, negb_true_iff. split; intros [H1 H2]; (split; [exact H1 |]).
  - intros E. apply Heq in E. congruence.
  - destruct (eqb x q) eqn:E; [apply Heq in E; contradiction | reflexivity].
Qed.

Lemma in_remove_req q x l : In x (remove_req q l) <-> In x l /\ x <> q.
Proof. apply in_filter_out, req_eqb_eq. Qed.

Lemma in_remove_nat r x l : In x (remove_nat r l) <-> In x l /\ x <> r.
Proof. apply (in_filter_out nat Nat.eqb), Nat.eqb_eq. Qed.

Lemma cstate_eqb_eq : forall a b, cstate_eqb a b = true <-> a = b.
Proof. destruct a, b; cbn; split; intros; congruence. Qed.

Lemma rstate_eqb_eq : forall a b, rstate_eqb a b = true <-> a = b.
Proof. destruct a, b; cbn; split; intros; congruence. Qed.

Section Inversion.
Variable W : nat.
Variable cap : N.
Variable early : bool.
Notation stepW := (step W cap early).

Definition step_spec (s : state) (l : label) (s' : state) : Prop :=
  match l with
  | LConnect c => (listen s = 0 /\ cst s c = CNone) /\
      s' = {| ph := ph s; listen := listen s; inpoll := inpoll s; known := c :: known s; cst := upd (cst s) c COpen;
              inmap := upd (inmap s) c true; notified := upd (notified s) c false; polled := upd (polled s) c false;
              busy := busy s; pend := pend s; rs := rs s; queue := queue s; hand := hand s; running := running s;
              stopped := stopped s; earlypoll := earlypoll s; rdbuf := rdbuf s; chk := chk s; raced := raced s |}
  | LSend c r => rs s c r = Fresh /\ s' = set_req s c r InFlight (busy s c) (pend s c) (queue s) (hand s) (running s)
  | LReadBytes c r => (cst s c = COpen /\ rs s c r = InFlight /\ pend s c = None /\ rdbuf s c = None) /\
      s' = set_aux s (upd (rdbuf s) c (Some r)) (chk s) (raced s || chk s c)
  | LRead c r => (rdbuf s c = Some r /\ rs s c r = InFlight) /\
      s' = set_aux (set_req s c r (if W =? 0 then Spawned else Pending) (r :: busy s c)
                            (if W =? 0 then None else Some r) (queue s) (hand s) (running s))
                   (upd (rdbuf s) c None) (chk s) (raced s)
  | LEnqueue c r => (pend s c = Some r /\ rs s c r = Pending /\ (N.of_nat (length (queue s)) < cap)%N) /\
      s' = set_req s c r Queued (busy s c) None (queue s ++ [(c, r)]) (hand s) (running s)
  | LTake c r => (hand s = None /\ W <> 0 /\ stopped s = false /\ In (c, r) (queue s)) /\
      s' = set_req s c r InHand (busy s c) (pend s c) (remove_req (c, r) (queue s)) (Some (c, r)) (running s)
  | LStart c r => (W = 0 /\ rs s c r = Spawned \/ W <> 0 /\ hand s = Some (c, r) /\ length (running s) < W) /\
      s' = set_req s c r Running (busy s c) (pend s c) (queue s) (if W =? 0 then hand s else None) ((c, r) :: running s)
  | LFinish c r => rs s c r = Running /\
      s' = set_req s c r (if cstate_eqb (cst s c) CClosed then Lost else Answered)
                   (remove_nat r (busy s c)) (pend s c) (queue s) (hand s) (remove_req (c, r) (running s))
  | LShutdown => ph s = SRun /\ s' = set_srv s SDown (listen s) false
  | LAcceptExit => (closed_flag (ph s) = true /\ listen s = 0) /\ s' = set_srv s (ph s) 1 (inpoll s)
  | LAcceptErr => listen s = 0 /\ s' = s
  | LPoolStop => (hand s = None /\ W <> 0 /\ listen s <> 0 /\ stopped s = false /\ (early = true \/ all_gone s = true)) /\
      s' = {| ph := ph s; listen := listen s; inpoll := inpoll s; known := known s; cst := cst s;
              inmap := inmap s; notified := notified s; polled := polled s; busy := busy s; pend := pend s;
              rs := rs s; queue := queue s; hand := hand s; running := running s; stopped := true;
              earlypoll := earlypoll s; rdbuf := rdbuf s; chk := chk s; raced := raced s |}
  | LPollBegin => (ph s = SDown /\ inpoll s = false) /\
      s' = {| ph := ph s; listen := (if listen s =? 1 then 2 else listen s); inpoll := true; known := known s;
              cst := cst s; inmap := inmap s;
              notified := (if listen s =? 1
                           then (fun c => notified s c || (inmap s c && negb (cstate_eqb (cst s c) CClosed)))
                           else notified s);
              polled := (fun _ => true); busy := busy s;
              pend := pend s; rs := rs s; queue := queue s; hand := hand s; running := running s;
              stopped := stopped s; earlypoll := earlypoll s || (listen s =? 0); rdbuf := rdbuf s; chk := chk s;
              raced := raced s |}
  | LPollCheck c => (poller_live (ph s) = true /\ inpoll s = true /\ inmap s c = true /\
                     (cst s c = COpen \/ cst s c = CExited) /\ busy s c = []) /\
      s' = set_aux s (rdbuf s) (upd (chk s) c true) (raced s || is_some (rdbuf s c))
  | LPollClose c =>
      (chk s c = true /\ cst s c = CClosed) /\ s' = set_aux s (rdbuf s) (upd (chk s) c false) (raced s) \/
      (chk s c = true /\ (cst s c = COpen \/ cst s c = CExited)) /\
      s' = set_aux (set_conn s c CClosed true (notified s c) (polled s c)) (rdbuf s) (upd (chk s) c false) (raced s)
  | LPollReturn => (ph s = SDown /\ inpoll s = true /\ all_closed s = true /\ nochk s = true) /\
      s' = set_srv s SRetDrained (listen s) false
  | LPollEnd => (poller_live (ph s) = true /\ inpoll s = true /\ nochk s = true) /\ s' = set_srv s (ph s) (listen s) false
  | LRecvExit c => (cst s c = COpen /\ pend s c = None /\ rdbuf s c = None /\ closed_flag (ph s) = true) /\
      s' = set_conn s c CExited true (notified s c) false
  | LRecvClose c => (cst s c = CExited /\ busy s c = [] /\ (polled s c = true \/ returned (ph s) = true)) /\
      s' = set_conn s c CClosed false (notified s c) (polled s c)
  | LRecvGone c => (cst s c = CClosed /\ busy s c = [] /\ rdbuf s c = None /\ inmap s c = true) /\
      s' = set_conn s c CClosed false (notified s c) (polled s c)
  | LCtxExpire => ph s = SDown /\ s' = set_srv s SRetCtx (listen s) (inpoll s)
  | LExit => (ph s = SRetDrained \/ ph s = SRetCtx) /\ s' = set_srv s SExited (listen s) (inpoll s)
  end.

Lemma is_down_eq p : is_down p = true <-> p = SDown.
Proof. destruct p; cbn; split; congruence. Qed.

Lemma step_inv s l s' : stepW s l = Some s' -> alive (ph s) = true /\ step_spec s l s'.
Proof.
  unfold step. destruct (alive (ph s)); [cbn [negb] | discriminate]. intros H. split; [reflexivity|]. revert H.
  destruct l; cbn [step_spec];
  repeat match goal with
  | |- (if ?b then _ else _) = Some _ -> _ => destruct b eqn:?
  | |- match ?x with _ => _ end = Some _ -> _ => destruct x eqn:?
  end; intros H; try discriminate H; injection H as <-;
  repeat match goal with
  | H : _ && _ = true |- _ => apply andb_true_iff in H; destruct H
  | H : _ || _ = true |- _ => apply orb_true_iff in H
  | H : negb _ = true |- _ => apply negb_true_iff in H
  | H : cstate_eqb _ _ = true |- _ => apply cstate_eqb_eq in H
  | H : rstate_eqb _ _ = true |- _ => apply rstate_eqb_eq in H
  | H : req_eqb _ _ = true |- _ => apply req_eqb_eq in H
  | H : existsb (req_eqb _) _ = true |- _ => apply existsb_req_in in H
  | H : is_down _ = true |- _ => apply is_down_eq in H
  | H : (_ =? _) = true |- _ => apply Nat.eqb_eq in H
  | H : (_ =? _) = false |- _ => apply Nat.eqb_neq in H
  | H : (_ <? _) = true |- _ => apply Nat.ltb_lt in H
  | H : (_ <? _)%N = true |- _ => apply N.ltb_lt in H
  end; subst; repeat split; auto.
Qed.

Lemma step_intro s l s' : alive (ph s) = true -> step_spec s l s' -> stepW s l = Some s'.
Proof.
  intros A. unfold step. rewrite A. cbn [negb]. destruct l; cbn [step_spec]; intros H; decompose [and or] H; clear H; subst s'; cbn -[Nat.ltb N.ltb];
  repeat match goal with
  | E : ?a = _ |- context [?a] => rewrite E
  | E : ?a <> 0 |- context [?a =? 0] => rewrite (proj2 (Nat.eqb_neq a 0) E)
  | E : _ < _ |- _ => apply Nat.ltb_lt in E
  | E : (_ < _)%N |- _ => apply N.ltb_lt in E
  | E : In _ _ |- _ => apply existsb_req_in in E
  end; cbn; rewrite ?Nat.eqb_refl, ?req_eqb_refl, ?orb_true_r; try reflexivity.
  (* LRead is left: [step] has its [if W =? 0] around [Some], [step_spec] inside the new state *)
  destruct (W =? 0); reflexivity.
Qed.
End Inversion.

Lemma upd_eq : forall A (f : nat -> A) k v, upd f k v k = v.
Proof. intros. unfold upd. rewrite Nat.eqb_refl. reflexivity. Qed.

Lemma upd_neq : forall A (f : nat -> A) k v x, x <> k -> upd f k v x = f x.
Proof. intros. unfold upd. destruct (x =? k) eqn:E; auto. apply Nat.eqb_eq in E. contradiction. Qed.

Lemma upd_same : forall A (f : nat -> A) k x, upd f k (f k) x = f x.
Proof. intros. unfold upd. destruct (x =? k) eqn:E; auto. apply Nat.eqb_eq in E. congruence. Qed.

Lemma upd2_eq : forall A (f : nat -> nat -> A) k1 k2 v, upd2 f k1 k2 v k1 k2 = v.
Proof. intros. unfold upd2. rewrite !Nat.eqb_refl. reflexivity. Qed.

Lemma upd2_neq : forall A (f : nat -> nat -> A) k1 k2 v x y, (x, y) <> (k1, k2) -> upd2 f k1 k2 v x y = f x y.
Proof.
  intros. unfold upd2. destruct (x =? k1) eqn:E1; destruct (y =? k2) eqn:E2; cbn; auto.
  apply Nat.eqb_eq in E1, E2. subst. contradiction.
Qed.

Lemma upd2_case : forall A (f : nat -> nat -> A) k1 k2 v x y,
  x = k1 /\ y = k2 /\ upd2 f k1 k2 v x y = v \/ (x, y) <> (k1, k2) /\ upd2 f k1 k2 v x y = f x y.
Proof.
  intros. destruct (Nat.eq_dec x k1) as [-> | ?]; [destruct (Nat.eq_dec y k2) as [-> | ?] |].
  - left. auto using upd2_eq.
  - right. split; [congruence | apply upd2_neq; congruence].
  - right. split; [congruence | apply upd2_neq; congruence].
Qed.

(* H : step .. s l = Some s'.  One goal per label if l is a variable (two for LPollClose), with the guards in G and s'
   replaced by the new state; assignments of a field to itself ([upd_same]) are dropped. *)
Ltac step_cases H G :=
  apply step_inv in H; destruct H as [Halive H];
  match type of H with step_spec _ _ _ _ ?l _ => try (is_var l; destruct l) end; cbn [step_spec] in H;
  try (destruct H as [H | H]); destruct H as [G ->]; cbn; rewrite ?upd_same.

(* is (x, y) the request / x the connection that the step updates? *)
Ltac on_req x y :=
  match goal with |- context [upd2 ?f ?k1 ?k2 ?v x y] =>
    destruct (upd2_case _ f k1 k2 v x y) as [(-> & -> & ->) | [? ->]] end.

Ltac on_key x k :=
  destruct (Nat.eq_dec x k) as [-> | ?]; [rewrite ?upd_eq in * | rewrite ?(upd_neq _ _ k _ x) in * by assumption].

Section Proofs.
Variable W : nat.
Variable cap : N.
Variable early : bool.
Notation stepW := (step W cap early).
Notation runW := (run W cap early).

(* Safety invariant: numInvoke (the ghost list busy) counts exactly the requests read and not answered; what is queued, in
   hand or read-and-uncounted is in the matching request state; the table, the states of the connections and the
   poller's pending tests agree. *)
Record Safe (s : state) : Prop := {
  S_known : forall c, cst s c <> CNone <-> In c (known s);
  S_map : forall c, inmap s c = false -> cst s c = CClosed \/ cst s c = CNone;
  S_nomap : forall c, cst s c = CNone -> inmap s c = false;
  S_busy : forall c r, unanswered (rs s c r) = true -> In r (busy s c);
  S_counted : forall c r, In r (busy s c) -> unanswered (rs s c r) = true;
  S_none : forall c, cst s c = CNone -> busy s c = [] /\ rdbuf s c = None;
  S_queue : forall c r, In (c, r) (queue s) -> rs s c r = Queued;
  S_hand : forall c r, hand s = Some (c, r) -> rs s c r = InHand;
  S_rd : forall c r, rdbuf s c = Some r -> rs s c r = InFlight /\ pend s c = None /\ (cst s c = COpen \/ cst s c = CClosed);
  S_live : forall c, busy s c <> [] \/ rdbuf s c <> None -> inmap s c = true;
  S_chk : forall c, chk s c = true -> inpoll s = true /\ In c (known s) /\ ph s <> SRun
}.

Lemma nochk_false s c : nochk s = true -> In c (known s) -> chk s c = false.
Proof. unfold nochk. rewrite forallb_forall. intros N K. apply negb_true_iff, N, K. Qed.

Lemma none_or_known s c : Safe s -> cst s c = CNone \/ In c (known s).
Proof. intros HS. destruct (cst s c) eqn:E; [left; reflexivity | right; apply (S_known s HS); congruence ..]. Qed.

Lemma live_in_table s c : Safe s -> cst s c = COpen \/ cst s c = CExited -> inmap s c = true.
Proof. intros HS E. destruct (inmap s c) eqn:M; [reflexivity|]. destruct (S_map s HS c M); intuition congruence. Qed.

Lemma exited_no_rdbuf s c : Safe s -> cst s c = CExited -> rdbuf s c = None.
Proof.
  intros HS E. destruct (rdbuf s c) as [r|] eqn:R; [| reflexivity].
  destruct (S_rd s HS _ _ R) as (_ & _ & [? | ?]); congruence.
Qed.

Lemma idle_all_answered s c : Safe s -> busy s c = [] -> forall r, unanswered (rs s c r) = false.
Proof.
  intros HS B r. destruct (unanswered (rs s c r)) eqn:U; [| reflexivity].
  apply (S_busy s HS) in U. rewrite B in U. destruct U.
Qed.

Lemma start_from s c r : Safe s ->
  W = 0 /\ rs s c r = Spawned \/ W <> 0 /\ hand s = Some (c, r) /\ length (running s) < W ->
  rs s c r = Spawned \/ rs s c r = InHand.
Proof. intros HS [[_ E] | (_ & E & _)]; [left | right; apply (S_hand s HS)]; exact E. Qed.

Lemma step_Safe s l s' : Safe s -> stepW s l = Some s' -> Safe s'.
Proof.
  intros HS H. constructor.
  - intros c. step_cases H G; try apply (S_known s HS).
    all: pose proof (S_known s HS c) as K; on_key c c0; cbn [In]; try exact K; intuition congruence.
  - intros c. step_cases H G; try apply (S_map s HS).
    all: on_key c c0; [| apply (S_map s HS)]; intros E; auto; discriminate E.
  - intros c. step_cases H G; try apply (S_nomap s HS).
    all: on_key c c0; [discriminate | apply (S_nomap s HS)].
  - intros c r. step_cases H G; try apply (S_busy s HS).
    all: on_req c r; intros E; try apply (S_busy s HS _ _ E).
    + (* LSend *) discriminate E.
    + (* LRead, this request *) rewrite upd_eq. left. reflexivity.
    + (* LRead, another request *) on_key c c0; [right|]; apply (S_busy s HS _ _ E).
    + (* LEnqueue *) apply (S_busy s HS). destruct G as (_ & -> & _). reflexivity.
    + (* LTake *) apply (S_busy s HS). rewrite (S_queue s HS c0 r0) by apply G. reflexivity.
    + (* LStart *) apply (S_busy s HS). destruct (start_from s c0 r0 HS G) as [-> | ->]; reflexivity.
    + (* LFinish, this request *) destruct (cstate_eqb _ _); discriminate E.
    + (* LFinish, another request *) on_key c c0; [apply in_remove_nat; split; [| congruence] |]; apply (S_busy s HS _ _ E).
  - intros c r. step_cases H G; try apply (S_counted s HS).
    all: on_req c r; intros B; try reflexivity; try apply (S_counted s HS _ _ B).
    + (* LSend *) apply (S_counted s HS) in B. rewrite G in B. discriminate B.
    + (* LRead, this request *) destruct (W =? 0); reflexivity.
    + (* LRead, another request *) on_key c c0; [destruct B as [<- | B]; [congruence |] |]; apply (S_counted s HS _ _ B).
    + (* LFinish, this request *) rewrite upd_eq in B. apply in_remove_nat in B. destruct B as [_ []]. reflexivity.
    + (* LFinish, another request *) on_key c c0; [apply in_remove_nat in B; destruct B as [B _] |]; apply (S_counted s HS _ _ B).
  - intros c. step_cases H G; try apply (S_none s HS).
    all: intros E; on_key c c0; try discriminate E; try apply (S_none s HS _ E).
    + (* LReadBytes *) destruct G. congruence.
    + (* LRead *) destruct (S_rd s HS c0 r) as (_ & _ & [? | ?]); [apply G | ..]; congruence.
    + (* LFinish *) destruct (S_none s HS c0 E) as [-> ->]. auto.
  - intros c r. step_cases H G; try apply (S_queue s HS).
    all: on_req c r; intros E; try apply (S_queue s HS _ _ E).
    + (* LSend *) apply (S_queue s HS) in E. congruence.
    + (* LRead *) apply (S_queue s HS) in E. destruct G. congruence.
    + (* LEnqueue, this request *) reflexivity.
    + (* LEnqueue, another request *) apply in_app_iff in E. destruct E as [E | [E | []]]; [apply (S_queue s HS _ _ E) | congruence].
    + (* LTake, this request *) apply in_remove_req in E. destruct E. congruence.
    + (* LTake, another request *) apply in_remove_req in E. apply (S_queue s HS), E.
    + (* LStart *) apply (S_queue s HS) in E. destruct (start_from s c0 r0 HS G); congruence.
    + (* LFinish *) apply (S_queue s HS) in E. congruence.
  - intros c r. step_cases H G; try apply (S_hand s HS).
    all: on_req c r; intros E; try apply (S_hand s HS _ _ E); try (apply (S_hand s HS) in E; intuition congruence).
    + (* LTake, this request *) reflexivity.
    + (* LTake, another request *) congruence.
    + (* LStart *) destruct G as [[E0 E1] | [E0 _]].
      * rewrite E0 in E. apply (S_hand s HS) in E. congruence.
      * apply Nat.eqb_neq in E0. rewrite E0 in E. discriminate E.
    + (* LStart *) destruct (W =? 0); [apply (S_hand s HS _ _ E) | discriminate E].
  - intros c r. step_cases H G; try apply (S_rd s HS).
    all: intros E; try destruct (S_rd s HS _ _ E) as (E1 & E2 & E3).
    + (* LConnect *) on_key c c0; auto.
    + (* LSend *) on_req c r; auto.
    + (* LReadBytes *) on_key c c0; [injection E as <-; intuition | apply (S_rd s HS _ _ E)].
    + (* LRead *) on_key c c0; [discriminate E |]. rewrite upd2_neq by congruence. apply (S_rd s HS _ _ E).
    + (* LEnqueue *) on_key c c0; [destruct G; congruence |]. rewrite upd2_neq by congruence. auto.
    + (* LTake *) on_req c r; [| auto]. rewrite (S_queue s HS c0 r0) in E1 by apply G. discriminate E1.
    + (* LStart *) on_req c r; [| auto]. destruct (start_from s c0 r0 HS G); congruence.
    + (* LFinish *) on_req c r; [congruence | auto].
    + (* LPollClose *) on_key c c0; auto.
    + (* LRecvExit *) on_key c c0; [destruct G as (_ & _ & G & _); congruence | auto].
    + (* LRecvClose *) on_key c c0; auto.
    + (* LRecvGone *) on_key c c0; auto.
  - intros c. step_cases H G; try apply (S_live s HS).
    all: intros E; on_key c c0; try reflexivity; try apply (S_live s HS _ E).
    + (* LReadBytes *) apply live_in_table; intuition.
    + (* LRead *) apply (S_live s HS). right. destruct G as [-> _]. discriminate.
    + (* LFinish *) apply (S_live s HS). destruct E as [E | E]; [left | right; exact E]. intros B. apply E. rewrite B. reflexivity.
    + (* LRecvClose *) destruct G as (X & B & _). apply (exited_no_rdbuf s c0 HS) in X. intuition.
    + (* LRecvGone *) intuition congruence.
  - intros c. step_cases H G; try apply (S_chk s HS).
    all: intros E; try (destruct (S_chk s HS _ E) as (E1 & E2 & E3); repeat split; auto; discriminate).
    + (* LPollCheck *) on_key c c0; [| apply (S_chk s HS _ E)]. destruct G as (P & I & _ & C & _). split; [exact I |]. split.
      * apply (S_known s HS). intuition congruence.
      * intros R. rewrite R in P. discriminate P.
    + (* LPollClose *) on_key c c0; [discriminate E | apply (S_chk s HS _ E)].
    + (* LPollClose *) on_key c c0; [discriminate E | apply (S_chk s HS _ E)].
    + (* LPollReturn *) destruct (S_chk s HS _ E) as (_ & K & _), G as (_ & _ & _ & N). rewrite (nochk_false s c N K) in E. discriminate E.
    + (* LPollEnd *) destruct (S_chk s HS _ E) as (_ & K & _), G as (_ & _ & N). rewrite (nochk_false s c N K) in E. discriminate E.
Qed.

Lemma run_is s ls : runW s ls = Lts.run stepW s ls.
Proof. reflexivity. Qed.

Lemma run_trans s a m b s' : runW s a = Some m -> runW m b = Some s' -> runW s (a ++ b) = Some s'.
Proof. intros H1 H2. rewrite run_is, Lts.run_app, <- run_is, H1. exact H2. Qed.

Lemma init_Safe : Safe init.
Proof.
  constructor; cbn; intros; try discriminate; auto; try contradiction.
  - split; intros; [congruence | contradiction].
  - destruct H; congruence.
Qed.

Lemma run_Safe ls s : runW init ls = Some s -> Safe s.
Proof. rewrite run_is. apply Lts.run_inv; [exact step_Safe | exact init_Safe]. Qed.

Lemma run_inv_Safe (P : state -> Prop) :
  P init -> (forall s l s', Safe s -> P s -> stepW s l = Some s' -> P s') -> forall ls s, runW init ls = Some s -> P s.
Proof. intros P0 PS. apply (Lts.run_ind_r stepW init (fun _ => P)); [exact P0|]. intros ls s l s' Hr. apply PS, (run_Safe ls s Hr). Qed.

Lemma raced_mono s l s' : stepW s l = Some s' -> raced s' = false -> raced s = false.
Proof. intros H. step_cases H G; auto; intros E; apply orb_false_iff in E; apply E. Qed.

(* What holds as long as neither window was hit: a connection is closed (and tested by the poller) only with
   numInvoke = 0 and nothing read-and-uncounted; nothing is ever Lost. *)
Record NoRace (s : state) : Prop := {
  Q_closed : forall c, cst s c = CClosed -> busy s c = [] /\ rdbuf s c = None;
  Q_lost : forall c r, rs s c r <> Lost;
  Q_chk : forall c, chk s c = true -> busy s c = [] /\ rdbuf s c = None
}.

Lemma init_NoRace : NoRace init.
Proof. constructor; cbn; intros; try discriminate; auto. Qed.

Lemma step_NoRace s l s' : Safe s -> NoRace s -> stepW s l = Some s' -> raced s' = false -> NoRace s'.
Proof.
  intros HS HQ H R. constructor.
  - intros c. step_cases H G; try apply (Q_closed s HQ).
    all: intros E; on_key c c0; try discriminate E; try apply (Q_closed s HQ _ E).
    + (* LReadBytes *) destruct G. congruence.
    + (* LRead *) destruct (Q_closed s HQ _ E), G. congruence.
    + (* LFinish *) destruct (Q_closed s HQ _ E) as [-> ->]. auto.
    + (* LPollClose *) apply (Q_chk s HQ), G.
    + (* LRecvClose *) destruct G as (X & B & _). auto using exited_no_rdbuf.
    + (* LRecvGone *) intuition.
  - intros c r. step_cases H G; try apply (Q_lost s HQ).
    all: on_req c r; try apply (Q_lost s HQ); try discriminate.
    + (* LRead *) destruct (W =? 0); discriminate.
    + (* LFinish: a response is lost only on a closed connection, and that has numInvoke = 0 *)
      destruct (cstate_eqb _ _) eqn:X; [| discriminate]. apply cstate_eqb_eq in X. intros _.
      assert (B : In r0 (busy s c0)) by (apply (S_busy s HS); rewrite G; reflexivity).
      rewrite (proj1 (Q_closed s HQ _ X)) in B. exact B.
  - intros c. revert R. step_cases H G; intros R; try apply (Q_chk s HQ).
    all: intros E; on_key c c0; try discriminate E; try apply (Q_chk s HQ _ E).
    + (* LReadBytes *) rewrite E, orb_true_r in R. discriminate R.
    + (* LRead *) destruct (Q_chk s HQ _ E), G. congruence.
    + (* LFinish *) destruct (Q_chk s HQ _ E) as [-> ->]. auto.
    + (* LPollCheck *) apply orb_false_iff in R. destruct G as (_ & _ & _ & _ & B), (rdbuf s c0); [destruct R; discriminate | auto].
Qed.

Lemma run_NoRace ls s : runW init ls = Some s -> raced s = false -> NoRace s.
Proof.
  apply (run_inv_Safe (fun s => raced s = false -> NoRace s)).
  - intros _. exact init_NoRace.
  - intros s0 l s1 HS IH H R. eapply step_NoRace; eauto using raced_mono.
Qed.

(* C12, clause 1, for every run in which neither two-instruction window was hit (ghost raced = false): a closed
   connection has no request that was read — counted or not — and not answered, and no response was ever lost to a
   closed socket. *)
Theorem answered_before_close : forall ls s, runW init ls = Some s -> raced s = false ->
  forall c, cst s c = CClosed -> rdbuf s c = None /\ forall r, unanswered (rs s c r) = false /\ rs s c r <> Lost.
Proof.
  intros ls s H R c E. pose proof (run_NoRace ls s H R) as HQ. destruct (Q_closed s HQ c E) as [B D].
  split; [exact D |]. intros r. split; [apply idle_all_answered; eauto using run_Safe | apply (Q_lost s HQ)].
Qed.

(* the closing steps themselves: one of the two close sites, taken with numInvoke = 0 and nothing read-and-uncounted *)
Theorem close_step : forall ls s l s' c, runW init ls = Some s -> stepW s l = Some s' -> raced s' = false ->
  cst s c <> CClosed -> cst s' c = CClosed ->
  (l = LPollClose c \/ l = LRecvClose c) /\ busy s c = [] /\ rdbuf s c = None /\
  forall r, unanswered (rs s c r) = false /\ rs s' c r = rs s c r.
Proof.
  intros ls s l s' c Hr H R. pose proof (run_Safe ls s Hr) as HS.
  pose proof (run_NoRace ls s Hr (raced_mono s l s' H R)) as HQ. clear R.
  (* the closing steps leave rs alone: after step_cases the last conjunct reads rs s c r = rs s c r *)
  assert (X : busy s c = [] /\ rdbuf s c = None ->
              busy s c = [] /\ rdbuf s c = None /\ forall r, unanswered (rs s c r) = false /\ rs s c r = rs s c r).
  { intros [B D]. repeat split; auto using idle_all_answered. }
  step_cases H G; try contradiction.
  all: on_key c c0; try contradiction; try discriminate; intros N _.
  - (* LPollClose *) split; [auto | apply X, (Q_chk s HQ), G].
  - (* LRecvClose *) split; [auto | apply X]. destruct G as (E & B & _). auto using exited_no_rdbuf.
  - (* LRecvGone *) destruct N. apply G.
Qed.

(* Pipeline invariant: where a request that was read and is not answered sits. *)
Record Pipe (s : state) : Prop := {
  P_run : forall c r, In (c, r) (running s) -> rs s c r = Running;
  P_running : forall c r, rs s c r = Running -> In (c, r) (running s);   (* the converse of P_run *)
  P_queued : forall c r, rs s c r = Queued -> In (c, r) (queue s);
  P_inhand : forall c r, rs s c r = InHand -> hand s = Some (c, r);
  P_pend : forall c r, rs s c r = Pending -> pend s c = Some r;
  P_w0 : W = 0 -> forall c r, rs s c r <> Pending /\ rs s c r <> Queued /\ rs s c r <> InHand;
  P_wn : W <> 0 -> forall c r, rs s c r <> Spawned;
  P_stop : stopped s = true -> early = false -> listen s <> 0 /\ forall c, In c (known s) -> inmap s c = false
}.

Lemma all_gone_false s c : all_gone s = true -> In c (known s) -> inmap s c = false.
Proof. unfold all_gone. rewrite forallb_forall. intros A K. apply negb_true_iff, A, K. Qed.

(* once the repaired code has released the pool, no connection is left in the table *)
Lemma stopped_all_gone s c : Safe s -> Pipe s -> stopped s = true -> early = false -> inmap s c = false.
Proof.
  intros HS HP St He. destruct (none_or_known s c HS) as [N | K]; [apply (S_nomap s HS), N | apply (P_stop s HP St He), K].
Qed.

Lemma stopped_no_live_conn s c : Safe s -> Pipe s -> stopped s = true -> early = false -> ~ (cst s c = COpen \/ cst s c = CExited).
Proof. intros HS HP St He L. pose proof (stopped_all_gone s c HS HP St He) as M. rewrite (live_in_table s c HS L) in M. discriminate M. Qed.

Lemma step_Pipe s l s' : Safe s -> Pipe s -> stepW s l = Some s' -> Pipe s'.
Proof.
  intros HS HP H. constructor.
  - intros c r. step_cases H G; try apply (P_run s HP).
    all: on_req c r; intros E; try apply (P_run s HP _ _ E); try (apply (P_run s HP) in E; intuition congruence).
    + (* LTake *) apply (P_run s HP) in E. rewrite (S_queue s HS c0 r0) in E by apply G. discriminate E.
    + (* LStart, this request *) reflexivity.
    + (* LStart, another request *) destruct E as [E | E]; [congruence | apply (P_run s HP _ _ E)].
    + (* LFinish, this request *) apply in_remove_req in E. destruct E. congruence.
    + (* LFinish, another request *) apply in_remove_req in E. apply (P_run s HP), E.
  - intros c r. step_cases H G; try apply (P_running s HP).
    all: on_req c r; intros E; try discriminate E; try apply (P_running s HP _ _ E).
    + (* LRead *) destruct (W =? 0); discriminate E.
    + (* LStart, this request *) left. reflexivity.
    + (* LStart, another request *) right. apply (P_running s HP _ _ E).
    + (* LFinish, this request *) destruct (cstate_eqb _ _); discriminate E.
    + (* LFinish, another request *) apply in_remove_req. split; [apply (P_running s HP _ _ E) | congruence].
  - intros c r. step_cases H G; try apply (P_queued s HP).
    all: on_req c r; intros E; try discriminate E; try apply (P_queued s HP _ _ E).
    + (* LRead *) destruct (W =? 0); discriminate E.
    + (* LEnqueue, this request *) apply in_app_iff. right. left. reflexivity.
    + (* LEnqueue, another request *) apply in_app_iff. left. apply (P_queued s HP _ _ E).
    + (* LTake *) apply in_remove_req. split; [apply (P_queued s HP _ _ E) | congruence].
    + (* LFinish *) destruct (cstate_eqb _ _); discriminate E.
  - intros c r. step_cases H G; try apply (P_inhand s HP).
    all: on_req c r; intros E; try discriminate E; try apply (P_inhand s HP _ _ E).
    + (* LRead *) destruct (W =? 0); discriminate E.
    + (* LTake, this request *) reflexivity.
    + (* LTake, another request *) apply (P_inhand s HP) in E. destruct G. congruence.
    + (* LStart *) apply (P_inhand s HP) in E. destruct G as [[E0 _] | (_ & E0 & _)]; [rewrite E0; exact E | congruence].
    + (* LFinish *) destruct (cstate_eqb _ _); discriminate E.
  - intros c r. step_cases H G; try apply (P_pend s HP).
    all: on_req c r; intros E; try discriminate E; try apply (P_pend s HP _ _ E).
    + (* LRead, this request *) destruct (W =? 0); [discriminate E | apply upd_eq].
    + (* LRead, another request *) apply (P_pend s HP) in E. on_key c c0; [| exact E]. destruct (S_rd s HS c0 r0) as (_ & E1 & _); [apply G | congruence].
    + (* LEnqueue *) apply (P_pend s HP) in E. on_key c c0; [| exact E]. destruct G. congruence.
    + (* LFinish *) destruct (cstate_eqb _ _); discriminate E.
  - intros HW c r. step_cases H G; try apply (P_w0 s HP HW).
    all: on_req c r; try apply (P_w0 s HP HW); try (repeat split; discriminate).
    + (* LRead *) rewrite HW. repeat split; discriminate.
    + (* LEnqueue *) destruct (P_w0 s HP HW c0 r0) as [[] _]. apply G.
    + (* LTake *) destruct G as (_ & [] & _). exact HW.
    + (* LFinish *) destruct (cstate_eqb _ _); repeat split; discriminate.
  - intros HW c r. step_cases H G; try apply (P_wn s HP HW).
    all: on_req c r; try apply (P_wn s HP HW); try discriminate.
    + (* LRead *) apply Nat.eqb_neq in HW. rewrite HW. discriminate.
    + (* LFinish *) destruct (cstate_eqb _ _); discriminate.
  - step_cases H G; intros St He; try apply (P_stop s HP St He).
    + (* LConnect *) destruct (P_stop s HP St He) as [[] _]. apply G.
    + (* LAcceptExit *) split; [discriminate | apply (P_stop s HP St He)].
    + (* LPoolStop *) destruct G as (_ & _ & L & _ & [E | A]); [congruence |]. split; [exact L | intros c; apply all_gone_false, A].
    + (* LPollBegin *) destruct (P_stop s HP St He) as [L K]. split; [destruct (listen s =? 1); [discriminate | exact L] | exact K].
    + (* LPollClose *) destruct (stopped_no_live_conn s c HS HP St He). intuition.
    + (* LRecvExit *) destruct (stopped_no_live_conn s c HS HP St He). intuition.
    + (* LRecvClose *) destruct (stopped_no_live_conn s c HS HP St He). intuition.
    + (* LRecvGone *) destruct (P_stop s HP St He) as [L K]. split; [exact L |]. intros c0 K0. on_key c0 c; [reflexivity | auto].
Qed.

Lemma init_Pipe : Pipe init.
Proof.
  constructor; cbn; intros; try discriminate; try contradiction; auto.
  all: repeat split; discriminate.
Qed.

Lemma run_Pipe ls s : runW init ls = Some s -> Pipe s.
Proof. apply (run_inv_Safe Pipe init_Pipe). intros s0 l s1 HS HP. exact (step_Pipe s0 l s1 HS HP). Qed.

Definition pipeline_label (l : label) : Prop :=
  match l with LEnqueue _ _ | LTake _ _ | LStart _ _ | LFinish _ _ => True | _ => False end.

(* a request that is counted and not answered keeps its connection in the table — race or not *)
Lemma unanswered_in_table s c r : Safe s -> unanswered (rs s c r) = true -> In c (known s) /\ inmap s c = true.
Proof.
  intros HS U. apply (S_busy s HS) in U.
  assert (M : inmap s c = true). { apply (S_live s HS). left. intros B. rewrite B in U. exact U. }
  split; [| exact M]. apply (S_known s HS). intros N. rewrite (S_nomap s HS c N) in M. discriminate M.
Qed.

Lemma unanswered_conn_live s c r : Safe s -> NoRace s -> unanswered (rs s c r) = true -> cst s c = COpen \/ cst s c = CExited.
Proof.
  intros HS HQ U. apply (S_busy s HS) in U. destruct (cst s c) eqn:E; auto.
  - rewrite (proj1 (S_none s HS c E)) in U. destruct U.
  - rewrite (proj1 (Q_closed s HQ c E)) in U. destruct U.
Qed.

(* a request that was read and counted and is not answered — also one that only waits in JobQueue or in the
   dispatcher's hand — is in numInvoke and its connection is in the table (any schedule); without a race the
   connection is also still open *)
Theorem unanswered_keeps_connection : forall ls s, runW init ls = Some s ->
  forall c r, unanswered (rs s c r) = true ->
  In r (busy s c) /\ inmap s c = true /\ (raced s = false -> cst s c = COpen \/ cst s c = CExited).
Proof.
  intros ls s Hr c r U. pose proof (run_Safe ls s Hr) as HS.
  split; [apply (S_busy s HS), U |]. split; [apply (unanswered_in_table s c r HS U) |].
  intros R. exact (unanswered_conn_live s c r HS (run_NoRace ls s Hr R) U).
Qed.

(* While the dispatcher has not taken `stop`, some pipeline step is enabled as long as a request is read and unanswered:
   a running handler can finish; else the job in hand can start; else a queued job can be taken; else the request itself
   is Pending with room in the (empty) queue, or Spawned. *)
Lemma unstopped_progress s c r : Safe s -> Pipe s -> (0 < cap)%N -> alive (ph s) = true -> stopped s = false ->
  unanswered (rs s c r) = true -> exists l, pipeline_label l /\ stepW s l <> None.
Proof.
  intros HS HP Hcap A Hns Hu.
  assert (En : forall l s', pipeline_label l -> step_spec W cap early s l s' -> exists l, pipeline_label l /\ stepW s l <> None).
  { intros l s' Pl Sp. exists l. split; [exact Pl |]. rewrite (step_intro W cap early s l s' A Sp). discriminate. }
  destruct (running s) as [|[c1 r1] ru] eqn:Hrun.
  2: { eapply (En (LFinish c1 r1)); [exact I |]. split; [apply (P_run s HP); rewrite Hrun; left; reflexivity | reflexivity]. }
  destruct (Nat.eq_dec W 0) as [HW | HW].
  - eapply (En (LStart c r)); [exact I |]. split; [left; split; [exact HW |] | reflexivity].
    destruct (P_w0 s HP HW c r) as (N1 & N2 & N3). destruct (rs s c r) eqn:E; try discriminate Hu; try congruence.
    apply (P_running s HP) in E. rewrite Hrun in E. destruct E.
  - destruct (hand s) as [[c2 r2]|] eqn:Hh.
    { eapply (En (LStart c2 r2)); [exact I |]. split; [right; rewrite Hrun; cbn; repeat split; auto; lia | reflexivity]. }
    destruct (queue s) as [|[c3 r3] qs] eqn:Hq.
    2: { eapply (En (LTake c3 r3)); [exact I |]. split; [rewrite Hq; repeat split; auto; left; reflexivity | reflexivity]. }
    destruct (rs s c r) eqn:E; try discriminate Hu.
    + eapply (En (LEnqueue c r)); [exact I |]. split; [rewrite Hq; repeat split; auto; apply (P_pend s HP), E | reflexivity].
    + destruct (P_wn s HP HW c r E).
    + apply (P_queued s HP) in E. rewrite Hq in E. destruct E.
    + apply (P_inhand s HP) in E. congruence.
    + apply (P_running s HP) in E. rewrite Hrun in E. destruct E.
Qed.

(* each request moves forward only: no step lowers its rank, and a pipeline step raises the rank of a request that
   was read and not answered. A request therefore takes at most four pipeline steps (Pending, rank 2, to Answered, rank 6;
   [pipeline_work_bounded] counts 6 per request, the rank of Answered, which is what a sum of ranks gives), and with finitely many
   requests sent, [read_requests_progress] and weak fairness of the pipeline give: every request read is answered. *)
Definition rank (x : rstate) : nat :=
  match x with Fresh => 0 | InFlight => 1 | Pending => 2 | Queued => 3 | InHand => 4 | Spawned => 4
             | Running => 5 | Answered => 6 | Lost => 6 end.

Lemma step_rank_mono s l s' c r : Safe s -> stepW s l = Some s' -> rank (rs s c r) <= rank (rs s' c r).
Proof.
  intros HS H. step_cases H G; try apply Nat.le_refl.
  all: on_req c r; try apply Nat.le_refl.
  - (* LSend *) rewrite G. cbn. lia.
  - (* LRead *) destruct G as [_ ->]. destruct (W =? 0); cbn; lia.
  - (* LEnqueue *) destruct G as (_ & -> & _). cbn. lia.
  - (* LTake *) rewrite (S_queue s HS c0 r0) by apply G. cbn. lia.
  - (* LStart *) destruct (start_from s c0 r0 HS G) as [-> | ->]; cbn; lia.
  - (* LFinish *) rewrite G. destruct (cstate_eqb _ _); cbn; lia.
Qed.

Lemma rank_le_6 x : rank x <= 6.
Proof. destruct x; cbn; lia. Qed.

Theorem rank_monotone : forall ls s l s', runW init ls = Some s ->
  stepW s l = Some s' -> forall c r, rank (rs s c r) <= rank (rs s' c r) <= 6.
Proof. intros ls s l s' Hr H c r. split; [exact (step_rank_mono s l s' c r (run_Safe ls s Hr) H) | apply rank_le_6]. Qed.

Theorem pipeline_step_advances : forall ls s l s', runW init ls = Some s -> stepW s l = Some s' -> pipeline_label l ->
  exists c r, unanswered (rs s c r) = true /\ rank (rs s c r) < rank (rs s' c r).
Proof.
  intros ls s l s' Hr H. apply run_Safe in Hr. step_cases H G; intros []; exists c, r; rewrite upd2_eq.
  - (* LEnqueue *) destruct G as (_ & -> & _). cbn. auto.
  - (* LTake *) rewrite (S_queue s Hr c r) by apply G. cbn. auto.
  - (* LStart *) destruct (start_from s c r Hr G) as [-> | ->]; cbn; auto.
  - (* LFinish *) rewrite G. destruct (cstate_eqb _ _); cbn; auto.
Qed.

Lemma all_closed_spec s c : Safe s -> all_closed s = true -> In c (known s) -> cst s c = CClosed.
Proof.
  intros HS A K. unfold all_closed in A. rewrite forallb_forall in A. pose proof (A c K) as E. apply orb_true_iff in E.
  destruct E as [E | E]; [| apply cstate_eqb_eq, E].
  apply negb_true_iff, (S_map s HS) in E. destruct E as [E | E]; [exact E |]. apply (S_known s HS) in K. contradiction.
Qed.

(* C12, clause "Shutdown returns once all connections have drained": the drained return happens only when every
   connection ever accepted is closed (CloseIdles reports "all closed" as a conjunction over the whole table, not: the
   last one visited), and then — without a race — nothing that was read is unanswered *)
Theorem drained_return_needs_all : forall ls s s', runW init ls = Some s -> stepW s LPollReturn = Some s' ->
  ph s' = SRetDrained /\ forall c, In c (known s') -> cst s' c = CClosed.
Proof.
  intros ls s s' Hr H. step_cases H G. split; [reflexivity |].
  intros c. apply all_closed_spec; [eapply run_Safe; eassumption | apply G].
Qed.

Theorem drained_return_sound : forall ls s s', runW init ls = Some s -> raced s = false -> stepW s LPollReturn = Some s' ->
  ph s' = SRetDrained /\ (forall c, In c (known s') -> cst s' c = CClosed) /\
  (forall c r, unanswered (rs s' c r) = false) /\ (forall c, rdbuf s' c = None).
Proof.
  intros ls s s' Hr R H. destruct (drained_return_needs_all ls s s' Hr H) as [P A].
  pose proof (run_Safe ls s Hr) as HS. pose proof (run_NoRace ls s Hr R) as HQ.
  step_cases H G. cbn in P, A.
  assert (X : forall c, busy s c = [] /\ rdbuf s c = None).
  { intros c. destruct (none_or_known s c HS) as [N | K]; [apply (S_none s HS), N | apply (Q_closed s HQ), A, K]. }
  repeat split; [exact A | | apply X]. intros c. apply idle_all_answered, X. exact HS.
Qed.

(* ... and it is available as soon as they are: with every connection closed (and the poller between two
   connections of its sweep), the poller's next tick returns *)
Theorem drained_return_enabled : forall s, is_down (ph s) = true -> all_closed s = true -> nochk s = true ->
  exists s', runW s (if inpoll s then [LPollReturn] else [LPollBegin; LPollReturn]) = Some s' /\ ph s' = SRetDrained.
Proof.
  intros s Hd Ha Hn. apply is_down_eq in Hd. assert (A : alive (ph s) = true) by (rewrite Hd; reflexivity).
  destruct (inpoll s) eqn:Hi; cbn [run].
  - rewrite (step_intro W cap early s LPollReturn _ A (conj (conj Hd (conj Hi (conj Ha Hn))) eq_refl)). eauto.
  - rewrite (step_intro W cap early s LPollBegin _ A (conj (conj Hd Hi) eq_refl)).
    erewrite (step_intro W cap early _ LPollReturn); [| exact A | exact (conj (conj Hd (conj eq_refl (conj Ha Hn))) eq_refl)]. eauto.
Qed.

(* a non-timeout Accept error leaves the server exactly as it was: the accept loop goes on *)
Theorem accept_error_is_noop : forall s s', stepW s LAcceptErr = Some s' -> s' = s.
Proof. intros s s' H. step_cases H G. reflexivity. Qed.

Theorem accept_error_enabled : forall s, alive (ph s) = true -> listen s = 0 ->
  stepW s LAcceptErr = Some s.
Proof. intros s A L. apply step_intro; [exact A | split; [exact L | reflexivity]]. Qed.

(* the context ends Shutdown from any point of the drain *)
Theorem ctx_expiry_enabled : forall s, is_down (ph s) = true -> exists s', stepW s LCtxExpire = Some s' /\ ph s' = SRetCtx.
Proof.
  intros s Hd. apply is_down_eq in Hd. eexists. split; [apply step_intro; [rewrite Hd; reflexivity | split; [exact Hd | reflexivity]] | reflexivity].
Qed.

(* Notification: N_closed is what notification_partial claims, with its provisos (no early tick; until Shutdown returns -
   nothing is claimed afterwards).  On its own it is not inductive: a close (LPollClose by the poller, LRecvClose by a
   receive loop after a tick) must find the connection notified.  N_two supplies that - once isListenClosed = 2 a tick
   has written the close message to everything in the table, and nothing enters the table with the listener down -
   provided the closer's tick began with the listener down: N_inpoll for the tick in progress, N_polled for the tick a
   returned receive loop has seen. *)
Record Notif (s : state) : Prop := {
  N_listen : listen s = 0 \/ listen s = 1 \/ listen s = 2;
  N_closed : forall c, earlypoll s = false -> returned (ph s) = false -> cst s c = CClosed -> notified s c = true;
  N_two : forall c, listen s = 2 -> inmap s c = true -> cst s c <> CClosed -> notified s c = true;
  N_inpoll : inpoll s = true -> earlypoll s = false -> listen s = 2;
  N_polled : forall c, polled s c = true -> earlypoll s = false -> listen s = 2
}.

Lemma init_Notif : Notif init.
Proof. constructor; cbn; intros; try discriminate; auto. Qed.

(* the first tick with the listener down: isListenClosed 1 -> 2, unless the tick is an early one *)
Lemma tick_listen s : Notif s -> earlypoll s || (listen s =? 0) = false -> (if listen s =? 1 then 2 else listen s) = 2.
Proof.
  intros HN E. apply orb_false_iff in E. destruct E as [_ E]. apply Nat.eqb_neq in E.
  destruct (N_listen s HN) as [L | [L | L]]; rewrite L; [contradiction | reflexivity ..].
Qed.

Lemma step_Notif s l s' : Safe s -> Notif s -> stepW s l = Some s' -> Notif s'.
Proof.
  intros HS HN H. constructor.
  - step_cases H G; try apply (N_listen s HN); [auto |].
    destruct (listen s =? 1); [auto | apply (N_listen s HN)].
  - intros c. step_cases H G; try apply (N_closed s HN); try (intros _; discriminate).
    + (* LConnect *) on_key c c0; [intros _ _; discriminate | apply (N_closed s HN)].
    + (* LShutdown *) intros E _. apply (N_closed s HN _ E). rewrite G. reflexivity.
    + (* LPollBegin *) intros E R C. apply orb_false_iff in E. pose proof (N_closed s HN c (proj1 E) R C) as X.
      destruct (listen s =? 1); [rewrite X; reflexivity | exact X].
    + (* LPollClose: the poller closes: its tick began with the listener down, so it has notified every connection of the table *)
      on_key c c0; [| apply (N_closed s HN)]. intros E R _. apply (N_two s HN).
      * apply (N_inpoll s HN); [apply (S_chk s HS c0), G | exact E].
      * apply live_in_table; [exact HS | apply G].
      * destruct G as [_ [X | X]]; rewrite X; discriminate.
    + (* LRecvExit *) on_key c c0; [intros _ _; discriminate | apply (N_closed s HN)].
    + (* LRecvClose: the receive loop closes after a poller tick *)
      on_key c c0; [| apply (N_closed s HN)]. intros E R _. destruct G as (X & _ & [P | P]); [| congruence].
      apply (N_two s HN); [apply (N_polled s HN c0 P E) | apply live_in_table; auto | rewrite X; discriminate].
    + (* LRecvGone *) on_key c c0; [| apply (N_closed s HN)]. intros E R _. apply (N_closed s HN _ E R), G.
  - intros c. step_cases H G; try apply (N_two s HN).
    + (* LConnect *) intros L. destruct G as [G _]. congruence.
    + (* LAcceptExit *) discriminate.
    + (* LPollBegin *) destruct (listen s =? 1); [| apply (N_two s HN)]. intros _ M C. rewrite M.
      destruct (cstate_eqb (cst s c) CClosed) eqn:X; [apply cstate_eqb_eq in X; contradiction | apply orb_true_r].
    + (* LPollClose *) on_key c c0; [| apply (N_two s HN)]. intros _ _ []. reflexivity.
    + (* LRecvExit *) on_key c c0; [| apply (N_two s HN)]. intros L _ _.
      apply (N_two s HN _ L); [apply live_in_table; intuition | destruct G as [-> _]; discriminate].
    + (* LRecvClose *) on_key c c0; [intros _; discriminate | apply (N_two s HN)].
    + (* LRecvGone *) on_key c c0; [intros _; discriminate | apply (N_two s HN)].
  - step_cases H G; try apply (N_inpoll s HN); try discriminate.
    + (* LAcceptExit *) intros I E. destruct G as [_ G]. rewrite (N_inpoll s HN I E) in G. discriminate G.
    + (* LPollBegin *) intros _. apply tick_listen, HN.
  - intros c. step_cases H G; try apply (N_polled s HN).
    + (* LConnect *) on_key c c0; [discriminate | apply (N_polled s HN)].
    + (* LAcceptExit *) intros I E. destruct G as [_ G]. rewrite (N_polled s HN c I E) in G. discriminate G.
    + (* LPollBegin *) intros _. apply tick_listen, HN.
    + (* LRecvExit *) on_key c c0; [discriminate | apply (N_polled s HN)].
Qed.

Lemma run_Notif ls s : runW init ls = Some s -> Notif s.
Proof. apply (run_inv_Safe Notif init_Notif). intros s0 l s1 HS HN. exact (step_Notif s0 l s1 HS HN). Qed.

(* C12, clause "connected clients are sent the reconnect notification": provided no poller tick began while the
   listener was still up, every connection closed by the server until Shutdown returns was closed only after the
   close message had been written to it *)
Theorem notification_partial : forall ls s, runW init ls = Some s -> earlypoll s = false -> returned (ph s) = false ->
  forall c, cst s c = CClosed -> notified s c = true.
Proof. intros ls s Hr E R c. apply (N_closed s (run_Notif ls s Hr) c E R). Qed.

(* at the closing step itself the message had already been written *)
Theorem close_step_notified : forall ls s l s' c, runW init ls = Some s -> stepW s l = Some s' ->
  cst s c <> CClosed -> cst s' c = CClosed -> earlypoll s' = false -> returned (ph s') = false -> notified s c = true.
Proof.
  intros ls s l s' c Hr H N C E R.
  assert (X : notified s' c = true). { apply (notification_partial (ls ++ [l])); auto. exact (Lts.run_step stepW _ _ _ _ _ Hr H). }
  revert N C X. clear E R. step_cases H G; try contradiction; try (destruct (listen s =? 1); contradiction).
  all: on_key c c0; try contradiction; try discriminate; auto.
Qed.

(* once the listener is down and a tick has passed (isListenClosed = 2), every connection still in the table has
   the message *)
Theorem all_open_notified : forall ls s, runW init ls = Some s -> listen s = 2 ->
  forall c, inmap s c = true -> cst s c <> CClosed -> notified s c = true.
Proof. intros ls s Hr L c. apply (N_two s (run_Notif ls s Hr) c L). Qed.

(* the notifying tick treats every connection of the table on its own: whether connection c gets the message depends
   on c alone (in the table, not yet closed) — not on the other connections, their number, their order in the table or
   the outcome of the writes to them (sendCloseMsg's Range goes on after a failed write) *)
Theorem notifying_tick_per_connection : forall s s', stepW s LPollBegin = Some s' -> listen s = 1 ->
  listen s' = 2 /\
  forall c, notified s' c = notified s c || (inmap s c && negb (cstate_eqb (cst s c) CClosed)).
Proof. intros s s' H L. step_cases H G. rewrite L. split; reflexivity. Qed.

(* when Shutdown returns drained, every connection ever accepted has been sent the message *)
Theorem drained_return_notified : forall ls s s', runW init ls = Some s -> stepW s LPollReturn = Some s' ->
  earlypoll s' = false -> forall c, In c (known s') -> notified s' c = true.
Proof.
  intros ls s s' Hr H E c K. destruct (drained_return_needs_all ls s s' Hr H) as [_ A]. specialize (A c K).
  revert E A. step_cases H G. intros E A. apply (notification_partial ls s Hr E); [| exact A].
  destruct G as [-> _]. reflexivity.
Qed.
End Proofs.

(* C12, clause "every request already read is executed and answered" — no read request is ever stuck: as long as
   the process lives and some request is read-and-unanswered, a step of the request pipeline (enqueue, take, start,
   finish) is enabled, whatever the shutdown phase: the repaired code releases the pool only with an empty table, and
   an unanswered request keeps its connection there. (With the pool released early this is false: see below.) *)
Theorem read_requests_progress : forall W cap ls s, (0 < cap)%N -> run W cap false init ls = Some s -> alive (ph s) = true ->
  forall c r, unanswered (rs s c r) = true -> exists l, pipeline_label l /\ step W cap false s l <> None.
Proof.
  intros W cap ls s Hcap Hr Ha c r U. pose proof (run_Safe _ _ _ _ _ Hr) as HS. pose proof (run_Pipe _ _ _ _ _ Hr) as HP.
  apply (unstopped_progress W cap false s c r HS HP Hcap Ha); [| exact U].
  destruct (stopped s) eqn:St; [| reflexivity].
  destruct (unanswered_in_table s c r HS U) as [_ M]. rewrite (stopped_all_gone W false s c HS HP St eq_refl) in M. discriminate M.
Qed.

(* The code before fix 0e6f835 (early = true: the pool is released when the accept loop ends) violates the
   progress clause: a request that was read and queued is never executed, its connection is never closed and
   Shutdown can only end through its context. *)
Definition stuck (c : cid) (r : rid) (s : state) : Prop :=
  Safe s /\ stopped s = true /\ rs s c r = Queued /\ chk s c = false /\ cst s c <> CClosed /\ ph s <> SRetDrained.

Lemma stuck_step W cap early c r s l s' : stuck c r s -> step W cap early s l = Some s' -> stuck c r s'.
Proof.
  intros (HS & St & Q & K & C & P) H. split; [exact (step_Safe W cap early s l s' HS H) |].
  assert (B : In r (busy s c)) by (apply (S_busy s HS); rewrite Q; reflexivity).
  revert St Q K C P. step_cases H G; auto.
  all: intros St Q K C P; repeat split; auto; try discriminate.
  - (* LConnect *) on_key c c0; [discriminate | exact C].
  - (* LSend *) on_req c r; [congruence | exact Q].
  - (* LRead *) on_req c r; [destruct G; congruence | exact Q].
  - (* LEnqueue *) on_req c r; [reflexivity | exact Q].
  - (* LTake *) on_req c r; [destruct G as (_ & _ & G & _); congruence | exact Q].
  - (* LStart *) on_req c r; [destruct (start_from W s c0 r0 HS G); congruence | exact Q].
  - (* LFinish *) on_req c r; [congruence | exact Q].
  - (* LPollCheck *) on_key c c0; [| exact K]. destruct G as (_ & _ & _ & _ & G). rewrite G in B. destruct B.
  - (* LPollClose *) on_key c c0; [reflexivity | exact K].
  - (* LPollClose *) on_key c c0; [reflexivity | exact K].
  - (* LPollClose *) on_key c c0; [| exact C]. destruct G. congruence.
  - intros _. apply C, all_closed_spec; [exact HS | apply G | apply (unanswered_in_table s c r HS)]. rewrite Q. reflexivity.
  - (* LRecvExit *) on_key c c0; [discriminate | exact C].
  - (* LRecvClose *) on_key c c0; [| exact C]. destruct G as (_ & G & _). rewrite G in B. destruct B.
  - (* LRecvGone *) on_key c c0; [| exact C]. destruct G as [G _]. contradiction.
Qed.

Definition release_before_drain : list label :=
  [LConnect 0; LSend 0 0; LSend 0 1; LReadBytes 0 0; LRead 0 0; LEnqueue 0 0; LReadBytes 0 1; LRead 0 1; LEnqueue 0 1;
   LTake 0 0; LStart 0 0; LShutdown; LAcceptExit; LPoolStop; LFinish 0 0].

Theorem progress_refuted_before_fix :
  exists ls s, run 1 10 true init ls = Some s /\ alive (ph s) = true /\ unanswered (rs s 0 1) = true /\
    forall ls' s', run 1 10 true s ls' = Some s' ->
      rs s' 0 1 = Queued /\ cst s' 0 <> CClosed /\ ph s' <> SRetDrained.
Proof.
  assert (X : exists s, run 1 10 true init release_before_drain = Some s /\ alive (ph s) = true /\ stopped s = true /\
                rs s 0 1 = Queued /\ chk s 0 = false /\ cst s 0 = COpen /\ ph s = SDown).
  { eexists. split; [apply (Lts.some_the init); vm_compute; reflexivity | vm_compute; repeat split]. }
  destruct X as (s & Hr & A & St & Q & K & C & P). exists release_before_drain, s.
  split; [exact Hr |]. split; [exact A |]. split; [rewrite Q; reflexivity |]. intros ls' s' H.
  assert (Y : stuck 0 1 s'); [| unfold stuck in Y; tauto].
  revert H. rewrite run_is. apply Lts.run_inv; [intros s0 l s1; apply stuck_step |].
  split; [exact (run_Safe _ _ _ _ _ Hr) |]. repeat split; auto; congruence.
Qed.

(* the same trace is not a trace of the repaired code: LPoolStop is refused while a connection is in the table *)
Example release_before_drain_not_repaired : run 1 10 false init release_before_drain = None.
Proof. vm_compute. reflexivity. Qed.

(* The notification clause needs its hypothesis: a tick that begins while the listener is still up closes an idle
   connection without the message (CloseIdles with isListenClosed = 0 skips sendCloseMsg and still closes). In the
   code this needs the accept loop to miss the SetDeadline(now) wake-up for 500 ms (it re-arms its own accept
   deadline between its isClosed test and Accept) — a window of microseconds that was not exhibited on the code. *)
Theorem notification_needs_listener_down :
  exists s, run 0 10 false init [LConnect 0; LShutdown; LPollBegin; LPollCheck 0; LPollClose 0] = Some s /\
            cst s 0 = CClosed /\ notified s 0 = false /\ earlypoll s = true /\ returned (ph s) = false.
Proof. eexists. split; [apply (Lts.some_the init); vm_compute; reflexivity|]. vm_compute. auto. Qed.

Theorem notification_refuted :
  ~ (forall W cap early ls s, run W cap early init ls = Some s -> returned (ph s) = false ->
     forall c, cst s c = CClosed -> notified s c = true).
Proof.
  intros H. destruct notification_needs_listener_down as (s & Hr & C & N & _ & P).
  rewrite (H _ _ _ _ _ Hr P 0 C) in N. discriminate N.
Qed.

(* non-trivial instances of the hypotheses used above *)
Example notification_hypotheses_instance :
  exists s, run 1 10 false init [LConnect 0; LConnect 1; LShutdown; LAcceptExit; LPollBegin; LPollCheck 0; LPollClose 0;
                                 LRecvExit 1; LPollEnd; LPollBegin; LRecvClose 1] = Some s /\
            earlypoll s = false /\ returned (ph s) = false /\ cst s 0 = CClosed /\ cst s 1 = CClosed /\
            notified s 0 = true /\ notified s 1 = true.
Proof. eexists. split; [apply (Lts.some_the init); vm_compute; reflexivity|]. vm_compute. repeat split. Qed.

Example drained_return_instance :
  exists s s', run 1 10 false init [LConnect 0; LSend 0 0; LReadBytes 0 0; LRead 0 0; LEnqueue 0 0; LShutdown; LAcceptExit; LTake 0 0;
                                    LStart 0 0; LPollBegin; LPollEnd; LFinish 0 0; LPollBegin; LPollCheck 0; LPollClose 0] = Some s /\
               step 1 10 false s LPollReturn = Some s' /\ ph s' = SRetDrained /\ rs s' 0 0 = Answered.
Proof.
  eexists. eexists. split; [apply (Lts.some_the init); vm_compute; reflexivity|].
  split; [apply (Lts.some_the init); vm_compute; reflexivity|]. vm_compute. split; reflexivity.
Qed.

Example progress_hypotheses_instance :
  exists s, run 2 10 false init [LConnect 0; LSend 0 0; LReadBytes 0 0; LRead 0 0; LEnqueue 0 0; LShutdown; LAcceptExit; LPollBegin] = Some s /\
            alive (ph s) = true /\ unanswered (rs s 0 0) = true /\ earlypoll s = false /\ (0 < 10)%N.
Proof. eexists. split; [apply (Lts.some_the init); vm_compute; reflexivity|]. vm_compute. repeat split. Qed.

(* Trace validation is sound: a trace accepted by [accepts] is explained by a run of the transition system of the
   repaired code that ends with the process exit — so every theorem above holds of the explanation of every
   recorded shutdown. *)
Section AcceptsSound.
Variable W : nat.
Variable cap : N.
Notation stepR := (step W cap false).
Notation runR := (run W cap false).

Definition reach (s s' : state) : Prop := exists ls, runR s ls = Some s'.

(* [reach s] is extended to the right: every function of the acceptor only appends steps to the run it is given *)
Lemma reach_refl s : reach s s.
Proof. exists []. reflexivity. Qed.

Lemma reach_step s m l s' : stepR m l = Some s' -> reach s m -> reach s s'.
Proof. intros H [ls Hm]. exists (ls ++ [l]). exact (Lts.run_step stepR _ _ _ _ _ Hm H). Qed.

Lemma reach_try s m l : reach s m -> reach s (try W cap m l).
Proof. intros R. unfold try. destruct (stepR m l) eqn:E; [exact (reach_step s m l _ E R) | exact R]. Qed.

Lemma reach_fold A (f : state -> A -> state) : (forall s st x, reach s st -> reach s (f st x)) ->
  forall l s m, reach s m -> reach s (fold_left f l m).
Proof. intros Hf. induction l; intros s m R; cbn; auto. Qed.

Lemma reach_fold_opt A (f : option state -> A -> option state) :
  (forall s st x s', f (Some st) x = Some s' -> reach s st -> reach s s') -> (forall x, f None x = None) ->
  forall l s m s', fold_left f l (Some m) = Some s' -> reach s m -> reach s s'.
Proof.
  intros Hf Hn. induction l as [|a l IH]; intros s m s' H R; cbn in H.
  - injection H as <-. exact R.
  - destruct (f (Some m) a) as [m1|] eqn:E; [eapply IH; eauto |].
    exfalso. clear -H Hn. induction l; cbn in H; [discriminate | rewrite Hn in H; auto].
Qed.

Lemma reach_pump s m : reach s m -> reach s (pump W cap m).
Proof. apply reach_fold. intros a st c R. destruct (pend st c); auto using reach_try. Qed.

Lemma reach_settle s m e : reach s m -> reach s (settle W cap m e).
Proof. apply reach_fold. intros a st q R. destruct (rstate_eqb _ _); auto using reach_try. Qed.

Lemma reach_ensure_down s m : reach s m -> reach s (ensure_down W cap m).
Proof. unfold ensure_down. auto using reach_try. Qed.

Lemma reach_poll_tick s m : reach s m -> reach s (poll_tick W cap m).
Proof. unfold poll_tick. auto using reach_try, reach_ensure_down. Qed.

Hint Resolve reach_refl reach_step reach_try reach_pump reach_settle reach_ensure_down reach_poll_tick : reach.

Lemma reach_ensure_read s m c r s' : ensure_read W cap (Some m) c r = Some s' -> reach s m -> reach s s'.
Proof.
  unfold ensure_read. destruct (_ || _); [intros [= <-]; auto |].
  destruct (stepR (pump W cap m) (LReadBytes c r)) as [s0|] eqn:E0; [| discriminate].
  destruct (stepR s0 (LRead c r)) eqn:E; intros [= <-]. eauto with reach.
Qed.

Lemma reach_ensure_started s m e c r s' : ensure_started W cap m e c r = Some s' -> reach s m -> reach s s'.
Proof.
  unfold ensure_started. destruct (ensure_read W cap (Some m) c r) as [s1|] eqn:E1; [| discriminate].
  intros H R. apply (reach_ensure_read s) in E1; [| exact R]. revert H.
  destruct (_ || _); [intros [= <-]; auto |]. destruct (W =? 0); [eauto with reach |].
  destruct (stepR _ (LTake c r)) as [s3|] eqn:E3; [| discriminate].
  destruct (stepR s3 (LStart c r)) as [s4|] eqn:E4; intros [= <-].
  destruct (length (running s1) <? W); eauto with reach.
Qed.

Lemma reach_ensure_closed s m e c s' : ensure_closed W cap m e c = Some s' -> reach s m -> reach s s'.
Proof.
  unfold ensure_closed. intros H R. destruct (cst m c); try discriminate H; [| | injection H as <-; exact R].
  (* each of the three [let]s only appends steps to the run so far *)
  all: cbv zeta in H; apply (reach_step s _ _ _ H); clear H.
  all: set (s0 := settle W cap (pump W cap m) e); assert (R0 : reach s s0) by (unfold s0; auto with reach).
  all: set (s1 := match cst s0 c with COpen => _ | _ => s0 end);
       assert (R1 : reach s s1) by (unfold s1; destruct (cst s0 c); auto with reach).
  all: destruct (polled s1 c); auto with reach.
Qed.

Lemma reach_obs_step s m e o s' e' : obs_step W cap (m, e) o = Some (s', e') -> reach s m -> reach s s'.
Proof.
  (* most observations keep the list of ended handlers and go through one function of the acceptor *)
  assert (Keep : forall x : option state, match x with Some a => Some (a, e) | None => None end = Some (s', e') -> x = Some s')
    by (intros [a|] [=]; subst; reflexivity).
  intros H R. unfold obs_step in H. destruct o; try apply Keep in H.
  - eauto with reach.
  - eauto with reach.
  - eapply reach_fold_opt; [| | exact H | exact R]; [intros a st x s2; apply reach_ensure_read | reflexivity].
  - eapply reach_ensure_started; eauto.
  - destruct (ensure_started W cap m e c r) eqn:E; [| discriminate].
    destruct (rstate_eqb (rs s0 c r) Running); inversion H; subst. eapply reach_ensure_started; eauto.
  - destruct (existsb (req_eqb (c, r)) e); [| discriminate].
    destruct (rs m c r); try discriminate; [| inversion H; subst; exact R].
    destruct (stepR m (LFinish c r)) eqn:E; [| discriminate].
    destruct (rstate_eqb (rs s0 c r) Answered); inversion H; subst. eauto with reach.
  - unfold ensure_notified in H. destruct (notified m c); [inversion H; subst; exact R |].
    destruct (notified (poll_tick W cap m) c); inversion H; subst. auto 8 with reach.
  - eapply reach_ensure_closed; eauto.
  - eauto with reach.
  - destruct (listen (ensure_down W cap m) =? 0); inversion H; subst. auto with reach.
  - unfold ensure_returned in H. destruct drained.
    + destruct (fold_left _ (known m) (Some m)) as [s1|] eqn:E; [| discriminate].
      apply (reach_step s _ _ _ H). assert (R1 : reach s s1); [| auto 8 with reach].
      eapply reach_fold_opt; [| | exact E | exact R]; [| reflexivity].
      intros a st x s2 Hx Ra. cbn in Hx. destruct (inmap st x); [eapply reach_ensure_closed; eauto | injection Hx as <-; exact Ra].
    + apply (reach_step s _ _ _ H). auto 8 with reach.
  - eauto with reach.
Qed.

Lemma reach_obs_run tr : forall s m e s' e', obs_run W cap (m, e) tr = Some (s', e') -> reach s m -> reach s s'.
Proof.
  induction tr as [|o tr IH]; intros s m e s' e' H R; cbn [obs_run] in H.
  - injection H as <- _. exact R.
  - destruct (obs_step W cap (m, e) o) as [[s1 e1]|] eqn:E; [| discriminate]. eauto using reach_obs_step.
Qed.

Theorem accepts_sound : forall tr, accepts W cap tr = true ->
  exists ls s, runR init ls = Some s /\ ph s = SExited.
Proof.
  intros tr H. unfold accepts in H.
  destruct (obs_run W cap (init, []) tr) as [[s e]|] eqn:E; [| discriminate].
  destruct (reach_obs_run tr init init [] s e E (reach_refl init)) as [ls Hls].
  exists ls, s. split; [exact Hls |]. destruct (ph s); try discriminate. reflexivity.
Qed.

End AcceptsSound.

Definition is_pipeline (l : label) : bool :=
  match l with LEnqueue _ _ | LTake _ _ | LStart _ _ | LFinish _ _ => true | _ => false end.

Lemma is_pipeline_label : forall l, is_pipeline l = true <-> pipeline_label l.
Proof. destruct l; cbn; split; intros; auto; try discriminate; try contradiction. Qed.

Definition count_pipeline (ls : list label) : nat := length (filter is_pipeline ls).

Fixpoint rank_sum (s : state) (L : list req) : nat :=
  match L with
  | [] => 0
  | q :: L' => rank (rs s (fst q) (snd q)) + rank_sum s L'
  end.

Lemma rank_sum_mono : forall s s' L, (forall c r, rank (rs s c r) <= rank (rs s' c r)) -> rank_sum s L <= rank_sum s' L.
Proof. induction L; intros; cbn; auto. specialize (H (fst a) (snd a)) as Ha. specialize (IHL H). lia. Qed.

Lemma rank_sum_strict : forall s s' L c r, (forall c r, rank (rs s c r) <= rank (rs s' c r)) ->
  In (c, r) L -> rank (rs s c r) < rank (rs s' c r) -> rank_sum s L < rank_sum s' L.
Proof.
  induction L; intros c r Hm Hin Hlt; cbn; [contradiction|].
  destruct Hin as [Ha | Hin].
  - subst a. cbn [fst snd]. pose proof (rank_sum_mono s s' L Hm). lia.
  - specialize (IHL c r Hm Hin Hlt). specialize (Hm (fst a) (snd a)). lia.
Qed.

Lemma rank_sum_bound : forall s L, rank_sum s L <= 6 * length L.
Proof. induction L; cbn; auto. pose proof (rank_le_6 (rs s (fst a) (snd a))). lia. Qed.

Lemma unanswered_not_fresh x : unanswered x = true -> x <> Fresh.
Proof. intros U ->. discriminate U. Qed.

Lemma rank_sum_step W cap early ls s l s' L : run W cap early init ls = Some s -> step W cap early s l = Some s' ->
  (forall c r, rs s c r <> Fresh -> In (c, r) L) ->
  rank_sum s L + (if is_pipeline l then 1 else 0) <= rank_sum s' L.
Proof.
  intros Hr H Hcov. pose proof (fun c r => step_rank_mono W cap early s l s' c r (run_Safe _ _ _ _ _ Hr) H) as Hm.
  destruct (is_pipeline l) eqn:Hp; [| pose proof (rank_sum_mono s s' L Hm); lia].
  apply is_pipeline_label in Hp. destruct (pipeline_step_advances W cap early ls s l s' Hr H Hp) as (c & r & Hu & Hlt).
  pose proof (rank_sum_strict s s' L c r Hm (Hcov c r (unanswered_not_fresh _ Hu)) Hlt). lia.
Qed.

(* The pipeline work of a whole run is bounded by the requests that were sent: every pipeline step raises the rank
   of one request and no step lowers any, so a run contains at most 6 pipeline steps per request. Together with
   [read_requests_progress] (a pipeline step is enabled whenever something read is unanswered) this is termination
   of the drain: a run cannot keep a read request unanswered for ever without withholding an enabled pipeline step. *)
Theorem pipeline_work_bounded : forall W cap early ls s (L : list req),
  run W cap early init ls = Some s ->
  (forall c r, rs s c r <> Fresh -> In (c, r) L) ->
  count_pipeline ls <= rank_sum s L /\ rank_sum s L <= 6 * length L.
Proof.
  intros W cap early ls s L Hrun Hcov. split; [| apply rank_sum_bound]. revert ls s Hrun Hcov.
  apply (Lts.run_ind_r (step W cap early) init (fun ls s => (forall c r, rs s c r <> Fresh -> In (c, r) L) -> count_pipeline ls <= rank_sum s L)).
  - cbn. lia.
  - intros ls s1 l s E1 IH Hrun Hcov.
    pose proof (fun c r => step_rank_mono W cap early s1 l s c r (run_Safe _ _ _ _ _ E1) Hrun) as Hm.
    assert (Hcov1 : forall c r, rs s1 c r <> Fresh -> In (c, r) L).
    { intros c r Hn. apply Hcov. intros Hf. specialize (Hm c r). rewrite Hf in Hm. destruct (rs s1 c r); cbn in Hm; try lia. contradiction. }
    specialize (IH Hcov1). pose proof (rank_sum_step W cap early ls s1 l s L E1 Hrun Hcov1).
    unfold count_pipeline in *. rewrite filter_app, app_length. cbn [filter]. destruct (is_pipeline l); cbn [length]; lia.
Qed.

Definition sends (ls : list label) : list req :=
  flat_map (fun l => match l with LSend c r => [(c, r)] | _ => [] end) ls.

Lemma sends_app : forall a b, sends (a ++ b) = sends a ++ sends b.
Proof. intros. unfold sends. apply flat_map_app. Qed.

Lemma fresh_left W cap early s l s' c r : Safe s -> step W cap early s l = Some s' ->
  rs s c r = Fresh -> rs s' c r <> Fresh -> l = LSend c r.
Proof.
  intros HS H F. step_cases H G; try (intros N; destruct (N F)).
  all: on_req c r; try (intros N; destruct (N F)).
  - (* LSend *) reflexivity.
  - (* LRead *) destruct G. congruence.
  - (* LEnqueue *) destruct G as (_ & G & _). congruence.
  - (* LTake *) rewrite (S_queue s HS c0 r0) in F by apply G. discriminate F.
  - (* LStart *) destruct (start_from W s c0 r0 HS G); congruence.
  - (* LFinish *) congruence.
Qed.

Lemma sends_cover W cap early : forall ls s, run W cap early init ls = Some s ->
  forall c r, rs s c r <> Fresh -> In (c, r) (sends ls).
Proof.
  apply (Lts.run_ind_r (step W cap early) init (fun ls s => forall c r, rs s c r <> Fresh -> In (c, r) (sends ls))).
  - intros c r []. reflexivity.
  - intros ls s1 l s E1 IH Hr c r N. rewrite sends_app. apply in_app_iff. destruct (rstate_eqb (rs s1 c r) Fresh) eqn:F.
    + right. apply rstate_eqb_eq in F. rewrite (fresh_left W cap early s1 l s c r (run_Safe _ _ _ _ _ E1) Hr F N). left. reflexivity.
    + left. apply IH. intros F'. rewrite F' in F. discriminate F.
Qed.

(* pipeline steps leave the shutdown machinery alone *)
Lemma pipeline_step_frame W cap early s l s' : step W cap early s l = Some s' -> pipeline_label l ->
  ph s' = ph s /\ rdbuf s' = rdbuf s /\ raced s' = raced s.
Proof. intros H. step_cases H G; intros []; repeat split. Qed.

Lemma pipeline_run_frame W cap early ls : forall s s', Forall pipeline_label ls -> run W cap early s ls = Some s' ->
  ph s' = ph s /\ rdbuf s' = rdbuf s /\ raced s' = raced s.
Proof.
  induction ls as [|l ls IH]; intros s s' Hf H; cbn in H.
  - injection H as <-. repeat split.
  - inversion Hf; subst. destruct (step W cap early s l) as [s1|] eqn:E; [| discriminate].
    destruct (pipeline_step_frame _ _ _ _ _ _ E H2) as (A1 & A2 & A3). destruct (IH s1 s' H3 H) as (B1 & B2 & B3).
    repeat split; congruence.
Qed.

Lemma all_answered_dec : forall s L, (forall c r, rs s c r <> Fresh -> In (c, r) L) ->
  (forall c r, unanswered (rs s c r) = false) \/ (exists c r, unanswered (rs s c r) = true).
Proof.
  intros s L Hcov.
  destruct (existsb (fun q => unanswered (rs s (fst q) (snd q))) L) eqn:E.
  - right. apply existsb_exists in E. destruct E as [[c r] [_ Hu]]. exists c, r. exact Hu.
  - left. intros c r. destruct (unanswered (rs s c r)) eqn:Eu; [| reflexivity]. rewrite <- E. symmetry.
    apply existsb_exists. exists (c, r). split; [apply Hcov, unanswered_not_fresh, Eu | exact Eu].
Qed.

(* The drain can always complete (repaired code): from every reachable live state some sequence of pipeline steps
   alone leads to a state in which nothing that was read is unanswered — in every shutdown phase, for every pool
   size. *)
Theorem can_always_drain : forall W cap, (0 < cap)%N -> forall ls s, run W cap false init ls = Some s ->
  alive (ph s) = true ->
  exists ls' s', Forall pipeline_label ls' /\ run W cap false s ls' = Some s' /\
                 ph s' = ph s /\ forall c r, unanswered (rs s' c r) = false.
Proof.
  intros W cap Hcap ls s. remember (6 * length (sends ls) - rank_sum s (sends ls)) as n eqn:Hn.
  revert ls s Hn. induction n as [n IH] using lt_wf_ind. intros ls s Hn Hrun Halive.
  pose proof (sends_cover W cap false ls s Hrun) as Hcov.
  destruct (all_answered_dec s (sends ls) Hcov) as [Hall | (c & r & Hu)]; [exists [], s; repeat split; auto; constructor |].
  destruct (read_requests_progress W cap ls s Hcap Hrun Halive c r Hu) as (l & Hp & Hen).
  destruct (step W cap false s l) as [s1|] eqn:E1; [| contradiction].
  pose proof (rank_sum_step W cap false ls s l s1 (sends ls) Hrun E1 Hcov) as Hstep.
  rewrite (proj2 (is_pipeline_label l) Hp) in Hstep. pose proof (rank_sum_bound s1 (sends ls)).
  assert (Hrun1 : run W cap false init (ls ++ [l]) = Some s1) by exact (Lts.run_step (step W cap false) _ _ _ _ _ Hrun E1).
  assert (Hs : sends (ls ++ [l]) = sends ls) by (rewrite sends_app; destruct l; try contradiction; apply app_nil_r).
  destruct (pipeline_step_frame W cap false s l s1 E1 Hp) as [Hph _].
  destruct (IH (6 * length (sends ls) - rank_sum s1 (sends ls))) with (ls := ls ++ [l]) (s := s1)
    as (ls' & s' & Hf & Hr' & Hph' & Hall'); [lia | rewrite Hs; reflexivity | exact Hrun1 | rewrite Hph; exact Halive |].
  exists (l :: ls'), s'. split; [constructor; auto |]. split; [cbn; rewrite E1; exact Hr' |].
  split; [congruence | exact Hall'].
Qed.

Section Drain.
Variable W : nat.
Variable cap : N.
Variable early : bool.
Notation stepW := (step W cap early).
Notation runW := (run W cap early).

Definition quiet_run (s s' : state) : Prop :=
  exists ls, runW s ls = Some s' /\ ph s' = ph s /\ raced s' = raced s /\ known s' = known s.

Lemma quiet_refl s : quiet_run s s.
Proof. exists []. repeat split. Qed.

Lemma quiet_trans a b c : quiet_run a b -> quiet_run b c -> quiet_run a c.
Proof.
  intros (l1 & H1 & P1 & R1 & K1) (l2 & H2 & P2 & R2 & K2). exists (l1 ++ l2).
  split; [exact (run_trans _ _ _ _ _ _ _ _ H1 H2) | repeat split; congruence].
Qed.

Lemma quiet_step s l s' : stepW s l = Some s' -> ph s' = ph s -> raced s' = raced s -> known s' = known s -> quiet_run s s'.
Proof. intros H P R K. exists [l]. cbn. rewrite H. auto. Qed.

(* doing something for one connection after the other: [I] is kept, what was achieved for a connection stays achieved *)
Lemma for_each_conn (I : state -> Prop) (Q : cid -> state -> Prop) :
  (forall c s, I s -> exists s', quiet_run s s' /\ I s' /\ Q c s' /\ forall c', Q c' s -> Q c' s') ->
  forall l s, I s -> exists s', quiet_run s s' /\ I s' /\ forall c, In c l -> Q c s'.
Proof.
  intros One. induction l as [|c l IH]; intros s HI.
  - exists s. split; [apply quiet_refl |]. split; [exact HI | intros c []].
  - destruct (IH s HI) as (s1 & R1 & I1 & Q1). destruct (One c s1 I1) as (s2 & R2 & I2 & Qc & Keep).
    exists s2. split; [exact (quiet_trans s s1 s2 R1 R2) |]. split; [exact I2 |]. intros c' [<- | Hc]; auto.
Qed.

(* a request that a receive loop holds read-and-uncounted is counted (handleConn goes on) *)
Lemma flush_one c s : Safe s /\ alive (ph s) = true ->
  exists s', quiet_run s s' /\ (Safe s' /\ alive (ph s') = true) /\ rdbuf s' c = None /\
             forall c', rdbuf s c' = None -> rdbuf s' c' = None.
Proof.
  intros [HS A]. destruct (rdbuf s c) as [r|] eqn:E; [| exists s; auto using quiet_refl].
  pose proof (step_intro W cap early s (LRead c r) _ A (conj (conj E (proj1 (S_rd s HS c r E))) eq_refl)) as H.
  eexists. split; [apply (quiet_step s (LRead c r) _ H); reflexivity |].
  split; [split; [exact (step_Safe W cap early s _ _ HS H) | exact A] |]. cbn.
  split; [apply upd_eq |]. intros c' N. on_key c' c; auto.
Qed.

Lemma flush_all s : Safe s -> alive (ph s) = true -> exists s', quiet_run s s' /\ Safe s' /\ forall c, rdbuf s' c = None.
Proof.
  intros HS A. destruct (for_each_conn _ _ flush_one (known s) s (conj HS A)) as (s' & R & [HS' _] & F).
  exists s'. split; [exact R |]. split; [exact HS' |]. intros c.
  destruct (none_or_known s' c HS') as [N | K]; [apply (S_none s' HS'), N |].
  apply F. destruct R as (_ & _ & _ & _ & <-). exact K.
Qed.

Definition conn_done (s : state) (c : cid) : Prop := inmap s c = false \/ cst s c = CClosed.

Definition draining (s : state) : Prop :=
  Safe s /\ ph s = SDown /\ inpoll s = true /\ (forall c, busy s c = []) /\ (forall c, rdbuf s c = None).

Definition swept (c : cid) (s : state) : Prop := conn_done s c /\ chk s c = false.

Lemma poll_close_step s c s' : draining s -> stepW s (LPollClose c) = Some s' ->
  quiet_run s s' /\ draining s' /\ swept c s' /\ forall c', swept c' s -> swept c' s'.
Proof.
  intros (HS & P & I & B & D) H. pose proof (step_Safe W cap early s _ s' HS H) as HS'. pose proof H as H0.
  revert HS' H0. unfold draining, swept, conn_done. step_cases H G; intros HS' H0.
  all: split; [exists [LPollClose c]; cbn [run]; rewrite H0; repeat split |].
  all: split; [auto 10 |]; split; [rewrite !upd_eq; intuition |]; intros c' [X K]; on_key c' c; auto.
Qed.

Lemma poll_check_step s c s' : draining s -> stepW s (LPollCheck c) = Some s' ->
  quiet_run s s' /\ draining s' /\ chk s' c = true /\ cst s' = cst s /\ forall c', c' <> c -> swept c' s -> swept c' s'.
Proof.
  intros (HS & P & I & B & D) H. pose proof (step_Safe W cap early s _ s' HS H) as HS'. pose proof H as H0.
  revert HS' H0. unfold draining, swept, conn_done. step_cases H G; intros HS' H0.
  split; [exists [LPollCheck c]; cbn [run]; rewrite H0; cbn; rewrite D, orb_false_r; repeat split |].
  split; [auto 10 |]. split; [apply upd_eq |]. split; [reflexivity |].
  intros c' N. rewrite upd_neq by exact N. auto.
Qed.

Lemma poll_close_enabled s c : Safe s -> alive (ph s) = true -> chk s c = true -> exists s', stepW s (LPollClose c) = Some s'.
Proof.
  intros HS A K. destruct (S_chk s HS c K) as (_ & Kn & _). apply (S_known s HS) in Kn.
  destruct (cst s c) eqn:X; [contradiction | | |]; eexists; apply (step_intro W cap early _ _ _ A); cbn.
  - (* COpen *) right. split; [auto | reflexivity].
  - (* CExited *) right. split; [auto | reflexivity].
  - (* CClosed: conn.Close() on a closed connection *) left. split; [auto | reflexivity].
Qed.

(* one connection of the sweep: a pending test is completed; else the connection is tested and closed *)
Lemma close_one c s : draining s -> exists s', quiet_run s s' /\ draining s' /\ swept c s' /\ forall c', swept c' s -> swept c' s'.
Proof.
  intros HD. pose proof HD as (HS & P & I & B & D). assert (A : alive (ph s) = true) by (rewrite P; reflexivity).
  destruct (chk s c) eqn:K.
  - destruct (poll_close_enabled s c HS A K) as [s' H]. exists s'. apply poll_close_step; assumption.
  - assert (Dec : conn_done s c \/ inmap s c = true /\ (cst s c = COpen \/ cst s c = CExited)).
    { unfold conn_done. destruct (inmap s c) eqn:M; auto. destruct (cst s c) eqn:X; auto.
      rewrite (S_nomap s HS c X) in M. discriminate M. }
    destruct Dec as [Dn | [M X]]; [exists s; split; [apply quiet_refl |]; split; [exact HD |]; split; [split; assumption | auto] |].
    assert (H1 : exists s1, stepW s (LPollCheck c) = Some s1).
    { eexists. apply (step_intro W cap early _ _ _ A). cbn. rewrite P. repeat split; auto. }
    destruct H1 as [s1 H1]. destruct (poll_check_step s c s1 HD H1) as (R1 & D1 & K1 & C1 & Keep1).
    destruct (poll_close_enabled s1 c) as [s2 H2]; [apply D1 | destruct D1 as (_ & -> & _); reflexivity | exact K1 |]. destruct (poll_close_step s1 c s2 D1 H2) as (R2 & D2 & Sw & Keep2).
    exists s2. split; [exact (quiet_trans _ _ _ R1 R2) |]. split; [exact D2 |]. split; [exact Sw |].
    intros c' Sc'. apply Keep2. destruct (Nat.eq_dec c' c) as [-> | N]; [| apply Keep1; assumption].
    destruct Sc' as [[Mx | Cx] _]; [congruence | destruct X; congruence].
Qed.

(* with nothing counted or held, the poller's next tick finds every connection idle *)
Lemma enter_tick s : Safe s -> ph s = SDown -> (forall c, busy s c = []) -> (forall c, rdbuf s c = None) ->
  exists s', quiet_run s s' /\ draining s'.
Proof.
  intros HS P B D. destruct (inpoll s) eqn:I; [exists s; split; [apply quiet_refl | exact (conj HS (conj P (conj I (conj B D))))] |].
  assert (A : alive (ph s) = true) by (rewrite P; reflexivity).
  pose proof (step_intro W cap early s LPollBegin _ A (conj (conj P I) eq_refl)) as H.
  eexists. split; [apply (quiet_step _ _ _ H); reflexivity |].
  split; [exact (step_Safe W cap early _ _ _ HS H) | repeat split; auto].
Qed.

(* a tick over idle connections closes them all *)
Lemma sweep_all s : draining s ->
  exists s', quiet_run s s' /\ ph s' = SDown /\ inpoll s' = true /\ all_closed s' = true /\ nochk s' = true.
Proof.
  intros D. destruct (for_each_conn _ _ close_one (known s) s D) as (s' & R & (_ & P & I & _) & Sw).
  exists s'. split; [exact R |]. split; [exact P |]. split; [exact I |].
  destruct R as (_ & _ & _ & _ & K). rewrite <- K in Sw. split; apply forallb_forall; intros c Kc; destruct (Sw c Kc) as [D' X].
  - destruct D' as [-> | ->]; [reflexivity | apply orb_true_r].
  - rewrite X. reflexivity.
Qed.
End Drain.

(* Shutdown can always return drained (repaired code): from every reachable state in which Shutdown is in progress,
   some continuation — the pipeline finishing what was read, then one poller tick closing every connection — reaches
   the drained return. (With the pool released early this is false: progress_refuted_before_fix.) *)
Theorem can_always_return_drained : forall W cap, (0 < cap)%N -> forall ls s, run W cap false init ls = Some s ->
  ph s = SDown -> exists ls' s', run W cap false s ls' = Some s' /\ ph s' = SRetDrained /\ raced s' = raced s.
Proof.
  intros W cap Hcap ls s Hrun Hp.
  destruct (flush_all W cap false s (run_Safe _ _ _ _ _ Hrun)) as (s0 & (l0 & Hr0 & P0 & R0 & _) & _ & D0); [rewrite Hp; reflexivity |].
  pose proof (run_trans _ _ _ _ _ _ _ _ Hrun Hr0) as Hrun0.
  (* the pipeline answers everything that is counted *)
  destruct (can_always_drain W cap Hcap _ s0 Hrun0) as (l1 & s1 & Hf1 & Hr1 & P1 & Hall1); [rewrite P0, Hp; reflexivity |].
  destruct (pipeline_run_frame _ _ _ _ _ _ Hf1 Hr1) as (_ & F1 & R1).
  pose proof (run_trans _ _ _ _ _ _ _ _ Hrun0 Hr1) as Hrun1.
  assert (B1 : forall c, busy s1 c = []).
  { intros c. destruct (busy s1 c) as [|r b] eqn:E; [reflexivity |].
    assert (U : unanswered (rs s1 c r) = true) by (apply (S_counted _ (run_Safe _ _ _ _ _ Hrun1)); rewrite E; left; reflexivity).
    rewrite Hall1 in U. discriminate U. }
  rewrite P0, Hp in P1.
  destruct (enter_tick W cap false s1 (run_Safe _ _ _ _ _ Hrun1) P1 B1) as (s2 & (l2 & Hr2 & _ & R2 & _) & D2); [intros c; rewrite F1; apply D0 |].
  destruct (sweep_all W cap false s2 D2) as (s3 & (l3 & Hr3 & _ & R3 & _) & P3 & I3 & A3 & N3).
  destruct (drained_return_enabled W cap false s3) as (s4 & Hr4 & P4); [rewrite P3; reflexivity | exact A3 | exact N3 |].
  rewrite I3 in Hr4. exists (l0 ++ l1 ++ l2 ++ l3 ++ [LPollReturn]), s4. split; [eauto using run_trans |]. split; [exact P4 |].
  cbn in Hr4. destruct (step W cap false s3 LPollReturn) as [s5|] eqn:E5; [| discriminate]. injection Hr4 as ->.
  step_cases E5 G. cbn. congruence.
Qed.

(* Every request is started at most once and answered at most once (no duplicate execution, no duplicate response),
   on every schedule: the finishing step needs rank 5 and leaves rank 6, the starting step needs rank 4 and leaves
   rank 5, and ranks never go down. *)
Definition is_finish (c : cid) (r : rid) (l : label) : bool :=
  match l with LFinish c' r' => (c' =? c) && (r' =? r) | _ => false end.
Definition is_start (c : cid) (r : rid) (l : label) : bool :=
  match l with LStart c' r' => (c' =? c) && (r' =? r) | _ => false end.
Definition count_lab (f : label -> bool) (ls : list label) : nat := length (filter f ls).

Lemma once_per_rank W cap early (f : label -> bool) c r k :
  (forall s l s', Safe s -> step W cap early s l = Some s' -> f l = true -> rank (rs s c r) = k /\ rank (rs s' c r) = S k) ->
  forall ls s, run W cap early init ls = Some s -> count_lab f ls <= 1 /\ (count_lab f ls = 1 -> S k <= rank (rs s c r)).
Proof.
  intros Hf. apply (Lts.run_ind_r (step W cap early) init (fun ls s => count_lab f ls <= 1 /\ (count_lab f ls = 1 -> S k <= rank (rs s c r)))).
  - cbn. split; [lia | discriminate].
  - intros ls s1 l s E1 [I1 I2] Hr.
    pose proof (run_Safe _ _ _ _ _ E1) as HS. pose proof (step_rank_mono W cap early s1 l s c r HS Hr).
    unfold count_lab in *. rewrite filter_app, app_length. cbn [filter].
    destruct (f l) eqn:F; cbn [length]; [destruct (Hf s1 l s HS Hr F) |]; lia.
Qed.

Theorem executed_and_answered_at_most_once : forall W cap early ls s c r, run W cap early init ls = Some s ->
  count_lab (is_finish c r) ls <= 1 /\ (count_lab (is_finish c r) ls = 1 -> rank (rs s c r) = 6) /\
  count_lab (is_start c r) ls <= 1 /\ (count_lab (is_start c r) ls = 1 -> 5 <= rank (rs s c r)).
Proof.
  intros W cap early ls s c r Hr. pose proof (rank_le_6 (rs s c r)) as Hle.
  destruct (once_per_rank W cap early (is_finish c r) c r 5) with (ls := ls) (s := s) as [F1 F2]; [| exact Hr |].
  { intros s0 l s1 _ H F. destruct l; try discriminate F. apply andb_true_iff in F. destruct F as [<-%Nat.eqb_eq <-%Nat.eqb_eq].
    step_cases H G. rewrite upd2_eq, G. destruct (cstate_eqb _ _); split; reflexivity. }
  destruct (once_per_rank W cap early (is_start c r) c r 4) with (ls := ls) (s := s) as [S1 S2]; [| exact Hr |].
  { intros s0 l s1 HS H F. destruct l; try discriminate F. apply andb_true_iff in F. destruct F as [<-%Nat.eqb_eq <-%Nat.eqb_eq].
    step_cases H G. rewrite upd2_eq. destruct (start_from W s0 c0 r0 HS G) as [-> | ->]; split; reflexivity. }
  repeat split; auto. intros E. specialize (F2 E). lia.
Qed.

(* Clause 1 at full strength (no hypothesis on the schedule) is false of the two-instruction model.
   Window 1 (recv): Read has returned a request, numInvoke++ has not happened yet; the poller tests numInvoke = 0 and
   closes. The request was read 4 steps before the close and is never answered. Replayed on the code (known finding). *)
Definition race_read_then_count : list label :=
  [LConnect 0; LSend 0 0; LShutdown; LAcceptExit; LReadBytes 0 0; LPollBegin; LPollCheck 0; LPollClose 0; LRead 0 0;
   LStart 0 0; LFinish 0 0].
(* Window 2 (poller): numInvoke = 0 tested, then a request is read and counted, then Close. *)
Definition race_check_then_close : list label :=
  [LConnect 0; LSend 0 0; LShutdown; LAcceptExit; LPollBegin; LPollCheck 0; LReadBytes 0 0; LRead 0 0; LPollClose 0;
   LStart 0 0; LFinish 0 0].

Theorem answered_before_close_refuted :
  (exists s, run 0 10 false init race_read_then_count = Some s /\ cst s 0 = CClosed /\ rs s 0 0 = Lost /\ raced s = true) /\
  (exists s, run 0 10 false init race_check_then_close = Some s /\ cst s 0 = CClosed /\ rs s 0 0 = Lost /\ raced s = true) /\
  ~ (forall W cap early ls s, run W cap early init ls = Some s ->
     forall c, cst s c = CClosed -> rdbuf s c = None /\ forall r, unanswered (rs s c r) = false /\ rs s c r <> Lost).
Proof.
  assert (X : exists s, run 0 10 false init race_read_then_count = Some s /\ cst s 0 = CClosed /\ rs s 0 0 = Lost /\ raced s = true).
  { eexists. split; [apply (Lts.some_the init); vm_compute; reflexivity | vm_compute; auto]. }
  split; [exact X |]. split; [eexists; split; [apply (Lts.some_the init); vm_compute; reflexivity | vm_compute; auto] |].
  destruct X as (s & Hr & C & L & _). intros H. destruct (H _ _ _ _ _ Hr 0 C) as [_ Y]. destruct (Y 0) as [_ []]. exact L.
Qed.

(* ... also with a pool, and the drained return is then taken with a request read and unanswered *)
Theorem drained_return_refuted_by_race :
  exists s s', run 2 10 false init [LConnect 0; LSend 0 0; LShutdown; LAcceptExit; LReadBytes 0 0; LPollBegin; LPollCheck 0;
                                    LPollClose 0; LRead 0 0] = Some s /\
    step 2 10 false s LPollReturn = Some s' /\ ph s' = SRetDrained /\ unanswered (rs s' 0 0) = true /\ raced s' = true.
Proof.
  eexists. eexists. split; [apply (Lts.some_the init); vm_compute; reflexivity|].
  split; [apply (Lts.some_the init); vm_compute; reflexivity|]. vm_compute. auto.
Qed.
