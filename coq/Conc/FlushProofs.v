(* C20 — proofs about the model Conc/Flush.v: invariants of the transition system over ALL label sequences
   (all schedules, any number of goroutines / entries / writers, any queue capacity) and the theorems they give; the
   simulation by which the specification machine accepts every visible trace; what acceptance of a trace implies; the
   concrete schedules last. *)
From Coq Require Import List NArith Bool Lia.
From TarsV Require Base.Lts Base.Lists.
From TarsV Require Import Conc.Flush.
Import ListNotations.
Open Scope N_scope.

Lemma entry_eqb_eq a b : entry_eqb a b = true <-> a = b.
Proof.
  unfold entry_eqb. destruct a as [g n w], b as [g' n' w']; cbn.
  rewrite !andb_true_iff, !N.eqb_eq. split.
  - intros [[-> ->] ->]. reflexivity.
  - intros E. inversion E. auto.
Qed.
Lemma entry_eqb_refl a : entry_eqb a a = true.
Proof. apply entry_eqb_eq. reflexivity. Qed.
Lemma entry_eqb_spec a b : reflect (a = b) (entry_eqb a b).
Proof. apply iff_reflect. symmetry. apply entry_eqb_eq. Qed.

Lemma upd_same {A} (f : N -> A) g v : upd f g v g = v.
Proof. unfold upd. now rewrite N.eqb_refl. Qed.
Lemma upd_other {A} (f : N -> A) g v x : x <> g -> upd f g v x = f x.
Proof. unfold upd. intros H. destruct (x =? g) eqn:E; [apply N.eqb_eq in E; contradiction | reflexivity]. Qed.
Lemma upd_spec {A} (f : N -> A) g v x : (x = g /\ upd f g v x = v) \/ (x <> g /\ upd f g v x = f x).
Proof. destruct (N.eq_dec x g) as [-> | Ne]; [left | right]; auto using upd_same, upd_other. Qed.

Definition prefix (a b : list entry) := exists c, b = a ++ c.
Lemma prefix_app a b c : prefix a b -> prefix a (b ++ c).
Proof. intros [d ->]. exists (d ++ c). now rewrite app_assoc. Qed.
Lemma prefix_refl a : prefix a a.
Proof. exists []. now rewrite app_nil_r. Qed.
Lemma prefix_trans a b c : prefix a b -> prefix b c -> prefix a c.
Proof. intros [d ->] [e ->]. exists (d ++ e). now rewrite app_assoc. Qed.
Lemma prefix_incl a b : prefix a b -> incl a b.
Proof. intros [c ->] x H. apply in_or_app. now left. Qed.
Lemma prefix_nil a : prefix [] a.
Proof. now exists a. Qed.

Lemma prefix_comparable a b l : prefix a l -> prefix b l -> prefix a b \/ prefix b a.
Proof.
  revert b l. induction a as [|x a IH]; intros b l Ha Hb. { left. apply prefix_nil. }
  destruct b as [|y b]. { right. apply prefix_nil. }
  destruct Ha as [c ->]. destruct Hb as [d Hd]. cbn in Hd. inversion Hd; subst.
  destruct (IH b (a ++ c)) as [[e ->] | [e ->]].
  - now exists c.
  - now exists d.
  - left. now exists e.
  - right. now exists e.
Qed.

(* per-goroutine order of a list of entries: later entries of the same goroutine have larger numbers *)
Fixpoint ord (l : list entry) : Prop :=
  match l with
  | [] => True
  | e :: r => (forall e2, In e2 r -> eg e2 = eg e -> en e < en e2) /\ ord r
  end.

Lemma ord_snoc l e : ord (l ++ [e]) <-> ord l /\ (forall e1, In e1 l -> eg e1 = eg e -> en e1 < en e).
Proof.
  induction l as [|x l IH]; cbn.
  - split; [intros _; split; [exact I | intros ? []] | intros _; split; [intros ? [] | exact I]].
  - rewrite IH. split.
    + intros [H1 [H2 H3]]. split; [split; [|exact H2] |].
      * intros e2 Hin. apply H1. apply in_or_app. now left.
      * intros e1 [<- | Hin] Hg; [apply H1; [apply in_elt | congruence] | now apply H3].
    + intros [[H1 H2] H3]. split; [|split; [exact H2 |]].
      * intros e2 Hin Hg. apply in_app_or in Hin. destruct Hin as [Hin | [<- | []]]; [now apply H1 | apply H3; [now left | congruence]].
      * intros e1 Hin. apply H3. now right.
Qed.

Lemma ord_app_l a b : ord (a ++ b) -> ord a.
Proof.
  induction a as [|x a IH]; cbn; [trivial|]. intros [H1 H2]. split; [|now apply IH].
  intros e2 Hin. apply H1. apply in_or_app. now left.
Qed.
Lemma ord_app_r a b : ord (a ++ b) -> ord b.
Proof. induction a as [|x a IH]; cbn; [trivial|]. intros [_ H]. now apply IH. Qed.

Lemma ord_NoDup l : ord l -> NoDup l.
Proof.
  induction l as [|x l IH]; cbn; [constructor|]. intros [H1 H2]. constructor; [|now apply IH].
  intros Hin. apply (N.lt_irrefl _ (H1 x Hin eq_refl)).
Qed.

Lemma ord_split l : ord l -> forall a e1 b e2 c, l = a ++ e1 :: b ++ e2 :: c -> eg e1 = eg e2 -> en e1 < en e2.
Proof.
  intros H a e1 b e2 c ->. apply ord_app_r in H. cbn in H. destruct H as [H _].
  intros Hg. apply H; [apply in_elt | congruence].
Qed.

Lemma prefix_snoc_inv a x (e : entry) : prefix a (x ++ [e]) -> prefix a x \/ a = x ++ [e].
Proof.
  intros [c Hc]. destruct c as [|y c] using rev_ind.
  - right. rewrite app_nil_r in Hc. auto.
  - left. rewrite app_assoc in Hc. apply app_inj_tail in Hc. destruct Hc as [-> _]. now exists c.
Qed.

Lemma prefix_length a b : prefix a b -> (length a <= length b)%nat.
Proof. intros [c ->]. rewrite app_length. apply PeanoNat.Nat.le_add_r. Qed.
Lemma prefix_of_shorter a b l : prefix a l -> prefix b l -> (length a <= length b)%nat -> prefix a b.
Proof.
  intros Ha Hb L. destruct (prefix_comparable _ _ _ Ha Hb) as [P | [c Hc]]; [exact P|].
  subst a. rewrite app_length in L. destruct c; [rewrite app_nil_r; apply prefix_refl | cbn in L; lia].
Qed.

Lemma NoDup_app_r {A} (a b : list A) : NoDup (a ++ b) -> NoDup b.
Proof. induction a as [|y a IH]; cbn; [trivial|]. intros N. inversion N; auto. Qed.

Lemma snoc_decomp {A} (q : list A) e l1 e0 l2 :
  q ++ [e] = l1 ++ e0 :: l2 -> (l2 = []) \/ exists l2', l2 = l2' ++ [e] /\ q = l1 ++ e0 :: l2'.
Proof.
  destruct l2 as [|y l2'] using rev_ind; [now left|]. intros H. right.
  replace (l1 ++ e0 :: l2' ++ [y]) with ((l1 ++ e0 :: l2') ++ [y]) in H by (rewrite <- app_assoc; reflexivity).
  apply app_inj_tail in H. destruct H as [-> ->]. now exists l2'.
Qed.

Lemma snoc_split_ne {A} (l : list A) y p1 x p2 :
  l ++ [y] = p1 ++ x :: p2 -> x <> y -> exists p2', p2 = p2' ++ [y] /\ l = p1 ++ x :: p2'.
Proof.
  intros H Ne. apply snoc_decomp in H as H'. destruct H' as [-> | [p2' [-> E]]].
  - apply app_inj_tail in H. destruct H as [_ E]. congruence.
  - now exists p2'.
Qed.

Lemma unique_split {A} (X : A) a : forall b a' b', a ++ X :: b = a' ++ X :: b' -> ~ In X a' -> ~ In X b' -> a = a'.
Proof.
  induction a as [|y a IH]; intros b a' b' H N1 N2; destruct a' as [|y' a'']; cbn in *.
  - reflexivity.
  - inversion H; subst. exfalso. apply N1. now left.
  - inversion H; subst. exfalso. apply N2. apply in_elt.
  - inversion H; subst. f_equal. eapply IH; eauto.
Qed.

Lemma first_split_unique {A} (P : A -> bool) a : forall x b a' x' b',
  a ++ x :: b = a' ++ x' :: b' -> P x = true -> P x' = true -> existsb P a = false -> existsb P a' = false -> a = a'.
Proof.
  induction a as [|y a IH]; intros x b a' x' b' H Px Px' N1 N2; destruct a' as [|y' a'']; cbn in *.
  - reflexivity.
  - inversion H; subst. rewrite Px in N2. discriminate.
  - inversion H; subst. rewrite Px' in N1. discriminate.
  - inversion H; subst. apply orb_false_iff in N1, N2. destruct N1, N2. f_equal. eapply IH; eauto.
Qed.

Lemma in_snoc {A} (x y : A) l : In x (l ++ [y]) <-> In x l \/ x = y.
Proof. rewrite in_app_iff. cbn. intuition. Qed.
Lemma in_snoc_ne {A} (x y : A) l : In x (l ++ [y]) -> x <> y -> In x l.
Proof. intros H N. apply in_snoc in H. destruct H; [assumption | contradiction]. Qed.

Lemma unique_split2 {A} (X : A) a : forall b a' b', a ++ X :: b = a' ++ X :: b' -> ~ In X a -> ~ In X a' -> a = a'.
Proof.
  induction a as [|y a IH]; intros b a' b' H N1 N2; destruct a' as [|y' a'']; cbn in *.
  - reflexivity.
  - inversion H; subst. exfalso. apply N2. now left.
  - inversion H; subst. exfalso. apply N1. now left.
  - inversion H; subst. f_equal. eapply IH; eauto.
Qed.

Lemma writes_of_app a b : writes_of (a ++ b) = writes_of a ++ writes_of b.
Proof. induction a as [|x a IH]; cbn; [reflexivity|]. destruct x; cbn; rewrite IH; reflexivity. Qed.
Lemma calls_of_app a b : calls_of (a ++ b) = calls_of a ++ calls_of b.
Proof. induction a as [|x a IH]; cbn; [reflexivity|]. destruct x; cbn; rewrite IH; reflexivity. Qed.
Lemma rets_of_app a b : rets_of (a ++ b) = rets_of a ++ rets_of b.
Proof. induction a as [|x a IH]; cbn; [reflexivity|]. destruct x; cbn; rewrite IH; reflexivity. Qed.

(* a step of the flusher changes the queue, its program counter and what is written, and nothing else *)
Definition fstate (s : st) (q' : list entry) (p : fpc) (w : list entry) : st :=
  mk q' p (req s) (fl s) (lp s) (cnt s) (hist s) w (retd s) (pre_req s) (lvl s).
Arguments fstate _ _ _ _ /.

(* One rule per branch of [gstep true] that succeeds, its guards as hypotheses. An accepted levelled call steps exactly
   like [LogCall]: proofs by induction on [Step] get that case from the induction hypothesis. *)
Inductive Step (cap : N) (s : st) : label -> st -> Prop :=
| SLogCall e (L : lp s (eg e) = LIdle) (C : en e = cnt s (eg e)) :
    Step cap s (LogCall e) (mk (q s) (fp s) (req s) (fl s) (upd (lp s) (eg e) (LSending e)) (upd (cnt s) (eg e) (cnt s (eg e) + 1))
                               (hist s) (written s) (retd s) (pre_req s) (lvl s))
| SLogCallAt e l s' (G : lvl s <= l) (LC : Step cap s (LogCall e) s') : Step cap s (LogCallAt e l) s'
| SEnq g e (L : lp s g = LSending e) (Q : N.of_nat (length (q s)) < cap) :
    Step cap s (Enq g) (mk (q s ++ [e]) (fp s) (req s) (fl s) (upd (lp s) g (LSent e)) (cnt s)
                           (hist s ++ [e]) (written s) (retd s) (pre_req s) (lvl s))
| SLogRet e (L : lp s (eg e) = LSent e) :
    Step cap s (LogRet e) (mk (q s) (fp s) (req s) (fl s) (upd (lp s) (eg e) LIdle) (cnt s)
                              (hist s) (written s) (e :: retd s) (pre_req s) (lvl s))
| SSetLevel l :
    Step cap s (SetLevel l) (mk (q s) (fp s) (req s) (fl s) (lp s) (cnt s) (hist s) (written s) (retd s) (pre_req s) l)
| SLogFiltered g l (L : lp s g = LIdle) (G : l < lvl s) : Step cap s (LogFiltered g l) s
| SFlushCall c (F1 : fl s c <> FCalled) (F2 : fl s c <> FRequested) :
    Step cap s (FlushCall c) (mk (q s) (fp s) (req s) (upd (fl s) c FCalled) (lp s) (cnt s)
                                 (hist s) (written s) (retd s) (pre_req s) (lvl s))
| SRequest c (F : fl s c = FCalled) :
    Step cap s (Request c) (mk (q s) (fp s) true (upd (fl s) c FRequested) (lp s) (cnt s)
                               (hist s) (written s) (retd s) (if req s then pre_req s else hist s) (lvl s))
| SFlushRet c b (F : fl s c = FRequested) (D : b = true -> fp s = Done) :
    Step cap s (FlushRet c b) (mk (q s) (fp s) (req s) (upd (fl s) c (FReturned b)) (lp s) (cnt s)
                                  (hist s) (written s) (retd s) (pre_req s) (lvl s))
| SPollTake e r (P : fp s = Top) (Q : q s = e :: r) : Step cap s (PollTake e) (fstate s r (HoldT e) (written s))
| SPollEmpty (P : fp s = Top) (Q : q s = []) : Step cap s PollEmpty (fstate s [] Inner (written s))
| SInnerTake e r (P : fp s = Inner) (Q : q s = e :: r) : Step cap s (InnerTake e) (fstate s r (HoldT e) (written s))
| SInnerSync (P : fp s = Inner) (R : req s = true) : Step cap s InnerSync (fstate s (q s) Drain (written s))
| SDrainTake e r (P : fp s = Drain) (Q : q s = e :: r) : Step cap s (DrainTake e) (fstate s r (HoldD e) (written s))
| SDrainDone (P : fp s = Drain) (Q : q s = []) : Step cap s DrainDone (fstate s [] Done (written s))
| SWriteT e (P : fp s = HoldT e) : Step cap s (Write e) (fstate s (q s) Top (written s ++ [e]))
| SWriteD e (P : fp s = HoldD e) : Step cap s (Write e) (fstate s (q s) Drain (written s ++ [e])).

Lemma take_Some s e p nx s' : take s e p nx = Some s' ->
  fp s = p /\ exists r, q s = e :: r /\ s' = fstate s r nx (written s).
Proof.
  unfold take. destruct (q s) as [|e' r]; [destruct (fp s); discriminate|].
  destruct (fp s), p; try discriminate; cbn; (destruct (entry_eqb_spec e e') as [<- |]; [|discriminate]);
    intros [= <-]; eauto.
Qed.

Lemma step_Step cap s l s' : step cap s l = Some s' -> Step cap s l s'.
Proof.
  assert (LC : forall e t, step cap s (LogCall e) = Some t -> Step cap s (LogCall e) t).
  { intros e t. cbn. destruct (lp s (eg e)) eqn:L; try discriminate.
    destruct (N.eqb_spec (en e) (cnt s (eg e))); [|discriminate]. intros [= <-]. now constructor. }
  destruct l; try apply LC; cbn.
  - destruct (lp s g) eqn:L; try discriminate. destruct (N.ltb_spec (N.of_nat (length (q s))) cap); [|discriminate].
    intros [= <-]. now constructor.
  - destruct (lp s (eg e)) as [| |e'] eqn:L; try discriminate. destruct (entry_eqb_spec e e') as [<- |]; [|discriminate].
    intros [= <-]. now constructor.
  - intros [= <-]. constructor.
  - destruct (N.leb_spec (lvl s) l); [|discriminate]. intros Hs. constructor; auto.
  - destruct (lp s g) eqn:L; try discriminate. destruct (N.ltb_spec l (lvl s)); [|discriminate]. intros [= <-]. now constructor.
  - destruct (fl s c) eqn:F; try discriminate; intros [= <-]; constructor; rewrite F; discriminate.
  - destruct (fl s c) eqn:F; try discriminate. intros [= <-]. now constructor.
  - destruct (fl s c) eqn:F; try discriminate. destruct (negb done || _) eqn:G; [|discriminate]. intros [= <-].
    constructor; auto. intros ->. destruct (fp s); try discriminate; reflexivity.
  - intros H. destruct (take_Some _ _ _ _ _ H) as (P & r & Q & ->). now constructor.
  - destruct (fp s) eqn:P; try discriminate. destruct (q s) eqn:Q; try discriminate. intros [= <-]. now constructor.
  - intros H. destruct (take_Some _ _ _ _ _ H) as (P & r & Q & ->). now constructor.
  - destruct (fp s) eqn:P; try discriminate. destruct (req s) eqn:R; [|discriminate]. intros [= <-]. rewrite <- R. now constructor.
  - intros H. destruct (take_Some _ _ _ _ _ H) as (P & r & Q & ->). now constructor.
  - destruct (fp s) eqn:P; try discriminate. destruct (q s) eqn:Q; try discriminate. intros [= <-]. now constructor.
  - destruct (fp s) as [| | | |e'|e'] eqn:P; try discriminate; (destruct (entry_eqb_spec e e') as [<- |]; [|discriminate]);
      intros [= <-]; now constructor.
Qed.

Lemma run_is cap s ls : run cap s ls = Lts.run (step cap) s ls.
Proof. revert s. apply Lts.run_unique; reflexivity. Qed.

Lemma run_split cap a s l b s' : run cap s (a ++ l :: b) = Some s' ->
  exists m m', run cap s a = Some m /\ Step cap m l m' /\ run cap m' b = Some s'.
Proof.
  rewrite run_is. intros H. destruct (Lts.run_split _ _ _ _ _ _ H) as (m & m' & A & S & B).
  exists m, m'. rewrite !run_is. auto using step_Step.
Qed.

(* induction over a run together with its schedule *)
Lemma run_ind cap (P : st -> list label -> st -> Prop) :
  (forall s, P s [] s) ->
  (forall s l m ls s', Step cap s l m -> P m ls s' -> P s (l :: ls) s') ->
  forall ls s s', run cap s ls = Some s' -> P s ls s'.
Proof. intros H0 Hs ls s s'. rewrite run_is. apply Lts.run_ind; eauto using step_Step. Qed.

(* What only grows, or is frozen from some point on. *)
Record Mono (s s' : st) : Prop := mkMono {
  m_hist : prefix (hist s) (hist s');
  m_cnt : forall g, cnt s g <= cnt s' g;
  (* the first request fixes what the flusher owes, and that contains whatever was enqueued before it *)
  m_req : req s = true -> req s' = true /\ pre_req s' = pre_req s;
  m_first : req s = false -> req s' = true -> prefix (hist s) (pre_req s');
  (* once the flusher has acknowledged the flush it writes nothing more *)
  m_done : fp s = Done -> fp s' = Done /\ written s' = written s
}.

Lemma Mono_refl s : Mono s s.
Proof. constructor; auto using prefix_refl, N.le_refl. congruence. Qed.

Lemma Mono_trans a b c : Mono a b -> Mono b c -> Mono a c.
Proof.
  intros [H1 C1 R1 F1 D1] [H2 C2 R2 F2 D2]. constructor.
  - eapply prefix_trans; eauto.
  - intros g. eapply N.le_trans; eauto.
  - intros R. destruct (R1 R) as [Rb <-]. auto.
  - intros Ra Rc. destruct (req b) eqn:Rb.
    + destruct (R2 eq_refl) as [_ ->]. auto.
    + eapply prefix_trans; eauto.
  - intros D. destruct (D1 D) as [Db <-]. auto.
Qed.

Lemma step_mono cap s l s' : Step cap s l s' -> Mono s s'.
Proof.
  intros Hs. induction Hs; trivial using Mono_refl; constructor; cbn; auto using prefix_refl, N.le_refl; try congruence.
  - intros g. destruct (upd_spec (cnt s) (eg e) (cnt s (eg e) + 1) g) as [[-> ->] | [_ ->]]; [apply N.le_add_r | apply N.le_refl].
  - apply prefix_app, prefix_refl.
  - intros ->. auto.
  - intros ->. auto using prefix_refl.
Qed.

Lemma run_mono cap ls s s' : run cap s ls = Some s' -> Mono s s'.
Proof. rewrite run_is. apply Lts.run_rel; eauto using Mono_refl, Mono_trans, step_mono, step_Step. Qed.

(* the ghost histories, and whether somebody has signalled, are projections of the label sequence *)
Definition is_request (l : label) : bool := match l with Request _ => true | _ => false end.

Lemma step_ghost cap s l s' : Step cap s l s' ->
  written s' = written s ++ writes_of [l] /\ retd s' = rets_of [l] ++ retd s /\ req s' = req s || is_request l.
Proof.
  intros Hs. induction Hs; trivial; cbn; rewrite ?app_nil_r, ?orb_false_r, ?orb_true_r; auto.
Qed.

Lemma run_ghost cap ls s s' : run cap s ls = Some s' ->
  written s' = written s ++ writes_of ls /\ retd s' = rev (rets_of ls) ++ retd s /\ req s' = req s || existsb is_request ls.
Proof.
  revert ls s s'. apply run_ind.
  - intros s. cbn. rewrite app_nil_r, orb_false_r. auto.
  - intros s l m ls s' Hs (W & R & Q). destruct (step_ghost _ _ _ _ Hs) as (W1 & R1 & Q1).
    change (l :: ls) with ([l] ++ ls). rewrite writes_of_app, rets_of_app, rev_app_distr, existsb_app, W, R, Q, W1, R1, Q1.
    cbn [existsb]. rewrite <- !app_assoc, orb_assoc, orb_false_r. repeat split. f_equal. destruct l; reflexivity.
Qed.

Lemma run_init_ghost cap ls s : run cap init ls = Some s -> written s = writes_of ls /\ retd s = rev (rets_of ls).
Proof. intros H. destruct (run_ghost _ _ _ _ H) as (W & R & _). cbn in W, R. rewrite app_nil_r in R. auto. Qed.

(* how many entries goroutine g has enqueued: its counter, less the number a call in progress has taken and not yet enqueued *)
Definition sent (s : st) (g : N) : N := match lp s g with LSending _ => cnt s g - 1 | _ => cnt s g end.
Lemma sent_le s g : sent s g <= cnt s g.
Proof. unfold sent. destruct (lp s g); auto using N.le_sub_l, N.le_refl. Qed.

Lemma sent_upd_other s g x lp' cnt' :
  x <> g -> lp' x = lp s x -> cnt' x = cnt s x ->
  (match lp' x with LSending _ => cnt' x - 1 | _ => cnt' x end) = sent s x.
Proof. intros _ -> ->. reflexivity. Qed.

Definition draining (p : fpc) : bool := match p with Drain | Done | HoldD _ => true | _ => false end.

Record Inv (s : st) : Prop := mkInv {
  i_hist : hist s = written s ++ heldp (fp s) ++ q s;
  i_req_pre : req s = true -> prefix (pre_req s) (hist s);
  i_done : fp s = Done -> prefix (pre_req s) (written s);
  i_drain_req : draining (fp s) = true -> req s = true;
  i_fl_req : forall c, fl s c <> FNone -> fl s c <> FCalled -> req s = true;
  i_retd : incl (retd s) (hist s);
  i_lt : forall e, In e (hist s) -> en e < sent s (eg e);
  i_sending : forall g e, lp s g = LSending e -> eg e = g /\ en e + 1 = cnt s g;
  i_sent : forall g e, lp s g = LSent e -> eg e = g /\ In e (hist s);
  i_ord : ord (hist s)
}.

Lemma Inv_init : Inv init.
Proof.
  constructor; cbn; intros; try discriminate; try contradiction; try reflexivity; try (intros ? []); try exact I.
Qed.

(* what a step of the flusher has to re-establish *)
Lemma Inv_fstate s q' p w : Inv s -> hist s = w ++ heldp p ++ q' ->
  (p = Done -> prefix (pre_req s) w) -> (draining p = true -> req s = true) -> Inv (fstate s q' p w).
Proof. intros [Hhist Hpre Hdone Hdrain Hfl Hretd Hlt Hsending Hsent Hord] Hh Hd Hr. constructor; cbn; auto. Qed.

Lemma Inv_step cap s l s' : Inv s -> Step cap s l s' -> Inv s'.
Proof.
  intros I Hs. pose proof I as [Hhist Hpre Hdone Hdrain Hfl Hretd Hlt Hsending Hsent Hord]. induction Hs; trivial.
  (* PollTake, PollEmpty, InnerTake: outside the drain loop, nothing written *)
  8-10: apply Inv_fstate; try discriminate; [assumption | rewrite Hhist, P, Q; reflexivity].
  - (* LogCall *) constructor; cbn; auto.
    + intros x Hin. specialize (Hlt x Hin). unfold sent in Hlt |- *. cbn. unfold upd.
      destruct (N.eqb_spec (eg x) (eg e)) as [E |]; [|exact Hlt]. rewrite E, L in Hlt. now rewrite N.add_sub.
    + intros g x. destruct (upd_spec (lp s) (eg e) (LSending e) g) as [[-> ->] | [Ne ->]].
      * intros [= <-]. rewrite upd_same. split; [reflexivity | now rewrite C].
      * rewrite upd_other; auto.
    + intros g x. destruct (upd_spec (lp s) (eg e) (LSending e) g) as [[-> ->] | [Ne ->]]; [discriminate | apply Hsent].
  - (* Enq *) destruct (Hsending _ _ L) as [Eg En]. constructor; cbn; auto.
    + rewrite Hhist, <- !app_assoc. reflexivity.
    + intros R. apply prefix_app. auto.
    + intros x Hin. apply in_or_app. left. now apply Hretd.
    + intros x Hin. unfold sent in Hlt |- *. cbn. unfold upd. apply in_app_or in Hin. destruct Hin as [Hin | [<- | []]].
      * specialize (Hlt x Hin). destruct (N.eqb_spec (eg x) g) as [E |]; [|exact Hlt]. rewrite E, L in Hlt. rewrite E.
        eapply N.lt_le_trans; [exact Hlt | apply N.le_sub_l].
      * rewrite Eg, N.eqb_refl, <- En. apply N.lt_add_pos_r. reflexivity.
    + intros g' x. destruct (upd_spec (lp s) g (LSent e) g') as [[-> ->] | [Ne ->]]; [discriminate | apply Hsending].
    + intros g' x. destruct (upd_spec (lp s) g (LSent e) g') as [[-> ->] | [Ne ->]].
      * intros [= <-]. split; [assumption | apply in_elt].
      * intros X. destruct (Hsent _ _ X). split; [assumption | apply in_or_app; now left].
    + apply ord_snoc. split; [assumption|]. intros e1 Hin Hg. specialize (Hlt e1 Hin). unfold sent in Hlt.
      rewrite Hg, Eg, L, <- En, N.add_sub in Hlt. exact Hlt.
  - (* LogRet *) constructor; cbn; auto.
    + intros x [<- | Hin]; [apply (Hsent _ _ L) | now apply Hretd].
    + intros x Hin. specialize (Hlt x Hin). unfold sent in Hlt |- *. cbn. unfold upd.
      destruct (N.eqb_spec (eg x) (eg e)) as [E |]; [|exact Hlt]. rewrite E, L in Hlt. rewrite E. exact Hlt.
    + intros g x. destruct (upd_spec (lp s) (eg e) LIdle g) as [[-> ->] | [Ne ->]]; [discriminate | apply Hsending].
    + intros g x. destruct (upd_spec (lp s) (eg e) LIdle g) as [[-> ->] | [Ne ->]]; [discriminate | apply Hsent].
  - (* SetLevel *) constructor; cbn; auto.
  - (* FlushCall *) constructor; cbn; auto. intros c'. destruct (upd_spec (fl s) c FCalled c') as [[-> ->] | [Ne ->]]; [congruence | apply Hfl].
  - (* Request *) constructor; cbn; auto.
    + intros _. destruct (req s) eqn:R; [auto | apply prefix_refl].
    + intros D. rewrite Hdrain by now rewrite D. auto.
  - (* FlushRet *) constructor; cbn; auto. intros c'. destruct (upd_spec (fl s) c (FReturned b) c') as [[-> ->] | [Ne ->]]; [|apply Hfl].
    intros _ _. apply (Hfl c); rewrite F; discriminate.
  - (* InnerSync *) apply Inv_fstate; try discriminate; [assumption | rewrite Hhist, P; reflexivity | trivial].
  - (* DrainTake *) apply Inv_fstate; try discriminate; [assumption | rewrite Hhist, P, Q; reflexivity | rewrite P in Hdrain; auto].
  - (* DrainDone: with nothing held and nothing queued, all of [hist], hence all that is owed, is written *)
    rewrite P in Hdrain. apply Inv_fstate; [assumption | rewrite Hhist, P, Q; reflexivity | | auto].
    intros _. rewrite Hhist, P, Q, app_nil_r in Hpre. auto.
  - (* Write *) apply Inv_fstate; try discriminate; [assumption | rewrite Hhist, P, <- app_assoc; reflexivity].
  - rewrite P in Hdrain. apply Inv_fstate; try discriminate; [assumption | rewrite Hhist, P, <- app_assoc; reflexivity | auto].
Qed.

Lemma run_inv cap ls s s' : Inv s -> run cap s ls = Some s' -> Inv s'.
Proof. rewrite run_is. apply Lts.run_inv. eauto using Inv_step, step_Step. Qed.

Lemma reach_inv cap ls s : run cap init ls = Some s -> Inv s.
Proof. apply run_inv, Inv_init. Qed.

(* every entry in the system was submitted by a logging call *)
Definition submitted (s : st) (C : list entry) : Prop :=
  (forall e, In e (hist s) -> In e C) /\ (forall g e, lp s g = LSending e \/ lp s g = LSent e -> In e C).

Lemma step_submitted cap s l s' C : Step cap s l s' -> submitted s C -> submitted s' (C ++ calls_of [l]).
Proof.
  intros Hs [H1 H2]. induction Hs; trivial; cbn; rewrite ?app_nil_r; split; cbn; auto.
  - intros x Hin. apply in_or_app. left. auto.
  - intros g x. destruct (upd_spec (lp s) (eg e) (LSending e) g) as [[-> ->] | [Ne ->]].
    + intros [[= <-] | [=]]. apply in_elt.
    + intros X. apply in_or_app. left. eauto.
  - intros x Hin. apply in_app_or in Hin. destruct Hin as [Hin | [<- | []]]; eauto.
  - intros g' x. destruct (upd_spec (lp s) g (LSent e) g') as [[-> ->] | [Ne ->]]; [|eauto]. intros [[=] | [= <-]]. eauto.
  - intros g x. destruct (upd_spec (lp s) (eg e) LIdle g) as [[-> ->] | [Ne ->]]; [intros [X | X]; discriminate | eauto].
Qed.

Lemma run_submitted cap ls s s' : run cap s ls = Some s' -> forall C, submitted s C -> submitted s' (C ++ calls_of ls).
Proof.
  revert ls s s'. apply (run_ind cap (fun s ls s' => forall C, submitted s C -> submitted s' (C ++ calls_of ls))).
  - intros s C. cbn. now rewrite app_nil_r.
  - intros s l m ls s' Hs IH C S. change (l :: ls) with ([l] ++ ls). rewrite calls_of_app, app_assoc.
    eauto using step_submitted.
Qed.

Lemma hist_called cap ls s : run cap init ls = Some s -> incl (hist s) (calls_of ls).
Proof.
  intros R. refine (proj1 (run_submitted _ _ _ _ R [] _)). split; cbn; [intros ? [] | intros ? ? [X | X]; discriminate].
Qed.

(* Whatever was enqueued while nobody had signalled is written once the flusher has acknowledged: it was enqueued before
   the first request, hence owed from then on, and what is owed is written at the acknowledgement. *)
Lemma enqueued_before_request_written s1 s :
  Inv s -> Mono s1 s -> req s1 = false -> fp s = Done -> incl (hist s1) (written s).
Proof.
  intros I M R0 D e He. pose proof (i_drain_req _ I) as Rq. rewrite D in Rq.
  apply (prefix_incl _ _ (i_done _ I D)), (prefix_incl _ _ (m_first _ _ M R0 (Rq eq_refl))), He.
Qed.

(* Completeness. A FlushLogger call (of any caller c) is made after [l1], before any caller has signalled; a call (of any
   caller c') returns, woken by the flusher's acknowledgement, after [l2]. Every entry whose logging call returned during
   [l1] has been handed to its writer by then. Callers may be concurrent. *)
Theorem flush_complete cap l1 c l2 c' l3 s :
  run cap init (l1 ++ FlushCall c :: l2 ++ FlushRet c' true :: l3) = Some s -> existsb is_request l1 = false ->
  forall e, In e (rets_of l1) -> In e (writes_of (l1 ++ FlushCall c :: l2)).
Proof.
  intros H NF e He. rewrite app_comm_cons, app_assoc in H.
  destruct (run_split _ _ _ _ _ _ H) as (s2 & s3 & R12 & S2 & _).
  destruct (run_split _ _ _ _ _ _ R12) as (s1 & s1' & R1 & S1 & R2).
  pose proof (Mono_trans _ _ _ (step_mono _ _ _ _ S1) (run_mono _ _ _ _ R2)) as M.
  destruct (run_ghost _ _ _ _ R1) as (_ & Rd & R0). destruct (run_init_ghost _ _ _ R12) as [<- _].
  rewrite NF in R0. cbn in Rd, R0. rewrite app_nil_r in Rd. inversion S2; subst.
  apply (enqueued_before_request_written s1 _ (reach_inv _ _ _ R12) M R0 (D eq_refl)), (i_retd _ (reach_inv _ _ _ R1)).
  rewrite Rd. now apply in_rev in He.
Qed.

(* the "first call" form of completeness: nobody has called FlushLogger during [l1] (hence nobody has signalled) *)
Definition is_flushcall (l : label) : bool := match l with FlushCall _ => true | _ => false end.
Lemma run_no_call_no_request cap ls s s' : run cap s ls = Some s' -> (forall c, fl s c = FNone) ->
  existsb is_flushcall ls = false -> existsb is_request ls = false /\ (forall c, fl s' c = FNone).
Proof.
  revert ls s s'. apply (run_ind cap (fun s ls s' => (forall c, fl s c = FNone) -> existsb is_flushcall ls = false ->
    existsb is_request ls = false /\ (forall c, fl s' c = FNone))).
  - auto.
  - intros s l m ls s' Hs IH Z N. cbn in N. apply orb_false_iff in N. destruct N as [N1 N2]. cbn [existsb].
    assert (X : is_request l = false /\ forall c, fl m c = FNone).
    { revert N1. induction Hs; auto; try discriminate; rewrite Z in *; discriminate. }
    destruct X as [-> X]. auto.
Qed.
Corollary flush_complete_first_call cap l1 c l2 c' l3 s :
  run cap init (l1 ++ FlushCall c :: l2 ++ FlushRet c' true :: l3) = Some s -> existsb is_flushcall l1 = false ->
  forall e, In e (rets_of l1) -> In e (writes_of (l1 ++ FlushCall c :: l2)).
Proof.
  intros H N. destruct (run_split _ _ _ _ _ _ H) as (s1 & _ & R1 & _ & _).
  destruct (run_no_call_no_request _ _ _ _ R1 (fun _ => eq_refl) N) as [NR _].
  eapply flush_complete; eauto.
Qed.

(* at the flusher's acknowledging step itself, whatever was enqueued so far has been written *)
Theorem all_before_ack_written cap l1 l2 s :
  run cap init (l1 ++ DrainDone :: l2) = Some s -> forall e, In e (rets_of l1) -> In e (writes_of l1).
Proof.
  intros H e He. destruct (run_split _ _ _ _ _ _ H) as (s1 & s1' & R1 & S1 & _).
  pose proof (reach_inv _ _ _ R1) as I. destruct (run_init_ghost _ _ _ R1) as [Wr Rd].
  pose proof (i_hist _ I) as Hi. inversion S1; subst. rewrite P, Q, app_nil_r in Hi. cbn in Hi.
  rewrite <- Wr, <- Hi. apply (i_retd _ I). rewrite Rd. now apply in_rev in He.
Qed.

(* ... and the flusher writes nothing after its acknowledgement *)
Theorem no_write_after_ack cap l1 c l3 s :
  run cap init (l1 ++ FlushRet c true :: l3) = Some s -> writes_of l3 = [].
Proof.
  intros H. destruct (run_split _ _ _ _ _ _ H) as (s2 & s3 & R2 & S2 & R3).
  assert (D3 : fp s3 = Done) by (inversion S2; subst; auto).
  destruct (m_done _ _ (run_mono _ _ _ _ R3) D3) as [_ W]. destruct (run_ghost _ _ _ _ R3) as (W' & _).
  rewrite W' in W. apply (app_inv_head (written s3)). now rewrite app_nil_r.
Qed.

(* Exactly once, in per-goroutine order: the sequence of Writes has no duplicates and, within one goroutine,
   ascending sequence numbers. One Write label is one Write of one whole entry. *)
Theorem writes_ordered cap ls s : run cap init ls = Some s -> ord (writes_of ls).
Proof.
  intros H. pose proof (reach_inv _ _ _ H) as I. destruct (run_init_ghost _ _ _ H) as [<- _].
  pose proof (i_ord _ I) as O. rewrite (i_hist _ I) in O. eapply ord_app_l; eauto.
Qed.
Theorem writes_once cap ls s : run cap init ls = Some s -> NoDup (writes_of ls).
Proof. intros H. apply ord_NoDup. eapply writes_ordered; eauto. Qed.
Theorem writes_per_goroutine_order cap ls s : run cap init ls = Some s ->
  forall a e1 b e2 c, writes_of ls = a ++ e1 :: b ++ e2 :: c -> eg e1 = eg e2 -> en e1 < en e2.
Proof. intros H. apply ord_split. eapply writes_ordered; eauto. Qed.

(* nothing is lost on the way: what was enqueued is written, held by the flusher for its Write, or still queued, in order *)
Theorem conservation cap ls s : run cap init ls = Some s -> hist s = writes_of ls ++ held s ++ q s.
Proof. intros H. destruct (run_init_ghost _ _ _ H) as [<- _]. apply (i_hist _ (reach_inv _ _ _ H)). Qed.

(* a Write hands over an entry that a logging call submitted before, addressed to that writer *)
Theorem write_was_logged cap a l b s e :
  run cap init (a ++ l :: b) = Some s -> writes_of [l] = [e] -> In e (calls_of a).
Proof.
  intros H Wl. destruct (run_split _ _ _ _ _ _ H) as (m & m' & R & S & _).
  apply (hist_called _ _ _ R). rewrite (i_hist _ (reach_inv _ _ _ R)). apply in_or_app. right. apply in_or_app. left.
  destruct l; try discriminate. injection Wl as ->. inversion S; subst; rewrite P; now left.
Qed.

Lemma step_call cap s l s' : Step cap s l s' -> forall e, In e (calls_of [l]) -> en e = cnt s (eg e).
Proof. intros Hs. induction Hs; trivial; cbn; try contradiction. intros x [<- | []]. exact C. Qed.

Lemma run_calls cap ls s s' : run cap s ls = Some s' -> forall e, In e (calls_of ls) -> cnt s (eg e) <= en e.
Proof.
  revert ls s s'. apply (run_ind cap (fun s ls _ => forall e, In e (calls_of ls) -> cnt s (eg e) <= en e)).
  - intros s e [].
  - intros s l m ls s' Hs IH e Hin. change (l :: ls) with ([l] ++ ls) in Hin. rewrite calls_of_app in Hin.
    apply in_app_or in Hin. destruct Hin as [Hin | Hin].
    + rewrite (step_call _ _ _ _ Hs e Hin). apply N.le_refl.
    + eapply N.le_trans; [apply (m_cnt _ _ (step_mono _ _ _ _ Hs)) | auto].
Qed.

(* FIFO across goroutines: if the call of e1 returned before the call of e2 began, e2 is not written before e1 *)
Theorem fifo_real_time_call cap a e1 b l e2 c s x y :
  run cap init (a ++ LogRet e1 :: b ++ l :: c) = Some s -> calls_of [l] = [e2] ->
  writes_of (a ++ LogRet e1 :: b ++ l :: c) = x ++ e2 :: y -> In e1 x.
Proof.
  intros H Cl W. pose proof (conservation _ _ _ H) as Hs. rewrite app_comm_cons, app_assoc in H.
  destruct (run_split _ _ _ _ _ _ H) as (m2 & m3 & R02 & S2 & R3).
  destruct (run_split _ _ _ _ _ _ R02) as (m0 & m1 & R0 & S1 & R2).
  (* e1 is in the queue history when its call returns *)
  assert (E1 : In e1 (hist m2)).
  { apply (prefix_incl (hist m0)).
    - apply (m_hist _ _ (Mono_trans _ _ _ (step_mono _ _ _ _ S1) (run_mono _ _ _ _ R2))).
    - inversion S1; subst. apply (i_sent _ (reach_inv _ _ _ R0) _ _ L). }
  (* e2 is not yet in it when its call begins: it takes the number no enqueued entry of its goroutine has reached *)
  assert (E2 : ~ In e2 (hist m2)).
  { intros Hin. apply (N.lt_irrefl (en e2)). eapply N.lt_le_trans; [apply (i_lt _ (reach_inv _ _ _ R02) _ Hin)|].
    rewrite (step_call _ _ _ _ S2 e2) by (rewrite Cl; now left). apply sent_le. }
  assert (P2 : prefix (hist m2) (hist s)) by apply (m_hist _ _ (Mono_trans _ _ _ (step_mono _ _ _ _ S2) (run_mono _ _ _ _ R3))).
  assert (Px : prefix (x ++ [e2]) (hist s)).
  { rewrite Hs, W. exists (y ++ held s ++ q s). rewrite <- !app_assoc. reflexivity. }
  destruct (prefix_comparable _ _ _ P2 Px) as [P | P].
  - apply prefix_snoc_inv in P. destruct P as [P | P].
    + apply (prefix_incl _ _ P). exact E1.
    + exfalso. apply E2. rewrite P. apply in_elt.
  - exfalso. apply E2. apply (prefix_incl _ _ P). apply in_elt.
Qed.

Theorem fifo_real_time cap a e1 b e2 c s x y :
  run cap init (a ++ LogRet e1 :: b ++ LogCall e2 :: c) = Some s ->
  writes_of (a ++ LogRet e1 :: b ++ LogCall e2 :: c) = x ++ e2 :: y -> In e1 x.
Proof. intros H. now apply (fifo_real_time_call _ _ _ _ _ _ _ _ _ _ H). Qed.

(* after the request the flusher is never blocked until it has acknowledged *)
Theorem flusher_not_blocked_after_request cap s :
  req s = true -> fp s <> Done -> exists l s', flusher_label l /\ step cap s l = Some s'.
Proof.
  intros R D. destruct (fp s) as [| | | |h|h] eqn:P.
  - (* Top: the poll *) destruct (q s) as [|e r] eqn:Q.
    + exists PollEmpty. eexists. split; [exact I|]. cbn. rewrite P, Q. reflexivity.
    + exists (PollTake e). eexists. split; [exact I|]. cbn. unfold take. rewrite P, Q, entry_eqb_refl. reflexivity.
  - (* Inner: the select sees the request *) exists InnerSync. eexists. split; [exact I|]. cbn. rewrite P, R. reflexivity.
  - (* Drain *) destruct (q s) as [|e r] eqn:Q.
    + exists DrainDone. eexists. split; [exact I|]. cbn. rewrite P, Q. reflexivity.
    + exists (DrainTake e). eexists. split; [exact I|]. cbn. unfold take. rewrite P, Q, entry_eqb_refl. reflexivity.
  - contradiction.
  - exists (Write h). eexists. split; [exact I|]. cbn. rewrite P, entry_eqb_refl. reflexivity.
  - exists (Write h). eexists. split; [exact I|]. cbn. rewrite P, entry_eqb_refl. reflexivity.
Qed.

(* an entry logged after the acknowledged flush is never handed to its writer, whatever follows: the flusher has
   returned. (In the code a later FlushLogger call returns at once, asyncDone being cancelled for good.) *)
Theorem logged_after_ack_never_written cap l1 c l3 s :
  run cap init (l1 ++ FlushRet c true :: l3) = Some s ->
  forall e, In e (calls_of l3) -> ~ In e (writes_of (l1 ++ FlushRet c true :: l3)).
Proof.
  intros H e Hc Hw. rewrite writes_of_app in Hw. cbn [writes_of] in Hw.
  rewrite (no_write_after_ack _ _ _ _ _ H), app_nil_r in Hw.
  destruct (run_split _ _ _ _ _ _ H) as (s2 & s3 & R2 & S2 & R3).
  destruct (run_init_ghost _ _ _ R2) as [W _]. pose proof (reach_inv _ _ _ R2) as I.
  (* everything written so far has a number below its goroutine's counter; a later call takes a number from the counter *)
  assert (Lt : en e < sent s2 (eg e)) by (apply (i_lt _ I); rewrite (i_hist _ I), W; apply in_or_app; now left).
  apply (N.lt_irrefl (en e)). eapply N.lt_le_trans; [exact Lt|]. eapply N.le_trans; [apply sent_le|].
  eapply N.le_trans; [apply (m_cnt _ _ (step_mono _ _ _ _ S2)) | apply (run_calls _ _ _ _ R3 _ Hc)].
Qed.
Definition pending (s : st) : nat := (length (pre_req s) - length (written s))%nat.
(* A potential for the flusher's pc, chosen so that every step of the flusher but the poll that finds the queue empty lowers
   [2 * pending + pcw]: a receive goes to a Hold (0) from a pc of at least 1; a Write comes back to Top or Drain (1) and pays 2
   through [pending]; the select that sees the request goes from Inner to Drain, hence Inner = 2. The [+ 2] of [flush_bounded]
   is its maximum, a held entry counted ([pcw_heldp]). *)
Definition pcw (p : fpc) : nat := match p with Top | Drain => 1 | Inner => 2 | _ => 0 end.
Definition weight (s : st) : nat := (2 * pending s + pcw (fp s))%nat.
Lemma pcw_heldp p : (2 * length (heldp p) + pcw p <= 2)%nat.
Proof. destruct p; cbn; auto. Qed.

(* After the request, what is owed and unwritten never grows. A step that writes nothing changes the weight by the
   flusher's program counter alone: not at all if it is not the flusher's, down by one if it is — except the poll that
   finds the queue empty: then nothing is held or queued, so everything owed is written already. *)
Lemma weight_pc s s' k : pre_req s' = pre_req s -> written s' = written s -> (k + pcw (fp s') <= pcw (fp s))%nat ->
  (pending s' <= pending s)%nat /\ (pending s' = 0%nat \/ (weight s' + k <= weight s)%nat).
Proof. unfold weight, pending. intros -> ->. lia. Qed.

Lemma step_weight cap s l s' : Inv s -> req s = true -> Step cap s l s' ->
  (pending s' <= pending s)%nat /\
  (pending s' = 0%nat \/ (weight s' + (if is_flusher l then 1 else 0) <= weight s)%nat).
Proof.
  intros I R Hs.
  assert (E : q s = [] -> heldp (fp s) = [] -> pending s = 0%nat).
  { intros Q Hh. unfold pending. pose proof (i_req_pre _ I R) as P. rewrite (i_hist _ I), Q, Hh, !app_nil_r in P.
    apply prefix_length in P. lia. }
  clear I. induction Hs; trivial; try solve [apply weight_pc; cbn; rewrite ?R, ?P; cbn; auto].
  - split; [apply le_n | left; apply E; [assumption | now rewrite P]].
  - unfold weight, pending. cbn. rewrite P, app_length. cbn. lia.
  - unfold weight, pending. cbn. rewrite P, app_length. cbn. lia.
Qed.

Lemma run_weight cap ls s s' : run cap s ls = Some s' -> Inv s -> req s = true ->
  (pending s' <= pending s)%nat /\ (pending s' = 0%nat \/ (weight s' + flusher_steps ls <= weight s)%nat).
Proof.
  revert ls s s'. apply (run_ind cap (fun s ls s' => Inv s -> req s = true ->
    (pending s' <= pending s)%nat /\ (pending s' = 0%nat \/ (weight s' + flusher_steps ls <= weight s)%nat))).
  - intros s _ _. cbn. lia.
  - intros s l m ls s' Hs IH I R. destruct (m_req _ _ (step_mono _ _ _ _ Hs) R) as [R' _].
    specialize (IH (Inv_step _ _ _ _ I Hs) R'). pose proof (step_weight _ _ _ _ I R Hs). cbn [flusher_steps]. lia.
Qed.

(* Once FlushLogger has signalled, [2 * length of the queue at that moment + 2] steps of the flusher (a receive and a
   Write per entry) suffice to hand every
   entry whose call had returned to its writer — however many entries other goroutines log meanwhile. (Whether that
   fits into FlushLogger's one second depends on the scheduler and on the writers: not modelled.) *)
Theorem flush_bounded cap l1 c l2 s1 s2 s :
  run cap init l1 = Some s1 -> req s1 = false -> step cap s1 (Request c) = Some s2 -> run cap s2 l2 = Some s ->
  (2 * length (q s1) + 2 <= flusher_steps l2)%nat ->
  forall e, In e (rets_of l1) -> In e (writes_of (l1 ++ Request c :: l2)).
Proof.
  intros R1 NR S2 R2 L e He. apply step_Step in S2.
  pose proof (reach_inv _ _ _ R1) as I1. pose proof (Inv_step _ _ _ _ I1 S2) as I2. pose proof (run_inv _ _ _ _ I2 R2) as I.
  destruct (run_init_ghost _ _ _ R1) as [W1 Rd]. destruct (run_ghost _ _ _ _ R2) as (W & _ & _).
  assert (X : (weight s2 <= 2 * length (q s1) + 2)%nat /\ req s2 = true /\ pre_req s2 = hist s1 /\ written s2 = written s1).
  { inversion S2; subst; unfold weight, pending; cbn. rewrite NR, (i_hist _ I1), !app_length. repeat split.
    pose proof (pcw_heldp (fp s1)). lia. }
  destruct X as (W2 & Rq & Pr & Wr). destruct (m_req _ _ (run_mono _ _ _ _ R2) Rq) as [Rs P].
  assert (P0 : pending s = 0%nat).
  { destruct (run_weight _ _ _ _ R2 I2 Rq) as [_ [X | X]]; [exact X | unfold weight in X at 1; lia]. }
  assert (PW : prefix (pre_req s) (written s)).
  { apply (prefix_of_shorter _ _ (hist s)); [apply (i_req_pre _ I Rs) | rewrite (i_hist _ I); now exists (heldp (fp s) ++ q s) | apply PeanoNat.Nat.sub_0_le, P0]. }
  rewrite writes_of_app. cbn [writes_of]. rewrite <- W1, <- Wr, <- W. apply (prefix_incl _ _ PW). rewrite P, Pr.
  apply (i_retd _ I1). rewrite Rd. now apply in_rev in He.
Qed.

(* The log level is a guard on the accept step, and on nothing else. *)

Theorem accept_guard cap s e l s' : step cap s (LogCallAt e l) = Some s' -> lvl s <= l /\ step cap s (LogCall e) = Some s'.
Proof. cbn. destruct (N.leb_spec (lvl s) l); [auto | discriminate]. Qed.
Theorem filtered_call_submits_nothing cap s g l s' : step cap s (LogFiltered g l) = Some s' -> l < lvl s /\ s' = s.
Proof. intros H. apply step_Step in H. inversion H. auto. Qed.

Definition with_lvl (s : st) (n : N) : st :=
  mk (q s) (fp s) (req s) (fl s) (lp s) (cnt s) (hist s) (written s) (retd s) (pre_req s) n.

Theorem set_level_touches_nothing_else cap s n s' : step cap s (SetLevel n) = Some s' -> s' = with_lvl s n.
Proof. unfold step, gstep. intros H. inversion H. reflexivity. Qed.

(* every step of the flusher (receive, Write, the selects, the acknowledgement), every Enq / LogRet and every FlushLogger
   step is enabled, and has the same effect, whatever the level is: what was accepted is written regardless of later
   SetLevel calls *)
Definition level_blind (l : label) : bool :=
  match l with LogCallAt _ _ | LogFiltered _ _ | SetLevel _ => false | _ => true end.
Theorem level_consulted_only_at_accept cap s n l : level_blind l = true ->
  step cap (with_lvl s n) l = match step cap s l with Some s' => Some (with_lvl s' n) | None => None end.
Proof.
  (* no branch but those of LogCallAt and LogFiltered reads [lvl], and every branch copies it: case on whatever the branch of
     [l] does read, both sides are then the same *)
  intros B. destruct l; try discriminate; unfold step, gstep, take, with_lvl; cbn;
    repeat match goal with |- context [match ?x with _ => _ end] => destruct x end; reflexivity.
Qed.

Lemma lookupN_setN g k v m : lookupN g (setN k v m) = if g =? k then v else lookupN g m.
Proof.
  induction m as [|[k' v'] m IH]; cbn.
  - destruct (g =? k); reflexivity.
  - destruct (N.eqb_spec k k') as [<- | Ne]; cbn.
    + destruct (g =? k); reflexivity.
    + rewrite IH. destruct (N.eqb_spec g k') as [-> |]; [|reflexivity].
      destruct (N.eqb_spec k' k) as [-> |]; [now destruct Ne | reflexivity].
Qed.

Lemma lookupE_In x m c : lookupE x m = Some c -> In (x, c) m.
Proof.
  induction m as [|[e v] m IH]; cbn; [discriminate|]. destruct (entry_eqb_spec x e) as [<- |].
  - intros [= <-]. now left.
  - intros X. right. auto.
Qed.
Lemma In_lookupE x c m : In (x, c) m -> lookupE x m <> None.
Proof.
  induction m as [|[e v] m IH]; cbn; [contradiction|]. intros [X | X].
  - inversion X; subst. rewrite entry_eqb_refl. discriminate.
  - destruct (entry_eqb x e); [discriminate | auto].
Qed.
Lemma lookupE_app x m e t :
  lookupE x (m ++ [(e, t)]) = match lookupE x m with Some c => Some c | None => if entry_eqb x e then Some t else None end.
Proof. induction m as [|[e' v] m IH]; cbn; [reflexivity|]. destruct (entry_eqb x e'); [reflexivity | exact IH]. Qed.
Lemma lookupE_removeE x e m : lookupE x (removeE e m) = if entry_eqb e x then None else lookupE x m.
Proof.
  unfold removeE. induction m as [|[e' v] m IH]; cbn.
  - destruct (entry_eqb e x); reflexivity.
  - destruct (entry_eqb_spec e e') as [<- | Ne]; cbn; rewrite IH.
    + destruct (entry_eqb_spec e x) as [<- | N]; [reflexivity|]. destruct (entry_eqb_spec x e) as [-> |]; [now destruct N | reflexivity].
    + destruct (entry_eqb_spec x e') as [-> |]; [|reflexivity]. destruct (entry_eqb_spec e e'); [contradiction | reflexivity].
Qed.
Lemma In_removeE x r e m : In (x, r) (removeE e m) <-> In (x, r) m /\ x <> e.
Proof.
  unfold removeE. rewrite filter_In. cbn. split; intros [H1 H2]; split; auto.
  - intros ->. rewrite entry_eqb_refl in H2. discriminate.
  - destruct (entry_eqb_spec e x); [congruence | reflexivity].
Qed.
Lemma mem_entry_true e l : mem_entry e l = true <-> In e l.
Proof.
  unfold mem_entry. rewrite existsb_exists. split.
  - intros [x [H1 H2]]. apply entry_eqb_eq in H2. now subst.
  - intros H. exists e. split; [assumption | apply entry_eqb_refl].
Qed.
Lemma busy_false g l : (forall x, In x l -> eg x <> g) -> busy g l = false.
Proof.
  intros H. unfold busy. destruct (existsb _ l) eqn:E; [|reflexivity].
  apply existsb_exists in E. destruct E as [x [H1 H2]]. apply N.eqb_eq in H2. exfalso. eapply H; eauto.
Qed.

Lemma sending_not_hist s g e : Inv s -> lp s g = LSending e -> ~ In e (hist s).
Proof.
  intros I L Hin. pose proof (i_lt _ I _ Hin) as X. destruct (i_sending _ I _ _ L) as [Eg En].
  unfold sent in X. rewrite Eg, L, <- En, N.add_sub in X. apply (N.lt_irrefl _ X).
Qed.
Lemma hist_NoDup s : Inv s -> NoDup (hist s).
Proof. intros I. apply ord_NoDup. apply (i_ord _ I). Qed.

Lemma mem_N_true c l : mem_N c l = true <-> In c l.
Proof.
  unfold mem_N. rewrite existsb_exists. split.
  - intros [x [H1 H2]]. apply N.eqb_eq in H2. now subst.
  - intros H. exists c. split; [assumption | apply N.eqb_refl].
Qed.

(* FlushLogger callers: who has a call in progress; the first call of all is remembered; what returned before it is
   owed by the first request. Stated on what it depends on: [fl], [req], [pre_req] of the model; [a_fl], [a_t], [a_ret]
   of the machine. *)
Definition FlRel (fl : N -> flpc) (req : bool) (pre : list entry) (af : afl) (t : N) (ret : list (entry * N)) : Prop :=
  (forall c, In c (f_in af) <-> (fl c = FCalled \/ fl c = FRequested)) /\
  (forall c, fl c <> FNone -> f_first af <> None) /\
  (req = true -> f_first af <> None) /\
  (forall f, f_first af = Some f -> f < t /\ forall x r, In (x, r) ret -> r <= f -> req = true -> In x pre).

(* time passes; the returns recorded meanwhile are stamped with the present *)
Lemma FlRel_mono fl req pre af t ret t' ret' :
  FlRel fl req pre af t ret -> t <= t' -> (forall x r, In (x, r) ret' -> In (x, r) ret \/ t <= r) -> FlRel fl req pre af t' ret'.
Proof.
  intros (F1 & F2 & F3 & F4) Et Sub. repeat split; auto; try apply F1; destruct (F4 _ H) as [Hf Hp].
  - eapply N.lt_le_trans; eauto.
  - intros x r Hin Hle R. destruct (Sub _ _ Hin) as [Old | New]; [eauto | destruct (N.lt_irrefl f); eauto using N.lt_le_trans, N.le_trans].
Qed.

Lemma FlRel_call fl req pre af t ret c :
  FlRel fl req pre af t ret ->
  FlRel (upd fl c FCalled) req pre (mkFl (match f_first af with Some f => Some f | None => Some t end) (c :: f_in af)) (t + 1) ret.
Proof.
  intros (F1 & F2 & F3 & F4). repeat split; cbn.
  - intros [<- | Hin]; [rewrite upd_same; now left|]. destruct (upd_spec fl c FCalled c0) as [[_ ->] | [_ ->]]; [now left | now apply F1].
  - destruct (upd_spec fl c FCalled c0) as [[-> _] | [_ ->]]; [now left | intros H; right; now apply F1].
  - intros c0 _. destruct (f_first af); discriminate.
  - intros _. destruct (f_first af); discriminate.
  - destruct (f_first af) as [f0|]; injection H as <-; [apply N.lt_lt_add_r, (F4 _ eq_refl) | apply N.lt_add_pos_r; reflexivity].
  - intros x r Hin Hle R. destruct (f_first af) as [f0|]; injection H as <-.
    + destruct (F4 _ eq_refl) as [_ Hp]. eauto.
    + now destruct (F3 R).
Qed.

(* the first request fixes [pre_req]: everything the machine still holds as returned is in the queue history *)
Lemma FlRel_request fl req pre af t ret c (hist : list entry) :
  FlRel fl req pre af t ret -> fl c = FCalled -> (forall x r, In (x, r) ret -> In x hist) ->
  FlRel (upd fl c FRequested) true (if req then pre else hist) af t ret.
Proof.
  intros (F1 & F2 & F3 & F4) F Hh. assert (NN : f_first af <> None) by (apply (F2 c); rewrite F; discriminate).
  repeat split; auto.
  - intros Hin. destruct (upd_spec fl c FRequested c0) as [[_ ->] | [_ ->]]; [now right | now apply F1].
  - destruct (upd_spec fl c FRequested c0) as [[-> _] | [_ ->]]; [intros _; apply F1; now left | apply F1].
  - apply (F4 _ H).
  - intros x r Hin Hle _. destruct req; [destruct (F4 _ H) as [_ Hp]|]; eauto.
Qed.

Lemma FlRel_ret fl req pre af t ret c b :
  FlRel fl req pre af t ret -> fl c = FRequested ->
  FlRel (upd fl c (FReturned b)) req pre (mkFl (f_first af) (filter (fun x => negb (c =? x)) (f_in af))) (t + 1) ret.
Proof.
  intros (F1 & F2 & F3 & F4) F. repeat split; cbn; auto.
  - intros Hin. apply filter_In in Hin. destruct Hin as [Hin Ne].
    destruct (upd_spec fl c (FReturned b) c0) as [[-> _] | [_ ->]]; [rewrite N.eqb_refl in Ne; discriminate | now apply F1].
  - destruct (upd_spec fl c (FReturned b) c0) as [[_ ->] | [Ne ->]]; [intros [X | X]; discriminate|].
    intros X. apply filter_In. split; [now apply F1|]. apply negb_true_iff, N.eqb_neq. auto.
  - intros c0. destruct (upd_spec fl c (FReturned b) c0) as [[-> _] | [_ ->]]; [|apply F2]. intros _. apply (F2 c). rewrite F. discriminate.
  - apply N.lt_lt_add_r, (F4 _ H).
  - apply (F4 _ H).
Qed.

Record Sim (s : st) (a : ast) : Prop := mkSim {
  r_fly : forall x, In x (a_fly a) <-> (lp s (eg x) = LSending x \/ lp s (eg x) = LSent x);
  r_next : forall g, lookupN g (a_next a) = cnt s g;
  r_unw : forall x, lookupE x (a_unw a) <> None <-> (In x (pend s) \/ lp s (eg x) = LSending x);
  r_unw_t : forall x c, In (x, c) (a_unw a) -> c < a_t a;
  r_ret : forall x r, In (x, r) (a_ret a) -> In x (pend s) /\ In x (retd s) /\ r < a_t a;
  (* the queue is FIFO: whatever is behind e in it was enqueued, hence returned, after the call of e began; this is what lets
     the acceptor's check at a Write (no recorded return is older than the call) pass for the head *)
  r_fifo : forall l1 e l2, pend s = l1 ++ e :: l2 -> forall e1 c r1, In e1 l2 ->
           lookupE e (a_unw a) = Some c -> In (e1, r1) (a_ret a) -> c < r1;
  r_fl : FlRel (fl s) (req s) (pre_req s) (a_fl a) (a_t a) (a_ret a);
  r_done : a_done a = true -> fp s = Done
}.

Lemma Sim_init : Sim init ainit.
Proof.
  constructor; cbn; try (intros; contradiction); try reflexivity; try exact I; try discriminate.
  - intros x. split; [contradiction | intros [H | H]; discriminate].
  - intros x. split; [intros H; now contradiction H | intros [[] | H]; discriminate].
  - unfold FlRel; cbn. repeat split; try discriminate; try (intros; contradiction).
    all: try (intros [H | H]; discriminate). all: try (intros c H; now contradiction H).
Qed.

Lemma pend_hist s : Inv s -> hist s = written s ++ pend s.
Proof. intros I. apply (i_hist _ I). Qed.
Lemma pend_NoDup s : Inv s -> NoDup (pend s).
Proof. intros I. pose proof (hist_NoDup _ I) as N. rewrite (pend_hist _ I) in N. eapply NoDup_app_r; eauto. Qed.

(* a step of the flusher, not from Done, that writes nothing and leaves [pend] as it is *)
Lemma sim_fstate s a q' p : Sim s a -> fp s <> Done -> heldp p ++ q' = pend s -> Sim (fstate s q' p (written s)) a.
Proof.
  intros [Sfly Snext Sunw Sstamp Sret Sfifo Sfl Sdone] ND E. constructor; unfold pend in *; cbn; rewrite ?E; auto.
  intros X. destruct ND. auto.
Qed.

Lemma sim_write s a e p :
  Inv s -> Sim s a -> pend s = e :: q s -> fp s <> Done -> heldp p = [] ->
  exists a', astep a (EWrite e) = Some a' /\ Sim (fstate s (q s) p (written s ++ [e])) a'.
Proof.
  intros I [Sfly Snext Sunw Sstamp Sret Sfifo Sfl Sdone] Q ND Hp.
  assert (NQ : NoDup (e :: q s)). { rewrite <- Q. apply pend_NoDup; auto. }
  destruct (lookupE e (a_unw a)) as [c|] eqn:LE.
  2:{ exfalso. apply (proj2 (Sunw e)); [left; rewrite Q; now left | exact LE]. }
  assert (AD : a_done a = false). { destruct (a_done a); [exfalso; apply ND; auto | reflexivity]. }
  assert (FB : forallb (fun p0 => entry_eqb e (fst p0) || (c <? snd p0)) (a_ret a) = true).
  { apply forallb_forall. intros [e1 r1] Hin. cbn. destruct (entry_eqb_spec e e1) as [| Ne]; [reflexivity|]. cbn.
    apply N.ltb_lt. destruct (Sret _ _ Hin) as (Hq & _ & _). rewrite Q in Hq. destruct Hq as [<- | Hq]; [now destruct Ne|].
    apply (Sfifo [] e (q s) Q e1 c r1 Hq LE Hin). }
  unfold astep. rewrite LE, AD, FB. cbn. eexists. split; [reflexivity|].
  constructor; unfold pend; cbn; rewrite ?Hp; cbn; auto.
  - intros x. rewrite lookupE_removeE. destruct (entry_eqb_spec e x) as [<- | Ne].
    + split; [intros H; now contradiction H|]. intros [Hin | L]; exfalso.
      * inversion NQ; auto.
      * apply (sending_not_hist _ _ _ I L). rewrite (pend_hist _ I), Q. apply in_elt.
    + rewrite Sunw, Q. split; intros [H | H]; auto; [destruct H as [<- | H]; [now destruct Ne | now left] | left; now right].
  - intros x c0 Hin. apply In_removeE in Hin. destruct Hin as [Hin _]. apply N.lt_lt_add_r. eauto.
  - intros x r0 Hin. apply In_removeE in Hin. destruct Hin as [Hin Ne]. destruct (Sret _ _ Hin) as (Hq & Hr & Ht).
    rewrite Q in Hq. destruct Hq as [<- | Hq]; [contradiction|]. auto using N.lt_lt_add_r.
  - intros l1 e0 l2 Hq e1 c0 r1 Hin1 L0 Hin. rewrite lookupE_removeE in L0. destruct (entry_eqb e e0); [discriminate|].
    apply In_removeE in Hin. destruct Hin as [Hin _].
    eapply (Sfifo (e :: l1) e0 l2); [| exact Hin1 | exact L0 | exact Hin]. rewrite Q, Hq. reflexivity.
  - eapply FlRel_mono; eauto using N.le_add_r. intros x r0 Hin. apply In_removeE in Hin. destruct Hin as [Hin _]. now left.
  - intros X. rewrite X in AD. discriminate.
Qed.

(* a step of a FlushLogger caller that the machine sees: time passes, nothing else of the machine changes *)
Lemma sim_flush s a fl' af' dn :
  Sim s a -> FlRel fl' (req s) (pre_req s) af' (a_t a + 1) (a_ret a) -> (dn = true -> fp s = Done) ->
  Sim (mk (q s) (fp s) (req s) fl' (lp s) (cnt s) (hist s) (written s) (retd s) (pre_req s) (lvl s))
      (mkA (a_t a + 1) (a_fly a) (a_next a) (a_unw a) (a_ret a) af' dn).
Proof.
  intros [Sfly Snext Sunw Sstamp Sret Sfifo Sfl Sdone] F Dn. constructor; unfold pend in *; cbn; auto.
  - intros x c Hin. apply N.lt_lt_add_r. eauto.
  - intros x r Hin. destruct (Sret _ _ Hin) as (A & B & C). auto using N.lt_lt_add_r.
Qed.

Lemma sim_step cap s a l s' :
  Inv s -> Sim s a -> Step cap s l s' ->
  match vis l with
  | Some ev => exists a', astep a ev = Some a' /\ Sim s' a'
  | None => Sim s' a
  end.
Proof.
  intros I S Hs. induction Hs; cbn [vis]; trivial.
  (* the receives, the selects and the acknowledgement of the flusher: unseen, and [pend] stays *)
  8-13: apply sim_fstate; [assumption | congruence | unfold pend; rewrite P, ?Q; reflexivity].
  - (* LogCall *)
    destruct S as [Sfly Snext Sunw Sstamp Sret Sfifo Sfl Sdone]; unfold pend in *.
    assert (B : busy (eg e) (a_fly a) = false).
    { apply busy_false. intros x Hin Eg. apply Sfly in Hin. rewrite Eg, L in Hin. destruct Hin; discriminate. }
    unfold astep. rewrite B, Snext, C, N.eqb_refl. cbn. eexists. split; [reflexivity|].
    constructor; unfold pend; cbn; auto.
    + intros x. rewrite Sfly. destruct (upd_spec (lp s) (eg e) (LSending e) (eg x)) as [[E ->] | [Ne ->]].
      * rewrite E, L. split; [intros [<- | [H | H]]; [now left | discriminate..] | intros [[= <-] | [=]]; now left].
      * split; [intros [<- | H]; [now destruct Ne | exact H] | now right].
    + intros g. rewrite lookupN_setN. unfold upd. destruct (N.eqb_spec g (eg e)) as [-> |]; [reflexivity | apply Snext].
    + intros x. rewrite lookupE_app. specialize (Sunw x). destruct (lookupE x (a_unw a)) eqn:LX.
      * split; [intros _ | discriminate]. destruct (proj1 Sunw) as [H | H]; [discriminate | now left | right].
        rewrite upd_other; [exact H|]. intros E. rewrite E, L in H. discriminate.
      * destruct (entry_eqb_spec x e) as [-> | Ne].
        -- split; [intros _; right; apply upd_same | discriminate].
        -- split; [intros H; now contradiction H|]. intros [H | H]; apply (proj2 Sunw); [now left | right].
           destruct (upd_spec (lp s) (eg e) (LSending e) (eg x)) as [[_ E] | [_ E]]; rewrite E in H; [|exact H].
           injection H as <-. now destruct Ne.
    + intros x c Hin. apply in_app_or in Hin. destruct Hin as [Hin | [X | []]]; [apply N.lt_lt_add_r; eauto | injection X as _ <-; apply N.lt_add_pos_r; reflexivity].
    + intros x r Hin. destruct (Sret _ _ Hin) as (A & B' & C'). auto using N.lt_lt_add_r.
    + intros l1 e0 l2 Hq e1 c r1 Hin1 L0 Hin. rewrite lookupE_app in L0.
      destruct (lookupE e0 (a_unw a)) eqn:LX.
      * injection L0 as <-. eapply Sfifo; eauto.
      * exfalso. apply (proj2 (Sunw e0)); [left; rewrite Hq; apply in_elt | exact LX].
    + eapply FlRel_mono; eauto using N.le_add_r.
  - (* Enq *)
    destruct S as [Sfly Snext Sunw Sstamp Sret Sfifo Sfl Sdone]; unfold pend in *. constructor; unfold pend; cbn; auto.
    + intros x. rewrite Sfly. destruct (upd_spec (lp s) g (LSent e) (eg x)) as [[E ->] | [_ ->]]; [|reflexivity].
      rewrite E, L. split; [intros [[= <-] | [=]]; now right | intros [[=] | [= <-]]; now left].
    + intros x. rewrite Sunw, app_assoc.
      destruct (upd_spec (lp s) g (LSent e) (eg x)) as [[E ->] | [Ne ->]]; [rewrite E, L|]; split.
      * intros [H | [= <-]]; left; [apply in_or_app; now left | apply in_elt].
      * intros [H | [=]]. apply in_app_or in H. destruct H as [H | [<- | []]]; [now left | now right].
      * intros [H | H]; [left; apply in_or_app; now left | now right].
      * intros [H | H]; [|now right]. apply in_app_or in H. destruct H as [H | [<- | []]]; [now left|].
        destruct Ne. apply (i_sending _ I _ _ L).
    + intros x r Hin. destruct (Sret _ _ Hin) as (A & B & C). repeat split; auto. rewrite app_assoc. apply in_or_app. now left.
    + intros l1 e0 l2 Hq e1 c r1 Hin1 L0 Hin. rewrite app_assoc in Hq. apply snoc_decomp in Hq. destruct Hq as [-> | [l2' [-> Hq]]]; [contradiction|].
      apply in_app_or in Hin1. destruct Hin1 as [Hin1 | [<- | []]].
      * eapply Sfifo; eauto.
      * exfalso. destruct (Sret _ _ Hin) as (A & _ & _). apply (sending_not_hist _ _ _ I L). rewrite (i_hist _ I). apply in_or_app. now right.
  - (* LogRet *)
    destruct S as [Sfly Snext Sunw Sstamp Sret Sfifo Sfl Sdone]; unfold pend in *.
    assert (M : mem_entry e (a_fly a) = true). { apply mem_entry_true, Sfly. now right. }
    unfold astep. rewrite M. eexists. split; [reflexivity|].
    assert (EQ : In e (heldp (fp s) ++ q s) \/ lookupE e (a_unw a) = None).
    { destruct (lookupE e (a_unw a)) eqn:LX; [|now right]. left.
      destruct (proj1 (Sunw e)) as [X | X]; [rewrite LX; discriminate | exact X | rewrite L in X; discriminate]. }
    constructor; unfold pend; cbn; auto.
    + intros x. rewrite filter_In, Sfly. destruct (upd_spec (lp s) (eg e) LIdle (eg x)) as [[E ->] | [Ne ->]].
      * rewrite E, L. split; [intros [[[=] | [= <-]] N]; rewrite entry_eqb_refl in N; discriminate | intros [H | H]; discriminate].
      * split; [now intros [H _] | intros H; split; [exact H|]]. destruct (entry_eqb_spec e x) as [<- | _]; [now destruct Ne | reflexivity].
    + intros x. rewrite Sunw. destruct (upd_spec (lp s) (eg e) LIdle (eg x)) as [[E ->] | [_ ->]]; [|reflexivity].
      rewrite E, L. split; intros [H | H]; auto; discriminate.
    + intros x c Hin. apply N.lt_lt_add_r. eauto.
    + intros x r Hin. assert (Old : In (x, r) (a_ret a) -> In x (heldp (fp s) ++ q s) /\ In x (e :: retd s) /\ r < a_t a + 1).
      { intros H. destruct (Sret _ _ H) as (A & B & C). repeat split; auto using N.lt_lt_add_r. now right. }
      destruct (lookupE e (a_unw a)) eqn:LX; [|auto]. apply in_app_or in Hin. destruct Hin as [Hin | [X | []]]; [auto|].
      injection X as <- <-. destruct EQ as [EQ | EQ]; [|discriminate]. repeat split; [exact EQ | now left | apply N.lt_add_pos_r; reflexivity].
    + intros l1 e0 l2 Hq e1 c r1 Hin1 L0 Hin. destruct (lookupE e (a_unw a)) eqn:LX; [|eapply Sfifo; eauto].
      apply in_app_or in Hin. destruct Hin as [Hin | [X | []]]; [eapply Sfifo; eauto|]. injection X as <- <-.
      apply lookupE_In in L0. apply (Sstamp _ _ L0).
    + eapply FlRel_mono; eauto using N.le_add_r. intros x r Hin.
      destruct (lookupE e (a_unw a)); [|now left]. apply in_app_or in Hin. destruct Hin as [Hin | [X | []]]; [now left|].
      injection X as _ <-. right. apply N.le_refl.
  - (* SetLevel *) destruct S. constructor; auto.
  - (* FlushCall *)
    pose proof (r_fl _ _ S) as FR.
    assert (NM : mem_N c (f_in (a_fl a)) = false).
    { destruct (mem_N c (f_in (a_fl a))) eqn:M; [|reflexivity]. apply mem_N_true, (proj1 FR) in M. destruct M; contradiction. }
    unfold astep. rewrite NM. eexists. split; [reflexivity|]. apply sim_flush; [assumption | now apply FlRel_call | apply S].
  - (* Request *)
    pose proof (r_ret _ _ S) as Rt. destruct S as [Sfly Snext Sunw Sstamp Sret Sfifo Sfl Sdone]. constructor; cbn; auto.
    apply FlRel_request; auto. intros x r Hin. rewrite (i_hist _ I). apply in_or_app. right. apply (Rt _ _ Hin).
  - (* FlushRet *)
    pose proof (r_fl _ _ S) as (F1' & F2' & _ & F4).
    assert (M : mem_N c (f_in (a_fl a)) = true) by (apply mem_N_true, F1'; now right).
    destruct (f_first (a_fl a)) as [f|] eqn:FF; [|destruct (F2' c); [rewrite F; discriminate | reflexivity]].
    assert (FB : b = true -> forallb (fun p0 => f <? snd p0) (a_ret a) = true).
    { (* returned before the first call, hence owed; Done, hence written; but also still pending: twice in [hist] *)
      intros Hb. specialize (D Hb). apply forallb_forall. intros [x r] Hin. cbn. apply N.ltb_lt.
      destruct (N.lt_ge_cases f r) as [Hlt | Hge]; [exact Hlt|]. exfalso.
      assert (Rq : req s = true) by (apply (i_fl_req _ I c); rewrite F; discriminate).
      pose proof (prefix_incl _ _ (i_done _ I D) _ (proj2 (F4 _ eq_refl) _ _ Hin Hge Rq)) as Hw.
      pose proof (hist_NoDup _ I) as N. rewrite (i_hist _ I) in N. eapply Lists.NoDup_app_disj; [exact N | exact Hw | apply (r_ret _ _ S _ _ Hin)]. }
    unfold astep. rewrite M, FF. destruct b; [rewrite FB by reflexivity|]; eexists; (split; [reflexivity|]);
      (apply sim_flush; [assumption | rewrite <- FF; apply FlRel_ret; [apply S | assumption] | first [exact D | apply S]]).
  - (* Write *) apply sim_write; auto; try discriminate; [unfold pend; now rewrite P | congruence].
  - apply sim_write; auto; try discriminate; [unfold pend; now rewrite P | congruence].
Qed.

Lemma sim_run cap ls s s' : run cap s ls = Some s' -> forall a, Inv s -> Sim s a ->
  exists a', arun a (visible ls) = Some a' /\ Sim s' a'.
Proof.
  revert ls s s'. apply (run_ind cap (fun s ls s' => forall a, Inv s -> Sim s a -> exists a', arun a (visible ls) = Some a' /\ Sim s' a')).
  - intros s a _ S. now exists a.
  - intros s l m ls s' Hs IH a I S. pose proof (sim_step _ _ _ _ _ I S Hs) as X. pose proof (Inv_step _ _ _ _ I Hs) as I'.
    cbn [visible]. destruct (vis l) as [ev|]; [|auto]. destruct X as (a1 & A1 & S1). cbn [arun]. rewrite A1. auto.
Qed.

(* trace validation is sound: whatever the schedule, what an observer of the model sees is accepted *)
Theorem visible_trace_accepted cap ls s : run cap init ls = Some s -> accepts (visible ls) = true.
Proof.
  intros H. destruct (sim_run _ _ _ _ H _ Inv_init Sim_init) as [a' [A _]]. unfold accepts. rewrite A. reflexivity.
Qed.

Lemma arun_app a t1 t2 : arun a (t1 ++ t2) = match arun a t1 with Some a' => arun a' t2 | None => None end.
Proof. revert a. induction t1 as [|ev t1 IH]; intros a; cbn; [reflexivity|]. destruct (astep a ev); auto. Qed.

Definition is_fcall (ev : event) : bool := match ev with EFlushCall _ => true | _ => false end.
(* the first FlushLogger call of the trace, if any, is the one the machine remembers *)
Definition fl_fact (p : list event) (o : option N) : Prop :=
  match o with
  | None => existsb is_fcall p = false
  | Some t => exists p1 ev p2, p = p1 ++ ev :: p2 /\ is_fcall ev = true /\ t = N.of_nat (length p1) /\ existsb is_fcall p1 = false
  end.

(* What the acceptor's state [a] knows after the accepted prefix [p], read back into [p]: the clock is the length, a stamp
   is the position of the call, what is in flight or unwritten was called and is not yet written, a return not yet matched
   by a Write is on record with its position. [AInv2] below speaks of [p] alone (no entry called twice, returns follow calls)
   but is established from [AInv], hence stated apart. *)
Record AInv (p : list event) (a : ast) : Prop := mkAInv {
  v_t : a_t a = N.of_nat (length p);
  v_ret : forall p1 e p2, p = p1 ++ ERet e :: p2 -> In (EWrite e) p \/ In (e, N.of_nat (length p1)) (a_ret a);
  v_fly : forall e, In e (a_fly a) -> In (EWrite e) p \/ lookupE e (a_unw a) <> None;
  v_fl : fl_fact p (f_first (a_fl a));
  v_unw_nw : forall e, lookupE e (a_unw a) <> None -> ~ In (EWrite e) p;
  v_called : forall e, In (ECall e) p -> en e < lookupN (eg e) (a_next a);
  v_written_called : forall e, In (EWrite e) p -> In (ECall e) p;
  v_unw_stamp : forall e c, lookupE e (a_unw a) = Some c -> exists p1 p2, p = p1 ++ ECall e :: p2 /\ c = N.of_nat (length p1);
  v_fly_called : forall e, In e (a_fly a) -> In (ECall e) p
}.

Lemma AInv_init : AInv [] ainit.
Proof.
  constructor; cbn; try (intros; contradiction); try reflexivity; try discriminate; auto.
  all: try (intros p1 e p2 H; destruct p1; discriminate).
  all: try (intros e H; now contradiction H).
Qed.

Lemma stamp_ext (p : list event) ev (L : entry -> option N) :
  (forall e c, L e = Some c -> exists p1 p2, p = p1 ++ ECall e :: p2 /\ c = N.of_nat (length p1)) ->
  forall e c, L e = Some c -> exists p1 p2, p ++ [ev] = p1 ++ ECall e :: p2 /\ c = N.of_nat (length p1).
Proof.
  intros H e c Le. destruct (H e c Le) as (p1 & p2 & -> & ->). exists p1, (p2 ++ [ev]). split; [|reflexivity].
  rewrite <- app_assoc. reflexivity.
Qed.

Lemma ret_ext (p : list event) ev (R R' : list (entry * N)) :
  (forall x, ev <> ERet x) ->
  (forall p1 e p2, p = p1 ++ ERet e :: p2 -> In (EWrite e) p \/ In (e, N.of_nat (length p1)) R) ->
  (forall x r, In (x, r) R -> In (x, r) R' \/ ev = EWrite x) ->
  forall p1 e p2, p ++ [ev] = p1 ++ ERet e :: p2 -> In (EWrite e) (p ++ [ev]) \/ In (e, N.of_nat (length p1)) R'.
Proof.
  intros Ne Old Sub p1 e p2 H. destruct (snoc_split_ne _ _ _ _ _ H) as (p2' & -> & E); [intros X; apply (Ne e); now rewrite X|].
  destruct (Old _ _ _ E) as [W | W]; [left; apply in_snoc; now left|].
  destruct (Sub _ _ W) as [S | S]; [now right | left; apply in_snoc; now right].
Qed.

Lemma fl_ext (p : list event) ev (o : option N) : is_fcall ev = false \/ o <> None -> fl_fact p o -> fl_fact (p ++ [ev]) o.
Proof.
  intros Ne. destruct o as [t|]; cbn.
  - intros (p1 & x & p2 & -> & Px & -> & N1). exists p1, x, (p2 ++ [ev]). repeat split; auto. rewrite <- app_assoc. reflexivity.
  - intros H. rewrite existsb_app, H. cbn. destruct Ne as [-> | X]; [reflexivity | congruence].
Qed.

Lemma AInv_step p a ev a' : AInv p a -> astep a ev = Some a' -> AInv (p ++ [ev]) a'.
Proof.
  intros [Vt Vret Vfly Vfl Vnw Vcalled Vwc Vstamp Vflyc] Hs.
  assert (LEN : N.of_nat (length (p ++ [ev])) = a_t a + 1) by (rewrite app_length, Nat2N.inj_add, Vt; reflexivity).
  destruct ev as [e | e | e | c | c b]; unfold astep in Hs.
  - (* ECall *)
    destruct (negb _ && _) eqn:C in Hs; [|discriminate]. inversion Hs; subst a'; clear Hs.
    apply andb_true_iff in C. destruct C as [_ C]. apply N.eqb_eq in C.
    assert (NW : ~ In (EWrite e) p). { intros X. apply Vwc, Vcalled in X. rewrite C in X. apply (N.lt_irrefl _ X). }
    constructor; cbn; auto.
    + eapply ret_ext; eauto; discriminate.
    + intros x [<- | Hin].
      * right. rewrite lookupE_app. destruct (lookupE e (a_unw a)); [discriminate | rewrite entry_eqb_refl; discriminate].
      * destruct (Vfly _ Hin) as [W | W]; [left; apply in_snoc; now left | right].
        rewrite lookupE_app. destruct (lookupE x (a_unw a)); [discriminate | contradiction].
    + apply fl_ext; [left; reflexivity | exact Vfl].
    + intros x L X. apply in_snoc_ne in X; [|discriminate]. rewrite lookupE_app in L.
      destruct (lookupE x (a_unw a)) eqn:LX.
      * apply (Vnw x); [rewrite LX; discriminate | exact X].
      * destruct (entry_eqb_spec x e) as [-> |]; contradiction.
    + intros x X. rewrite lookupN_setN. apply in_snoc in X. destruct X as [X | X].
      * apply Vcalled in X. destruct (N.eqb_spec (eg x) (eg e)) as [E |]; [|exact X]. rewrite E in X. rewrite C. apply N.lt_lt_add_r, X.
      * injection X as <-. rewrite N.eqb_refl. apply N.lt_add_pos_r. reflexivity.
    + intros x X. apply in_snoc_ne in X; [|discriminate]. apply in_snoc. left. auto.
    + intros x c L. rewrite lookupE_app in L. destruct (lookupE x (a_unw a)) eqn:LX.
      * inversion L; subst. apply (stamp_ext p (ECall e) (fun y => lookupE y (a_unw a))); auto.
      * destruct (entry_eqb_spec x e) as [-> |]; [|discriminate]. inversion L; subst.
        exists p, []. split; [reflexivity | exact Vt].
    + intros x [<- | Hin]; apply in_snoc; [now right | left; auto].
  - (* ERet *)
    destruct (mem_entry e (a_fly a)) eqn:M; [|discriminate]. inversion Hs; subst a'; clear Hs.
    apply mem_entry_true in M.
    constructor; cbn; auto.
    + intros p1 x p2 H. apply snoc_decomp in H as H'. destruct H' as [-> | [p2' [-> E]]].
      * apply app_inj_tail in H. destruct H as [-> X]. inversion X; subst x.
        destruct (Vfly _ M) as [W | W]; [left; apply in_snoc; now left | right].
        destruct (lookupE e (a_unw a)); [|contradiction]. apply in_snoc. right. now rewrite Vt.
      * destruct (Vret _ _ _ E) as [W | W]; [left; apply in_snoc; now left | right].
        destruct (lookupE e (a_unw a)); [apply in_snoc; now left | exact W].
    + intros x Hin. apply filter_In in Hin. destruct Hin as [Hin _]. destruct (Vfly _ Hin) as [W | W]; [left; apply in_snoc; now left | now right].
    + apply fl_ext; [left; reflexivity | exact Vfl].
    + intros x L X. apply in_snoc_ne in X; [|discriminate]. eapply Vnw; eauto.
    + intros x X. apply in_snoc_ne in X; [auto | discriminate].
    + intros x X. apply in_snoc_ne in X; [|discriminate]. apply in_snoc. left. auto.
    + apply (stamp_ext p (ERet e) (fun y => lookupE y (a_unw a))); auto.
    + intros x Hin. apply filter_In in Hin. destruct Hin as [Hin _]. apply in_snoc. left. auto.
  - (* EWrite *)
    destruct (lookupE e (a_unw a)) as [c|] eqn:LE; [|discriminate]. destruct (negb _ && _) eqn:C in Hs; [|discriminate].
    inversion Hs; subst a'; clear Hs.
    constructor; cbn; auto.
    + eapply ret_ext; eauto; [discriminate|]. intros x r Hin. destruct (entry_eqb_spec e x) as [<- | Ne].
      * now right.
      * left. apply In_removeE. split; [exact Hin|]. auto.
    + intros x Hin. rewrite lookupE_removeE. destruct (entry_eqb_spec e x) as [<- | Ne].
      * left. apply in_snoc. now right.
      * destruct (Vfly _ Hin) as [W | W]; [left; apply in_snoc; now left | now right].
    + apply fl_ext; [left; reflexivity | exact Vfl].
    + intros x L X. rewrite lookupE_removeE in L. destruct (entry_eqb_spec e x) as [| Ne]; [contradiction|].
      apply in_snoc in X. destruct X as [X | X]; [eapply Vnw; eauto|]. inversion X; subst. now destruct Ne.
    + intros x X. apply in_snoc_ne in X; [auto | discriminate].
    + intros x X. apply in_snoc. left. apply in_snoc in X. destruct X as [X | X]; [auto|]. inversion X; subst.
      destruct (Vstamp _ _ LE) as (p1 & p2 & -> & _). apply in_elt.
    + intros x c0 L. rewrite lookupE_removeE in L. destruct (entry_eqb e x); [discriminate|].
      apply (stamp_ext p (EWrite e) (fun y => lookupE y (a_unw a))); auto.
    + intros x Hin. apply in_snoc. left. auto.
  - (* EFlushCall *)
    destruct (mem_N c (f_in (a_fl a))); [discriminate|]. inversion Hs; subst a'; clear Hs.
    constructor; cbn; auto.
    + eapply ret_ext; eauto; discriminate.
    + intros x Hin. destruct (Vfly _ Hin) as [W | W]; [left; apply in_snoc; now left | now right].
    + destruct (f_first (a_fl a)) as [f|] eqn:FF.
      * apply fl_ext; [right; discriminate | exact Vfl].
      * cbn in Vfl. exists p, (EFlushCall c), []. repeat split; auto.
    + intros x L X. apply in_snoc_ne in X; [eapply Vnw; eauto | discriminate].
    + intros x X. apply in_snoc_ne in X; [auto | discriminate].
    + intros x X. apply in_snoc_ne in X; [|discriminate]. apply in_snoc. left. auto.
    + apply (stamp_ext p (EFlushCall c) (fun y => lookupE y (a_unw a))); auto.
    + intros x Hin. apply in_snoc. left. auto.
  - (* EFlushRet *)
    assert (X : a_t a' = a_t a + 1 /\ a_fly a' = a_fly a /\ a_next a' = a_next a /\ a_unw a' = a_unw a /\ a_ret a' = a_ret a /\
                f_first (a_fl a') = f_first (a_fl a)).
    { destruct (mem_N c (f_in (a_fl a))); [|discriminate].
      destruct b; [destruct (f_first (a_fl a)); [|discriminate]; destruct (forallb _ _); [|discriminate]|];
        inversion Hs; subst; cbn; repeat split. }
    destruct X as (X1 & X2 & X3 & X4 & X5 & X6). clear Hs.
    constructor; rewrite ?X1, ?X2, ?X3, ?X4, ?X5, ?X6; auto.
    + eapply ret_ext; eauto; discriminate.
    + intros x Hin. destruct (Vfly _ Hin) as [W | W]; [left; apply in_snoc; now left | now right].
    + apply fl_ext; [left; reflexivity | exact Vfl].
    + intros x L X. apply in_snoc_ne in X; [eapply Vnw; eauto | discriminate].
    + intros x X. apply in_snoc_ne in X; [auto | discriminate].
    + intros x X. apply in_snoc_ne in X; [|discriminate]. apply in_snoc. left. auto.
    + apply (stamp_ext p (EFlushRet c b) (fun y => lookupE y (a_unw a))); auto.
    + intros x Hin. apply in_snoc. left. auto.
Qed.

Record AInv2 (p : list event) : Prop := mkAInv2 {
  w_nodup : forall p1 e p2, p = p1 ++ ECall e :: p2 -> ~ In (ECall e) p1;
  w_ret_called : forall p1 e p2, p = p1 ++ ERet e :: p2 -> In (ECall e) p1
}.
Lemma AInv2_init : AInv2 [].
Proof. constructor; intros p1 e p2 H; destruct p1; discriminate. Qed.

Lemma AInv2_step p a ev a' : AInv p a -> AInv2 p -> astep a ev = Some a' -> AInv2 (p ++ [ev]).
Proof.
  intros V [W1 W2] Hs. constructor; intros p1 x p2 H; apply snoc_decomp in H as H'; destruct H' as [-> | [p2' [-> E]]]; eauto.
  - apply app_inj_tail in H. destruct H as [-> ->]. unfold astep in Hs.
    destruct (negb _ && _) eqn:C in Hs; [|discriminate]. apply andb_true_iff in C. destruct C as [_ C]. apply N.eqb_eq in C.
    intros X. apply (v_called _ _ V) in X. rewrite C in X. apply (N.lt_irrefl _ X).
  - apply app_inj_tail in H. destruct H as [-> ->]. unfold astep in Hs.
    destruct (mem_entry x (a_fly a)) eqn:M; [|discriminate]. apply mem_entry_true in M. apply (v_fly_called _ _ V _ M).
Qed.

Lemma arun_AInv tr : forall p a a', AInv p a -> AInv2 p -> arun a tr = Some a' -> AInv (p ++ tr) a' /\ AInv2 (p ++ tr).
Proof.
  induction tr as [|ev tr IH]; intros p a a' V W H; cbn in H.
  - inversion H; subst. rewrite app_nil_r. auto.
  - destruct (astep a ev) as [a1|] eqn:E; [|discriminate].
    replace (p ++ ev :: tr) with ((p ++ [ev]) ++ tr) by (rewrite <- app_assoc; reflexivity).
    eapply IH; eauto; [eapply AInv_step; eauto | eapply AInv2_step; eauto].
Qed.

(* the state of the machine in front of an accepted event *)
Lemma accepts_at p ev rest : accepts (p ++ ev :: rest) = true ->
  exists a a', AInv p a /\ AInv2 p /\ astep a ev = Some a'.
Proof.
  unfold accepts. rewrite arun_app.
  destruct (arun ainit p) as [a|] eqn:A; [|discriminate]. cbn [arun]. destruct (astep a ev) as [a'|] eqn:S; [|discriminate].
  intros _. destruct (arun_AInv _ _ _ _ AInv_init AInv2_init A) as [V W]. exists a, a'. auto.
Qed.

(* an accepted trace satisfies the property: completeness at the acknowledged return ... *)
Theorem accepts_complete t1 c t2 c' t3 :
  accepts (t1 ++ EFlushCall c :: t2 ++ EFlushRet c' true :: t3) = true -> existsb is_fcall t1 = false ->
  forall e, In (ERet e) t1 -> In (EWrite e) (t1 ++ EFlushCall c :: t2).
Proof.
  intros H NF e He.
  replace (t1 ++ EFlushCall c :: t2 ++ EFlushRet c' true :: t3) with ((t1 ++ EFlushCall c :: t2) ++ EFlushRet c' true :: t3) in H
    by (rewrite <- app_assoc; reflexivity).
  destruct (accepts_at _ _ _ H) as (a & a' & V & _ & S).
  apply in_split in He. destruct He as (u & v & ->).
  destruct (v_ret _ _ V u e (v ++ EFlushCall c :: t2)) as [W | W]; [rewrite <- app_assoc; reflexivity | exact W |].
  exfalso. unfold astep in S. pose proof (v_fl _ _ V) as F. destruct (mem_N c' (f_in (a_fl a))); [|discriminate].
  destruct (f_first (a_fl a)) as [f|]; [|discriminate].
  destruct (forallb _ _) eqn:FB in S; [|discriminate]. rewrite forallb_forall in FB. specialize (FB _ W). cbn in FB.
  apply N.ltb_lt in FB. destruct F as (p1 & x & p2 & E & Px & -> & N1).
  apply (first_split_unique is_fcall) in E; auto. subst p1. rewrite app_length in FB. cbn in FB. lia.
Qed.

(* ... exactly once, and only what was submitted ... *)
Theorem accepts_once a e b : accepts (a ++ EWrite e :: b) = true -> ~ In (EWrite e) a /\ In (ECall e) a.
Proof.
  intros H. destruct (accepts_at _ _ _ H) as (s & s' & V & _ & S). unfold astep in S.
  destruct (lookupE e (a_unw s)) as [c|] eqn:L; [|discriminate]. split.
  - apply (v_unw_nw _ _ V). rewrite L. discriminate.
  - destruct (v_unw_stamp _ _ V _ _ L) as (p1 & p2 & -> & _). apply in_elt.
Qed.

(* ... in FIFO order with respect to real time (hence in per-goroutine order) *)
Theorem accepts_fifo a1 e1 a2 e2 a3 b :
  accepts (a1 ++ ERet e1 :: a2 ++ ECall e2 :: a3 ++ EWrite e2 :: b) = true ->
  In (EWrite e1) (a1 ++ ERet e1 :: a2 ++ ECall e2 :: a3).
Proof.
  intros H.
  replace (a1 ++ ERet e1 :: a2 ++ ECall e2 :: a3 ++ EWrite e2 :: b)
    with ((a1 ++ ERet e1 :: a2 ++ ECall e2 :: a3) ++ EWrite e2 :: b) in H
    by (rewrite <- !app_assoc; cbn; rewrite <- !app_assoc; reflexivity).
  destruct (accepts_at _ _ _ H) as (s & s' & V & W & S).
  set (p := a1 ++ ERet e1 :: a2 ++ ECall e2 :: a3) in *.
  assert (Ep : p = (a1 ++ ERet e1 :: a2) ++ ECall e2 :: a3) by (unfold p; rewrite <- app_assoc; reflexivity).
  destruct (v_ret _ _ V a1 e1 (a2 ++ ECall e2 :: a3) eq_refl) as [X | X]; [exact X | exfalso].
  unfold astep in S. destruct (lookupE e2 (a_unw s)) as [c|] eqn:L; [|discriminate].
  destruct (negb _ && _) eqn:C in S; [|discriminate]. apply andb_true_iff in C. destruct C as [_ FB].
  rewrite forallb_forall in FB. specialize (FB _ X). cbn in FB.
  destruct (v_unw_stamp _ _ V _ _ L) as (p1 & p2 & E & ->).
  assert (P1 : p1 = a1 ++ ERet e1 :: a2).
  { pose proof (w_nodup _ W _ _ _ E) as N1. pose proof (w_nodup _ W _ _ _ Ep) as N2.
    assert (E2 : p1 ++ ECall e2 :: p2 = (a1 ++ ERet e1 :: a2) ++ ECall e2 :: a3) by (rewrite <- E, <- Ep; reflexivity).
    eapply unique_split2; eauto. }
  apply orb_true_iff in FB. destruct FB as [FB | FB].
  - apply entry_eqb_eq in FB. subst e2. pose proof (w_ret_called _ W a1 e1 _ eq_refl) as Hc.
    apply (w_nodup _ W _ _ _ Ep). apply in_or_app. now left.
  - apply N.ltb_lt in FB. subst p1. rewrite app_length in FB. cbn in FB. lia.
Qed.

Definition e00 := mkE 0 0 0.
Definition e01 := mkE 0 1 1.
Definition e10 := mkE 1 0 0.

(* two goroutines, two writers; the flusher is between its two selects when the last entry and the request arrive,
   and its select picks the request: the drain loop writes the entry before the acknowledgement *)
Definition sched_fixed : list label :=
  [LogCall e00; Enq 0; LogRet e00; PollTake e00; Write e00; LogCall e10; PollEmpty; LogCall e01; Enq 0; Enq 1; LogRet e10; LogRet e01;
   FlushCall 0; Request 0; InnerSync; DrainTake e01; Write e01; DrainTake e10; Write e10; DrainDone; FlushRet 0 true].
Example sched_fixed_runs : exists s, run 4 init sched_fixed = Some s /\ written s = [e00; e01; e10] /\ fl s 0 = FReturned true /\ q s = [].
Proof. eexists. split; [apply (Lts.some_the init); vm_compute; reflexivity|]. vm_compute. repeat split. Qed.
Example sched_fixed_instance :
  exists l1 l2, sched_fixed = l1 ++ FlushCall 0 :: l2 ++ FlushRet 0 true :: [] /\ rets_of l1 = [e00; e10; e01].
Proof. exists (firstn 12 sched_fixed), (firstn 7 (skipn 13 sched_fixed)). vm_compute. split; reflexivity. Qed.
Example sched_fixed_accepted : accepts (visible sched_fixed) = true.
Proof. vm_compute. reflexivity. Qed.

(* the code before the fix (gstep false): the same schedule up to the select, which returns at once; FlushLogger
   returns on the acknowledgement with two returned entries unwritten — and the specification machine rejects
   exactly that trace *)
Definition sched_unfixed : list label :=
  [LogCall e00; Enq 0; LogRet e00; PollTake e00; Write e00; LogCall e10; PollEmpty; LogCall e01; Enq 0; Enq 1; LogRet e10; LogRet e01;
   FlushCall 0; Request 0; InnerSync; FlushRet 0 true].
Example before_fix_loses_entries :
  exists s, grun false 4 init sched_unfixed = Some s /\ fl s 0 = FReturned true /\ written s = [e00] /\
            retd s = [e01; e10; e00] /\ q s = [e01; e10].
Proof. eexists. split; [apply (Lts.some_the init); vm_compute; reflexivity|]. vm_compute. repeat split. Qed.
Example before_fix_trace_rejected : accepts (visible sched_unfixed) = false.
Proof. vm_compute. reflexivity. Qed.
Example repaired_model_refuses_that_schedule : run 4 init sched_unfixed = None.
Proof. vm_compute. reflexivity. Qed.

(* the specification machine is not trivially true: duplicated, reordered, invented and late Writes are rejected *)
Example rejects_duplicate : accepts [ECall e00; ERet e00; EWrite e00; EWrite e00] = false.
Proof. vm_compute. reflexivity. Qed.
Example rejects_reordered : accepts [ECall e00; ERet e00; ECall e01; ERet e01; EWrite e01; EWrite e00] = false.
Proof. vm_compute. reflexivity. Qed.
Example rejects_fifo_violation : accepts [ECall e00; ERet e00; ECall e10; ERet e10; EWrite e10; EWrite e00] = false.
Proof. vm_compute. reflexivity. Qed.
Example accepts_concurrent_either_order :
  accepts [ECall e00; ECall e10; ERet e00; ERet e10; EWrite e10; EWrite e00] = true /\
  accepts [ECall e00; ECall e10; ERet e00; ERet e10; EWrite e00; EWrite e10] = true.
Proof. vm_compute. split; reflexivity. Qed.
Example rejects_invented : accepts [EWrite e00] = false.
Proof. vm_compute. reflexivity. Qed.
Example rejects_wrong_writer : accepts [ECall e00; ERet e00; EWrite (mkE 0 0 1)] = false.
Proof. vm_compute. reflexivity. Qed.
Example rejects_write_after_ack : accepts [ECall e00; EFlushCall 0; EFlushRet 0 true; ERet e00; EWrite e00] = false.
Proof. vm_compute. reflexivity. Qed.
Example accepts_timer_return_with_backlog : accepts [ECall e00; ERet e00; EFlushCall 0; EFlushRet 0 false; EWrite e00] = true.
Proof. vm_compute. reflexivity. Qed.

Example logged_after_ack_witness :
  exists s, run 4 init [LogCall e00; Enq 0; LogRet e00; FlushCall 0; Request 0; PollTake e00; Write e00; PollEmpty; InnerSync; DrainDone;
                        FlushRet 0 true; LogCall e01; Enq 0; LogRet e01] = Some s
            /\ fp s = Done /\ q s = [e01] /\ written s = [e00] /\ retd s = [e01; e00].
Proof. eexists. split; [apply (Lts.some_the init); vm_compute; reflexivity|]. vm_compute. repeat split. Qed.

Example flush_bounded_instance :
  exists s1 s2 s, run 4 init (firstn 13 sched_fixed) = Some s1 /\ req s1 = false /\ step 4 s1 (Request 0) = Some s2 /\
    run 4 s2 (skipn 14 sched_fixed) = Some s /\ length (q s1) = 2%nat /\ flusher_steps (skipn 14 sched_fixed) = 6%nat.
Proof.
  do 3 eexists. split; [apply (Lts.some_the init); vm_compute; reflexivity|]. split; [vm_compute; reflexivity|].
  split; [apply (Lts.some_the init); vm_compute; reflexivity|]. split; [apply (Lts.some_the init); vm_compute; reflexivity|].
  vm_compute. split; reflexivity.
Qed.

Example accepts_complete_instance :
  accepts ([ECall e00; ERet e00] ++ EFlushCall 0 :: [EWrite e00] ++ EFlushRet 0 true :: []) = true.
Proof. vm_compute. reflexivity. Qed.

(* For a later FlushLogger call the statement without "first call" is false of the code (known finding "second flush"). *)

Definition flush_complete_any_call_statement : Prop := forall cap l1 c l2 c' l3 s,
  run cap init (l1 ++ FlushCall c :: l2 ++ FlushRet c' true :: l3) = Some s ->
  forall e, In e (rets_of l1) -> In e (writes_of (l1 ++ FlushCall c :: l2)).

Definition sched_second : list label :=
  [LogCall e00; Enq 0; LogRet e00; FlushCall 0; Request 0; PollTake e00; Write e00; PollEmpty; InnerSync; DrainDone; FlushRet 0 true;
   LogCall e01; Enq 0; LogRet e01].

Theorem second_flush_refuted :
  exists cap l1 c l2 l3 e s,
    run cap init (l1 ++ FlushCall c :: l2 ++ FlushRet c true :: l3) = Some s /\ In e (rets_of l1) /\
    ~ In e (writes_of (l1 ++ FlushCall c :: l2 ++ FlushRet c true :: l3)) /\ q s = [e] /\ fl s c = FReturned true.
Proof.
  exists 4, sched_second, 1, [Request 1], [], e01. eexists.
  split; [apply (Lts.some_the init); vm_compute; reflexivity|]. split; [vm_compute; auto|]. split; [|split; reflexivity].
  vm_compute. intros [H | []]. discriminate.
Qed.

Corollary flush_complete_any_call_refuted : ~ flush_complete_any_call_statement.
Proof.
  intros H. destruct second_flush_refuted as (cap & l1 & c & l2 & l3 & e & s & R & He & Nw & _).
  apply Nw. specialize (H _ _ _ _ _ _ _ R e He).
  rewrite writes_of_app in *. cbn [writes_of] in *. apply in_app_or in H. apply in_or_app.
  destruct H as [H | H]; [now left | right]. rewrite writes_of_app. apply in_or_app. now left.
Qed.

(* the specification machine follows the model here too: the trace of that schedule is accepted (it is a behaviour of
   the code), and it is the direct monitor that reports it (known finding) *)
Example second_flush_trace_accepted :
  accepts (visible (sched_second ++ [FlushCall 0; Request 0; FlushRet 0 true])) = true.
Proof. vm_compute. reflexivity. Qed.

(* Concurrent FlushLogger callers: Run's deferred call and CheckPanic in another goroutine. *)

(* two callers whose calls overlap; the second one calls before anybody has signalled: the completeness theorem applies to
   it (and to the first), whichever of them signals first and whichever return comes first *)
Definition sched_two_callers : list label :=
  [LogCall e00; Enq 0; LogRet e00; FlushCall 0; LogCall e10; Enq 1; LogRet e10; FlushCall 1; Request 1; PollTake e00; Write e00;
   Request 0; PollTake e10; Write e10; PollEmpty; InnerSync; DrainDone; FlushRet 0 true; FlushRet 1 true].
Example two_callers_run : exists s, run 4 init sched_two_callers = Some s /\ written s = [e00; e10] /\
  fl s 0 = FReturned true /\ fl s 1 = FReturned true.
Proof. eexists. split; [apply (Lts.some_the init); vm_compute; reflexivity|]. vm_compute. repeat split. Qed.
Example two_callers_instance :
  exists l1 l2 l3, sched_two_callers = l1 ++ FlushCall 1 :: l2 ++ FlushRet 0 true :: l3 /\
                   existsb is_request l1 = false /\ rets_of l1 = [e00; e10].
Proof. exists (firstn 7 sched_two_callers), (firstn 9 (skipn 8 sched_two_callers)), [FlushRet 1 true]. vm_compute. repeat split. Qed.
Example two_callers_accepted : accepts (visible sched_two_callers) = true.
Proof. vm_compute. reflexivity. Qed.
(* a second caller returning on the acknowledgement while an entry returned before the first call is unwritten is rejected *)
Example two_callers_lossy_rejected :
  accepts [ECall e00; ERet e00; EFlushCall 0; EFlushCall 1; EFlushRet 1 true] = false.
Proof. vm_compute. reflexivity. Qed.
(* the same caller calling again after its call returned (the harness's "second" scenario) is a behaviour of the model *)
Example same_caller_again_accepted :
  accepts (visible (sched_second ++ [FlushCall 0; Request 0; FlushRet 0 true])) = true.
Proof. exact second_flush_trace_accepted. Qed.

(* accepted at DEBUG, then the level is raised to ERROR while the entry is queued; a WriteLog call (no level) at level ERROR;
   a filtered Info call: the flush writes both accepted entries *)
Definition sched_levels : list label :=
  [LogCallAt e00 0; Enq 0; LogRet e00; SetLevel 3; LogFiltered 0 1; LogCall e01; Enq 0; LogRet e01; FlushCall 0; Request 0;
   PollTake e00; Write e00; PollTake e01; Write e01; PollEmpty; InnerSync; DrainDone; FlushRet 0 true].
Example levels_run : exists s, run 4 init sched_levels = Some s /\ written s = [e00; e01] /\ lvl s = 3 /\ q s = [].
Proof. eexists. split; [apply (Lts.some_the init); vm_compute; reflexivity|]. vm_compute. repeat split. Qed.
Example levels_accepted : accepts (visible sched_levels) = true.
Proof. vm_compute. reflexivity. Qed.
Example debug_call_refused_at_error : step 4 (with_lvl init 3) (LogCallAt e00 0) = None /\
  step 4 (with_lvl init 3) (LogFiltered 0 3) = None /\ step 4 (with_lvl init 3) (LogFiltered 0 2) = Some (with_lvl init 3).
Proof. vm_compute. repeat split. Qed.
