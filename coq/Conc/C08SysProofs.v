(* Invariants of the composed process machine (Conc/C08Sys.v), over all label sequences. *)
From Coq Require Import List ZArith NArith Bool Lia Arith ZifyNat.
From TarsV Require Import Base.Lts Rpc.ReqId Rpc.ReqIdProofs Conc.Pending Conc.PendingProofs Conc.C08Sys.
Import ListNotations.
Open Scope Z_scope.

Section Proofs.
  Variable maxi : Z.
  Hypothesis Hmax : maxi = 2147483647.
  Variable c0 : Z.

  Definition thr (s : sys) (t : nat) : option tpc := nth_error (pcs (gen s)) t.
  Definition tp (s : sys) (t : nat) : nat := nth t (tpos s) O.

  (* the state after thread t has registered, on adapter a (now ad', its positions were b), a call under its id *)
  Definition registered (s : sys) (t a : nat) (ad' : state) (b : list nat) : sys :=
    {| gen := {| ctr := ctr (gen s); pcs := set_nth t TIdle (pcs (gen s)); hist := hist (gen s); ids := ids (gen s) |};
       tpos := tpos s; ads := upd a ad' (ads s); born := upd a (b ++ [tp s t]) (born s) |}.

  (* [sstep] as a relation, for case analysis on a step that happened *)
  Inductive SStep (s : sys) : slabel -> sys -> Prop :=
  | SsGen gl g' : ReqId.step maxi (gen s) gl = Some g' ->
      SStep s (SGen gl) {| gen := g'; tpos := match gl with LAdd t => set_nth t (length (hist (gen s))) (tpos s) | _ => tpos s end;
                           ads := ads s; born := born s |}
  | SsReg t a ow v ad b ad' : nth_error (pcs (gen s)) t = Some (TDone v) -> nth_error (ads s) a = Some ad -> nth_error (born s) a = Some b ->
      Pending.step ad (LRegister v ow) = Some ad' ->
      SStep s (SReg t a ow) (registered s t a ad' b)
  | SsAd a l ad ad' : is_register l = false -> nth_error (ads s) a = Some ad -> Pending.step ad l = Some ad' ->
      SStep s (SAd a l) {| gen := gen s; tpos := tpos s; ads := upd a ad' (ads s); born := born s |}.

  Lemma sstep_SStep s l s' : sstep maxi s l = Some s' -> SStep s l s'.
  Proof.
    destruct l as [gl|t a ow|a l]; cbn [sstep].
    - destruct (ReqId.step maxi (gen s) gl) as [g'|] eqn:Eg; [|discriminate]. intros [= <-]. constructor. exact Eg.
    - destruct (nth_error (pcs (gen s)) t) as [[| | |v]|] eqn:Et; try discriminate.
      destruct (nth_error (ads s) a) as [ad|] eqn:Ea; [|discriminate].
      destruct (nth_error (born s) a) as [b|] eqn:Eb; [|discriminate].
      destruct (Pending.step ad (LRegister v ow)) as [ad'|] eqn:Es; [|discriminate].
      intros [= <-]. exact (SsReg s t a ow v ad b ad' Et Ea Eb Es).
    - destruct (is_register l) eqn:R; [discriminate|].
      destruct (nth_error (ads s) a) as [ad|] eqn:Ea; [|discriminate].
      destruct (Pending.step ad l) as [ad'|] eqn:Es; [|discriminate].
      intros [= <-]. econstructor; eassumption.
  Qed.

  (* an allocation is held by the thread it was returned to, until that thread registers a call under it; from then on by the call *)
  Inductive holder := HThr (t : nat) | HCall (a k : nat).

  Definition holds (s : sys) (h : holder) (p : nat) (v : Z) : Prop :=
    match h with
    | HThr t => thr s t = Some (TDone v) /\ p = tp s t
    | HCall a k => exists c, call_at s a k c p /\ c_id c = v
    end.

  Record SI (s : sys) : Prop := {
    si_ops : reach maxi c0 (gen s);
    si_len : length (tpos s) = length (pcs (gen s));
    si_reach : forall a ad, nth_error (ads s) a = Some ad -> exists ls, Pending.run Pending.init ls = Some ad;
    si_born : forall a ad, nth_error (ads s) a = Some ad -> exists b, nth_error (born s) a = Some b /\ length b = length (calls ad);
    si_pos : forall h p v, holds s h p v -> alloc (gen s) p = Some v /\ v <> 0;
    si_own : forall h1 h2 p v1 v2, holds s h1 p v1 -> holds s h2 p v2 -> h1 = h2
  }.

  Lemma SI_init nt na : SI (sinit c0 nt na).
  Proof.
    assert (N : forall h p v, ~ holds (sinit c0 nt na) h p v).
    { intros [t|a k] p v.
      - intros [H _]. apply nth_error_In, repeat_spec in H. discriminate.
      - intros (c & (ad & b & A & _ & C & _) & _). apply nth_error_In, repeat_spec in A. subst ad. destruct k; discriminate. }
    constructor; cbn [sinit gen tpos ads born ReqId.init pcs].
    - exists []. reflexivity.
    - rewrite !repeat_length. reflexivity.
    - intros a ad H. apply nth_error_In, repeat_spec in H. subst ad. exists []. reflexivity.
    - intros a ad H. pose proof (nth_lt _ _ _ H) as L. rewrite repeat_length in L. apply nth_error_In, repeat_spec in H. subst ad.
      destruct (nth_error (repeat (@nil nat) na) a) as [b|] eqn:E; [|apply nth_error_None in E; rewrite repeat_length in E; lia].
      apply nth_error_In, repeat_spec in E. subst b. eauto.
    - intros h p v H. destruct (N _ _ _ H).
    - intros h1 h2 p v1 v2 H. destruct (N _ _ _ H).
  Qed.

  (* a step after which every holding is an old one, or the one new holding [h0] of a fresh allocation *)
  Lemma SI_one_new_holding s s' h0 : SI s -> reach maxi c0 (gen s') -> length (tpos s') = length (pcs (gen s')) ->
    (forall a ad, nth_error (ads s') a = Some ad -> exists ls, Pending.run Pending.init ls = Some ad) ->
    (forall a ad, nth_error (ads s') a = Some ad -> exists b, nth_error (born s') a = Some b /\ length b = length (calls ad)) ->
    (forall p x, alloc (gen s) p = Some x -> alloc (gen s') p = Some x) ->
    (forall h p v, holds s' h p v ->
       holds s h p v \/ (h = h0 /\ alloc (gen s) p = None /\ alloc (gen s') p = Some v /\ v <> 0)) ->
    SI s'.
  Proof.
    intros I Ho Hl Hr Hb Ha Hh. constructor; auto.
    - intros h p v H. destruct (Hh _ _ _ H) as [A|(_ & _ & A)]; [|exact A]. destruct (si_pos _ I _ _ _ A). auto.
    - intros h1 h2 p v1 v2 H1 H2. destruct (Hh _ _ _ H1) as [A1|(-> & N1 & _)]; destruct (Hh _ _ _ H2) as [A2|(-> & N2 & _)].
      + exact (si_own _ I _ _ _ _ _ A1 A2).
      + destruct (si_pos _ I _ _ _ A1). congruence.
      + destruct (si_pos _ I _ _ _ A2). congruence.
      + reflexivity.
  Qed.

  Lemma upd_reach s a l ad ad' : SI s -> nth_error (ads s) a = Some ad -> Pending.step ad l = Some ad' ->
    forall a' x, nth_error (upd a ad' (ads s)) a' = Some x -> exists ls, Pending.run Pending.init ls = Some x.
  Proof.
    intros I Ea E a' x H. apply nth_error_upd_inv in H. destruct H as [[-> ->]|[_ H]]; [|exact (si_reach _ I _ _ H)].
    destruct (si_reach _ I _ _ Ea) as [ls Hl]. eauto using run_step.
  Qed.

  Lemma call_at_same s s' a k c p : ads s' = ads s -> born s' = born s -> call_at s' a k c p -> call_at s a k c p.
  Proof. unfold call_at. intros -> ->. auto. Qed.

  Definition lthread (l : ReqId.label) : nat := match l with LCall t | LCas t | LAdd t => t end.

  Lemma SI_gen s gl g' : SI s -> ReqId.step maxi (gen s) gl = Some g' ->
    SI {| gen := g'; tpos := match gl with LAdd t => set_nth t (length (hist (gen s))) (tpos s) | _ => tpos s end;
          ads := ads s; born := born s |}.
  Proof.
    intros I E. apply (SI_one_new_holding s _ (HThr (lthread gl)) I); cbn [gen tpos ads born].
    - exact (step_reach maxi c0 _ _ _ (si_ops _ I) E).
    - rewrite (step_pcs_length _ _ _ _ E), <- (si_len _ I). destruct gl; auto using set_nth_length.
    - exact (si_reach _ I).
    - exact (si_born _ I).
    - intros p x. exact (step_alloc maxi _ _ _ p x E).
    - intros [t|a k] p v H; [|left; exact H]. destruct H as [H ->]. unfold thr, tp in *. cbn [gen tpos] in *.
      destruct (step_done _ _ _ _ _ _ E H) as [[A N]|(-> & Nz & A & Hh)].
      + left. split; [exact A|]. destruct gl as [t'|t'|t']; auto. apply nth_set_nth_neq. congruence.
      + right. rewrite nth_set_nth_eq by (rewrite (si_len _ I); eapply nth_lt, A).
        destruct (alloc_new _ _ _ Hh). auto.
  Qed.

  Lemma SI_ad s a l ad ad' : SI s -> is_register l = false -> nth_error (ads s) a = Some ad -> Pending.step ad l = Some ad' ->
    SI {| gen := gen s; tpos := tpos s; ads := upd a ad' (ads s); born := born s |}.
  Proof.
    intros I R Ea E. destruct (step_calls _ _ _ E) as [(id & ow & ->)|[L C]]; [discriminate R|].
    (* no holding is new at an adapter's own step: every case of the last premise goes left, the holder named here is never looked at *)
    apply (SI_one_new_holding s _ (HThr 0) I); cbn [gen tpos ads born]; auto using si_ops, si_len.
    - exact (upd_reach s a _ ad ad' I Ea E).
    - intros a' x H. apply nth_error_upd_inv in H. destruct H as [[-> ->]|[_ H]]; [|exact (si_born _ I _ _ H)].
      rewrite L. exact (si_born _ I _ _ Ea).
    - intros [t|a' k] p v H; left; [exact H|]. destruct H as (c' & (x & b & A & B & C' & D) & Hv). cbn [ads born] in A, B.
      apply nth_error_upd_inv in A. destruct A as [[-> ->]|[_ A]].
      + destruct (C _ _ C') as (c & X & Y). exists c. split; [exists ad, b; auto | congruence].
      + exists c'. split; [exists x, b; auto | exact Hv].
  Qed.

  (* the holdings after a registration: the thread's allocation has passed to the new call *)
  Lemma holds_registered s t a ow v ad b ad' : SI s -> thr s t = Some (TDone v) -> nth_error (ads s) a = Some ad -> nth_error (born s) a = Some b ->
    Pending.step ad (LRegister v ow) = Some ad' ->
    forall h p w, holds (registered s t a ad' b) h p w ->
    (h <> HThr t /\ holds s h p w) \/ (h = HCall a (length (calls ad)) /\ holds s (HThr t) p w).
  Proof.
    intros I Et Ea Eb Es [t'|a' k] p w H.
    - left. destruct H as [H ->]. unfold thr in H. cbn [registered gen pcs] in H. apply nth_error_set_nth_inv in H.
      destruct H as [[_ H]|[Hne H]]; [discriminate|]. split; [congruence|]. split; [exact H|reflexivity].
    - destruct H as (c & (x & y & A & B & C & D) & Hv). cbn [registered ads born] in A, B.
      apply nth_error_upd_inv in A. destruct A as [[-> ->]|[Hne A]].
      + rewrite (nth_error_upd_eq _ _ _ _ Eb) in B. injection B as <-.
        cbn [Pending.step] in Es. injection Es as <-. cbn [calls] in C.
        destruct (si_born _ I _ _ Ea) as (b0 & B0 & L0). rewrite Eb in B0. injection B0 as <-.
        apply nth_error_snoc_inv in C. apply nth_error_snoc_inv in D. destruct C as [[-> ->]|C].
        * right. destruct D as [[_ ->]|D]; [|apply nth_lt in D; lia]. cbn [c_id] in Hv. subst w. split; [reflexivity|]. split; [exact Et | reflexivity].
        * left. split; [discriminate|]. destruct D as [[-> _]|D]; [apply nth_lt in C; lia|]. exists c. split; [exists ad, b; auto | exact Hv].
      + left. split; [discriminate|]. rewrite nth_error_upd_neq in B by congruence. exists c. split; [exists x, y; auto | exact Hv].
  Qed.

  Lemma SI_reg s t a ow v ad b ad' : SI s -> thr s t = Some (TDone v) -> nth_error (ads s) a = Some ad -> nth_error (born s) a = Some b ->
    Pending.step ad (LRegister v ow) = Some ad' -> SI (registered s t a ad' b).
  Proof.
    intros I Et Ea Eb Es. pose proof (holds_registered s t a ow v ad b ad' I Et Ea Eb Es) as HR.
    constructor; cbn [registered gen tpos ads born pcs].
    - exact (si_ops _ I).
    - rewrite set_nth_length. exact (si_len _ I).
    - exact (upd_reach s a _ ad ad' I Ea Es).
    - intros a' x H. apply nth_error_upd_inv in H. destruct H as [[-> ->]|[Hne H]].
      + rewrite (nth_error_upd_eq _ _ _ _ Eb). eexists; split; [reflexivity|]. cbn [Pending.step] in Es. injection Es as <-. cbn [calls].
        destruct (si_born _ I _ _ Ea) as (b0 & B0 & L0). rewrite Eb in B0. injection B0 as <-. rewrite !app_length, L0. reflexivity.
      + rewrite nth_error_upd_neq by congruence. exact (si_born _ I _ _ H).
    - intros h p w H. destruct (HR _ _ _ H) as [[_ A]|[_ A]]; exact (si_pos _ I _ _ _ A).
    - intros h1 h2 p v1 v2 H1 H2. destruct (HR _ _ _ H1) as [[N1 A1]|[-> A1]]; destruct (HR _ _ _ H2) as [[N2 A2]|[-> A2]].
      + exact (si_own _ I _ _ _ _ _ A1 A2).
      + destruct N1. exact (si_own _ I _ _ _ _ _ A1 A2).
      + destruct N2. exact (si_own _ I _ _ _ _ _ A2 A1).
      + reflexivity.
  Qed.

  Lemma sstep_SI s l s' : SI s -> sstep maxi s l = Some s' -> SI s'.
  Proof. intros I E. destruct (sstep_SStep _ _ _ E); eauto using SI_gen, SI_reg, SI_ad. Qed.

  Section Run.
    Variables (nt na : nat) (ls : list slabel) (s : sys).
    Hypothesis Hrun : srun maxi (sinit c0 nt na) ls = Some s.

    (* [srun maxi] is [Lts.run (sstep maxi)] written out: Base/Lts.v applies as it stands *)
    Lemma run_SI : SI s.
    Proof. exact (Lts.run_inv (sstep maxi) SI sstep_SI ls _ s (SI_init nt na) Hrun). Qed.

    (* every adapter of the process is, on its own, a run of the adapter machine: all theorems of Conc/PendingProofs.v
       hold of it *)
    Theorem sys_adapter_is_run a ad : nth_error (ads s) a = Some ad -> exists pls, Pending.run Pending.init pls = Some ad.
    Proof. apply (si_reach _ run_SI). Qed.

    Lemma call_pos a k c p : call_at s a k c p -> alloc (gen s) p = Some (c_id c) /\ c_id c <> 0.
    Proof. intros H. apply (si_pos _ run_SI (HCall a k)). exists c. auto. Qed.

    Theorem sys_ids_nonzero a k c p : call_at s a k c p -> c_id c <> 0.
    Proof. intros H. apply (call_pos _ _ _ _ H). Qed.

    (* every call has its own allocation *)
    Theorem sys_own_allocation a1 k1 c1 a2 k2 c2 p : call_at s a1 k1 c1 p -> call_at s a2 k2 c2 p -> a1 = a2 /\ k1 = k2.
    Proof.
      intros H1 H2. assert (E : HCall a1 k1 = HCall a2 k2) by (apply (si_own _ run_SI _ _ p (c_id c1) (c_id c2)); eexists; eauto).
      injection E. auto.
    Qed.

    Lemma alloc_far p1 p2 x : p1 <> p2 -> alloc (gen s) p1 = Some x -> alloc (gen s) p2 = Some x -> two31 - 2 <= Z.abs (Z.of_nat p1 - Z.of_nat p2).
    Proof.
      assert (F : forall p j, alloc (gen s) p = Some x -> alloc (gen s) (p + S j) = Some x -> two31 - 2 <= Z.of_nat j + 1)
        by (intros p j; exact (reach_far maxi Hmax c0 _ p j x (si_ops _ run_SI))).
      intros Hne H1 H2. apply Nat.lt_gt_cases in Hne. destruct Hne as [L|L].
      - replace p2 with (p1 + S (p2 - p1 - 1))%nat in H2 by lia. pose proof (F _ _ H1 H2). lia.
      - replace p1 with (p2 + S (p1 - p2 - 1))%nat in H1 by lia. pose proof (F _ _ H2 H1). lia.
    Qed.

    (* two different calls of the process — on whatever adapters, outstanding or not — that carry the same id were
       allocated at least 2^31-2 allocations apart *)
    Theorem sys_shared_id_far a1 k1 c1 p1 a2 k2 c2 p2 : call_at s a1 k1 c1 p1 -> call_at s a2 k2 c2 p2 ->
      (a1 <> a2 \/ k1 <> k2) -> c_id c1 = c_id c2 -> two31 - 2 <= Z.abs (Z.of_nat p1 - Z.of_nat p2).
    Proof.
      intros H1 H2 Hne Hid. destruct (call_pos _ _ _ _ H1) as [A1 _]. destruct (call_pos _ _ _ _ H2) as [A2 _]. rewrite Hid in A1.
      apply (alloc_far _ _ _) with (2 := A1) (3 := A2). intros <-. destruct (sys_own_allocation _ _ _ _ _ _ _ H1 H2). tauto.
    Qed.

    (* no two concurrently outstanding calls of the process share an id, as long as no outstanding call has been
       overtaken by 2^31-2 later allocations *)
    Theorem sys_outstanding_distinct a1 k1 c1 p1 a2 k2 c2 p2 : all_young s ->
      call_at s a1 k1 c1 p1 -> call_at s a2 k2 c2 p2 -> active c1 = true -> active c2 = true ->
      c_id c1 = c_id c2 -> a1 = a2 /\ k1 = k2.
    Proof.
      intros Y H1 H2 Act1 Act2 Hid. destruct (Nat.eq_dec p1 p2) as [<-|Hp]; [exact (sys_own_allocation _ _ _ _ _ _ _ H1 H2)|exfalso].
      destruct (call_pos _ _ _ _ H1) as [A1 _]. destruct (call_pos _ _ _ _ H2) as [A2 _]. rewrite Hid in A1.
      pose proof (alloc_far _ _ _ Hp A1 A2) as F. pose proof (Y _ _ _ _ H1 Act1) as Y1. pose proof (Y _ _ _ _ H2 Act2) as Y2.
      apply alloc_lt in A1, A2. unfold age, allocs, two31 in *. lia.
    Qed.

    (* the reply a call holds carries the call's id, and (young calls) no other outstanding call of the process — on this
       or any other connection — has that id: it is addressed to nobody else *)
    Theorem sys_no_foreign_reply a k c p pk : all_young s -> call_at s a k c p -> c_pc c = CGot pk ->
      p_id pk = c_id c /\ p_id pk <> 0 /\
      forall a' k' c' p', call_at s a' k' c' p' -> active c' = true -> (a' <> a \/ k' <> k) -> c_id c' <> p_id pk.
    Proof.
      intros Y H Hpc. pose proof H as (ad & b & A & _ & C & _).
      destruct (si_reach _ run_SI _ _ A) as [pls Hp].
      destruct (PendingProofs.routing _ _ _ _ _ Hp C (or_introl Hpc)) as (R1 & R2 & _).
      split; [exact R1|]. split; [exact R2|]. intros a' k' c' p' H' Act' Hne Hid.
      assert (Act : active c = true) by (unfold active; rewrite Hpc; reflexivity).
      rewrite R1 in Hid. destruct (sys_outstanding_distinct _ _ _ _ _ _ _ _ Y H' H Act' Act Hid). tauto.
    Qed.

    (* the hypothesis of the two theorems above holds, in particular, as long as the process has performed fewer than
       2^31-1 allocations in all *)
    Lemma young_if_few : Z.of_nat (allocs s) < two31 - 1 -> all_young s.
    Proof. intros H a k c p _ _. unfold age, two31 in *. lia. Qed.
  End Run.

  Lemma srun_step s0 ls s l s' : srun maxi s0 ls = Some s -> sstep maxi s l = Some s' -> srun maxi s0 (ls ++ [l]) = Some s'.
  Proof. exact (Lts.run_step (sstep maxi) ls s0 s l s'). Qed.

  Lemma call_has_pos s a ad k c : SI s -> nth_error (ads s) a = Some ad -> nth_error (calls ad) k = Some c -> exists p, call_at s a k c p.
  Proof.
    intros I A C. destruct (si_born _ I _ _ A) as (b & B & L).
    destruct (nth_error b k) as [p|] eqn:D; [|apply nth_error_None in D; apply nth_lt in C; lia]. exists p, ad, b. auto.
  Qed.

  (* a registration keeps the calls there are and adds one, born at the position the registering thread holds *)
  Lemma call_at_registered s t a ow v ad b ad' a1 k1 c1 p1 : nth_error (ads s) a = Some ad -> nth_error (born s) a = Some b ->
    Pending.step ad (LRegister v ow) = Some ad' -> call_at s a1 k1 c1 p1 -> call_at (registered s t a ad' b) a1 k1 c1 p1.
  Proof.
    intros Ea Eb Es (x & y & A & B & C & D). cbn [Pending.step] in Es. injection Es as <-. unfold call_at. cbn [registered ads born].
    destruct (Nat.eq_dec a a1) as [<-|Hne].
    - rewrite Ea in A. injection A as <-. rewrite Eb in B. injection B as <-.
      rewrite (nth_error_upd_eq _ _ _ _ Ea), (nth_error_upd_eq _ _ _ _ Eb). do 2 eexists. split; [reflexivity|]. split; [reflexivity|].
      cbn [calls]. auto using nth_error_snoc_old.
    - rewrite !nth_error_upd_neq by exact Hne. exists x, y. auto.
  Qed.

  Lemma call_at_new s t a ow v ad b ad' : nth_error (ads s) a = Some ad -> nth_error (born s) a = Some b -> length b = length (calls ad) ->
    Pending.step ad (LRegister v ow) = Some ad' ->
    call_at (registered s t a ad' b) a (length (calls ad)) {| c_id := v; c_oneway := ow; c_pc := CReg |} (tp s t).
  Proof.
    intros Ea Eb L Es. cbn [Pending.step] in Es. injection Es as <-. unfold call_at. cbn [registered ads born].
    rewrite (nth_error_upd_eq _ _ _ _ Ea), (nth_error_upd_eq _ _ _ _ Eb). do 2 eexists. split; [reflexivity|]. split; [reflexivity|].
    cbn [calls]. rewrite <- L at 2. auto using nth_error_snoc_new.
  Qed.

  (* the generator discharges the hypothesis of the table theorems ([good_run]): whenever a thread registers a call, the id
     is non-zero and — provided no outstanding call has been overtaken by 2^31-2 later allocations — no outstanding call
     on any adapter of the process holds it *)
  Theorem sys_registration_good nt na ls s t a ow s' :
    srun maxi (sinit c0 nt na) ls = Some s -> sstep maxi s (SReg t a ow) = Some s' -> all_young s' ->
    exists v, nth_error (pcs (gen s)) t = Some (TDone v) /\ mgoodb (ads s) (a, LRegister v ow) = true.
  Proof.
    intros Hrun E Y. pose proof (srun_step _ _ _ _ _ Hrun E) as Hrun'. pose proof (run_SI _ _ _ _ Hrun) as I.
    pose proof (sstep_SStep _ _ _ E) as V. inversion V as [| ? ? ? v ad b ad' Et Ea Eb Es |]. subst.
    exists v. split; [exact Et|]. unfold mgoodb. cbn [snd].
    destruct (si_pos _ I (HThr t) _ v (conj Et eq_refl)) as [_ Hv]. apply andb_true_intro. split; [apply negb_true_iff, Z.eqb_neq, Hv|].
    apply forallb_forall. intros ad1 Hin. destruct (In_nth_error _ _ Hin) as [a1 Ea1].
    apply id_free_iff. intros k1 c1 Ek1 Act Eid.
    (* in the new state the old call and the new one are both outstanding, under the same id *)
    destruct (call_has_pos _ _ _ _ _ I Ea1 Ek1) as [p1 C1]. apply (call_at_registered s t a ow v ad b ad' _ _ _ _ Ea Eb Es) in C1.
    destruct (si_born _ I _ _ Ea) as (b0 & Eb0 & L0). rewrite Eb in Eb0. injection Eb0 as <-.
    pose proof (call_at_new s t a ow v ad b ad' Ea Eb L0 Es) as C2.
    destruct (sys_outstanding_distinct _ _ _ _ Hrun' _ _ _ _ _ _ _ _ Y C1 C2 Act eq_refl Eid) as [-> X2].
    rewrite Ea in Ea1. injection Ea1 as <-. apply nth_lt in Ek1. lia.
  Qed.
End Proofs.

(* the adapters of the process evolve by steps of the product machine that validates the recorded traces (Pending.mstep) *)
Theorem sstep_ads_mstep maxi s l s' : sstep maxi s l = Some s' ->
  ads s' = ads s \/ exists al, mstep (ads s) al = Some (ads s').
Proof.
  intros E. destruct (sstep_SStep _ _ _ _ E) as [gl g' Eg|t a ow v ad b ad' Et Ea Eb Es|a l ad ad' R Ea Es]; [left; reflexivity|right..].
  - exists (a, LRegister v ow). unfold mstep. cbn [fst snd]. rewrite Ea, Es. reflexivity.
  - exists (a, l). unfold mstep. cbn [fst snd]. rewrite Ea, Es. reflexivity.
Qed.

(* two threads, two adapters (connections): thread 0 allocates an id and registers a call on adapter 0, thread 1
   on adapter 1; the peer of adapter 1 answers with the id of the call on adapter 0 (dropped: adapter 1 has no such entry)
   and then with the right id; the call on adapter 0 times out.  Counter starts just below the wrap threshold. *)
Definition ex_labels : list slabel :=
  [SGen (LCall 0); SGen (LCall 1); SGen (LCas 0); SGen (LAdd 0); SGen (LCas 1); SGen (LAdd 1);
   SReg 1 1 false; SReg 0 0 false; SAd 0 (LSendOk 0); SAd 1 (LSendOk 0);
   SAd 1 (LPacket (mkp 2147483647 7 false)); SAd 1 (LLookup 0);
   SAd 1 (LPacket (mkp 2 9 false)); SAd 1 (LLookup 1); SAd 1 (LHandoff 1);
   SAd 0 (LTimeout 0); SAd 0 (LReturn 0)].

Example sys_ex :
  option_map (fun s => (map (fun ad => map (fun c => (c_id c, c_pc c)) (calls ad)) (ads s), born s, allocs s,
                        map (fun ad => map r_pc (recvs ad)) (ads s)))
    (srun 2147483647 (sinit 2147483646 2 2) ex_labels)
  = Some ([[(2147483647, CRet OTimeout)]; [(2, CGot (mkp 2 9 false))]], [[0%nat]; [1%nat]], 2%nat,
          [[]; [RDropped; RDone 0]]).
Proof. vm_compute. reflexivity. Qed.

Example sys_ex_young : forall s, srun 2147483647 (sinit 2147483646 2 2) ex_labels = Some s -> all_young s.
Proof.
  (* two allocations in all, as sys_ex has computed *)
  intros s H. apply young_if_few. pose proof sys_ex as X. rewrite H in X. injection X as _ _ A _. rewrite A. reflexivity.
Qed.

(* a one-way call takes its id from the same generator and is registered like any other (it returns right after the send) *)
Example sys_ex_oneway :
  option_map (fun s => map (fun ad => map (fun c => (c_id c, c_oneway c, c_pc c)) (calls ad)) (ads s))
    (srun 2147483647 (sinit (-2) 2 1)
       [SGen (LCall 0); SGen (LCall 1); SGen (LCas 0); SGen (LCas 1); SGen (LAdd 0); SGen (LAdd 1); SGen (LAdd 1);
        SReg 0 0 true; SReg 1 0 false; SAd 0 (LSendOk 0); SAd 0 (LReturn 0); SAd 0 (LSendOk 1)])
  = Some [[(-1, true, CRet OOneWay); (1, false, CWait)]].
Proof. vm_compute. reflexivity. Qed.

(* a registration needs an id of the thread's own: a thread that has not finished genRequestID cannot register *)
Example sys_ex_no_id : srun 2147483647 (sinit 5 1 1) [SGen (LCall 0); SGen (LCas 0); SReg 0 0 false] = None.
Proof. vm_compute. reflexivity. Qed.

(* math.MaxInt32, the value at which genRequestID wraps *)
Definition maxInt32 : Z := 2147483647.
Definition gcall (t : nat) : list ReqId.label := [LCall t; LCas t; LAdd t].

Lemma srun_app maxi a : forall s b, srun maxi s (a ++ b) = match srun maxi s a with Some m => srun maxi m b | None => None end.
Proof. exact (Lts.run_app (sstep maxi) a). Qed.

(* a run of generator labels is a run of the generator; the adapters and the positions of their calls stay *)
Lemma srun_gen maxi gls : forall s g', ReqId.run maxi (gen s) gls = Some g' ->
  exists s', srun maxi s (map SGen gls) = Some s' /\ gen s' = g' /\ ads s' = ads s /\ born s' = born s.
Proof.
  induction gls as [|gl gls IH]; intros s g' R; cbn [ReqId.run map srun sstep] in *.
  - injection R as <-. eauto.
  - destruct (ReqId.step maxi (gen s) gl) as [g1|]; [|discriminate].
    edestruct IH as (s' & A & B); [|exists s'; split; [exact A | exact B]]. exact R.
Qed.

Definition wrap_labels_n (n : nat) : list slabel :=
  map SGen (gcall 0) ++ [SReg 0 0 false] ++ map SGen (concat (repeat (gcall 1) n) ++ gcall 1) ++ [SReg 1 0 false].

Lemma wrap_general n : 2 + Z.of_nat n = maxInt32 ->
  exists s ad c1 c2, srun maxInt32 (sinit 1 2 1) (wrap_labels_n n) = Some s /\ nth_error (ads s) 0 = Some ad /\
    nth_error (calls ad) 0 = Some c1 /\ nth_error (calls ad) 1 = Some c2 /\
    active c1 = true /\ active c2 = true /\ c_id c1 = 2 /\ c_id c2 = 2.
Proof.
  intros Hn. unfold wrap_labels_n.
  (* thread 0: id 2, registered *)
  set (s1 := {| gen := {| ctr := 2; pcs := [TIdle; TIdle]; hist := [2]; ids := [2] |}; tpos := [0%nat; 0%nat];
            ads := [{| table := [(2, 0%nat)]; calls := [{| c_id := 2; c_oneway := false; c_pc := CReg |}]; recvs := [] |}]; born := [[0%nat]] |}).
  assert (R1 : srun maxInt32 (sinit 1 2 1) (map SGen (gcall 0) ++ [SReg 0 0 false]) = Some s1) by (vm_compute; reflexivity).
  unfold gcall in *. rewrite app_assoc, srun_app, R1, srun_app.
  (* thread 1: n calls up to the threshold, then the wrapping call *)
  destruct (calls_wrap maxInt32 eq_refl n (gen s1) 1%nat TIdle eq_refl (or_introl eq_refl)) as (g3 & R3 & P3); [unfold s1; cbn [gen ctr]; lia..|].
  destruct (srun_gen maxInt32 _ s1 g3 R3) as (s3 & S3 & G3 & A3 & B3). rewrite S3. cbn [srun sstep]. rewrite G3, P3, A3, B3.
  eexists. eexists. eexists. eexists. split; [vm_compute; reflexivity|]. vm_compute. repeat split; reflexivity.
Qed.

(* The unconditional clause "no two concurrently outstanding calls of a process share an id" is false of the model, hence
   of the code (a 32-bit counter): thread 0 allocates id 2 and registers a call that stays outstanding; thread 1 performs
   2^31-3 further allocations (3 .. maxInt32), then one more — the Cas resets the counter, the Add returns 2 — and registers
   a second call under id 2 on the same adapter.  (Symbolic: the 2^31-1 calls of genRequestID, three labels each, are never run.) *)
Definition wrap_labels : list slabel := wrap_labels_n (Z.to_nat 2147483645).

Theorem outstanding_share_id_after_wrap :
  exists s ad c1 c2, srun maxInt32 (sinit 1 2 1) wrap_labels = Some s /\ nth_error (ads s) 0 = Some ad /\
    nth_error (calls ad) 0 = Some c1 /\ nth_error (calls ad) 1 = Some c2 /\
    active c1 = true /\ active c2 = true /\ c_id c1 = 2 /\ c_id c2 = 2.
Proof. apply wrap_general. unfold maxInt32. lia. Qed.

(* ... so the clause holds only with the proviso of sys_outstanding_distinct *)
Theorem unconditional_distinct_refuted :
  ~ (forall c0 nt na ls s a1 k1 c1 p1 a2 k2 c2 p2, in_i32 c0 -> srun maxInt32 (sinit c0 nt na) ls = Some s ->
       call_at s a1 k1 c1 p1 -> call_at s a2 k2 c2 p2 -> active c1 = true -> active c2 = true -> c_id c1 = c_id c2 ->
       a1 = a2 /\ k1 = k2).
Proof.
  intros H. destruct outstanding_share_id_after_wrap as (s & ad & c1 & c2 & R & A & C1 & C2 & Act1 & Act2 & I1 & I2).
  pose proof (run_SI maxInt32 1 _ _ _ _ R) as I.
  destruct (call_has_pos _ _ _ _ _ _ _ I A C1) as [p1 P1]. destruct (call_has_pos _ _ _ _ _ _ _ I A C2) as [p2 P2].
  assert (X : 0%nat = 0%nat /\ 0%nat = 1%nat).
  { apply (H 1 2%nat 1%nat wrap_labels s _ _ c1 p1 _ _ c2 p2); auto; [unfold in_i32, two31; lia | congruence]. }
  destruct X as [_ X]. discriminate X.
Qed.
