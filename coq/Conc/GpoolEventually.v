(* C19 — "every submitted job is eventually run": infinite executions of the pool's transition system under weak fairness.
   An execution is a pair of functions (state and label at every index) with [step (σ n) (λ n) = Some (σ (S n))];
   submitters may keep sending for ever. Weak fairness of the pool's goroutines and of running jobs: an internal step
   that is enabled at some index is, at some later index, taken or not enabled. As long as the dispatcher never accepts a
   Release, every job that has been sent has finished at some later index. Constructive proof from the rank [mu] of
   GpoolFair.v (well-founded induction on the rank, chasing one helpful step until it is taken). *)
From Coq Require Import List Arith NArith Lia Bool Permutation.
From TarsV Require Import Conc.Gpool Conc.GpoolProofs Conc.GpoolLive Conc.GpoolFair.
Import ListNotations.

Section Ev.
Variable W Q : nat.
Notation step := (step W Q). Notation run := (run W Q).
Notation reachable := (reachable W Q).

Lemma external_keeps_pending s l s' j : internal l = false -> step s l = Some s' -> In j (jobq s ++ held (dp s)) ->
  In j (jobq s' ++ held (dp s')).
Proof.
  intros Hi Hs Hp. apply step_Step in Hs. destruct Hs; try discriminate; simp; auto.
  - rewrite <- app_assoc. apply in_app_or in Hp. apply in_or_app. destruct Hp; auto with datatypes.
  - rewrite Hd, Hq in Hp. destruct Hp.
Qed.

(* a step of somebody else that leaves the rank unchanged leaves a helpful step helpful *)
Lemma helpful_persists s j l l' s' : reachable s -> pre_release (dp s) = true -> ~ In j (fin s) ->
  helpful_for j s l -> step s l' = Some s' -> l' <> l -> l' <> RelCall -> mu j s' = mu j s -> helpful_for j s' l.
Proof.
  intros Hr Hp Hf [(A & Hi & Hl)|(w & p & Hw & Ho & Hown)] Hs Hne Hl' Hmu.
  - left. repeat split; auto. destruct (pending_not_occupying W Q s j Hr A) as [B _].
    destruct (pending_step W Q s l' s' j Hr Hp A B Hf Hl' Hs) as [_ H].
    destruct (internal l') eqn:Hi'; [lia|]. eapply external_keeps_pending; eauto.
  - right. exists w, p. repeat split; auto. eapply own_step_persists; eauto.
Qed.

Definition execution (σ : nat -> st) (λ : nat -> label) : Prop :=
  reachable (σ 0) /\ forall n, step (σ n) (λ n) = Some (σ (S n)).
(* weak fairness of every goroutine of the pool and of every running job: an enabled internal step is later taken or not enabled *)
Definition weakly_fair (σ : nat -> st) (λ : nat -> label) : Prop :=
  forall n l, internal l = true -> step (σ n) l <> None -> exists m, n <= m /\ (λ m = l \/ step (σ m) l = None).

Section Exec.
Variable σ : nat -> st.
Variable λ : nat -> label.
Hypothesis Hex : execution σ λ.

Lemma ex_reachable n : reachable (σ n).
Proof. destruct Hex as [H0 Hst]. induction n; [exact H0|]. eapply reachable_step; [exact IHn|apply Hst]. Qed.
Lemma ex_subm j n m : n <= m -> In j (subm (σ n)) -> In j (subm (σ m)).
Proof.
  destruct Hex as [_ Hst]. induction 1; auto. intros H0. eapply step_subm_mono; [apply Hst|auto].
Qed.
Lemma ex_fin j n m : n <= m -> In j (fin (σ n)) -> In j (fin (σ m)).
Proof.
  destruct Hex as [_ Hst]. induction 1; auto. intros H0. eapply step_fin_mono; [apply Hst|auto].
Qed.

(* chase a helpful enabled step until it is taken, the rank drops earlier, or the dispatcher accepts a Release *)
Lemma chase j l : internal l = true -> l <> RelCall -> forall d n,
  (λ (n + d) = l \/ step (σ (n + d)) l = None) -> pre_release (dp (σ n)) = true ->
  In j (subm (σ n)) -> ~ In j (fin (σ n)) -> helpful_for j (σ n) l -> step (σ n) l <> None ->
  exists m, n <= m /\ (λ m = RelCall \/ (mu j (σ (S m)) < mu j (σ n) /\ pre_release (dp (σ (S m))) = true)).
Proof.
  intros Hi Hl. destruct Hex as [_ Hst].
  assert (Take : forall n, pre_release (dp (σ n)) = true -> ~ In j (fin (σ n)) -> helpful_for j (σ n) l -> λ n = l ->
                 mu j (σ (S n)) < mu j (σ n) /\ pre_release (dp (σ (S n))) = true).
  { intros n Hp Hf Hh E. split.
    - eapply helpful_decreases; [apply ex_reachable|exact Hp|exact Hf|exact Hh|]. rewrite <- E. apply Hst.
    - eapply pre_release_step; [exact Hp| |apply Hst]. congruence. }
  induction d as [|d IH]; intros n Hend Hp Hj Hf Hh Hen.
  - rewrite Nat.add_0_r in Hend. destruct Hend as [E|E]; [|contradiction].
    exists n. split; [lia|]. right. now apply Take.
  - destruct (label_eq_dec (λ n) l) as [E|E]. { exists n. split; [lia|]. right. now apply Take. }
    destruct (label_eq_dec (λ n) RelCall) as [R|R]. { exists n. split; [lia|]. now left. }
    pose proof (pre_release_step _ _ _ _ _ Hp R (Hst n)) as Hp'.
    pose proof (mu_nonincreasing W Q (σ n) (λ n) (σ (S n)) j (ex_reachable n) Hp Hj R (Hst n)) as Hle.
    destruct (Nat.eq_dec (mu j (σ (S n))) (mu j (σ n))) as [Heq|Hneq]; [|exists n; split; [lia|right; split; [lia|exact Hp']]].
    assert (Hf' : ~ In j (fin (σ (S n)))).
    { intros X. apply mu_zero_iff in X. rewrite X in Heq. symmetry in Heq. apply mu_zero_iff in Heq. contradiction. }
    destruct (IH (S n)) as (m & Hm & Hres).
    + replace (S n + d) with (n + S d) by lia. exact Hend.
    + exact Hp'.
    + eapply step_subm_mono; [apply Hst|exact Hj].
    + exact Hf'.
    + eapply helpful_persists; [apply ex_reachable|exact Hp|exact Hf|exact Hh|apply Hst|exact E|exact R|exact Heq].
    + eapply enabled_step_persists; [exact Hp|exact Hi|exact Hl|exact Hen|apply Hst|exact E|exact R].
    + exists m. split; [lia|]. destruct Hres as [Hres|[Hlt Hpm]]; [now left|right; split; [lia|exact Hpm]].
Qed.

(* every job sent before the dispatcher accepts a Release finishes, unless a Release is accepted first *)
Theorem eventually_finished_or_released : 1 <= W -> weakly_fair σ λ ->
  forall j n, pre_release (dp (σ n)) = true -> In j (subm (σ n)) -> exists m, n <= m /\ (In j (fin (σ m)) \/ λ m = RelCall).
Proof.
  intros HW Hfair j.
  assert (G : forall k n, mu j (σ n) <= k -> pre_release (dp (σ n)) = true -> In j (subm (σ n)) ->
              exists m, n <= m /\ (In j (fin (σ m)) \/ λ m = RelCall)).
  { induction k as [|k IH]; intros n Hk Hp Hj.
    - exists n. split; [lia|]. left. apply mu_zero_iff. lia.
    - destruct (in_dec N.eq_dec j (fin (σ n))) as [Hf|Hf]; [exists n; split; [lia|now left]|].
      destruct (helpful_enabled W Q (σ n) j HW (ex_reachable n) Hp Hj Hf) as (l & Hh & Hi & Hl & Hen).
      destruct (Hfair n l Hi Hen) as (m0 & Hm0 & Hend).
      destruct (chase j l Hi Hl (m0 - n) n) as (m & Hm & Hres); auto.
      { replace (n + (m0 - n)) with m0 by lia. exact Hend. }
      destruct Hres as [R|[Hlt Hpm]]; [exists m; split; [lia|now right]|].
      destruct (IH (S m)) as (m' & Hm' & Hfin); [lia|exact Hpm|apply (ex_subm j n (S m)); [lia|exact Hj]|].
      exists m'. split; [lia|exact Hfin]. }
  intros n Hp Hj. apply (G (mu j (σ n)) n); auto.
Qed.

(* in particular: no Release accepted at all *)
Corollary eventually_finished : (forall n, λ n <> RelCall) -> pre_release (dp (σ 0)) = true -> 1 <= W -> weakly_fair σ λ ->
  forall j n, In j (subm (σ n)) -> exists m, n <= m /\ In j (fin (σ m)).
Proof.
  intros Hnorel Hpre0 HW Hfair j n Hj.
  assert (Hp : forall k, pre_release (dp (σ k)) = true).
  { destruct Hex as [_ Hst]. induction k; [exact Hpre0|]. eapply pre_release_step; [exact IHk|apply Hnorel|apply Hst]. }
  destruct (eventually_finished_or_released HW Hfair j n (Hp n) Hj) as (m & Hm & [H|H]); [eauto|].
  exfalso. apply (Hnorel m H).
Qed.
End Exec.
End Ev.

(* The hypotheses are satisfiable, for every W >= 1 and Q, by a scheduler: run the pool while one of its steps is enabled; when
   it is quiescent let a submitter go on (complete the pending send, log its return, or call with a fresh job) — submitters
   never stop, no Release. *)
Definition fresh (l : list job) : job := N.succ (fold_right N.max 0%N l).
Lemma fresh_notin l : ~ In (fresh l) l.
Proof.
  assert (H : forall x, In x l -> (x <= fold_right N.max 0 l)%N).
  { induction l as [|a l IH]; cbn; [tauto|]. intros x [<-|Hx]; [lia|]. specialize (IH x Hx). lia. }
  intros X. apply H in X. unfold fresh in X. lia.
Qed.

Section Sched.
Variable W Q : nat.
Notation step := (step W Q).
Notation reachable := (reachable W Q).

Definition sched (s : st) : label :=
  match next_internal W Q s with
  | Some l => l
  | None => match calling s with
            | j :: _ => if Q =? 0 then SubmitH j else Submit j
            | [] => match sentl s with j :: _ => SubRet j | [] => SubCall (fresh (clog s)) end
            end
  end.
Fixpoint sst (n : nat) : st :=
  match n with
  | O => init W
  | S k => let s := sst k in match step s (sched s) with Some s' => s' | None => s end
  end.
Definition slab (n : nat) : label := sched (sst n).

Lemma submitter_step_rp s l s' : step s l = Some s' -> internal l = false -> l <> RelLog -> rp s' = rp s.
Proof. intros Hs Hi Hl. apply step_Step in Hs. destruct Hs; try discriminate; try congruence; reflexivity. Qed.

Lemma sched_enabled s : 1 <= W -> reachable s -> rp s = RNot -> exists s', step s (sched s) = Some s' /\ rp s' = RNot.
Proof.
  intros HW Hr Hrp. unfold sched. destruct (next_internal W Q s) as [l|] eqn:E.
  - destruct (next_some _ _ _ _ E) as (Hi & s' & Hs). exists s'. split; [exact Hs|].
    destruct (internal_keeps _ _ _ _ _ Hs Hi) as (_ & _ & C). now apply C.
  - pose proof (next_none _ _ _ E) as Hq.
    destruct (quiescent_state W Q s HW Hr Hq) as [(_ & Hjq & Hd & _)|Hd]; [|congruence].
    destruct (calling s) as [|j c] eqn:Hc.
    + destruct (sentl s) as [|j r] eqn:Hsl.
      * pose proof (fresh_notin (clog s)) as Hn. apply mem_nIn in Hn.
        eexists. unfold Gpool.step. rewrite Hn. split; [reflexivity|exact Hrp].
      * eexists. unfold Gpool.step. rewrite Hsl. cbn [mem existsb]. rewrite N.eqb_refl. cbn [orb]. split; [reflexivity|exact Hrp].
    + assert (Hin : In j (calling s)) by (rewrite Hc; now left).
      destruct (submit_enabled_when_room W Q s j Hin) as [S1 S2]. destruct (Q =? 0) eqn:EQ.
      * destruct (S2 Hd Hjq) as [s' Hs]. exists s'. split; [exact Hs|].
        rewrite (submitter_step_rp _ _ _ Hs eq_refl ltac:(discriminate)). exact Hrp.
      * destruct S1 as [s' Hs]. { rewrite Hjq. cbn. apply Nat.eqb_neq in EQ. lia. } exists s'. split; [exact Hs|].
        rewrite (submitter_step_rp _ _ _ Hs eq_refl ltac:(discriminate)). exact Hrp.
Qed.

Lemma sst_inv : 1 <= W -> forall n, reachable (sst n) /\ rp (sst n) = RNot /\ step (sst n) (slab n) = Some (sst (S n)).
Proof.
  intros HW.
  assert (Hstep : forall n, reachable (sst n) -> rp (sst n) = RNot ->
                    step (sst n) (slab n) = Some (sst (S n)) /\ rp (sst (S n)) = RNot).
  { intros n Hr Hrp. destruct (sched_enabled (sst n) HW Hr Hrp) as (s' & Hs & Hrp'). unfold slab. cbn [sst]. rewrite Hs. auto. }
  induction n as [|n (Hr & Hrp & Hs)].
  - destruct (Hstep 0 (reachable_init W Q) eq_refl). repeat split; auto. apply reachable_init.
  - destruct (Hstep n Hr Hrp) as [_ Hrp']. pose proof (reachable_step _ _ _ _ _ Hr Hs) as Hr'.
    destruct (Hstep (S n) Hr' Hrp'). auto.
Qed.

Lemma sst_reaches_quiescence : 1 <= W -> forall k n, measure (sst n) < k -> exists m, n <= m /\ quiescent W Q (sst m).
Proof.
  intros HW. induction k as [|k IH]; intros n Hk; [lia|]. destruct (next_internal W Q (sst n)) as [l|] eqn:E.
  - destruct (next_some _ _ _ _ E) as (Hi & s' & Hs). destruct (sst_inv HW n) as (_ & _ & Hst).
    unfold slab, sched in Hst. rewrite E in Hst. rewrite Hs in Hst. injection Hst as Hst.
    pose proof (internal_step_decreases _ _ _ _ _ Hs Hi) as Hd. rewrite Hst in Hd.
    change (measure (sst (S n)) < measure (sst n)) in Hd.
    destruct (IH (S n)) as (m & Hm & Hq); [lia|]. exists m. split; [lia|exact Hq].
  - exists n. split; [lia|]. exact (next_none _ _ _ E).
Qed.

Theorem fair_execution_exists : 1 <= W ->
  execution W Q sst slab /\ (forall n, slab n <> RelCall) /\ pre_release (dp (sst 0)) = true /\ weakly_fair W Q sst slab.
Proof.
  intros HW. split; [|split; [|split]].
  - split; [apply reachable_init|]. intros n. apply (sst_inv HW n).
  - intros n E. destruct (sst_inv HW n) as (_ & Hrp & Hs). rewrite E in Hs. unfold Gpool.step in Hs. rewrite Hrp in Hs. discriminate.
  - reflexivity.
  - intros n l Hi _. destruct (sst_reaches_quiescence HW (S (measure (sst n))) n (le_n _)) as (m & Hm & Hq).
    exists m. split; [exact Hm|]. right. apply Hq. exact Hi.
Qed.
End Sched.

(* the instance W = 2, Q = 1: in 300 steps of this execution 30 jobs are sent and finished, alternating between the two workers;
   W = 1, Q = 0 (every send is a hand-over to the dispatcher waiting in its select): 34 sent, 33 finished *)
Example fair_execution_example :
  length (subm (sst 2 1 300)) = 30 /\ length (fin (sst 2 1 300)) = 30 /\
  length (subm (sst 1 0 300)) = 34 /\ length (fin (sst 1 0 300)) = 33 /\
  map (slab 2 1) (seq 0 14) = [WorkerReg 0; WorkerReg 1; SubCall 1; Submit 1; DTake; DWorker; Hand; JStart 0; JEnd 0; JobEnd 0;
                               WorkerReg 0; SubRet 1; SubCall 2; Submit 2]%N.
Proof. vm_compute. repeat split. Qed.
