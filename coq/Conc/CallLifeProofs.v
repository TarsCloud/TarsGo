(* C09 proofs about the call-life LTS of CallLife.v: invariants over all label sequences. *)
From Coq Require Import List NArith ZArith Bool Arith Lia ZifyBool ZifyNat ZifyN.
From TarsV Require Import Base.Lts Gen.C09Consts Conc.CallLife.
Import ListNotations.
Open Scope N_scope.

Inductive reach (c : cfg) : state -> Prop :=
| reach_init : reach c init
| reach_step : forall s l s', reach c s -> step c s l = Some s' -> reach c s'.

Lemma run_is c ls s : run c s ls = Lts.run (step c) s ls.
Proof. revert ls s. apply Lts.run_unique; reflexivity. Qed.

Lemma run_reach : forall c ls s s', reach c s -> run c s ls = Some s' -> reach c s'.
Proof. intros c ls s s' Hr. rewrite run_is. revert Hr. apply Lts.run_inv. intros a l b Ha Hs. exact (reach_step c a l b Ha Hs). Qed.

Lemma nth_upd_eq : forall A (l : list A) i x k, nth_error l i = Some k -> nth_error (upd l i x) i = Some x.
Proof. induction l as [|h t IH]; intros [|i] x k H; cbn in *; try discriminate; eauto. Qed.

Lemma nth_upd_neq : forall A (l : list A) i j x, i <> j -> nth_error (upd l i x) j = nth_error l j.
Proof.
  induction l as [|h t IH]; intros [|i] [|j] x H; cbn; try reflexivity; try congruence.
  apply IH; congruence.
Qed.

Lemma nth_upd_inv : forall A (l : list A) i j x k0 k, nth_error l i = Some k0 ->
  nth_error (upd l i x) j = Some k -> (j = i /\ k = x) \/ (j <> i /\ nth_error l j = Some k).
Proof.
  intros A l i j x k0 k H0 H. destruct (Nat.eq_dec i j) as [->|Hn].
  - rewrite (nth_upd_eq _ _ _ _ _ H0) in H. inversion H; auto.
  - rewrite nth_upd_neq in H by exact Hn. right; split; auto.
Qed.

Lemma upd_length : forall A (l : list A) i x, length (upd l i x) = length l.
Proof. induction l as [|h t IH]; intros [|i] x; cbn; auto. Qed.

Lemma nth_app_inv : forall A (l : list A) x j k, nth_error (l ++ [x]) j = Some k ->
  nth_error l j = Some k \/ (j = length l /\ k = x).
Proof.
  intros A l x j k H. destruct (Nat.lt_ge_cases j (length l)) as [Hl|Hl].
  - rewrite nth_error_app1 in H by exact Hl. auto.
  - rewrite nth_error_app2 in H by exact Hl. destruct (j - length l)%nat eqn:E; cbn in H.
    + inversion H; subst. right; split; [lia|reflexivity].
    + destruct n; discriminate.
Qed.

Lemma existsb_false_nth : forall A (f : A -> bool) l i x, existsb f l = false -> nth_error l i = Some x -> f x = false.
Proof.
  intros A f l i x H Hn. destruct (f x) eqn:E; [|reflexivity].
  assert (existsb f l = true) by (apply existsb_exists; exists x; split; [eapply nth_error_In; eauto|exact E]). congruence.
Qed.

Lemma existsb_nth : forall A (f : A -> bool) l, existsb f l = true -> exists i x, nth_error l i = Some x /\ f x = true.
Proof.
  intros A f l H. apply existsb_exists in H. destruct H as [x [Hin Hf]]. apply In_nth_error in Hin. destruct Hin as [i Hi]. eauto.
Qed.

(* ---------- what a step does, field by field ----------
   [step] is written label by label; the invariants below each watch a few fields of the state.  This section turns the
   definition round once: which call a label acts on and what becomes of it, and for every other field which labels write it. *)

(* the call a label acts on (a delivery finds it through the receiver), where that call must stand, what it becomes *)
Definition subject (s : state) (l : label) : option nat :=
  match l with
  | LPre i | LReg i | LQueueFull i | LLock i | LDialOk i | LDialFail i | LDialTimeout i | LEnq i | LEnqTimeout i
  | LCtxFire i | LClean i | LPost i | LCancel i | LFilterErr i | LCount i | LUncount i => Some i
  | LDeliver r => match nth_error (rcvs s) r with
                  | Some x => match r_pc x with RFound j => Some j | _ => None end
                  | None => None end
  | _ => None
  end.
Definition pc_at (l : label) : pc :=
  match l with
  | LPre _ => Init | LQueueFull _ | LFilterErr _ | LCount _ => Pre | LReg _ => Counted | LLock _ => Reg
  | LDialOk _ | LDialFail _ | LDialTimeout _ => Dialing | LEnq _ | LEnqTimeout _ => Enq
  | LCtxFire _ | LCancel _ | LDeliver _ => Waiting | LUncount _ => Done | LClean _ => Uncounted | LPost _ => Cleaned
  | _ => Returned
  end.
Definition moved (s : state) (l : label) (k : call) : call :=
  match l with
  | LPre _ => set_pc k Pre
  | LQueueFull _ | LFilterErr _ => set_full k
  | LCount _ => set_pc k Counted
  | LReg _ => set_reg k (rels (tr s))
  | LLock _ => if conn_open s then set_lock k Enq (now s) false (rels (tr s) - k_rel0 k)
               else set_lock k Dialing (now s) true (rels (tr s) - k_rel0 k)
  | LDialOk _ => set_wait k Enq (now s)
  | LDialFail _ | LDialTimeout _ => set_out k Error (k_e k)
  | LEnq _ => set_enq k (k_t0 k <? now s)
  | LEnqTimeout _ => set_out k Error true
  | LCtxFire _ => set_out k Timeout (k_e k)
  | LCancel _ => set_out k Cancelled (k_e k)
  | LDeliver r => set_out k (Reply (match nth_error (rcvs s) r with Some x => r_pay x | None => 0 end)) (k_e k)
  | LUncount _ => set_pc k Uncounted
  | LClean _ => set_pc k Cleaned
  | LPost _ => set_ret k (now s)
  | _ => k
  end.
Definition new_call (s : state) (d : N) (ow : bool) (px : nat) : call :=
  mkcall px ow (now s) (now s + d) Init (now s) (now s) false false None 0 0 0.

(* what a receiver becomes: it finds a channel at the lookup if the table has one under the packet's id, else it is done *)
Definition rmoved (s : state) (l : label) (x : rcv) : rcv :=
  match l, call_of (r_id x) with
  | LLookup _, Some j => if memb j (resp s) then mkrcv (r_id x) (r_pay x) (RFound j) (now s) else mkrcv (r_id x) (r_pay x) RDone (r_t0 x)
  | _, _ => mkrcv (r_id x) (r_pay x) RDone (r_t0 x)
  end.

(* [step] opened once: what happens to the calls, the enabling conditions the invariants use, and every other field as
   a function of the label (each names the labels that write it), in the order now, queueLen, invokeNum, resp, conn_open,
   lock, rels, sendq, wire, sent, rcvs *)
Lemma step_spec c s l s' : step c s l = Some s' ->
  match subject s l with
  | Some i => exists k, nth_error (calls s) i = Some k /\ k_pc k = pc_at l /\ calls s' = upd (calls s) i (moved s l k)
  | None => calls s' = match l with Start d ow px => calls s ++ [new_call s d ow px] | _ => calls s end
  end /\
  match l with
  | Tick => urgent c s = false
  | LLock _ | LConnDown | LIdleClose | LCloseOld => lock s = None
  | LCtxFire i => forall k, nth_error (calls s) i = Some k -> k_dl k <= now s
  | LSendTake => sendq s <> []
  | _ => True end /\
  now s' = match l with Tick => now s + 1 | _ => now s end /\
  queueLen s' = match l with
                | LCount i => match nth_error (calls s) i with
                              | Some k => fset (queueLen s) (k_px k) (queueLen s (k_px k) + 1)%Z | None => queueLen s end
                | LUncount i => match nth_error (calls s) i with
                                | Some k => fset (queueLen s) (k_px k) (queueLen s (k_px k) - 1)%Z | None => queueLen s end
                | _ => queueLen s end /\
  invokeNum s' = match l with LPre _ => invokeNum s + 1 | LPost _ => invokeNum s - 1 | _ => invokeNum s end%Z /\
  resp s' = match l with LReg i => i :: resp s | LClean i => remove_nat i (resp s) | _ => resp s end /\
  conn_open s' = match l with LDialOk _ => true | LConnDown | LIdleClose => false | _ => conn_open s end /\
  lock s' = match l with
            | LLock i => if conn_open s then lock s else Some i
            | LDialOk _ | LDialFail _ | LDialTimeout _ => None
            | _ => lock s end /\
  rels (tr s') = match l with LDialOk _ | LDialFail _ | LDialTimeout _ => rels (tr s) + 1 | _ => rels (tr s) end /\
  sendq s' = match l with LEnq i => sendq s ++ [i] | LSendTake => tl (sendq s) | _ => sendq s end /\
  wire s' = match l with LSendTake => firstn 1 (sendq s) ++ wire s | _ => wire s end /\
  sent s' = match l with LPeerPkt id pay => (id, pay) :: sent s | _ => sent s end /\
  match l with
  | LPeerPkt id pay => rcvs s' = rcvs s ++ [mkrcv id pay RNew 0]
  | LLookup r | LDeliver r | LGiveUp r =>
      exists x, nth_error (rcvs s) r = Some x /\ rcvs s' = upd (rcvs s) r (rmoved s l x) /\
                match l with LLookup _ => r_pc x = RNew | _ => exists j, r_pc x = RFound j end
  | _ => rcvs s' = rcvs s end.
Proof.
  intros H. destruct l; unfold step in H; cbn [subject pc_at moved].
  (* Each scrutinee of the label's clause is destructed in [H] and in the goal at once, so the goal speaks of the same call
     or receiver as [H] and no equation has to be named; the branches that yield [None] are closed. The one arithmetical
     guard is LCtxFire's. *)
  all: try solve [
    repeat match type of H with context [match ?x with _ => _ end] => destruct x eqn:?; try discriminate H end;
    injection H as <-; cbn; repeat split; eauto; try discriminate; try (intros k [= <-]; lia) ].
  (* LLookup: the goal states the three results of the lookup through [rmoved], under a binder *)
  destruct (nth_error (rcvs s) r) as [x|] eqn:Hx; [|discriminate]. destruct (r_pc x) eqn:Hp; try discriminate.
  assert (E : s' = with_rcvs s (upd (rcvs s) r (rmoved s (LLookup r) x))).
  { unfold rmoved. destruct (call_of (r_id x)) as [j|]; [destruct (memb j (resp s))|]; congruence. }
  subst s'. cbn. repeat split; eauto.
Qed.

(* ---------- A. the counters and the pending-reply table are functions of the program counters ---------- *)
(* counted: between atomic.AddInt32(&queueLen, 1) and the deferred AddInt32(-1); inside: between resp.Store and the deferred
   resp.Delete (the two pairs are separate instructions: the windows differ at both ends) *)
Definition counted (k : call) : bool :=
  match k_pc k with Counted | Reg | Dialing | Enq | Waiting | Done => true | _ => false end.
Definition inside (k : call) : bool :=
  match k_pc k with Reg | Dialing | Enq | Waiting | Done | Uncounted => true | _ => false end.
Definition in_doInvoke (k : call) : bool := counted k || inside k.
Definition counted_by (p : nat) (k : call) : bool := counted k && Nat.eqb p (k_px k).
Definition invoked (k : call) : bool :=
  match k_pc k with Init | Returned => false | _ => true end.
Fixpoint cnt (f : call -> bool) (l : list call) : Z :=
  match l with [] => 0%Z | k :: t => ((if f k then 1 else 0) + cnt f t)%Z end.
Definition inside_at (l : list call) (i : nat) : Prop := exists k, nth_error l i = Some k /\ inside k = true.

Lemma cnt_upd : forall f l i k x, nth_error l i = Some k ->
  cnt f (upd l i x) = (cnt f l - (if f k then 1 else 0) + (if f x then 1 else 0))%Z.
Proof.
  induction l as [|h t IH]; intros [|i] k x H; cbn in *; try discriminate.
  - inversion H; subst. lia.
  - rewrite (IH _ _ x H). lia.
Qed.
Lemma cnt_app : forall f l x, cnt f (l ++ [x]) = (cnt f l + (if f x then 1 else 0))%Z.
Proof. induction l as [|h t IH]; intros x; cbn; [lia|rewrite IH; lia]. Qed.
Lemma cnt_nonneg : forall f l, (0 <= cnt f l)%Z.
Proof. induction l as [|h t IH]; cbn; [lia|destruct (f h); lia]. Qed.
Lemma cnt_zero : forall f l, cnt f l = 0%Z -> forall i k, nth_error l i = Some k -> f k = false.
Proof.
  induction l as [|h t IH]; intros H [|i] k Hn; cbn in *; try discriminate.
  - inversion Hn; subst. pose proof (cnt_nonneg f t). destruct (f k); [lia|reflexivity].
  - pose proof (cnt_nonneg f t). eapply IH; eauto. destruct (f h); lia.
Qed.
Lemma cnt_all_false : forall f l, (forall i k, nth_error l i = Some k -> f k = false) -> cnt f l = 0%Z.
Proof.
  induction l as [|h t IH]; intros H; cbn; [reflexivity|].
  rewrite (H O h eq_refl). rewrite IH; [reflexivity|]. intros i k Hn. apply (H (S i) k Hn).
Qed.

Lemma inside_at_upd l i k x j : nth_error l i = Some k ->
  inside_at (upd l i x) j <-> (if Nat.eqb j i then inside x = true else inside_at l j).
Proof.
  intros Hk. unfold inside_at. destruct (Nat.eqb_spec j i) as [->|Hne].
  - rewrite (nth_upd_eq _ _ _ _ _ Hk). split; [intros (? & [= <-] & E); exact E | eauto].
  - rewrite nth_upd_neq by congruence. reflexivity.
Qed.

Record InvA (s : state) : Prop := {
  a_q : forall p, queueLen s p = cnt (counted_by p) (calls s);
  a_n : invokeNum s = cnt invoked (calls s);
  a_r : forall i, In i (resp s) <-> inside_at (calls s) i;
  a_nd : NoDup (resp s) }.

Lemma remove_nat_in : forall i j l, In j (remove_nat i l) <-> (In j l /\ j <> i).
Proof.
  intros i j l. unfold remove_nat. rewrite filter_In. split; intros [H1 H2]; split; auto.
  - intros ->. rewrite Nat.eqb_refl in H2. discriminate.
  - destruct (Nat.eqb i j) eqn:E; [apply Nat.eqb_eq in E; congruence|reflexivity].
Qed.

Lemma InvA_init : InvA init.
Proof.
  split; cbn; try reflexivity; [|constructor].
  intros i; split; [intros []|]. intros [k [H _]]. destruct i; discriminate.
Qed.

(* call i is replaced: the proxy's queueLen follows what the replacement changes in [counted], invokeNum what it changes in
   [invoked], the table what it changes in [inside] *)
Lemma InvA_upd s s' i k x : InvA s -> nth_error (calls s) i = Some k -> calls s' = upd (calls s) i x -> k_px x = k_px k ->
  queueLen s' = (if eqb (counted x) (counted k) then queueLen s
                 else fset (queueLen s) (k_px k) (queueLen s (k_px k) + (if counted x then 1 else -1))%Z) ->
  invokeNum s' = (if eqb (invoked x) (invoked k) then invokeNum s else invokeNum s + (if invoked x then 1 else -1))%Z ->
  resp s' = (if eqb (inside x) (inside k) then resp s else if inside x then i :: resp s else remove_nat i (resp s)) ->
  InvA s'.
Proof.
  intros [Hq Hn Hr Hd] Hk Hc Hpx Eq En Er. split.
  - intros p. rewrite Hc, (cnt_upd _ _ _ _ x Hk), <- Hq, Eq. unfold counted_by, fset. rewrite Hpx.
    destruct (counted x), (counted k); cbn; destruct (Nat.eqb_spec p (k_px k)) as [->|]; lia.
  - rewrite Hc, (cnt_upd _ _ _ _ x Hk), <- Hn, En. destruct (invoked x), (invoked k); cbn; lia.
  - intros j. rewrite Hc, (inside_at_upd _ _ _ _ _ Hk), Er.
    assert (Hi : inside_at (calls s) i <-> inside k = true)
      by (unfold inside_at; rewrite Hk; split; [intros (? & [= <-] & E); exact E | eauto]).
    destruct (inside x), (inside k), (Nat.eqb_spec j i) as [->|Hne]; cbn [eqb In]; rewrite ?remove_nat_in, ?Hr; intuition congruence.
  - rewrite Er. destruct (inside x), (inside k) eqn:Ek; cbn [eqb]; auto; [|apply NoDup_filter; exact Hd].
    constructor; [|exact Hd]. rewrite Hr. intros (? & E & Hi). congruence.
Qed.

Lemma InvA_frame : forall s s', InvA s -> calls s' = calls s -> queueLen s' = queueLen s -> invokeNum s' = invokeNum s ->
  resp s' = resp s -> InvA s'.
Proof.
  intros s s' [Hq Hn Hr Hd] Hc Hq' Hn' Hr'. split.
  - intros p. rewrite Hq', Hc. apply Hq.
  - rewrite Hn', Hc. exact Hn.
  - intros i. rewrite Hr', Hc. apply Hr.
  - rewrite Hr'. exact Hd.
Qed.

Lemma InvA_step : forall c s l s', InvA s -> step c s l = Some s' -> InvA s'.
Proof.
  intros c s l s' HA H. destruct (step_spec _ _ _ _ H) as (Hc & _ & _ & Eq & En & Er & _).
  destruct (subject s l) as [i|] eqn:Hs.
  - (* a caller's action: each label writes exactly the fields that its change of program counter calls for *)
    destruct Hc as (k & Hk & Hp & Hc). apply (InvA_upd s s' i k (moved s l k) HA Hk Hc); unfold counted, inside, invoked; rewrite ?Hp;
      destruct l; try discriminate Hs; cbn in Hs |- *; try injection Hs as ->; rewrite ?Hk in Eq; try assumption; try reflexivity.
    (* LLock and LEnq have two outcomes each, within the same windows *)
    all: try (destruct (conn_open s); assumption || reflexivity).
    all: try (unfold set_enq; destruct (k_ow k); assumption || reflexivity).
  - destruct l; try discriminate Hs; try (apply (InvA_frame s s' HA Hc Eq En Er)).
    (* Start *)
    destruct HA as [Hq Hn Hr Hd]. split; rewrite ?Hc, ?Eq, ?En, ?Er, ?cnt_app; cbn; [intros p; rewrite cnt_app, Hq; cbn; lia | lia | | exact Hd].
    intros j. rewrite Hr. unfold inside_at. split; intros (k & Hk & Hi).
    + exists k. split; [|exact Hi]. rewrite nth_error_app1; [exact Hk|]. apply nth_error_Some. congruence.
    + apply nth_app_inv in Hk. destruct Hk as [Hk|[_ ->]]; [eauto|discriminate].
Qed.

Theorem InvA_reach : forall c s, reach c s -> InvA s.
Proof. induction 1; [apply InvA_init|eapply InvA_step; eauto]. Qed.

Theorem restored_counts : forall c s, reach c s ->
  (forall p, queueLen s p = cnt (counted_by p) (calls s)) /\ invokeNum s = cnt invoked (calls s) /\
  (forall i, In i (resp s) <-> inside_at (calls s) i) /\ NoDup (resp s).
Proof. intros c s H. destruct (InvA_reach c s H) as [Hq Hn Hr Hd]. exact (conj Hq (conj Hn (conj Hr Hd))). Qed.

Lemma restored_zero c s : reach c s ->
  ((forall i k, nth_error (calls s) i = Some k -> counted k = false) -> forall p, queueLen s p = 0%Z) /\
  ((forall i k, nth_error (calls s) i = Some k -> invoked k = false) -> invokeNum s = 0%Z) /\
  ((forall i k, nth_error (calls s) i = Some k -> inside k = false) -> resp s = []).
Proof.
  intros H. destruct (InvA_reach c s H) as [Hq Hn Hr _]. repeat split.
  - intros Hz p. rewrite Hq. apply cnt_all_false. intros i k Hk. unfold counted_by. rewrite (Hz i k Hk). reflexivity.
  - intros Hz. rewrite Hn. apply cnt_all_false. exact Hz.
  - intros Hz. destruct (resp s) as [|j t]; [reflexivity|]. destruct (proj1 (Hr j) (or_introl eq_refl)) as (k & Hk & Hi).
    rewrite (Hz j k Hk) in Hi. discriminate.
Qed.

Theorem restored_quiescent : forall c s, reach c s ->
  (forall i k, nth_error (calls s) i = Some k -> k_pc k = Init \/ k_pc k = Returned) ->
  (forall p, queueLen s p = 0%Z) /\ invokeNum s = 0%Z /\ resp s = [].
Proof.
  intros c s H Hq. destruct (restored_zero c s H) as (Z1 & Z2 & Z3).
  repeat split; [apply Z1 | apply Z2 | apply Z3]; intros i k Hk; unfold counted, invoked, inside; destruct (Hq _ _ Hk) as [-> | ->]; reflexivity.
Qed.

(* no call inside doInvoke: queueLen and the pending-reply table are empty, whatever the other calls do outside *)
Theorem restored_no_call_inside : forall c s, reach c s ->
  (forall i k, nth_error (calls s) i = Some k -> in_doInvoke k = false) -> (forall p, queueLen s p = 0%Z) /\ resp s = [].
Proof.
  intros c s H Hq. destruct (restored_zero c s H) as (Z1 & _ & Z3).
  split; [apply Z1 | apply Z3]; intros i k Hk; destruct (orb_false_elim _ _ (Hq i k Hk)); assumption.
Qed.

Lemma cnt_ext : forall f l1 l2, length l1 = length l2 ->
  (forall j k1 k2, nth_error l1 j = Some k1 -> nth_error l2 j = Some k2 -> f k1 = f k2) -> cnt f l1 = cnt f l2.
Proof.
  induction l1 as [|h1 t1 IH]; intros [|h2 t2] Hl He; cbn in *; try discriminate; [reflexivity|].
  rewrite (He O h1 h2 eq_refl eq_refl). rewrite (IH t2); [reflexivity|lia|]. intros j k1 k2 H1 H2. apply (He (S j)); auto.
Qed.
Lemma inside_at_ext l1 l2 j : length l1 = length l2 ->
  (forall a b, nth_error l1 j = Some a -> nth_error l2 j = Some b -> inside a = inside b) -> inside_at l1 j -> inside_at l2 j.
Proof.
  unfold inside_at. intros Hl He (a & Ha & Hi). destruct (nth_error l2 j) as [b|] eqn:Hb.
  - exists b. split; [reflexivity|]. rewrite <- (He a b Ha eq_refl). exact Hi.
  - apply nth_error_None in Hb. assert (j < length l1)%nat by (apply nth_error_Some; congruence). lia.
Qed.

Lemma restored_same_windows c s1 s2 : reach c s1 -> reach c s2 -> length (calls s1) = length (calls s2) ->
  (forall j a b, nth_error (calls s1) j = Some a -> nth_error (calls s2) j = Some b ->
     counted a = counted b /\ k_px a = k_px b /\ invoked a = invoked b /\ inside a = inside b) ->
  (forall p, queueLen s1 p = queueLen s2 p) /\ invokeNum s1 = invokeNum s2 /\ (forall j, In j (resp s1) <-> In j (resp s2)).
Proof.
  intros H1 H2 Hl Hw. destruct (InvA_reach c s1 H1) as [Hq1 Hn1 Hr1 _]. destruct (InvA_reach c s2 H2) as [Hq2 Hn2 Hr2 _].
  repeat split.
  - intros p. rewrite Hq1, Hq2. apply cnt_ext; [exact Hl|]. intros j a b Ha Hb. unfold counted_by.
    destruct (Hw j a b Ha Hb) as (-> & -> & _). reflexivity.
  - rewrite Hn1, Hn2. apply cnt_ext; [exact Hl|]. intros j a b Ha Hb. apply (Hw j a b Ha Hb).
  - rewrite Hr1, Hr2. apply inside_at_ext; [exact Hl|]. intros a b Ha Hb. apply (Hw j a b Ha Hb).
  - rewrite Hr1, Hr2. apply inside_at_ext; [symmetry; exact Hl|]. intros b a Hb Ha. symmetry. apply (Hw j a b Ha Hb).
Qed.

(* per call: the three values after the call has returned equal the values before it entered, given the other calls
   stand where they stood *)
Theorem restored_per_call : forall c s1 s2 i k1 k2, reach c s1 -> reach c s2 ->
  length (calls s1) = length (calls s2) ->
  (forall j a b, j <> i -> nth_error (calls s1) j = Some a -> nth_error (calls s2) j = Some b -> k_pc a = k_pc b) ->
  (forall j a b, nth_error (calls s1) j = Some a -> nth_error (calls s2) j = Some b -> k_px a = k_px b) ->
  nth_error (calls s1) i = Some k1 -> k_pc k1 = Init -> nth_error (calls s2) i = Some k2 -> k_pc k2 = Returned ->
  (forall p, queueLen s1 p = queueLen s2 p) /\ invokeNum s1 = invokeNum s2 /\ (forall j, In j (resp s1) <-> In j (resp s2)).
Proof.
  intros c s1 s2 i k1 k2 H1 H2 Hl Hsame Hpx Hk1 Hp1 Hk2 Hp2. apply (restored_same_windows c s1 s2 H1 H2 Hl).
  intros j a b Ha Hb. unfold counted, invoked, inside. rewrite (Hpx j a b Ha Hb). destruct (Nat.eq_dec j i) as [->|Hne].
  - assert (a = k1) by congruence. assert (b = k2) by congruence. subst. rewrite Hp1, Hp2. auto.
  - rewrite (Hsame _ _ _ Hne Ha Hb). auto.
Qed.

Definition all_calls (P : nat -> call -> Prop) (l : list call) : Prop := forall i k, nth_error l i = Some k -> P i k.

Lemma all_upd2 : forall (P : nat -> call -> Prop) l i k0 x,
  nth_error l i = Some k0 -> (forall j k, j <> i -> nth_error l j = Some k -> P j k) -> P i x -> all_calls P (upd l i x).
Proof.
  intros P l i k0 x H0 Ha Hx j k Hj. destruct (nth_upd_inv _ _ _ _ _ _ _ H0 Hj) as [[-> ->]|[Hne Hj']]; auto.
Qed.
Lemma all_app : forall (P : nat -> call -> Prop) l x, all_calls P l -> P (length l) x -> all_calls P (l ++ [x]).
Proof. intros P l x Ha Hx j k Hj. apply nth_app_inv in Hj. destruct Hj as [Hj|[-> ->]]; auto. Qed.
Lemma all_imp : forall (P Q : nat -> call -> Prop) l, all_calls P l -> (forall i k, nth_error l i = Some k -> P i k -> Q i k) -> all_calls Q l.
Proof. intros P Q l Ha Hi i k Hk. apply Hi; auto. Qed.

(* a property of every call, possibly depending on the rest of the state, survives a step if it carries over at the
   calls the label does not act on, holds of the call it moved, and of a call that starts *)
Lemma all_calls_step (P Q : nat -> call -> Prop) c s l s' : step c s l = Some s' -> all_calls P (calls s) ->
  (forall j k, nth_error (calls s) j = Some k -> subject s l <> Some j -> P j k -> Q j k) ->
  (forall i k, subject s l = Some i -> nth_error (calls s) i = Some k -> k_pc k = pc_at l -> P i k -> Q i (moved s l k)) ->
  (forall d ow px, l = Start d ow px -> Q (length (calls s)) (new_call s d ow px)) ->
  all_calls Q (calls s').
Proof.
  intros H HP Hframe Hmoved Hnew. destruct (step_spec _ _ _ _ H) as (Hc & _). destruct (subject s l) as [i|] eqn:Hs.
  - destruct Hc as (k & Hk & Hp & ->). apply (all_upd2 _ _ _ _ _ Hk); [|auto].
    intros j kj Hne Hj. apply Hframe; [exact Hj|congruence|auto].
  - assert (Hold : all_calls Q (calls s)) by (intros j k Hk; apply Hframe; [exact Hk|discriminate|auto]).
    rewrite Hc. destruct l; try exact Hold. apply all_app; eauto.
Qed.

(* ---------- T. time: what each program counter implies about the clock ---------- *)
Definition dl_d (c : cfg) (k : call) : N := if k_d k then dialT c else 0.
Definition wr_e (c : cfg) (k : call) : N := if k_e k then writeT c else 0.
(* the bound of a call: its deadline, or the end of its Send (lock acquired + dial if it dialled + enqueue wait if it waited) *)
Definition B (c : cfg) (k : call) : N := N.max (k_dl k) (k_lockt k + dl_d c k + wr_e c k).

Definition time_ok (c : cfg) (n : N) (k : call) : Prop :=
  k_start k <= n /\ k_start k <= k_dl k /\ k_start k <= k_lockt k /\
  match k_pc k with
  | Init | Pre | Counted => n = k_start k /\ k_e k = false
  | Reg => k_e k = false
  | Dialing => k_d k = true /\ k_e k = false /\ k_t0 k = k_lockt k /\ k_lockt k <= n /\ n <= k_lockt k + dialT c
  | Enq => k_e k = false /\ k_lockt k <= k_t0 k /\ k_t0 k <= k_lockt k + dl_d c k /\ k_t0 k <= n /\ n <= k_t0 k + writeT c
  | Waiting | Done | Uncounted | Cleaned => n <= B c k
  | Returned => k_ret k <= B c k /\ k_ret k <= n
  end.

Definition InvT (c : cfg) (s : state) : Prop := all_calls (fun _ k => time_ok c (now s) k) (calls s).

Lemma InvT_init : forall c, InvT c init.
Proof. intros c i k H. destruct i; discriminate. Qed.

Lemma InvT_step : forall c s l s', 0 < writeT c -> InvT c s -> step c s l = Some s' -> InvT c s'.
Proof.
  intros c s l s' Hw HT H. destruct (step_spec _ _ _ _ H) as (_ & Hg & En & _).
  apply (all_calls_step _ _ c s l s' H HT); cbv beta; rewrite En.
  - (* only a tick moves the clock, and only when no call has anything to do *)
    intros j k Hk _ Hok. destruct l; try exact Hok.
    apply orb_false_elim in Hg. destruct Hg as [Hu _]. pose proof (existsb_false_nth _ _ _ _ _ Hu Hk) as Hnu.
    unfold call_urgent in Hnu. unfold time_ok, B in *. destruct (k_pc k); try discriminate Hnu; lia.
  - intros i k Hs Hk Hp Hok. clear H HT. unfold time_ok, B, dl_d, wr_e in *. rewrite Hp in Hok.
    destruct l; try discriminate Hs; cbn in *; try exact Hok.
    (* the dial and enqueue allowances of the moved call are those of the old one, or constants: no case split on the ghosts *)
    all: try lia.
    + (* LLock *) destruct (conn_open s); cbn; lia.
    + (* LEnq: the call waited if the clock moved since it began to *)
      unfold set_enq. destruct (k_ow k), (N.ltb_spec (k_t0 k) (now s)); cbn; lia.
  - intros d ow px ->. unfold time_ok, new_call. cbn. lia.
Qed.

Theorem InvT_reach : forall c s, 0 < writeT c -> reach c s -> InvT c s.
Proof. intros c s Hw. induction 1; [apply InvT_init|eapply InvT_step; eauto]. Qed.

(* ---------- L. connLock is held exactly by the call that is dialling ---------- *)
Definition InvL (s : state) : Prop :=
  (forall i, lock s = Some i -> exists k, nth_error (calls s) i = Some k /\ k_pc k = Dialing) /\
  (forall i k, nth_error (calls s) i = Some k -> k_pc k = Dialing -> lock s = Some i).

Lemma InvL_init : InvL init.
Proof. split; [intros i H; discriminate|intros [|i] k H; discriminate]. Qed.

Definition dialing (k : call) : bool := match k_pc k with Dialing => true | _ => false end.
Lemma dialing_pc k : dialing k = true <-> k_pc k = Dialing.
Proof. unfold dialing. destruct (k_pc k); split; congruence. Qed.

(* call i is replaced: the lock goes to it when it begins to dial (it was free), is free when it stops, stays otherwise *)
Lemma InvL_upd s s' i k x : InvL s -> nth_error (calls s) i = Some k -> calls s' = upd (calls s) i x ->
  lock s' = (if dialing x then Some i else if dialing k then None else lock s) ->
  (dialing x = true -> lock s = None) -> InvL s'.
Proof.
  intros [H1 H2] Hk Hc El Hfree. split.
  - intros j Hj. rewrite El in Hj. rewrite Hc. destruct (dialing x) eqn:Ex.
    + injection Hj as <-. exists x. rewrite (nth_upd_eq _ _ _ _ _ Hk). rewrite dialing_pc in Ex. auto.
    + destruct (dialing k) eqn:Ek; [discriminate|]. destruct (H1 j Hj) as (kj & Hkj & Hd). exists kj.
      rewrite nth_upd_neq; [auto|]. intros ->. apply dialing_pc in Hd. congruence.
  - intros j kj Hj Hd. rewrite Hc in Hj. rewrite El.
    destruct (nth_upd_inv _ _ _ _ _ _ _ Hk Hj) as [[-> ->]|[Hne Hj']]; [apply dialing_pc in Hd; rewrite Hd; reflexivity|].
    pose proof (H2 j kj Hj' Hd) as Ej. destruct (dialing x) eqn:Ex; [rewrite (Hfree eq_refl) in Ej; discriminate|].
    destruct (dialing k) eqn:Ek; [|exact Ej]. apply dialing_pc in Ek. rewrite (H2 i k Hk Ek) in Ej. congruence.
Qed.

Lemma InvL_step : forall c s l s', InvL s -> step c s l = Some s' -> InvL s'.
Proof.
  intros c s l s' HL H. destruct (step_spec _ _ _ _ H) as (Hc & Hg & _ & _ & _ & _ & _ & El & _).
  destruct (subject s l) as [i|] eqn:Hs.
  - destruct Hc as (k & Hk & Hp & Hc). apply (InvL_upd s s' i k (moved s l k) HL Hk Hc); unfold dialing; rewrite ?Hp;
      destruct l; try discriminate Hs; cbn in Hs |- *; try injection Hs as ->; try assumption; try discriminate.
    all: try (unfold set_enq; destruct (k_ow k); assumption || discriminate).
    all: destruct (conn_open s); cbn; auto; discriminate.
  - destruct HL as [H1 H2]. unfold InvL. destruct l; try discriminate Hs; rewrite El, Hc; try (split; assumption).
    (* Start *)
    split.
    + intros i Hi. destruct (H1 _ Hi) as (k & Hk & Hd). exists k. split; [|exact Hd].
      rewrite nth_error_app1; [exact Hk|]. apply nth_error_Some. congruence.
    + intros i k Hk Hd. apply nth_app_inv in Hk. destruct Hk as [Hk|[_ ->]]; [eauto|discriminate].
Qed.

Theorem InvL_reach : forall c s, reach c s -> InvL s.
Proof. induction 1; [apply InvL_init|eapply InvL_step; eauto]. Qed.

(* R. a receiver carries a packet the peer sent; one that found a channel found it under the packet's id and has held it for
   at most ReadTimeout (inductive: a tick is refused while a receiver's timer is due) *)
Definition rcv_ok (c : cfg) (s : state) (x : rcv) : Prop :=
  In (r_id x, r_pay x) (sent s) /\
  match r_pc x with
  | RFound j => call_of (r_id x) = Some j /\ r_t0 x <= now s /\ now s <= r_t0 x + readT c
  | _ => True end.
Definition InvR (c : cfg) (s : state) : Prop := forall r x, nth_error (rcvs s) r = Some x -> rcv_ok c s x.

Lemma InvR_init : forall c, InvR c init.
Proof. intros c [|r] x H; discriminate. Qed.

Lemma rcv_ok_rmoved c s l x : rcv_ok c s x -> rcv_ok c s (rmoved s l x).
Proof.
  intros [Hin _]. unfold rmoved. destruct l, (call_of (r_id x)) as [j|] eqn:E; try (split; [exact Hin|exact I]).
  destruct (memb j (resp s)); split; try exact Hin; try exact I. cbn. split; [exact E|lia].
Qed.

Lemma InvR_step : forall c s l s', InvR c s -> step c s l = Some s' -> InvR c s'.
Proof.
  intros c s l s' HR H. destruct (step_spec _ _ _ _ H) as (_ & Hg & En & _ & _ & _ & _ & _ & _ & _ & _ & Es & Er).
  unfold InvR, rcv_ok. rewrite En, Es.
  destruct l; try (rewrite Er; exact HR);
    (* a receiver moves: LLookup, LDeliver, LGiveUp *)
    try (destruct Er as (x0 & Hx0 & -> & _); intros r' x Hx;
         destruct (nth_upd_inv _ _ _ _ _ _ _ Hx0 Hx) as [[_ ->]|[_ Hx']];
         [apply rcv_ok_rmoved; exact (HR _ _ Hx0) | exact (HR _ _ Hx')]).
  - (* Tick: no receiver has anything to do *)
    rewrite Er. intros r x Hx. destruct (HR _ _ Hx) as [Hin Hok]. split; [exact Hin|].
    apply orb_false_elim in Hg. destruct Hg as [_ Hu]. pose proof (existsb_false_nth _ _ _ _ _ Hu Hx) as Hnu.
    unfold rcv_urgent in Hnu. destruct (r_pc x); auto. apply orb_false_elim in Hnu. split; [tauto|lia].
  - (* LPeerPkt *)
    rewrite Er. intros r x Hx. apply nth_app_inv in Hx. destruct Hx as [Hx|[_ ->]].
    + destruct (HR _ _ Hx) as [Hin Hok]. split; [right; exact Hin|exact Hok].
    + split; [left; reflexivity|exact I].
Qed.

Theorem InvR_reach : forall c s, reach c s -> InvR c s.
Proof. intros c. induction 1; [apply InvR_init|eapply InvR_step; eauto]. Qed.

Lemma call_of_id : forall id j, call_of id = Some j -> id_of j = id.
Proof.
  unfold call_of, id_of. intros id j H. destruct (id =? 0) eqn:E; [discriminate|]. inversion H; subst. lia.
Qed.

(* O. outcomes. Per program counter: whether the outcome is decided, and up to Enq that the request is in no queue. Per outcome:
   the evidence [outcome_classes] returns (a reply is a packet the peer sent under the call's id, a timeout has the deadline
   behind it, an error means the request never left, Sent means it was queued by a one-way call). Inductive because every
   label that decides an outcome has that evidence in its guard or, for a delivery, in R. *)
Definition notq (s : state) (i : nat) : Prop := ~ In i (sendq s) /\ ~ In i (wire s).
Definition out_ok (s : state) (i : nat) (k : call) : Prop :=
  match k_pc k with
  | Init | Pre | Counted | Reg | Dialing | Enq => k_out k = None /\ notq s i
  | Waiting => k_out k = None
  | Done | Uncounted | Cleaned => exists o, k_out k = Some o
  | Returned => (exists o, k_out k = Some o) /\ (k_out k = Some Timeout -> k_dl k <= k_ret k)
  end
  /\ (forall p, k_out k = Some (Reply p) -> In (id_of i, p) (sent s))
  /\ (k_out k = Some Timeout -> k_dl k <= now s)
  /\ (k_out k = Some Error -> notq s i)
  /\ (k_out k = Some Sent -> In i (sendq s) \/ In i (wire s))
  /\ (k_out k = Some Sent -> k_ow k = true).
Definition InvO (s : state) : Prop :=
  all_calls (out_ok s) (calls s) /\ (forall i, In i (sendq s) \/ In i (wire s) -> (i < length (calls s))%nat).

Lemma out_ok_frame : forall s s' j k,
  (In j (sendq s') \/ In j (wire s') <-> In j (sendq s) \/ In j (wire s)) ->
  incl (sent s) (sent s') -> now s <= now s' -> out_ok s j k -> out_ok s' j k.
Proof.
  intros s s' j k Hq Hs Hn [H1 [H2 [H3 [H4 [H5 H6]]]]].
  assert (Hnq : notq s j -> notq s' j) by (unfold notq; tauto).
  unfold out_ok. split; [|split; [|split; [|split; [|split]]]].
  - destruct (k_pc k); try exact H1; destruct H1 as [A1 A2]; split; auto.
  - intros p Hp. apply Hs. auto.
  - intros Ht. specialize (H3 Ht). lia.
  - intros He. apply Hnq. auto.
  - intros He. apply Hq. auto.
  - exact H6.
Qed.

Lemma InvO_init : InvO init.
Proof. split; [intros [|i] k H; discriminate|intros i [[]|[]]]. Qed.

Lemma step_queued c s l s' j : step c s l = Some s' ->
  (In j (sendq s') \/ In j (wire s') <-> (In j (sendq s) \/ In j (wire s)) \/ l = LEnq j).
Proof.
  intros H. destruct (step_spec _ _ _ _ H) as (_ & Hg & _ & _ & _ & _ & _ & _ & _ & -> & -> & _).
  destruct l; try (split; [auto | intros [A|A]; [exact A|discriminate A]]).
  - rewrite in_app_iff. cbn. split; [intros [[A|[->|[]]]|A]; auto | intros [[A|A]|[= ->]]; auto].
  - destruct (sendq s) as [|a q]; [contradiction|]. cbn. split; [|intros [A|A]; [|discriminate A]]; tauto.
Qed.

Lemma step_length c s l s' : step c s l = Some s' -> (length (calls s) <= length (calls s'))%nat.
Proof.
  intros H. destruct (step_spec _ _ _ _ H) as (Hc & _). destruct (subject s l).
  - destruct Hc as (k & _ & _ & ->). rewrite upd_length. lia.
  - rewrite Hc. destruct l; try lia. rewrite app_length. lia.
Qed.

(* a call whose outcome has just been decided: only the clause of that outcome has to be shown *)
Lemma out_ok_decided s i x o : k_out x = Some o -> k_pc x = Done \/ k_pc x = Cleaned ->
  match o with
  | Reply p => In (id_of i, p) (sent s)
  | Timeout => k_dl x <= now s
  | Error => notq s i
  | Sent => (In i (sendq s) \/ In i (wire s)) /\ k_ow x = true
  | Cancelled => True
  end -> out_ok s i x.
Proof.
  intros Ho Hp Hc. unfold out_ok. rewrite Ho. split; [destruct Hp as [-> | ->]; eauto|].
  destruct o; repeat split; try discriminate; try tauto; try (intros q [= <-]; exact Hc); apply Hc.
Qed.

Lemma InvO_step : forall c s l s', InvR c s -> InvO s -> step c s l = Some s' -> InvO s'.
Proof.
  intros c s l s' HR [HO HI] H. destruct (step_spec _ _ _ _ H) as (_ & Hg & En & _ & _ & _ & _ & _ & _ & Eq & Ew & Es & Er).
  pose proof (fun j => step_queued c s l s' j H) as Hq.
  assert (Hfr : forall j k, l <> LEnq j -> out_ok s j k -> out_ok s' j k).
  { intros j k Hne. apply out_ok_frame; [rewrite Hq; tauto| |rewrite En; destruct l; lia].
    rewrite Es. destruct l; auto using incl_refl, incl_tl. }
  split.
  - apply (all_calls_step _ _ c s l s' H HO).
    + intros j k Hk Hs. apply Hfr. intros ->. apply Hs. reflexivity.
    + intros i k Hs Hk Hp Hok.
      assert (Hok' : l <> LEnq i -> out_ok s' i k) by (intros Hne; apply Hfr; assumption).
      clear HO HI Hq Hfr. unfold out_ok in Hok, Hok'. rewrite Hp in Hok, Hok'.
      destruct l; try discriminate Hs; cbn [subject moved pc_at] in Hs, Hp, Hok, Hok' |- *; try injection Hs as ->;
        try specialize (Hok' ltac:(discriminate)).
      (* no outcome is decided and the call stays within the clauses it satisfies *)
      all: try exact Hok'.
      (* an error: the request is in no queue *)
      all: try (apply (out_ok_decided s' i _ Error); [reflexivity|auto|exact (proj2 (proj1 Hok'))]).
      * (* LLock *) destruct (conn_open s); exact Hok'.
      * (* LEnq: the request enters the send queue; a one-way call has its outcome *)
        destruct Hok as ((Ho & _) & _). unfold out_ok, notq, set_enq. rewrite Eq, Ew, Es, En.
        destruct (k_ow k) eqn:How; cbn; rewrite ?Ho; repeat split; try discriminate; eauto.
        intros _. left. apply in_or_app. right. left. reflexivity.
      * (* LCtxFire: the deadline is behind *)
        apply (out_ok_decided s' i _ Timeout); [reflexivity|auto|]. rewrite En. exact (Hg k Hk).
      * (* LPost fixes k_ret at the clock, which the deadline clause bounds *)
        unfold out_ok. cbn -[id_of]. rewrite En in Hok' |- *. tauto.
      * (* LDeliver: the receiver holds a packet the peer sent under this call's id *)
        destruct Er as (x & Hx & _ & j & Hf). rewrite Hx, Hf in Hs. injection Hs as ->. rewrite Hx.
        destruct (HR _ _ Hx) as [Hin Hrf]. rewrite Hf in Hrf. destruct Hrf as [Hc _]. apply call_of_id in Hc.
        apply (out_ok_decided s' i _ (Reply (r_pay x))); [reflexivity|auto|]. rewrite Es, Hc. exact Hin.
      * (* LCancel *) apply (out_ok_decided s' i _ Cancelled); [reflexivity|auto|exact I].
    + intros d ow px ->. cbn in Eq, Ew. unfold out_ok, notq, new_call. rewrite Eq, Ew. cbn. repeat split; try discriminate; intros A; apply (Nat.lt_irrefl (length (calls s))); apply HI; auto.
  - intros i Hi. apply Hq in Hi. apply (Nat.lt_le_trans _ (length (calls s))); [|exact (step_length _ _ _ _ H)].
    destruct Hi as [Hi| ->]; [auto|]. destruct (step_spec _ _ _ _ H) as ((k & Hk & _) & _). apply nth_error_Some. congruence.
Qed.

Theorem InvO_reach : forall c s, reach c s -> InvO s.
Proof. intros c. induction 1; [apply InvO_init|eapply InvO_step; eauto using InvR_reach]. Qed.

Theorem outcome_classes : forall c s i k, reach c s -> nth_error (calls s) i = Some k -> k_pc k = Returned ->
  exists o, k_out k = Some o /\
    match o with
    | Reply p => In (id_of i, p) (sent s)                 (* a packet the peer sent with this call's id *)
    | Timeout => k_dl k <= k_ret k                         (* never before the deadline *)
    | Error => ~ In i (sendq s) /\ ~ In i (wire s)         (* the request never left *)
    | Sent => k_ow k = true /\ (In i (sendq s) \/ In i (wire s))   (* one-way: the request was queued *)
    | Cancelled => True                                    (* the caller gave up while the call waited *)
    end.
Proof.
  intros c s i k H Hk Hp. destruct (InvO_reach c s H) as [HO _]. specialize (HO _ _ Hk). unfold out_ok in HO. rewrite Hp in HO.
  destruct HO as [[[o Ho] Ht] [Hr [_ [He [Hs Hw]]]]]. exists o. split; [exact Ho|].
  destruct o; [apply Hr; exact Ho|apply Ht; exact Ho|apply He; exact Ho|split; [apply Hw; exact Ho|apply Hs; exact Ho]|exact I].
Qed.

Theorem returns_partial : forall c s i k, 0 < writeT c -> reach c s -> nth_error (calls s) i = Some k -> k_pc k = Returned ->
  k_ret k <= B c k.
Proof. intros c s i k Hw H Hk Hp. pose proof (InvT_reach c s Hw H _ _ Hk) as Ht. cbv beta in Ht. unfold time_ok in Ht. rewrite Hp in Ht. tauto. Qed.

Theorem returns_uncontended : forall c s i k, 0 < writeT c -> reach c s -> nth_error (calls s) i = Some k -> k_pc k = Returned ->
  k_lockt k = k_start k -> k_e k = false -> k_ret k <= k_dl k + dialT c.
Proof.
  intros c s i k Hw H Hk Hp Hl He. pose proof (returns_partial c s i k Hw H Hk Hp) as Hb.
  destruct (InvT_reach c s Hw H _ _ Hk) as (_ & Hd & _). unfold B, dl_d, wr_e in Hb. rewrite He in Hb. destruct (k_d k); lia.
Qed.

Theorem returns_established : forall c s i k, 0 < writeT c -> reach c s -> nth_error (calls s) i = Some k -> k_pc k = Returned ->
  k_lockt k = k_start k -> k_d k = false -> k_e k = false -> k_ret k <= k_dl k.
Proof.
  intros c s i k Hw H Hk Hp Hl Hd He. pose proof (returns_partial c s i k Hw H Hk Hp) as Hb.
  destruct (InvT_reach c s Hw H _ _ Hk) as (_ & Hs & _). unfold B, dl_d, wr_e in Hb. rewrite He, Hd in Hb. lia.
Qed.

(* the clock cannot pass the bound of a call that is past connLock and has not returned *)
Theorem alive_bounded : forall c s i k, 0 < writeT c -> reach c s -> nth_error (calls s) i = Some k ->
  match k_pc k with
  | Dialing => now s <= k_lockt k + dialT c
  | Enq => now s <= k_lockt k + dl_d c k + writeT c
  | Waiting | Done | Cleaned => now s <= B c k
  | _ => True end.
Proof.
  intros c s i k Hw H Hk. destruct (InvT_reach c s Hw H _ _ Hk) as (_ & _ & _ & Hx). destruct (k_pc k); auto; lia.
Qed.

(* before connLock: a call waits only while another call holds the lock, and nobody holds it longer than DialTimeout *)
Theorem lock_wait : forall c s i k, 0 < writeT c -> reach c s -> nth_error (calls s) i = Some k -> k_pc k = Reg ->
  step c s Tick <> None ->
  exists j kj, lock s = Some j /\ nth_error (calls s) j = Some kj /\ k_pc kj = Dialing /\ now s < k_lockt kj + dialT c.
Proof.
  intros c s i k Hw H Hk Hp Ht. cbn [step] in Ht. destruct (urgent c s) eqn:Hu; [congruence|].
  unfold urgent in Hu. apply orb_false_elim in Hu. destruct Hu as [Hu _].
  pose proof (existsb_false_nth _ _ _ _ _ Hu Hk) as Hn. unfold call_urgent in Hn. rewrite Hp in Hn.
  destruct (lock s) as [j|] eqn:Hl; [|discriminate]. destruct (InvL_reach c s H) as [H1 _]. destruct (H1 _ Hl) as [kj [Hkj Hd]].
  exists j, kj. repeat split; auto.
  pose proof (existsb_false_nth _ _ _ _ _ Hu Hkj) as Hnj. unfold call_urgent in Hnj. rewrite Hd in Hnj.
  destruct (InvT_reach c s Hw H _ _ Hkj) as (_ & _ & _ & Htj). rewrite Hd in Htj. lia.
Qed.

(* the full-strength statement of the deadline clause, and its two refutations *)
Definition returns_statement : Prop :=
  forall c s i k, 0 < writeT c -> reach c s -> nth_error (calls s) i = Some k -> k_pc k = Returned -> k_ret k <= k_dl k + dialT c.

Fixpoint ticks (n : nat) : list label := match n with O => [] | S m => Tick :: ticks m end.

(* (a) two callers, connection establishment stalls: the second caller waits for connLock while the first one dials *)
Definition stalled_cfg : cfg := mkcfg 40 60 10 100 100000 60000.
Definition stalled_trace : list label :=
  [Start 20 false 0%nat; Start 20 false 0%nat; LPre 0; LCount 0; LReg 0; LLock 0; LPre 1; LCount 1; LReg 1] ++ ticks 40 ++
  [LDialTimeout 0; LUncount 0; LClean 0; LPost 0; LLock 1] ++ ticks 40 ++ [LDialTimeout 1; LUncount 1; LClean 1; LPost 1].
(* (b) the peer accepts and never reads, send queue of length 1: the second caller waits WriteTimeout for room *)
Definition fullq_cfg : cfg := mkcfg 10 60 10 1 100000 60000.
Definition fullq_trace : list label :=
  [Start 10 false 0%nat; Start 10 false 0%nat; LPre 0; LCount 0; LReg 0; LLock 0; LDialOk 0; LEnq 0; LPre 1; LCount 1; LReg 1; LLock 1] ++ ticks 10 ++
  [LCtxFire 0; LUncount 0; LClean 0; LPost 0] ++ ticks 50 ++ [LEnqTimeout 1; LUncount 1; LClean 1; LPost 1].

Definition late_call (c : cfg) (ls : list label) (i : nat) : bool :=
  match run c init ls with
  | Some s => match nth_error (calls s) i with
              | Some k => match k_pc k with Returned => k_dl k + dialT c <? k_ret k | _ => false end
              | None => false end
  | None => false end.

Lemma late_call_refutes : forall c ls i, 0 < writeT c -> late_call c ls i = true -> ~ returns_statement.
Proof.
  intros c ls i Hw Hl Hs. unfold late_call in Hl.
  destruct (run c init ls) as [s|] eqn:Hr; [|discriminate].
  destruct (nth_error (calls s) i) as [k|] eqn:Hk; [|discriminate].
  destruct (k_pc k) eqn:Hp; try discriminate.
  pose proof (Hs c s i k Hw (run_reach c ls init s (reach_init c) Hr) Hk Hp). lia.
Qed.

Theorem returns_refuted_stalled_dial : ~ returns_statement.
Proof. apply (late_call_refutes stalled_cfg stalled_trace 1); [reflexivity|vm_compute; reflexivity]. Qed.
Theorem returns_refuted_full_queue : ~ returns_statement.
Proof. apply (late_call_refutes fullq_cfg fullq_trace 1); [reflexivity|vm_compute; reflexivity]. Qed.

Definition not_waiting (s : state) (j : nat) : Prop := forall k, nth_error (calls s) j = Some k -> k_pc k <> Waiting.
Definition same_calls (s s' : state) : Prop :=
  calls s' = calls s /\ queueLen s' = queueLen s /\ invokeNum s' = invokeNum s /\ resp s' = resp s /\
  sendq s' = sendq s /\ wire s' = wire s /\ lock s' = lock s /\ conn_open s' = conn_open s /\ now s' = now s.

Lemma receivers_inert c s l s' : step c s l = Some s' -> subject s l = None ->
  match l with LPeerPkt _ _ | LLookup _ | LDeliver _ | LGiveUp _ => same_calls s s' | _ => True end.
Proof.
  intros H Hs. destruct (step_spec _ _ _ _ H) as (Hc & _ & En & Eq & Ei & Er & Eo & El & _ & Es & Ew & _). rewrite Hs in Hc.
  destruct l; try exact I; repeat split; assumption.
Qed.

(* a packet whose id belongs to a call that is not waiting (returned, never issued, id 0) changes no call, no counter and
   no table entry, whatever its receiver does *)
Theorem late_reply_inert : forall c s r x l s', reach c s -> nth_error (rcvs s) r = Some x ->
  (forall j, call_of (r_id x) = Some j -> not_waiting s j) ->
  l = LLookup r \/ l = LDeliver r \/ l = LGiveUp r -> step c s l = Some s' -> same_calls s s'.
Proof.
  intros c s r x l s' H Hx Hnw Hl Hs. pose proof (receivers_inert c s l s' Hs) as Hi.
  destruct Hl as [-> | [-> | ->]]; try (apply Hi; reflexivity).
  (* a delivery would find the call waiting *)
  destruct (subject s (LDeliver r)) as [j|] eqn:Ej; [exfalso|apply Hi; reflexivity].
  destruct (step_spec _ _ _ _ Hs) as (Hc & _). rewrite Ej in Hc. destruct Hc as (k & Hk & Hp & _).
  cbn in Ej. rewrite Hx in Ej. destruct (InvR_reach c s H _ _ Hx) as [_ Hrf].
  destruct (r_pc x); try discriminate. injection Ej as ->. apply (Hnw j (proj1 Hrf) k Hk Hp).
Qed.

(* nor does its emission *)
Theorem peer_packet_inert : forall c s id pay s', step c s (LPeerPkt id pay) = Some s' -> same_calls s s'.
Proof. intros c s id pay s' H. apply (receivers_inert c s _ s' H). reflexivity. Qed.

(* closing a connection - the current one or, by a goroutine of an earlier connection, one that is not current any more -
   needs connLock free and leaves it free; a stale close changes nothing at all *)
Theorem close_releases_lock : forall c s l s', l = LConnDown \/ l = LCloseOld -> step c s l = Some s' ->
  lock s = None /\ lock s' = None /\ calls s' = calls s /\ (forall p, queueLen s' p = queueLen s p) /\ invokeNum s' = invokeNum s /\
  resp s' = resp s /\ sendq s' = sendq s /\ (l = LCloseOld -> conn_open s' = conn_open s).
Proof.
  intros c s l s' Hl H. destruct (step_spec _ _ _ _ H) as (Hc & Hg & _ & Eq & Ei & Er & Eo & El & _ & Es & _).
  destruct Hl as [-> | ->]; cbn in Hc; rewrite El, Eq; repeat split; auto; discriminate.
Qed.

(* the sender goroutine's idle check closes the connection and nothing else: it needs connLock free and leaves it free,
   touches no call, counter, table entry or queue; the next call simply dials again *)
Theorem idle_close_inert : forall c s s', step c s LIdleClose = Some s' ->
  lock s = None /\ lock s' = None /\ conn_open s' = false /\ calls s' = calls s /\ queueLen s' = queueLen s /\
  invokeNum s' = invokeNum s /\ resp s' = resp s /\ sendq s' = sendq s /\ wire s' = wire s /\ now s' = now s.
Proof.
  intros c s s' H. destruct (step_spec _ _ _ _ H) as (Hc & Hg & En & Eq & Ei & Er & Eo & El & _ & Es & Ew & _).
  rewrite El. repeat split; assumption.
Qed.

(* a reply that arrives after its call has returned is dropped at the table lookup *)
Theorem late_reply_dropped : forall c s r x j k s', reach c s -> nth_error (rcvs s) r = Some x -> r_pc x = RNew ->
  call_of (r_id x) = Some j -> nth_error (calls s) j = Some k -> k_pc k = Returned ->
  step c s (LLookup r) = Some s' -> exists x', nth_error (rcvs s') r = Some x' /\ r_pc x' = RDone.
Proof.
  intros c s r x j k s' H Hx Hn Hc Hk Hp Hs. destruct (InvA_reach c s H) as [_ _ Hr _].
  assert (Hm : memb j (resp s) = false).
  { destruct (memb j (resp s)) eqn:E; [|reflexivity]. unfold memb in E. apply existsb_exists in E. destruct E as [j' [Hin Hj]].
    apply Nat.eqb_eq in Hj. subst j'. apply Hr in Hin. destruct Hin as [k' [Hk' Hi]]. rewrite Hk in Hk'. inversion Hk'; subst.
    unfold inside in Hi. rewrite Hp in Hi. discriminate. }
  cbn [step] in Hs. rewrite Hx, Hn, Hc, Hm in Hs. inversion Hs; subst. unfold with_rcvs; cbn [rcvs].
  eexists. split; [eapply nth_upd_eq; eauto|reflexivity].
Qed.

(* a delivery changes exactly the call whose id the packet carries, and only while that call is waiting *)
Theorem reply_only_to_its_call : forall c s r x s', reach c s -> nth_error (rcvs s) r = Some x -> step c s (LDeliver r) = Some s' ->
  exists j k, call_of (r_id x) = Some j /\ nth_error (calls s) j = Some k /\ k_pc k = Waiting /\
              calls s' = upd (calls s) j (set_out k (Reply (r_pay x)) (k_e k)).
Proof.
  intros c s r x s' H Hx Hs. destruct (InvR_reach c s H _ _ Hx) as [_ Hrf].
  destruct (step_spec _ _ _ _ Hs) as (Hc & _ & _ & _ & _ & _ & _ & _ & _ & _ & _ & _ & x' & Hx' & _ & j & Hf).
  assert (x' = x) by congruence. subst x'. cbn in Hc. rewrite Hx, Hf in Hc. rewrite Hf in Hrf. destruct Hc as (k & Hk & Hp & Hc).
  exists j, k. tauto.
Qed.

(* a receiver that found the channel of a departed caller is released within ReadTimeout *)
Theorem receiver_released : forall c s r x j, reach c s -> nth_error (rcvs s) r = Some x -> r_pc x = RFound j ->
  now s <= r_t0 x + readT c.
Proof. intros c s r x j H Hx Hp. pose proof (InvR_reach c s H _ _ Hx) as [_ Hrf]. rewrite Hp in Hrf. tauto. Qed.

(* the time wheel: rtimer.After(T) never fires earlier than 19/20 of T. 20 is c_rtimer_accuracy (Gen/C09Consts.v, read from
   the accuracy constant of tars/util/rtimer on every run); a changed value re-opens this proof *)
Theorem wheel_not_early : forall T, 19 * T <= 20 * lo T.
Proof.
  intros T. unfold lo, c_rtimer_accuracy.
  assert (Hd : T = 20 * (T / 20) + T mod 20) by (apply N.div_mod; discriminate).
  assert (Hm : T mod 20 < 20) by (apply N.mod_lt; discriminate).
  remember (T / 20) as q. remember (T mod 20) as m. lia.
Qed.
Theorem wheel_not_late : forall T, lo T <= T.
Proof. intros T. unfold lo. apply N.le_sub_l. Qed.

(* ---- no time lock: from every state finitely many local steps lead to a state in which the clock can tick ---- *)
Definition rank (k : call) : nat :=
  match k_pc k with Init => 10 | Pre => 9 | Counted => 8 | Reg => 7 | Dialing => 6 | Enq => 5 | Waiting => 4 | Done => 3 | Uncounted => 2 | Cleaned => 1 | Returned => 0 end.
Definition rrank (x : rcv) : nat := match r_pc x with RNew => 2 | RFound _ => 1 | RDone => 0 end.
Fixpoint total {A} (f : A -> nat) (l : list A) : nat := match l with [] => 0 | x :: t => f x + total f t end.
Definition mu (s : state) : nat := total rank (calls s) + total rrank (rcvs s).

Lemma total_upd_lt : forall A (f : A -> nat) l i k x, nth_error l i = Some k -> (f x < f k)%nat -> (total f (upd l i x) < total f l)%nat.
Proof.
  induction l as [|h t IH]; intros [|i] k x H Hlt; cbn in *; try discriminate.
  - inversion H; subst. lia.
  - specialize (IH _ _ x H Hlt). lia.
Qed.

(* the labels of the callers and of the receivers: each takes one of them one stage on, and no time *)
Definition local (l : label) : Prop :=
  match l with Tick | Start _ _ _ | LSendTake | LConnDown | LPeerPkt _ _ | LIdleClose | LCloseOld => False | _ => True end.

Lemma rrank_rmoved s l x : match l with LLookup _ => r_pc x = RNew | _ => exists j, r_pc x = RFound j end ->
  (rrank (rmoved s l x) < rrank x)%nat.
Proof.
  intros H. unfold rrank at 2, rmoved.
  destruct l; try (destruct H as (j & ->); destruct (call_of (r_id x)); cbn; lia).
  rewrite H. destruct (call_of (r_id x)) as [j|]; [destruct (memb j (resp s))|]; cbn; lia.
Qed.

Lemma local_step c s l s' : local l -> step c s l = Some s' -> (mu s' < mu s)%nat /\ now s' = now s.
Proof.
  intros Hl H. destruct (step_spec _ _ _ _ H) as (Hc & _ & En & _ & _ & _ & _ & _ & _ & _ & _ & _ & Er).
  split; [|destruct l; try contradiction; exact En]. unfold mu. destruct (subject s l) as [i|] eqn:Hs.
  - destruct Hc as (k & Hk & Hp & ->).
    assert (total rank (upd (calls s) i (moved s l k)) < total rank (calls s))%nat.
    { apply (total_upd_lt _ rank _ _ _ _ Hk). unfold rank. rewrite Hp.
      destruct l; try discriminate Hs; cbn; try (apply Nat.ltb_lt; reflexivity);
        [destruct (conn_open s) | unfold set_enq; destruct (k_ow k)]; apply Nat.ltb_lt; reflexivity. }
    apply Nat.add_lt_le_mono; [assumption|].
    destruct l; try discriminate Hs; try (rewrite Er; apply Nat.le_refl). destruct Er as (x & Hx & -> & Hf).
    apply Nat.lt_le_incl, (total_upd_lt _ rrank _ _ _ _ Hx), rrank_rmoved, Hf.
  - enough (total rrank (rcvs s') < total rrank (rcvs s))%nat
      by (destruct l; try contradiction; rewrite Hc; apply Nat.add_lt_mono_l; assumption).
    destruct l; try contradiction; try discriminate Hs; destruct Er as (x & Hx & -> & Hf);
      apply (total_upd_lt _ rrank _ _ _ _ Hx), rrank_rmoved, Hf.
Qed.

Lemma urgent_step : forall c s, urgent c s = true -> exists l s', local l /\ step c s l = Some s'.
Proof.
  intros c s Hu. unfold urgent in Hu. apply orb_true_iff in Hu. destruct Hu as [Hu|Hu]; apply existsb_nth in Hu.
  - destruct Hu as (i & k & Hk & Hc). unfold call_urgent in Hc. destruct (k_pc k) eqn:Hp; try discriminate.
    + exists (LPre i). cbn. rewrite Hk, Hp. eauto.
    + destruct (qmax c <? queueLen s (k_px k))%Z eqn:Hq; [exists (LQueueFull i) | exists (LCount i)]; cbn; rewrite Hk, Hp, Hq; eauto.
    + exists (LReg i). cbn. rewrite Hk, Hp. eauto.
    + destruct (lock s) eqn:Hl; [discriminate|]. exists (LLock i). cbn. rewrite Hk, Hl, Hp. destruct (conn_open s); eauto.
    + exists (LDialTimeout i). cbn. rewrite Hk, Hp, Hc. eauto.
    + destruct (N.of_nat (length (sendq s)) <? qcap c) eqn:Hr.
      * exists (LEnq i). cbn. rewrite Hk, Hp, Hr. eauto.
      * (* the write timer is due, so it may fire: it may from [lo] of its duration on *)
        cbn [orb] in Hc. apply andb_true_iff in Hc. destruct Hc as [Hw Hd].
        assert (Hg : (0 <? writeT c) && (k_t0 k + lo (writeT c) <=? now s) = true).
        { rewrite Hw. cbn [andb]. pose proof (wheel_not_late (writeT c)). lia. }
        exists (LEnqTimeout i). cbn. rewrite Hk, Hp, Hg. eauto.
    + exists (LCtxFire i). cbn. rewrite Hk, Hp, Hc. eauto.
    + exists (LUncount i). cbn. rewrite Hk, Hp. eauto.
    + exists (LClean i). cbn. rewrite Hk, Hp. eauto.
    + exists (LPost i). cbn. rewrite Hk, Hp. eauto.
  - destruct Hu as (r & x & Hx & Hc). unfold rcv_urgent in Hc. destruct (r_pc x) as [|j|] eqn:Hp; try discriminate.
    + exists (LLookup r). cbn. rewrite Hx, Hp. destruct (call_of (r_id x)) as [j|]; [destruct (memb j (resp s))|]; eauto.
    + destruct (is_waiting s j) eqn:Hw.
      * unfold is_waiting in Hw. destruct (nth_error (calls s) j) as [k|] eqn:Hk; [|discriminate]. destruct (k_pc k) eqn:Hpk; try discriminate.
        exists (LDeliver r). cbn. rewrite Hx, Hp, Hk, Hpk. eauto.
      * cbn [orb] in Hc.
        assert (Hg : (r_t0 x + lo (readT c) <=? now s) = true) by (pose proof (wheel_not_late (readT c)); lia).
        exists (LGiveUp r). cbn. rewrite Hx, Hp, Hg. eauto.
Qed.

Theorem no_timelock : forall c s, exists ls s',
  run c s ls = Some s' /\ now s' = now s /\ ~ In Tick ls /\ step c s' Tick <> None.
Proof.
  intros c s. remember (mu s) as m eqn:Hm. revert s Hm. induction m as [m IH] using lt_wf_ind. intros s Hm.
  destruct (urgent c s) eqn:Hu.
  - destruct (urgent_step c s Hu) as (l & s1 & Hl & Hs). destruct (local_step c s l s1 Hl Hs) as (Hlt & Hn).
    destruct (IH (mu s1) ltac:(lia) s1 eq_refl) as [ls [s' [Hr [Hn' [Hni Ht]]]]].
    exists (l :: ls), s'. cbn [run]. rewrite Hs. repeat split; auto; [congruence|].
    intros [->|A]; [exact Hl|contradiction].
  - exists [], s. cbn. repeat split; auto. rewrite Hu. discriminate.
Qed.

(* ---- W. waiting for connLock: every release by a dialling call is counted; a call that waits has waited at most
   (releases since it began to wait) * DialTimeout, plus the current holder's dial ---- *)
Definition wait_ok (c : cfg) (s : state) (k : call) : Prop :=
  match k_pc k with
  | Reg => k_rel0 k <= rels (tr s) /\
           match lock s with
           | None => now s <= k_start k + (rels (tr s) - k_rel0 k) * dialT c
           | Some j => forall kj, nth_error (calls s) j = Some kj -> k_lockt kj <= k_start k + (rels (tr s) - k_rel0 k) * dialT c
           end
  | _ => k_lockt k <= k_start k + k_w k * dialT c
  end.
Definition InvW (c : cfg) (s : state) : Prop := all_calls (fun _ k => wait_ok c s k) (calls s).

Lemma InvW_init : forall c, InvW c init.
Proof. intros c [|i] k H; discriminate. Qed.

(* one more release: the dial that ends took at most DialTimeout *)
Lemma release_bound (start r r0 d t n : N) : r0 <= r -> t <= start + (r - r0) * d -> n <= t + d ->
  r0 <= r + 1 /\ n <= start + (r + 1 - r0) * d.
Proof. intros H0 Ht Hn. replace (r + 1 - r0) with (r - r0 + 1) by lia. lia. Qed.

Lemma InvW_step : forall c s l s', 0 < writeT c -> reach c s -> InvW c s -> step c s l = Some s' -> InvW c s'.
Proof.
  intros c s l s' Hw Hreach HW H. pose proof (InvT_reach c s Hw Hreach) as HT. destruct (InvL_reach c s Hreach) as [HL1 HL2].
  destruct (step_spec _ _ _ _ H) as (Hc & Hg & En & _ & _ & _ & _ & El & Erl & _).
  apply (all_calls_step _ _ c s l s' H HW); cbv beta.
  - (* a call the label does not act on: only one that waits for connLock looks at the rest of the state *)
    intros j kj Hj Hsj Hok. unfold wait_ok in *. destruct (k_pc kj) eqn:Hpj; try exact Hok. destruct Hok as [H0 Hok].
    rewrite Erl, En, El. destruct (subject s l) as [i|] eqn:Hs.
    + destruct Hc as (k & Hk & Hp & Hc). pose proof (HT _ _ Hk) as Tk. cbv beta in Tk. unfold time_ok in Tk. rewrite Hp in Tk.
      destruct l; try discriminate Hs; cbn in Hs, Hp, Hg, Hc, Tk |- *; try injection Hs as ->.
      (* by where the moved call k stands: *)
      all: lazymatch type of Hp with
           | _ = Dialing =>
               (* LDialOk, LDialFail, LDialTimeout: k holds the lock; a release, at most DialTimeout after k got it *)
               rewrite (HL2 _ _ Hk Hp) in Hok; specialize (Hok _ Hk); apply (release_bound _ _ _ _ _ _ H0 Hok); apply Tk
           | _ = Reg =>
               (* LLock: the lock was free; if k dials it is the holder from now on *)
               rewrite Hg in *; split; [exact H0|]; destruct (conn_open s); [exact Hok|];
               intros kh' Hkh'; rewrite Hc, (nth_upd_eq _ _ _ _ _ Hk) in Hkh'; injection Hkh' as <-; exact Hok
           | _ =>
               (* lock, release count and clock stay; the holder of the lock is dialling, so it is not k *)
               split; [exact H0|]; destruct (lock s) as [h|] eqn:Els; [|exact Hok]; intros kh' Hkh'; rewrite Hc in Hkh';
               destruct (nth_upd_inv _ _ _ _ _ _ _ Hk Hkh') as [[-> ->]|[_ Hkh]]; [|exact (Hok _ Hkh)];
               destruct (HL1 i eq_refl) as (kd & Hkd & Hd); congruence
           end.
    + destruct l; try discriminate Hs; (split; [exact H0|]); rewrite Hc; try exact Hok.
      * (* Tick: somebody holds the lock, or the waiting call would have to take it first *)
        destruct (lock s) eqn:Els; [exact Hok|]. exfalso. apply orb_false_elim in Hg. destruct Hg as [Hu _].
        pose proof (existsb_false_nth _ _ _ _ _ Hu Hj) as Hnu. unfold call_urgent in Hnu. rewrite Hpj, Els in Hnu. discriminate.
      * (* Start: the holder is not the new call *)
        destruct (lock s) as [h|] eqn:Els; [|exact Hok]. intros kh' Hkh'. destruct (HL1 h eq_refl) as (kd & Hkd & _).
        rewrite nth_error_app1 in Hkh' by (apply nth_error_Some; congruence). exact (Hok _ Hkh').
  - intros i k Hs Hk Hp Hok. pose proof (HT _ _ Hk) as Tk. cbv beta in Tk. unfold wait_ok, time_ok in *. rewrite Hp in Hok, Tk.
    destruct l; try discriminate Hs; cbn in Hs, Hp, Hg, Tk, Hok |- *; try injection Hs as ->; try exact Hok.
    + (* LReg: the call begins to wait, at the instant it started; whoever holds the lock got it before *)
      rewrite Erl, En, El. destruct Tk as (_ & _ & _ & Tn & _). split; [lia|].
      destruct (lock s) as [h|] eqn:Els; [|lia]. intros kh' Hkh'. destruct (HL1 h eq_refl) as (kd & Hkd & Hd).
      cbn in Hc. destruct Hc as (k0 & Hk0 & _ & Hc). rewrite Hc, nth_upd_neq, Hkd in Hkh' by (intros ->; congruence). injection Hkh' as <-.
      pose proof (HT _ _ Hkd) as Th. cbv beta in Th. unfold time_ok in Th. rewrite Hd in Th. lia.
    + (* LLock: the lock is free *)
      rewrite Hg in Hok. destruct (conn_open s); cbn; lia.
    + unfold set_enq. destruct (k_ow k); exact Hok.
  - intros d ow px _. unfold wait_ok, new_call. cbn. lia.
Qed.


Theorem InvW_reach : forall c s, 0 < writeT c -> reach c s -> InvW c s.
Proof. intros c s Hw. induction 1; [apply InvW_init|eapply InvW_step; eauto]. Qed.

(* the deadline clause with the wait for connLock made explicit: position in the dial queue *)
Theorem returns_position : forall c s i k, 0 < writeT c -> reach c s -> nth_error (calls s) i = Some k -> k_pc k = Returned ->
  k_ret k <= N.max (k_dl k) (k_start k + (k_w k + (if k_d k then 1 else 0)) * dialT c + (if k_e k then writeT c else 0)).
Proof.
  intros c s i k Hw H Hk Hp. pose proof (returns_partial c s i k Hw H Hk Hp) as Hb.
  pose proof (InvW_reach c s Hw H _ _ Hk) as Hwk. cbv beta in Hwk. unfold wait_ok in Hwk. rewrite Hp in Hwk.
  unfold B, dl_d, wr_e in Hb. destruct (k_d k), (k_e k); lia.
Qed.

(* the bound is attained: in the stalled-dial witness the second caller waited for one dial of the first and dialled itself *)
Example position_bound_attained :
  match run stalled_cfg init stalled_trace with
  | Some s => match nth_error (calls s) 1 with
              | Some k => k_w k = 1 /\ k_d k = true /\ k_e k = false /\ k_ret k = k_start k + (k_w k + 1) * dialT stalled_cfg
              | None => False end
  | None => False end.
Proof. vm_compute. repeat split; reflexivity. Qed.

(* ---- the resource ledger of a call: everything a call can hold, cleared whatever its outcome ---- *)
Record ledger_clear (c : cfg) (s : state) (i : nat) : Prop := {
  lc_table : ~ In i (resp s);                                        (* no entry in the pending-reply table *)
  lc_counts : forall k, nth_error (calls s) i = Some k -> counted k = false /\ inside k = false /\ invoked k = false;
                                                                      (* counted neither in queueLen nor in invokeNum *)
  lc_lock : lock s <> Some i;                                        (* does not hold connLock *)
  lc_queue : forall k, nth_error (calls s) i = Some k -> k_out k = Some Error -> ~ In i (sendq s) /\ ~ In i (wire s);
  lc_timers : step c s (LCtxFire i) = None /\ step c s (LCancel i) = None /\ step c s (LEnqTimeout i) = None /\
              step c s (LDialTimeout i) = None;                       (* none of its timers can act any more *)
  lc_receivers : forall r x, nth_error (rcvs s) r = Some x -> r_pc x = RFound i ->
                   now s <= r_t0 x + readT c /\ step c s (LDeliver r) = None
                                (* a receiver still holding its reply channel is released within ReadTimeout and cannot deliver *) }.

Theorem ledger_all_outcomes : forall c s i k, reach c s -> nth_error (calls s) i = Some k -> k_pc k = Returned ->
  (exists o, k_out k = Some o) /\ (forall o, k_out k = Some o -> ledger_clear c s i).
Proof.
  intros c s i k H Hk Hp.
  destruct (InvO_reach c s H) as [HO _]. pose proof (HO _ _ Hk) as Hok. unfold out_ok in Hok. rewrite Hp in Hok.
  destruct Hok as [[[o Ho] _] [_ [_ [He _]]]]. split; [exists o; exact Ho|]. intros o' _.
  destruct (InvA_reach c s H) as [_ _ Hr _]. destruct (InvL_reach c s H) as [HL1 _].
  split.
  - intros Hin. apply Hr in Hin. destruct Hin as [k' [Hk' Hi]]. rewrite Hk in Hk'. inversion Hk'; subst k'.
    unfold inside in Hi. rewrite Hp in Hi. discriminate.
  - intros k' Hk'. rewrite Hk in Hk'. inversion Hk'; subst k'. unfold counted, inside, invoked. rewrite Hp. auto.
  - intros Hl. destruct (HL1 _ Hl) as [k' [Hk' Hd]]. rewrite Hk in Hk'. inversion Hk'; subst k'. congruence.
  - intros k' Hk' Hoe. rewrite Hk in Hk'. inversion Hk'; subst k'. apply He. exact Hoe.
  - cbn [step]. rewrite Hk, Hp. auto.
  - intros r x Hx Hf. split.
    + pose proof (InvR_reach c s H _ _ Hx) as [_ Hrf]. rewrite Hf in Hrf. tauto.
    + cbn [step]. rewrite Hx, Hf, Hk, Hp. reflexivity.
Qed.

(* the owner of the counter: registration and cleanup of a call move the queueLen of the proxy the call was made on, and
   no other proxy's; no other step moves any queueLen *)
Theorem counter_owner : forall c s l s', step c s l = Some s' ->
  forall p, queueLen s' p <> queueLen s p ->
  exists i k, nth_error (calls s) i = Some k /\ k_px k = p /\
    ((l = LCount i /\ queueLen s' p = (queueLen s p + 1)%Z) \/ (l = LUncount i /\ queueLen s' p = (queueLen s p - 1)%Z)).
Proof.
  intros c s l s' H p Hne. destruct (step_spec _ _ _ _ H) as (_ & _ & _ & Eq & _). rewrite Eq in *.
  destruct l; try congruence; destruct (nth_error (calls s) i) as [k|] eqn:Hk; try congruence;
    exists i, k; unfold fset in *; destruct (Nat.eqb_spec p (k_px k)) as [->|]; try congruence; auto.
Qed.

(* two ServantProxy objects for one object, overlapping calls: each proxy's own counter is back to 0 *)
Example two_proxies_overlap :
  let '(s, _, ok) := canonical (mkscen (mkcfg 30 40 10 100 100000 60000) CAccept [mkact false (Some 4) false false] 4 1 (mktmo 20 None None) [0] false 2 None 0 false) in
  ok = true /\ map fst (model_calls s) = [OReply; OReply; OReply; OReply] /\ map k_px (calls s) = [0; 1; 0; 1]%nat /\
  queueLen s 0%nat = 0%Z /\ queueLen s 1%nat = 0%Z /\ invokeNum s = 0%Z /\ resp s = [].
Proof. vm_compute. repeat split; reflexivity. Qed.

(* every way a call can end is a run of the model: one reachable returned call per outcome (and per path to Error) *)
Example outcome_paths_exist :
  let cfg0 := mkcfg 30 40 10 1 100000 60000 in
  let ret ls i := match run cfg0 init ls with
                  | Some s => match nth_error (calls s) i with Some k => match k_pc k with Returned => k_out k | _ => None end | None => None end
                  | None => None end in
  ret [Start 20 false 0%nat; LPre 0; LCount 0; LReg 0; LLock 0; LDialOk 0; LEnq 0; LSendTake; LPeerPkt 1 7; LLookup 0; LDeliver 0; LUncount 0; LClean 0; LPost 0] 0%nat = Some (Reply 7) /\
  ret ([Start 20 false 0%nat; LPre 0; LCount 0; LReg 0; LLock 0; LDialOk 0; LEnq 0] ++ ticks 20 ++ [LCtxFire 0; LUncount 0; LClean 0; LPost 0]) 0%nat = Some Timeout /\
  ret [Start 20 false 0%nat; LPre 0; LCount 0; LReg 0; LLock 0; LDialOk 0; LEnq 0; LCancel 0; LUncount 0; LClean 0; LPost 0] 0%nat = Some Cancelled /\
  ret [Start 20 false 0%nat; LPre 0; LCount 0; LReg 0; LLock 0; LDialFail 0; LUncount 0; LClean 0; LPost 0] 0%nat = Some Error /\
  ret ([Start 20 false 0%nat; LPre 0; LCount 0; LReg 0; LLock 0] ++ ticks 30 ++ [LDialTimeout 0; LUncount 0; LClean 0; LPost 0]) 0%nat = Some Error /\
  ret ([Start 20 false 0%nat; Start 20 false 0%nat; LPre 0; LCount 0; LReg 0; LLock 0; LDialOk 0; LEnq 0; LPre 1; LCount 1; LReg 1; LLock 1] ++ ticks 20 ++
       [LCtxFire 0; LUncount 0; LClean 0; LPost 0] ++ ticks 20 ++ [LEnqTimeout 1; LUncount 1; LClean 1; LPost 1]) 1%nat = Some Error /\
  ret [Start 20 false 0%nat; LPre 0; LFilterErr 0; LPost 0] 0%nat = Some Error /\
  ret [Start 20 true 0%nat; LPre 0; LCount 0; LReg 0; LLock 0; LDialOk 0; LEnq 0; LUncount 0; LClean 0; LPost 0] 0%nat = Some Sent.
Proof. vm_compute. repeat split; reflexivity. Qed.

(* ---- the effective timeout: the caller's deadline wins, then the per-call timeout, then the proxy's; a configured
   timeout of zero or below is a deadline that has passed ---- *)
Theorem eff_caller_deadline_wins : forall p pc d, eff_of (mktmo p pc (Some d)) = d.
Proof. reflexivity. Qed.
Theorem eff_percall_over_proxy : forall p q, eff_of (mktmo p (Some q) None) = Z.to_N q.
Proof. reflexivity. Qed.
Theorem eff_proxy_default : forall p, eff_of (mktmo p None None) = Z.to_N p.
Proof. reflexivity. Qed.
Theorem eff_nonpositive_expired : forall t, t_ctx t = None -> (configured t <= 0)%Z -> eff_of t = 0.
Proof. intros [p pc cx] H Hc. cbn in *. subst cx. unfold eff_of. cbn. lia. Qed.
(* a call started with an expired deadline and a silent peer returns the timeout error at the instant it started *)
Example zero_timeout_returns_at_once :
  let '(s, _, ok) := canonical (mkscen (mkcfg 30 40 10 4 100000 60000) CAccept [mkact false None false false] 1 2 (mktmo (-5) None None) [1] false 0 None 0 false) in
  ok = true /\ model_calls s = [(OTimeout, 0); (OTimeout, 0)] /\ queueLen s 0%nat = 0%Z /\ invokeNum s = 0%Z /\ resp s = [].
Proof. vm_compute. repeat split; reflexivity. Qed.
Example cancelled_call_returns_at_once :
  let '(s, _, ok) := canonical (mkscen (mkcfg 30 40 10 4 100000 60000) CAccept [mkact false None false false] 1 1 (mktmo 30 None None) [0] false 0 (Some 8) 0 false) in
  ok = true /\ model_calls s = [(OTimeout, 8)] /\ queueLen s 0%nat = 0%Z /\ invokeNum s = 0%Z /\ resp s = [].
Proof. vm_compute. repeat split; reflexivity. Qed.
Example rejected_calls_leave_nothing :
  let '(s, _, ok) := canonical (mkscen (mkcfg 30 40 10 4 100000 60000) CAccept [mkact false (Some 0) false false] 1 4 (mktmo 30 None None) [1] false 0 None 2 false) in
  ok = true /\ map fst (model_calls s) = [OReply; OError; OReply; OError] /\ queueLen s 0%nat = 0%Z /\ invokeNum s = 0%Z /\ resp s = [].
Proof. vm_compute. repeat split; reflexivity. Qed.

Example silent_peer_times_out :
  let '(s, _, ok) := canonical (mkscen (mkcfg 30 40 10 4 100000 60000) CAccept [mkact false None false false] 1 1 (mktmo 20 None None) [0] false 0 None 0 false) in
  ok = true /\ model_calls s = [(OTimeout, 20)] /\ queueLen s 0%nat = 0%Z /\ invokeNum s = 0%Z /\ resp s = [].
Proof. vm_compute. repeat split; reflexivity. Qed.

Example late_then_fast_replies :
  let '(s, _, ok) := canonical (mkscen (mkcfg 30 40 10 4 100000 60000) CAccept [mkact false (Some 30) false false; mkact false (Some 0) false false] 1 2 (mktmo 20 None None) [1] false 0 None 0 false) in
  ok = true /\ model_calls s = [(OTimeout, 20); (OReply, 0)] /\ queueLen s 0%nat = 0%Z /\ invokeNum s = 0%Z /\ resp s = [].
Proof. vm_compute. repeat split; reflexivity. Qed.

Example one_way_returns_at_once :
  let '(s, _, ok) := canonical (mkscen (mkcfg 30 40 10 4 100000 60000) CAccept [mkact false None false false] 1 2 (mktmo 20 None None) [1] true 0 None 0 false) in
  ok = true /\ model_calls s = [(OSent, 0); (OSent, 0)] /\ queueLen s 0%nat = 0%Z /\ invokeNum s = 0%Z /\ resp s = [].
Proof. vm_compute. repeat split; reflexivity. Qed.

Example stalled_three_callers :
  let '(s, _, ok) := canonical (mkscen (mkcfg 30 40 10 4 100000 60000) CStall [mkact false None false false] 3 1 (mktmo 10 None None) [0] false 0 None 0 false) in
  ok = true /\ model_calls s = [(OError, 30); (OError, 60); (OError, 90)].
Proof. vm_compute. repeat split; reflexivity. Qed.
