(* C19 — proofs about the transition system of Gpool.v, for every number of workers W, queue capacity Q, number of submitters,
   jobs and schedules: the inductive invariant [Good] and what follows from it (conservation, bounded parallelism, the queues'
   capacities, Release, absence of deadlock), the refinement of the specification machine ([refines_spec]) and what an accepted
   trace means.  Progress is in GpoolLive.v, GpoolFair.v and GpoolEventually.v, the FIFO order in GpoolFifo.v. *)
From Coq Require Import List Arith NArith Lia Bool Permutation.
From TarsV Require Import Base.Lts Base.Lists Conc.Gpool.
Import ListNotations.

Lemma upd_length {A} n (x : A) l : length (upd n x l) = length l.
Proof. revert n; induction l; destruct n; cbn; auto. Qed.
Lemma nth_upd_eq {A} n (x : A) l : n < length l -> nth_error (upd n x l) n = Some x.
Proof. revert n; induction l; destruct n; cbn; intros; try lia; auto. apply IHl; lia. Qed.
Lemma nth_upd_neq {A} n m (x : A) l : n <> m -> nth_error (upd n x l) m = nth_error l m.
Proof. revert n m; induction l; destruct n, m; cbn; intros; try congruence; auto. Qed.
Lemma nth_some_lt {A} (l : list A) n x : nth_error l n = Some x -> n < length l.
Proof. intros H. apply nth_error_Some. congruence. Qed.
Lemma nth_upd {A} w (x : A) l v p : nth_error (upd w x l) v = Some p -> v = w /\ p = x \/ v <> w /\ nth_error l v = Some p.
Proof.
  intros H. destruct (Nat.eq_dec v w) as [->|Hne]; [left|right; now rewrite nth_upd_neq in H by auto].
  rewrite nth_upd_eq in H by (rewrite <- (upd_length w x); eapply nth_some_lt; eauto). now injection H.
Qed.


Lemma mem_In j l : mem j l = true <-> In j l.
Proof.
  unfold mem. rewrite existsb_exists. split.
  - intros (x & Hx & E). apply N.eqb_eq in E. now subst.
  - intros H. exists j. split; auto. apply N.eqb_refl.
Qed.
Lemma mem_nIn j l : mem j l = false <-> ~ In j l.
Proof. rewrite <- mem_In. destruct (mem j l); split; intros; try congruence; tauto. Qed.
Lemma rm_perm j l : In j l -> Permutation l (j :: rm j l).
Proof.
  induction l as [|x l IH]; cbn; [tauto|]. intros H.
  destruct (N.eqb j x) eqn:E. { apply N.eqb_eq in E. now subst. }
  destruct H as [H|H]. { subst. rewrite N.eqb_refl in E. discriminate. }
  rewrite (IH H) at 1. apply perm_swap.
Qed.

Definition oj (o : option job) : list job := match o with Some j => [j] | None => [] end.
(* the jobs on either side of worker w do not depend on w's program counter *)
Lemma jobs_split f l : forall w p x, nth_error l w = Some p ->
  exists a b, jobs_of f l = a ++ oj (f p) ++ b /\ jobs_of f (upd w x l) = a ++ oj (f x) ++ b.
Proof.
  unfold jobs_of. induction l as [|q l IH]; intros [|w] p x H; try discriminate; cbn in *.
  - injection H as ->. now exists [], (jobs_of f l).
  - destruct (IH _ _ x H) as (a & b & E1 & E2). exists (oj (f q) ++ a), b. rewrite E1, E2, <- !app_assoc. now split.
Qed.
Lemma jobs_upd_keep f l w p x : nth_error l w = Some p -> f p = f x -> jobs_of f (upd w x l) = jobs_of f l.
Proof. intros H E. destruct (jobs_split f l w p x H) as (a & b & -> & ->). now rewrite E. Qed.
Lemma jobs_upd_add f l w p x j : nth_error l w = Some p -> f p = None -> f x = Some j ->
  Permutation (jobs_of f (upd w x l)) (j :: jobs_of f l).
Proof. intros H Hp Hx. destruct (jobs_split f l w p x H) as (a & b & -> & ->). rewrite Hp, Hx. symmetry. apply Permutation_middle. Qed.
Lemma jobs_upd_del f l w p x j : nth_error l w = Some p -> f p = Some j -> f x = None ->
  Permutation (jobs_of f l) (j :: jobs_of f (upd w x l)).
Proof. intros H Hp Hx. destruct (jobs_split f l w p x H) as (a & b & -> & ->). rewrite Hp, Hx. symmetry. apply Permutation_middle. Qed.
Lemma jobs_in f l w p j : nth_error l w = Some p -> f p = Some j -> In j (jobs_of f l).
Proof. intros H Hp. destruct (jobs_split f l w p p H) as (a & b & -> & _). rewrite Hp. apply in_elt. Qed.
Lemma jobs_le f l : length (jobs_of f l) <= length l.
Proof. induction l as [|a l IH]; cbn; [lia|]. unfold jobs_of in *. cbn. rewrite app_length. destruct (f a); cbn; lia. Qed.
Lemma jobs_lt f l : forall w p, nth_error l w = Some p -> f p = None -> length (jobs_of f l) < length l.
Proof.
  induction l as [|a l IH]; intros [|w] p H Hp; cbn in *; try discriminate.
  - inversion H; subst. unfold jobs_of. cbn. rewrite Hp. cbn. pose proof (jobs_le f l). unfold jobs_of in *. lia.
  - unfold jobs_of in *. cbn. rewrite app_length. specialize (IH _ _ H Hp). destruct (f a); cbn; lia.
Qed.
Lemma jobs_none f l : (forall w p, nth_error l w = Some p -> f p = None) -> jobs_of f l = [].
Proof.
  induction l as [|a l IH]; intros H; [reflexivity|]. unfold jobs_of in *. cbn.
  rewrite (H 0 a eq_refl). apply IH. intros w. apply (H (S w)).
Qed.
Lemma jobs_repeat f n : f WReg = None -> jobs_of f (repeat WReg n) = [].
Proof. intros E. apply jobs_none. intros w p H. apply nth_error_In, repeat_spec in H. now subst. Qed.

Definition isdone p := match p with WDone => true | _ => false end.
Lemma ndone_upd_same l : forall w p x, nth_error l w = Some p -> isdone p = false -> isdone x = false ->
  ndone (upd w x l) = ndone l.
Proof.
  induction l as [|a l IH]; intros [|w] p x H Hp Hx; cbn in *; try discriminate.
  - inversion H; subst. unfold ndone. cbn. destruct p, x; try discriminate; reflexivity.
  - unfold ndone in *. cbn. destruct a; cbn; rewrite (IH _ _ _ H Hp Hx); reflexivity.
Qed.
Lemma ndone_upd_done l : forall w p, nth_error l w = Some p -> isdone p = false ->
  ndone (upd w WDone l) = S (ndone l).
Proof.
  induction l as [|a l IH]; intros [|w] p H Hp; cbn in *; try discriminate.
  - inversion H; subst. unfold ndone. cbn. destruct p; try discriminate; reflexivity.
  - unfold ndone in *. cbn. destruct a; cbn; rewrite (IH _ _ H Hp); reflexivity.
Qed.
Lemma ndone_repeat n : ndone (repeat WReg n) = 0.
Proof. induction n; cbn; auto. Qed.
Lemma ndone_le l : ndone l <= length l.
Proof. unfold ndone. induction l as [|a l IH]; cbn; [lia|]. destruct a; cbn; lia. Qed.
Lemma ndone_pos l : forall w, nth_error l w = Some WDone -> 0 < ndone l.
Proof.
  unfold ndone. induction l as [|a l IH]; intros [|w] H; cbn in *; try discriminate.
  - injection H as ->. cbn. lia.
  - specialize (IH _ H). destruct a; cbn; lia.
Qed.
Lemma ndone_all l : ndone l = length l -> forall w p, nth_error l w = Some p -> p = WDone.
Proof.
  induction l as [|a l IH]; intros H [|w] p Hn; cbn in *; try discriminate.
  - inversion Hn; subst. pose proof (ndone_le l). unfold ndone in *. destruct p; cbn in H; try reflexivity; lia.
  - apply (IH) with (w := w); auto. pose proof (ndone_le l). unfold ndone in *. destruct a; cbn in H; lia.
Qed.
Lemma ndone_some_not l : ndone l < length l -> exists w p, nth_error l w = Some p /\ p <> WDone.
Proof.
  induction l as [|a l IH]; cbn; [lia|]. intros H.
  destruct a; try (exists 0; eexists; split; [reflexivity|discriminate]).
  unfold ndone in *. cbn in H. destruct IH as (w & p & A & B); [lia|]. exists (S w), p. auto.
Qed.

Lemma jobs_all_done f l : f WDone = None -> ndone l = length l -> jobs_of f l = [].
Proof. intros E H. apply jobs_none. intros w p Hw. now rewrite (ndone_all l H w p Hw). Qed.


Ltac brk := repeat match goal with
  | H : context [match ?x with _ => _ end] |- _ => destruct x eqn:?; try discriminate
  end.

(* permutation goals over job lists, decided by counting occurrences *)
Ltac pcount :=
  let x0 := fresh "x0" in
  apply (Permutation_count_occ N.eq_dec); intros x0;
  repeat match goal with H : Permutation ?a ?b |- _ =>
    let H' := fresh in pose proof (proj1 (Permutation_count_occ N.eq_dec a b) H x0) as H'; clear H end;
  rewrite ?count_occ_app in *; cbn [count_occ] in *; unfold job in *;
  repeat match goal with
         | |- context [N.eq_dec ?a x0] => destruct (N.eq_dec a x0)
         | H : context [N.eq_dec ?a x0] |- _ => destruct (N.eq_dec a x0)
         end; lia.

Ltac simp := cbn [jobq wq wk dp rp calling sentl subm started fin clog rlog runl dlog
                  set_jobq set_wq set_wk set_dp set_rp set_calling set_sentl set_subm set_started set_fin
                  set_clog set_rlog set_runl set_dlog sent_now] in *.

(* The invariant is kept in a form whose parts are functions of the program counters, so that once a step has fixed a counter
   they compute: [dworker] is the worker the dispatcher has taken out of WorkerQueue and the select it is blocked in; [dcount]
   what the stop loop knows about the number [n] of workers that have returned; [phase] is 0 until the dispatcher receives on
   [stop], 1 while it stops the workers, 2 when it has returned, and [rp_dp] says which phase each step of Release belongs to
   (the send on [stop] is a rendez-vous). [Wait]: a worker blocked in its select is in WorkerQueue or in the dispatcher's hand,
   and nowhere else. *)
Definition waits (p : wpc) : bool := match p with WWait | WStopping => true | _ => false end.
Definition dworker (d : dpc) : option (nat * wpc) :=
  match d with DHand _ w | DStop _ w => Some (w, WWait) | DWaitAck _ w => Some (w, WStopping) | _ => None end.
Definition dcount (W : nat) (d : dpc) (n : nat) : Prop :=
  match d with DStop i _ | DWaitAck i _ => n = i /\ i < W | DCollect i => n = i | DAck | DDone => n = W | _ => True end.
Definition phase (d : dpc) : nat := if pre_release d then 0 else match d with DDone => 2 | _ => 1 end.
Definition rp_dp (r : rpc) (d : dpc) (n : nat) : Prop :=
  match r with RNot | RCalled => phase d = 0 /\ n = 0 | RSent => phase d = 1 | _ => phase d = 2 end.

Definition Wait (wq : list nat) (wk : list wpc) (dw : option (nat * wpc)) : Prop :=
  NoDup wq /\ (forall w, In w wq -> nth_error wk w = Some WWait) /\
  (forall w p, dw = Some (w, p) -> waits p = true /\ nth_error wk w = Some p /\ ~ In w wq) /\
  (forall w p, nth_error wk w = Some p -> waits p = true -> (p = WWait /\ In w wq) \/ dw = Some (w, p)).

Lemma Wait_busy wq wk dw w q x : Wait wq wk dw -> nth_error wk w = Some q -> waits q = false -> waits x = false ->
  Wait wq (upd w x wk) dw.
Proof.
  intros (N & I & D & B) Hw Hq Hx. split; [exact N|]. 
  assert (K : forall v p, nth_error wk v = Some p -> waits p = true -> nth_error (upd w x wk) v = Some p).
  { intros v p Hv Hp. rewrite nth_upd_neq; [exact Hv|]. intros ->. congruence. }
  repeat split.
  - intros v Hv. apply K; auto.
  - apply (D _ _ H).
  - destruct (D _ _ H) as (A1 & A2 & _). apply K; auto.
  - apply (D _ _ H).
  - intros v p Hv Hp. apply nth_upd in Hv. destruct Hv as [[_ ->]|[_ Hv]]; [congruence|auto].
Qed.

Lemma Wait_reg wq wk dw w q : Wait wq wk dw -> nth_error wk w = Some q -> waits q = false ->
  Wait (wq ++ [w]) (upd w WWait wk) dw.
Proof.
  intros (N & I & D & B) Hw Hq.
  assert (K : forall v p, nth_error wk v = Some p -> waits p = true -> v <> w) by (intros v p Hv Hp ->; congruence).
  assert (Hn : ~ In w wq) by (intros X; apply (K w WWait); auto).
  repeat split.
  - apply NoDup_snoc; auto.
  - intros v Hv. apply in_app_or in Hv. destruct Hv as [Hv|[<-|[]]].
    + rewrite nth_upd_neq; auto. intros <-. auto.
    + apply nth_upd_eq. eapply nth_some_lt; eauto.
  - apply (D _ _ H).
  - destruct (D _ _ H) as (A1 & A2 & _). rewrite nth_upd_neq; auto. intros ->. eapply K; eauto.
  - destruct (D _ _ H) as (A1 & A2 & A3). intros X. apply in_app_or in X. destruct X as [X|[<-|[]]]; [auto|]. eapply K; eauto.
  - intros v p Hv Hp. apply nth_upd in Hv. destruct Hv as [[-> ->]|[_ Hv]].
    + left. split; auto. apply in_or_app. right. now left.
    + destruct (B _ _ Hv Hp) as [[? ?]|?]; auto. left. split; auto. apply in_or_app. now left.
Qed.

Lemma Wait_take w r wk : Wait (w :: r) wk None -> Wait r wk (Some (w, WWait)).
Proof.
  intros (N & I & D & B). inversion N; subst. repeat split; auto.
  - intros v Hv. apply I. now right.
  - injection H as <- <-. reflexivity.
  - injection H as <- <-. apply I. now left.
  - injection H as <- <-. assumption.
  - intros v p Hv Hp. destruct (B _ _ Hv Hp) as [[-> [<-|X]]|X]; [now right|now left|discriminate].
Qed.

(* the worker the dispatcher holds goes on: to [WStopping], where the dispatcher still holds it, or away *)
Lemma Wait_move wq wk w p x : Wait wq wk (Some (w, p)) ->
  Wait wq (upd w x wk) (if waits x then Some (w, x) else None).
Proof.
  intros (N & I & D & B). destruct (D _ _ eq_refl) as (Hp & Hw & Hn). repeat split; auto.
  - intros v Hv. rewrite nth_upd_neq; auto. intros <-. auto.
  - destruct (waits x) eqn:E; [|discriminate]. injection H as <- <-. exact E.
  - destruct (waits x); [|discriminate]. injection H as <- <-. apply nth_upd_eq. eapply nth_some_lt; eauto.
  - destruct (waits x); [|discriminate]. injection H as <- <-. exact Hn.
  - intros v q Hv Hq. apply nth_upd in Hv. destruct Hv as [[-> ->]|[Hne Hv]]; [rewrite Hq; now right|].
    destruct (B _ _ Hv Hq) as [?|X]; [now left|]. injection X as <- <-. congruence.
Qed.

Section Proofs.
Variable W Q : nat.
Notation step := (step W Q). Notation run := (run W Q). Notation trace := (trace W Q).
Notation Inv := (Inv W Q). Notation init := (init W). Notation reachable := (reachable W Q).


Inductive Step (s : st) : label -> st -> Prop :=
| SSubCall j (Hn : ~ In j (clog s)) : Step s (SubCall j) (set_clog (set_calling s (calling s ++ [j])) (clog s ++ [j]))
| SSubmit j (Hc : In j (calling s)) (Hlt : length (jobq s) < Q) : Step s (Submit j) (set_jobq (sent_now s j) (jobq s ++ [j]))
| SSubmitH j (Hc : In j (calling s)) (Hd : dp s = DSel) (Hq : jobq s = []) : Step s (SubmitH j) (set_dp (sent_now s j) (DHave j))
| SSubRet j (Hc : In j (sentl s)) : Step s (SubRet j) (set_rlog (set_sentl s (rm j (sentl s))) (rlog s ++ [j]))
| SWorkerReg w (Hw : nth_error (wk s) w = Some WReg) : Step s (WorkerReg w) (set_wk (set_wq s (wq s ++ [w])) (upd w WWait (wk s)))
| SDTake j r (Hd : dp s = DSel) (Hq : jobq s = j :: r) : Step s DTake (set_dp (set_jobq s r) (DHave j))
| SDWorker j w r (Hd : dp s = DHave j) (Hq : wq s = w :: r) : Step s DWorker (set_dp (set_wq s r) (DHand j w))
| SHand j w (Hd : dp s = DHand j w) (Hw : nth_error (wk s) w = Some WWait) :
    Step s Hand (set_started (set_dp (set_wk s (upd w (WGot j) (wk s))) DSel) (started s ++ [j]))
| SJStart w j (Hw : nth_error (wk s) w = Some (WGot j)) : Step s (JStart w) (set_runl (set_wk s (upd w (WRun j) (wk s))) (runl s ++ [j]))
| SJEnd w j (Hw : nth_error (wk s) w = Some (WRun j)) :
    Step s (JEnd w) (set_dlog (set_runl (set_wk s (upd w (WEnded j) (wk s))) (rm j (runl s))) (dlog s ++ [j]))
| SJobEnd w j (Hw : nth_error (wk s) w = Some (WEnded j)) : Step s (JobEnd w) (set_fin (set_wk s (upd w WReg (wk s))) (fin s ++ [j]))
| SRelLog (Hr : rp s = RNot) : Step s RelLog (set_rp s RCalled)
| SRelCall (Hr : rp s = RCalled) (Hd : dp s = DSel) : Step s RelCall (set_rp (set_dp s (DCollect 0)) RSent)
| SDColTake i w r (Hd : dp s = DCollect i) (Hq : wq s = w :: r) (Hlt : i < W) : Step s DColTake (set_dp (set_wq s r) (DStop i w))
| SDColFin (Hd : dp s = DCollect W) : Step s DColFin (set_dp s DAck)
| SStopSend i w (Hd : dp s = DStop i w) (Hw : nth_error (wk s) w = Some WWait) :
    Step s StopSend (set_dp (set_wk s (upd w WStopping (wk s))) (DWaitAck i w))
| SStopAck i w (Hd : dp s = DWaitAck i w) (Hw : nth_error (wk s) w = Some WStopping) :
    Step s StopAck (set_dp (set_wk s (upd w WDone (wk s))) (DCollect (S i)))
| SRelRet (Hd : dp s = DAck) (Hr : rp s = RSent) : Step s RelRet (set_rp (set_dp s DDone) RAcked)
| SRelRetLog (Hr : rp s = RAcked) : Step s RelRetLog (set_rp s RDone).

Lemma step_Step s l s' : step s l = Some s' <-> Step s l s'.
Proof.
  split.
  - destruct l; cbn -[Nat.ltb]; intros H.
    all: repeat match type of H with context [match ?x with _ => _ end] => destruct x eqn:? end; try discriminate.
    all: injection H as <-; rewrite ?andb_true_iff, ?mem_In, ?mem_nIn, ?Nat.ltb_lt, ?Nat.eqb_eq in *; subst.
    all: constructor; tauto.
  - intros []; cbn -[Nat.ltb]; rewrite <- ?mem_nIn, <- ?mem_In, <- ?Nat.ltb_lt in *;
      rewrite ?Hd, ?Hq, ?Hw, ?Hr, ?Hc, ?Hn, ?Hlt, ?Nat.eqb_refl; reflexivity.
Qed.

Lemma run_is s ls : run s ls = Lts.run step s ls.
Proof. reflexivity. Qed.

(* [g_fifo] is the FIFO order of hand-over; the job accounting of [InvA] follows from it and [g_started] *)
Record Good (s : st) : Prop := mkGood {
  g_len : length (wk s) = W;
  g_fifo : subm s = started s ++ held (dp s) ++ jobq s;
  g_started : Permutation (started s) (occupying (wk s) ++ fin s);
  g_wait : Wait (wq s) (wk s) (dworker (dp s));
  g_count : dcount W (dp s) (ndone (wk s));
  g_phase : rp_dp (rp s) (dp s) (ndone (wk s));
  g_room : length (jobq s) <= Q }.

Lemma Good_init : Good init.
Proof.
  unfold Gpool.init. constructor; simp; unfold occupying; rewrite ?repeat_length, ?ndone_repeat, ?jobs_repeat by reflexivity; cbn; auto with arith.
  split; [constructor|]. do 2 (split; [easy|]). intros v p H. apply nth_error_In, repeat_spec in H. now subst.
Qed.

Lemma Good_step s l s' : Good s -> step s l = Some s' -> Good s'.
Proof.
  intros G Hs. apply step_Step in Hs. destruct s; destruct G as [L F S Wt N R Qb]; destruct Hs; simp; subst.
  all: constructor; simp; unfold occupying in *;
    erewrite ?upd_length, ?ndone_upd_same, ?jobs_upd_keep by (eassumption || reflexivity); auto.
  (* what is left: for each label, in the order of [Step]'s constructors, the fields of [Good] it really touches, in their order *)
  - (* Submit *) now rewrite <- !app_assoc.
  - rewrite app_length. cbn. lia.
  - (* SubmitH *) now rewrite <- app_assoc.
  - (* WorkerReg *) eapply Wait_reg; eauto.
  - (* DTake *) cbn in Qb. lia.
  - (* DWorker *) now apply Wait_take.
  - (* Hand *) now rewrite <- app_assoc.
  - rewrite (jobs_upd_add f_occ _ _ _ _ j Hw) by reflexivity. rewrite S. symmetry. apply Permutation_cons_append.
  - apply (Wait_move _ _ _ _ (WGot j) Wt).
  - (* JStart *) eapply Wait_busy; eauto.
  - (* JEnd *) eapply Wait_busy; eauto.
  - (* JobEnd *) rewrite S, (jobs_upd_del f_occ _ _ _ WReg j Hw) by reflexivity. rewrite app_assoc. apply Permutation_cons_append.
  - eapply Wait_busy; eauto.
  - (* RelCall: no worker has stopped *) apply R.
  - reflexivity.
  - (* DColTake *) now apply Wait_take.
  - cbn in *. auto.
  - (* StopSend *) apply (Wait_move _ _ _ _ WStopping Wt).
  - (* StopAck *) apply (Wait_move _ _ _ _ WDone Wt).
  - rewrite (ndone_upd_done _ _ _ Hw) by reflexivity. cbn in *. lia.
  - destruct rp; cbn in *; auto; destruct R; discriminate.
  - (* RelRet *) reflexivity.
Qed.

Lemma InvC_init : InvC init.
Proof.
  unfold InvC, Gpool.init; cbn [clog calling sentl rlog subm runl dlog wk fin app].
  rewrite !jobs_repeat by reflexivity. repeat split; constructor.
Qed.

Lemma InvC_step s l s' : InvC s -> step s l = Some s' -> InvC s'.
Proof.
  intros (C1 & C2 & C3 & C4 & C5) Hs. apply step_Step in Hs. destruct Hs; unfold InvC; simp;
    erewrite ?jobs_upd_keep by (eassumption || reflexivity); auto.
  - (* SubCall *) repeat split; auto. { apply NoDup_snoc; auto. } pcount.
  - (* Submit *) apply rm_perm in Hc. repeat split; auto; pcount.
  - (* SubmitH *) apply rm_perm in Hc. repeat split; auto; pcount.
  - (* SubRet *) apply rm_perm in Hc. repeat split; auto; pcount.
  - (* JStart *)
    pose proof (jobs_upd_add f_run _ _ _ (WRun j) j Hw eq_refl eq_refl) as HP.
    rewrite (jobs_upd_keep f_ended _ _ _ (WRun j) Hw) by reflexivity. repeat split; auto. pcount.
  - (* JEnd *)
    pose proof (jobs_upd_del f_run _ _ _ (WEnded j) j Hw eq_refl eq_refl) as HP.
    pose proof (jobs_upd_add f_ended _ _ _ (WEnded j) j Hw eq_refl eq_refl) as HP2.
    assert (Hin : In j (runl s)). { eapply Permutation_in; [symmetry; exact C4|]. eapply jobs_in; eauto. }
    apply rm_perm in Hin. repeat split; auto; pcount.
  - (* JobEnd *)
    pose proof (jobs_upd_del f_ended _ _ _ WReg j Hw eq_refl eq_refl) as HP. repeat split; auto. pcount.
Qed.

Lemma phase_pre d : phase d = 0 <-> pre_release d = true.
Proof. destruct d; cbn; split; intros; congruence. Qed.
Lemma phase_done d : phase d = 2 <-> d = DDone.
Proof. destruct d; cbn; split; intros; congruence. Qed.

(* the job accounting: every job sent is in exactly one place *)
Lemma Good_accounting s : Good s -> Permutation (subm s) (jobq s ++ held (dp s) ++ occupying (wk s) ++ fin s).
Proof.
  intros G. rewrite (g_fifo s G), (g_started s G), (Permutation_app_comm (held _)), (app_assoc (jobq s)). apply Permutation_app_comm.
Qed.
Lemma Good_stopped s : Good s -> dp s = DAck \/ dp s = DDone -> ndone (wk s) = length (wk s).
Proof. intros G E. pose proof (g_count s G) as N. rewrite (g_len s G). destruct E as [E|E]; rewrite E in N; exact N. Qed.
Lemma Good_released s : Good s -> rp s = RDone \/ rp s = RAcked -> dp s = DDone.
Proof. intros G E. pose proof (g_phase s G) as R. apply phase_done. destruct E as [E|E]; rewrite E in R; exact R. Qed.

Lemma Good_Inv s : Good s -> InvC s -> Inv s.
Proof.
  intros G C. pose proof G as [L F S (Nd & I & D & B) N R Qb]. split; [|split; [|exact C]].
  - split; [exact L|]. split; [exact (Good_accounting s G)|].
    split; [exact S|]. split; [exact Nd|]. split; [exact I|].
    split. { intros j w E. rewrite E in D. now destruct (D _ _ eq_refl) as (_ & A1 & A2). }
    split. { intros i w E. rewrite E in D, N. destruct (D _ _ eq_refl) as (_ & A1 & A2), N. auto. }
    split. { intros i w E. rewrite E in D, N. destruct (D _ _ eq_refl) as (_ & A1 & A2), N. auto. }
    split. { intros i E. rewrite E in N. exact N. }
    split. { intros E. rewrite <- L. exact (Good_stopped s G E). }
    split. { exact (Good_released s G). }
    intros [E|E]; rewrite E in R; destruct R as [R1 R2]; split; auto; now apply phase_pre.
  - split. { intros w Hw. destruct (B _ _ Hw eq_refl) as [[_ X]|X]; [now left|right]. destruct (dp s); inversion X; eauto. }
    split. { intros w Hw. destruct (B _ _ Hw eq_refl) as [[X _]|X]; [discriminate|]. destruct (dp s); inversion X; eauto. }
    split; [|exact Qb]. intros E1 E2. destruct (rp s); cbn in R; rewrite ?phase_pre, ?phase_done in R; intuition congruence.
Qed.

Lemma reachable_init : reachable init.
Proof. now exists []. Qed.
Lemma reachable_run s ls s' : reachable s -> run s ls = Some s' -> reachable s'.
Proof. intros [l0 H] Hr. exists (l0 ++ ls). rewrite run_is, run_app, <- run_is, H. exact Hr. Qed.
Lemma reachable_step s l s' : reachable s -> step s l = Some s' -> reachable s'.
Proof. intros Hr Hs. apply (reachable_run s [l] s' Hr). cbn. now rewrite Hs. Qed.

Lemma reachable_good s : reachable s -> Good s /\ InvC s.
Proof.
  intros [ls H]. apply (run_inv step (fun s => Good s /\ InvC s)) with (2 := conj Good_init InvC_init) (3 := H).
  intros a l b [G C] Hs. split; [eapply Good_step|eapply InvC_step]; eauto.
Qed.
Lemma reachable_inv s : reachable s -> Inv s.
Proof. intros Hr. destruct (reachable_good s Hr). now apply Good_Inv. Qed.
End Proofs.

(* the step that a worker which is neither waiting nor stopping takes next *)
Definition own_step (w : nat) (p : wpc) : option label :=
  match p with WReg => Some (WorkerReg w) | WGot _ => Some (JStart w) | WRun _ => Some (JEnd w) | WEnded _ => Some (JobEnd w) | _ => None end.

Section Theorems.
Variable W Q : nat.
Notation step := (step W Q). Notation run := (run W Q). Notation trace := (trace W Q).
Notation init := (init W). Notation reachable := (reachable W Q).

Lemma subm_nodup s : reachable s -> NoDup (subm s).
Proof.
  intros Hr. destruct (reachable_good _ _ _ Hr) as (_ & C1 & C2 & C3 & _).
  eapply Permutation_NoDup; [symmetry; exact C3|].
  apply (Permutation_NoDup C2) in C1. now apply NoDup_app_tail in C1.
Qed.

Lemma calling_not_subm s j : reachable s -> In j (calling s) -> ~ In j (subm s).
Proof.
  intros Hr Hc Hs. destruct (reachable_good _ _ _ Hr) as (_ & C1 & C2 & C3 & _).
  apply (Permutation_NoDup C2) in C1. apply (Permutation_in _ C3) in Hs.
  eapply NoDup_app_disj; eauto.
Qed.

Theorem conservation s : reachable s ->
  Permutation (subm s) (jobq s ++ held (dp s) ++ occupying (wk s) ++ fin s) /\
  NoDup (jobq s ++ held (dp s) ++ occupying (wk s) ++ fin s).
Proof.
  intros Hr. destruct (reachable_good _ _ _ Hr) as [G _]. pose proof (Good_accounting _ _ s G) as HC. split; [exact HC|].
  eapply Permutation_NoDup; [exact HC|]. now apply subm_nodup.
Qed.

Theorem no_job_starts_twice s : reachable s ->
  NoDup (started s) /\ Permutation (started s) (occupying (wk s) ++ fin s) /\ (forall j, In j (started s) -> In j (subm s)).
Proof.
  intros Hr. destruct (reachable_good _ _ _ Hr) as [G _]. pose proof (g_started _ _ s G) as HS.
  destruct (conservation s Hr) as [HC Hnd]. apply NoDup_app_tail in Hnd. apply NoDup_app_tail in Hnd.
  repeat split; auto.
  - eapply Permutation_NoDup; [symmetry; exact HS|exact Hnd].
  - intros j Hj. eapply Permutation_in; [symmetry; exact HC|]. apply in_or_app. right. apply in_or_app. right.
    eapply Permutation_in; [exact HS|exact Hj].
Qed.

Theorem bounded_parallelism s : reachable s -> length (occupying (wk s)) <= W /\ length (runl s) <= W.
Proof.
  intros Hr. destruct (reachable_good _ _ _ Hr) as (G & _ & _ & _ & C4 & _). rewrite <- (g_len _ _ s G). split.
  - apply jobs_le.
  - rewrite (Permutation_length C4). apply jobs_le.
Qed.

(* a submit is enabled whenever the queue has room; with Q = 0 (or an empty queue) whenever the dispatcher is at its select *)
Theorem submit_enabled_when_room s j : In j (calling s) ->
  (length (jobq s) < Q -> exists s', step s (Submit j) = Some s') /\
  (dp s = DSel -> jobq s = [] -> exists s', step s (SubmitH j) = Some s').
Proof.
  intros Hin. split; intros; eexists; apply step_Step; now constructor.
Qed.
(* ... and only then: a submit completes only into a free slot or into the hand of the waiting dispatcher *)
Theorem submit_only_when_room s j s' :
  (step s (Submit j) = Some s' -> length (jobq s) < Q) /\
  (step s (SubmitH j) = Some s' -> dp s = DSel /\ jobq s = []).
Proof.
  split; intros H; apply step_Step in H; inversion H; auto.
Qed.
Theorem queue_bounded s : reachable s -> length (jobq s) <= Q.
Proof. intros Hr. now destruct (reachable_good _ _ _ Hr) as [[] _]. Qed.

(* `w.WorkerQueue <- w` never blocks: the buffered WorkerQueue (capacity W) never holds more than W workers and has room whenever
   a worker registers, so modelling the registration as an always enabled step is faithful *)
Theorem worker_queue_within_capacity s : reachable s -> length (wq s) <= W.
Proof.
  intros Hr. destruct (reachable_good _ _ _ Hr) as [[HL _ _ (Hnd & Hin & _) _ _ _] _].
  rewrite <- HL. rewrite <- (seq_length (length (wk s)) 0). apply NoDup_incl_length; [exact Hnd|].
  intros w Hw. apply Hin in Hw. apply nth_some_lt in Hw. apply in_seq. lia.
Qed.
Theorem worker_queue_never_blocks s : reachable s ->
  length (wq s) <= W /\ (forall w s', step s (WorkerReg w) = Some s' -> length (wq s) < W).
Proof.
  intros Hr. split; [now apply worker_queue_within_capacity|]. intros w s' Hs.
  pose proof (worker_queue_within_capacity s' (reachable_step _ _ _ _ _ Hr Hs)) as H.
  apply step_Step in Hs. inversion Hs; subst. simp. rewrite app_length in H. cbn in H. lia.
Qed.

(* a worker in the idle queue, and the worker the dispatcher is about to hand a job to, is idle (waiting in its select): a job is
   never handed to a worker that is still running another one, so it does not wait behind a long job while workers are idle *)
Theorem registered_workers_are_idle s : reachable s ->
  (forall w, In w (wq s) -> nth_error (wk s) w = Some WWait) /\
  (forall j w, dp s = DHand j w -> nth_error (wk s) w = Some WWait /\ exists s', step s Hand = Some s').
Proof.
  intros Hr. destruct (reachable_good _ _ _ Hr) as [G _]. destruct (g_wait _ _ s G) as (_ & Hin & D & _). split; [exact Hin|].
  intros j w Hd. rewrite Hd in D. destruct (D _ _ eq_refl) as (_ & Hw & _). split; [exact Hw|]. eexists. apply step_Step. econstructor; eauto.
Qed.


Theorem release_returns_after_all_stopped s : reachable s -> (rp s = RDone \/ rp s = RAcked) ->
  dp s = DDone /\ (forall w p, nth_error (wk s) w = Some p -> p = WDone) /\ occupying (wk s) = [] /\ runl s = [].
Proof.
  intros Hr Hd. destruct (reachable_good _ _ _ Hr) as (G & _ & _ & _ & C4 & _).
  pose proof (Good_released _ _ s G Hd) as Hdp. pose proof (Good_stopped _ _ s G (or_intror Hdp)) as Hn.
  rewrite (jobs_all_done f_run _ eq_refl Hn) in C4. symmetry in C4. apply Permutation_nil in C4.
  repeat split; auto; [apply (ndone_all _ Hn)|now apply jobs_all_done].
Qed.

(* when Release returns, every job that was ever handed to a worker has finished (and only those: what was still queued never runs) *)
Theorem release_after_every_started_job_finished s : reachable s -> (rp s = RDone \/ rp s = RAcked) ->
  Permutation (started s) (fin s) /\ (forall j, In j (started s) -> In j (fin s)) /\
  (forall j, In j (jobq s) -> ~ In j (started s)).
Proof.
  intros Hr Hd. destruct (no_job_starts_twice s Hr) as (_ & HP & _).
  destruct (release_returns_after_all_stopped s Hr Hd) as (_ & _ & Ho & _). rewrite Ho in HP. cbn [app] in HP.
  split; [exact HP|]. split; [intros j Hj; eapply Permutation_in; eauto|].
  intros j Hj Hs. destruct (conservation s Hr) as [_ HN]. rewrite Ho in HN. cbn [app] in HN.
  apply (Permutation_in _ HP) in Hs. eapply NoDup_app_disj; [exact HN|exact Hj|]. apply in_or_app. now right.
Qed.


(* Release cannot return while a job occupies a worker: the step that lets it return needs every worker stopped *)
Theorem release_not_while_running s s' : reachable s -> step s RelRet = Some s' -> occupying (wk s) = [] /\ jobs_of f_run (wk s) = [].
Proof.
  intros Hr Hs. destruct (reachable_good _ _ _ Hr) as [G _].
  unfold Gpool.step in Hs. destruct (dp s) eqn:Hd; try discriminate.
  pose proof (Good_stopped _ _ s G (or_introl Hd)) as Hn.
  split; now apply jobs_all_done.
Qed.

(* once Release has returned nothing changes any more apart from submitters: no job is handed over, starts or ends *)
Theorem nothing_starts_after_release s l s' : reachable s -> rp s = RDone -> step s l = Some s' ->
  started s' = started s /\ runl s' = runl s /\ wk s' = wk s /\ rp s' = RDone.
Proof.
  intros Hre Hd Hs. destruct (release_returns_after_all_stopped s Hre (or_introl Hd)) as (Hdp & Hall & _).
  apply step_Step in Hs. destruct Hs; simp; auto; try congruence; apply Hall in Hw; discriminate.
Qed.

Lemma moves s l s' : Step W Q s l s' -> internal l = true -> exists l s', internal l = true /\ step s l = Some s'.
Proof. intros Hs Hi. exists l, s'. split; [exact Hi|now apply step_Step]. Qed.

Lemma own_step_enabled s w p l : nth_error (wk s) w = Some p -> own_step w p = Some l ->
  internal l = true /\ exists s', Step W Q s l s'.
Proof. intros Hw Ho. destruct p; cbn in Ho; inversion Ho; subst; split; try reflexivity; eexists; constructor; eauto. Qed.

Lemma step_worker s l s' v p : step s l = Some s' -> nth_error (wk s) v = Some p ->
  nth_error (wk s') v = Some p \/ own_step v p = Some l \/ waits p = true.
Proof.
  intros Hs Hp. apply step_Step in Hs. destruct Hs; simp; auto.
  all: destruct (Nat.eq_dec w v) as [->|Hne]; [right|left; now rewrite nth_upd_neq].
  all: rewrite Hp in Hw; injection Hw as ->; cbn; auto.
Qed.
Lemma own_step_persists s l' s' v p l : nth_error (wk s) v = Some p -> own_step v p = Some l -> step s l' = Some s' -> l' <> l ->
  nth_error (wk s') v = Some p.
Proof.
  intros Hp Ho Hs Hne. destruct (step_worker s l' s' v p Hs Hp) as [H|[H|H]]; [exact H|congruence|now destruct p].
Qed.

Lemma worker_cases s w p : Good W Q s -> nth_error (wk s) w = Some p ->
  (exists l, own_step w p = Some l) \/ (p = WWait /\ In w (wq s)) \/ dworker (dp s) = Some (w, p) \/ p = WDone.
Proof.
  intros [_ _ _ (_ & _ & _ & B) _ _ _] Hw. destruct p; cbn; eauto; right; destruct (B _ _ Hw eq_refl) as [X|X]; auto.
Qed.

(* A pending job (queued or in the dispatcher's hand) before Release, or a Release in progress, always leaves a step of the
   pool itself or of a running job enabled (jobs terminate: JEnd is the job's own step). *)
Theorem no_deadlock s : 1 <= W -> reachable s ->
  ((rp s = RNot \/ rp s = RCalled) /\ (jobq s <> [] \/ held (dp s) <> []) \/ rp s = RCalled \/ rp s = RSent \/ rp s = RAcked) ->
  exists l s', internal l = true /\ step s l = Some s'.
Proof.
  intros HW Hre Hcase. destruct (reachable_good _ _ _ Hre) as [G _]. pose proof G as [L _ _ (_ & _ & D & _) N R _].
  (* if fewer than W workers have stopped and the dispatcher holds none, one that is neither waiting nor stopping can move *)
  assert (Hsome : ndone (wk s) < W -> wq s = [] -> dworker (dp s) = None -> exists l s', internal l = true /\ step s l = Some s').
  { intros Hn Hq Hd. rewrite <- L in Hn. destruct (ndone_some_not _ Hn) as (w & p & Hw & Hp).
    destruct (worker_cases s w p G Hw) as [[l Ho]|[[_ X]|[X|X]]]; [|rewrite Hq in X; destruct X|congruence|contradiction].
    destruct (own_step_enabled s w p l Hw Ho) as (Hi & s' & Hs). eapply moves; eauto. }
  pose proof (ndone_le (wk s)) as Hle. rewrite L in Hle.
  destruct (dp s) eqn:Hd; cbn in D, N, R.
  - (* DSel *)
    destruct (jobq s) as [|j r] eqn:Hj; [|exact (moves _ _ _ (SDTake _ _ s j r Hd Hj) eq_refl)].
    destruct (rp s) eqn:Hrp; cbn in R; try (exfalso; lia).
    + destruct Hcase as [[_ [C|C]]|[C|[C|C]]]; try discriminate; cbn in C; congruence.
    + exact (moves _ _ _ (SRelCall _ _ s Hrp Hd) eq_refl).
  - (* DHave *)
    destruct (wq s) as [|w r] eqn:Hq; [|exact (moves _ _ _ (SDWorker _ _ s j w r Hd Hq) eq_refl)].
    apply Hsome; auto. destruct (rp s); cbn in R; lia.
  - (* DHand *) destruct (D _ _ eq_refl) as (_ & Hw & _). exact (moves _ _ _ (SHand _ _ s j w Hd Hw) eq_refl).
  - (* DCollect *)
    subst i. destruct (Nat.eq_dec (ndone (wk s)) W) as [E|E].
    + rewrite E in Hd. exact (moves _ _ _ (SDColFin _ _ s Hd) eq_refl).
    + destruct (wq s) as [|w r] eqn:Hq; [apply Hsome; auto; lia|].
      refine (moves _ _ _ (SDColTake _ _ s _ w r Hd Hq _) eq_refl). lia.
  - (* DStop *) destruct (D _ _ eq_refl) as (_ & Hw & _). exact (moves _ _ _ (SStopSend _ _ s i w Hd Hw) eq_refl).
  - (* DWaitAck *) destruct (D _ _ eq_refl) as (_ & Hw & _). exact (moves _ _ _ (SStopAck _ _ s i w Hd Hw) eq_refl).
  - (* DAck: the releaser waits for the acknowledgement *)
    destruct (rp s) eqn:Hrp; cbn in R; try (exfalso; lia). exact (moves _ _ _ (SRelRet _ _ s Hd Hrp) eq_refl).
  - (* DDone *)
    destruct (rp s) eqn:Hrp; cbn in R; try (exfalso; lia).
    + exact (moves _ _ _ (SRelRetLog _ _ s Hrp) eq_refl).
    + destruct Hcase as [[[C|C] _]|[C|[C|C]]]; discriminate.
Qed.
End Theorems.

Definition f_got p := match p with WGot j => Some j | _ => None end.
Lemma occ_split l : Permutation (jobs_of f_occ l) (jobs_of f_got l ++ jobs_of f_run l ++ jobs_of f_ended l).
Proof.
  induction l as [|a l IH]; [reflexivity|]. unfold jobs_of in *. cbn [flat_map].
  destruct a; cbn [f_occ f_got f_run f_ended app]; try exact IH.
  - apply perm_skip. exact IH.
  - rewrite IH. apply Permutation_middle.
  - rewrite IH. rewrite (app_assoc _ _ (j :: _)). rewrite <- Permutation_middle. rewrite <- app_assoc. reflexivity.
Qed.

Lemma sruns_app W σ a b : sruns W σ (a ++ b) = match sruns W σ a with Some σ' => sruns W σ' b | None => None end.
Proof.
  (* [W] is an argument of the fixpoint [sruns], so the two are not convertible: [run_unique] *)
  assert (E : forall tr σ, sruns W σ tr = Lts.run (sstep W) σ tr) by (apply run_unique; reflexivity).
  rewrite !E, run_app. destruct (Lts.run (sstep W) σ a); [now rewrite E|reflexivity].
Qed.

Section Refinement.
Variable W Q : nat.
Notation step := (step W Q). Notation run := (run W Q). Notation trace := (trace W Q).
Notation init := (init W). Notation reachable := (reachable W Q).

Lemma sim_step s l s' : reachable s -> step s l = Some s' -> sruns W (abs s) (ev s l) = Some (abs s').
Proof.
  intros Hre Hs.
  destruct (reachable_good _ _ _ Hre) as (G & C1 & C2 & C3 & C4 & C5). pose proof (g_len _ _ s G) as HL.
  destruct (conservation W Q s Hre) as [HC Hnd].
  apply step_Step in Hs. destruct Hs; unfold ev, abs; simp; rewrite ?Hw, ?Hr; cbn [sruns sstep s_called s_ret s_run s_done s_rel relof]; try reflexivity.
  - (* SubCall *) apply mem_nIn in Hn. now rewrite Hn.
  - (* SubRet *)
    apply (Permutation_NoDup C2) in C1.
    assert (A : mem j (clog s) = true) by (apply mem_In; rewrite C2, !in_app_iff; auto).
    assert (B : mem j (rlog s) = false). { apply mem_nIn. apply NoDup_app_tail in C1. eapply NoDup_app_disj; eauto. }
    now rewrite A, B.
  - (* JStart: j is held by a worker that has not started it, so it was sent, is in no other worker and has not finished *)
    assert (Hocc : In j (occupying (wk s))) by (eapply jobs_in; eauto; reflexivity).
    assert (A : mem j (clog s) = true).
    { apply mem_In. rewrite C2, in_app_iff, <- C3, HC, !in_app_iff. auto. }
    apply NoDup_app_tail in Hnd. apply NoDup_app_tail in Hnd.
    assert (Hfin : ~ In j (fin s)) by (eapply NoDup_app_disj; eauto).
    apply NoDup_app_head in Hnd. unfold occupying in Hnd. apply (Permutation_NoDup (occ_split (wk s))) in Hnd.
    assert (Hgot : In j (jobs_of f_got (wk s))) by (eapply jobs_in; eauto; reflexivity).
    pose proof (NoDup_app_disj _ _ _ Hnd Hgot) as Hdis. rewrite in_app_iff in Hdis.
    assert (B : mem j (runl s) = false) by (apply mem_nIn; rewrite C4; clear - Hdis; tauto).
    assert (C : mem j (dlog s) = false) by (apply mem_nIn; rewrite C5, in_app_iff; clear - Hdis Hfin; tauto).
    assert (D : (length (runl s) <? W) = true).
    { apply Nat.ltb_lt. rewrite (Permutation_length C4), <- HL. eapply jobs_lt; eauto. }
    assert (E : relst_eqb (relof (rp s)) RelReturned = false).
    { destruct (rp s) eqn:Hrp; try reflexivity. exfalso.
      destruct (release_returns_after_all_stopped W Q s Hre (or_introl Hrp)) as (_ & Hall & _). apply Hall in Hw. discriminate. }
    now rewrite A, B, C, D, E.
  - (* JEnd *)
    assert (A : mem j (runl s) = true). { apply mem_In. eapply Permutation_in; [symmetry; exact C4|]. eapply jobs_in; eauto. }
    now rewrite A.
  - (* RelRetLog *)
    destruct (release_returns_after_all_stopped W Q s Hre (or_intror Hr)) as (_ & _ & _ & Hrun). now rewrite Hrun.
Qed.

Lemma refines_from ls : forall s s', reachable s -> run s ls = Some s' -> sruns W (abs s) (trace s ls) = Some (abs s').
Proof.
  induction ls as [|l ls IH]; cbn; intros s s' Hr H. { now inversion H; subst. }
  destruct (step s l) eqn:E; [|discriminate].
  rewrite sruns_app, (sim_step _ _ _ Hr E). apply IH; auto. eapply reachable_step; eauto.
Qed.

Theorem refines_spec ls s : run init ls = Some s -> sruns W sinit (trace init ls) = Some (abs s) /\ accepts W (trace init ls) = true.
Proof.
  intros H. pose proof (refines_from ls init s (reachable_init W Q) H) as A. split; [exact A|]. unfold accepts. change sinit with (abs init). now rewrite A.
Qed.
End Refinement.

Definition ends_of (tr : list event) : list job := flat_map (fun e => match e with EEnd j => [j] | _ => [] end) tr.

Section Spec.
Variable W : nat.
Definition SInv (σ : sst) (st en : list job) : Prop :=
  length (s_run σ) <= W /\ NoDup (s_run σ ++ s_done σ) /\ Permutation st (s_run σ ++ s_done σ) /\ Permutation en (s_done σ).

Lemma SInv_step σ e σ' st en : SInv σ st en -> sstep W σ e = Some σ' -> SInv σ' (st ++ starts_of [e]) (en ++ ends_of [e]).
Proof.
  intros (I1 & I2 & I3 & I4) Hs. unfold SInv.
  destruct e; unfold sstep in Hs; brk; injection Hs as <-; cbn [s_run s_done starts_of ends_of flat_map app]; rewrite ?app_nil_r; auto.
  - (* EStart *)
    match goal with H : _ = true |- _ =>
      rewrite !andb_true_iff, !negb_true_iff, Nat.ltb_lt, !mem_nIn in H; destruct H as ((((_ & Hr) & Hd) & Hlt) & _) end.
    repeat split; auto.
    + rewrite app_length. cbn. lia.
    + rewrite <- app_assoc. cbn. eapply Permutation_NoDup; [apply Permutation_middle|]. constructor; auto.
      intros Hin. apply in_app_or in Hin. tauto.
    + pcount.
  - (* EEnd *)
    match goal with H : mem j _ = true |- _ => apply mem_In in H; apply rm_perm in H; rename H into Hm end.
    assert (Hp : Permutation (s_run σ ++ s_done σ) (rm j (s_run σ) ++ s_done σ ++ [j])).
    { clear - Hm. pcount. }
    repeat split; auto.
    + rewrite (Permutation_length Hm) in I1. cbn in I1. lia.
    + eapply Permutation_NoDup; [exact Hp|exact I2].
    + rewrite I3. exact Hp.
    + rewrite I4. reflexivity.
Qed.

Lemma SInv_runs tr : forall σ σ' st en, SInv σ st en -> sruns W σ tr = Some σ' -> SInv σ' (st ++ starts_of tr) (en ++ ends_of tr).
Proof.
  induction tr as [|e tr IH]; cbn [sruns]; intros σ σ' st en HI H.
  - inversion H; subst. cbn. now rewrite !app_nil_r.
  - destruct (sstep W σ e) eqn:E; [|discriminate].
    change (e :: tr) with ([e] ++ tr). unfold starts_of, ends_of. rewrite !flat_map_app, !app_assoc.
    eapply IH; [|exact H]. eapply SInv_step; eauto.
Qed.

Lemma SInv_init : SInv sinit [] [].
Proof. unfold SInv; cbn. repeat split; auto; try constructor. lia. Qed.

(* after any prefix of an accepted trace: the jobs running are exactly those started and not ended, there are at most W of
   them, and no job has started twice *)
Theorem spec_prefix tr1 tr2 : accepts W (tr1 ++ tr2) = true ->
  exists σ, sruns W sinit tr1 = Some σ /\ length (s_run σ) <= W /\ NoDup (starts_of tr1) /\
            Permutation (starts_of tr1) (s_run σ ++ ends_of tr1).
Proof.
  unfold accepts. rewrite sruns_app. destruct (sruns W sinit tr1) as [σ|] eqn:E; [|discriminate]. intros _.
  destruct (SInv_runs tr1 _ _ _ _ SInv_init E) as (I1 & I2 & I3 & I4). cbn [app] in *.
  exists σ. repeat split; auto.
  - eapply Permutation_NoDup; [symmetry; exact I3|exact I2].
  - rewrite I3, I4. reflexivity.
Qed.

Theorem spec_start_once tr : accepts W tr = true -> NoDup (starts_of tr).
Proof. intros H. rewrite <- (app_nil_r tr) in H. destruct (spec_prefix _ _ H) as (σ & _ & _ & A & _). exact A. Qed.

(* when release-return is observed every started job has ended, and no start is observed afterwards *)
Lemma no_start_after_returned tr : forall σ σ', s_rel σ = RelReturned -> sruns W σ tr = Some σ' -> starts_of tr = [] /\ s_rel σ' = RelReturned.
Proof.
  induction tr as [|e tr IH]; cbn [sruns]; intros σ σ' Hrel H. { inversion H; subst. auto. }
  destruct (sstep W σ e) as [σ1|] eqn:E; [|discriminate].
  assert (A : starts_of [e] = [] /\ s_rel σ1 = RelReturned).
  { destruct e; unfold sstep in E; brk; injection E as <-; cbn; auto; try congruence.
    match goal with H : (_ && _) = true |- _ => apply andb_true_iff in H; destruct H as [_ H]; rewrite Hrel in H; discriminate end. }
  destruct A as [A1 A2]. destruct (IH _ _ A2 H) as [B1 B2]. split; auto.
  change (e :: tr) with ([e] ++ tr). unfold starts_of in *. rewrite flat_map_app, A1, B1. reflexivity.
Qed.

Theorem spec_release tr1 tr2 : accepts W (tr1 ++ ERelRet :: tr2) = true ->
  Permutation (starts_of tr1) (ends_of tr1) /\ starts_of tr2 = [].
Proof.
  intros H. destruct (spec_prefix _ _ H) as (σ & E & _ & _ & P).
  unfold accepts in H. rewrite sruns_app, E in H. cbn [sruns] in H.
  destruct (sstep W σ ERelRet) as [σ1|] eqn:E1; [|discriminate].
  unfold sstep in E1. destruct (s_rel σ) eqn:Hrel; try discriminate. destruct (s_run σ) eqn:Hrun; try discriminate.
  injection E1 as <-. split. { exact P. }
  destruct (sruns W _ tr2) as [σ2|] eqn:E2; [|discriminate].
  eapply no_start_after_returned; [|exact E2]. reflexivity.
Qed.

(* a complete run: every submitted job ran *)
Theorem spec_complete tr : accepts_complete W tr = true ->
  accepts W tr = true /\ length (starts_of tr) = length (ends_of tr) /\
  exists σ, sruns W sinit tr = Some σ /\ length (s_done σ) = length (s_called σ) /\ Permutation (ends_of tr) (s_done σ).
Proof.
  unfold accepts_complete, accepts. destruct (sruns W sinit tr) as [σ|] eqn:E; [|discriminate].
  destruct (s_run σ) eqn:Hrun; [|discriminate]. intros H. apply Nat.eqb_eq in H.
  destruct (SInv_runs tr _ _ _ _ SInv_init E) as (_ & _ & I3 & I4). cbn [app] in *. rewrite Hrun in I3. cbn in I3.
  repeat split; auto.
  - rewrite (Permutation_length I3), (Permutation_length I4). reflexivity.
  - exists σ. auto.
Qed.
End Spec.

(* 2 workers, queue 2: two jobs run concurrently, then Release; the trace is accepted as a complete run *)
Definition ex_schedule : list label :=
  [WorkerReg 0; WorkerReg 1; SubCall 7%N; Submit 7%N; SubCall 8%N; SubRet 7%N; Submit 8%N; DTake; DWorker; Hand; SubRet 8%N; DTake; DWorker; Hand;
   JStart 0; JStart 1; JEnd 0; JobEnd 0; JEnd 1; JobEnd 1; WorkerReg 0; WorkerReg 1; RelLog; RelCall; DColTake; StopSend; StopAck;
   DColTake; StopSend; StopAck; DColFin; RelRet; RelRetLog].
Example pool_example :
  exists s, run 2 2 (init 2) ex_schedule = Some s /\ rp s = RDone /\ started s = [7; 8]%N /\ fin s = [7; 8]%N /\
            trace 2 2 (init 2) ex_schedule =
              [ESubCall 7; ESubCall 8; ESubRet 7; ESubRet 8; EStart 7; EStart 8; EEnd 7; EEnd 8; ERelCall; ERelRet]%N /\
            accepts_complete 2 (trace 2 2 (init 2) ex_schedule) = true.
Proof. eexists. vm_compute. repeat split. Qed.
(* queue of capacity 0: the job is handed to the dispatcher's select directly *)
Example pool_example_q0 :
  exists s, run 1 0 (init 1) [SubCall 3%N; SubmitH 3%N; WorkerReg 0; DWorker; Hand; JStart 0; SubRet 3%N; JEnd 0; JobEnd 0] = Some s /\
            fin s = [3%N] /\ step 1 0 (init 1) (Submit 3%N) = None.
Proof. eexists. vm_compute. repeat split. Qed.
(* the validator rejects what the property forbids *)
Example rejects_double_start : accepts 2 [ESubCall 1; EStart 1; EEnd 1; EStart 1]%N = false.
Proof. reflexivity. Qed.
Example rejects_over_parallel : accepts 1 [ESubCall 1; ESubCall 2; EStart 1; EStart 2]%N = false.
Proof. reflexivity. Qed.
Example rejects_release_while_running : accepts 2 [ESubCall 1; EStart 1; ERelCall; ERelRet]%N = false.
Proof. reflexivity. Qed.
Example rejects_start_after_release : accepts 2 [ESubCall 1; ERelCall; ERelRet; EStart 1]%N = false.
Proof. reflexivity. Qed.
Example rejects_lost_job : accepts_complete 2 [ESubCall 1; ESubCall 2; ESubRet 1; ESubRet 2; EStart 1; EEnd 1]%N = false.
Proof. reflexivity. Qed.
