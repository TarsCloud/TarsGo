(* C01: a concrete, non-trivial instance satisfying every hypothesis of the value-level theorems (so none of the
   implications is vacuous), on the regenerated schemas of the code: the function
     int mixed(int a, out string o1, string b, out vector<int> o2, long c, out Item o3, Item d, out map<string,string> o4, bool e)
   of harness/idl/e2e.tars, with in and out parameters interleaved, a struct, a vector and a map. *)
From Coq Require Import List NArith ZArith Bool Arith Lia.
From TarsV Require Import Gen.Consts Base.Hex Codec.Wire Codec.Skip Codec.Prim Codec.GenCodec Codec.Corr Gen.Schemas
  Frame.Framing Rpc.Filters Rpc.FiltersProofs Rpc.EndToEnd Rpc.EndToEndProofs Rpc.EndToEndConc Frame.FramingProofs.
Import ListNotations.
Open Scope N_scope.

Definition ex_item := TStruct sid_verife2e_Item.
Definition ex_sig : fsig :=
  {| fs_name := [109; 105; 120; 101; 100]; fs_ret := Some TI32;
     fs_args := [(TI32, false); (TStr, true); (TStr, false); (TVec TI32, true); (TI64, false); (ex_item, true);
                 (ex_item, false); (TMap TStr TStr, true); (TBool, false)] |}.
Definition ex_it (id : Z) : val := VStruct [VInt id; VStr [97; 98]; VList [VInt 1; VInt (-5000000000)]; VInt 8].
Definition ex_args : list val :=
  [VInt 300; VStr []; VStr [104; 105]; VList []; VInt (-1); VStruct [VInt 0; VStr []; VList []; VInt 0];
   ex_it 5; VMap []; VBool true].
Definition ex_opts : opts := [Some [([107], [118])]; Some []].
Definition ex_ret : option val := Some (VInt (-32769)).
Definition ex_outs : list val := [VStr [111; 49]; VList [VInt 1; VInt 70000]; ex_it 9; VMap [(VStr [120], VStr [121; 122])]].
Definition ex_rc : smap := [([114], [99]); ([], [1; 2])].
Definition ex_rs : smap := [].
Definition ex_impl_ok : bytes -> list val -> smap -> smap -> impl_res := fun _ _ _ _ => IOk ex_ret ex_outs ex_rc ex_rs.
Definition ex_impl_err : bytes -> list val -> smap -> smap -> impl_res := fun _ _ _ _ => IFail 78 [111; 111; 112; 115].
Definition ex_pc : pfilters ev unit := recording (EF Client) tt {| c_legacy := false; c_mws := 2; c_pres := 1; c_posts := 1 |}.
Definition ex_ps : pfilters ev unit := recording (EF Server) tt {| c_legacy := false; c_mws := 0; c_pres := 1; c_posts := 2 |}.

Notation SR := sid_requestf_RequestPacket.
Notation SP := sid_requestf_ResponsePacket.
Notation MAXP := c_c01_MaxPackageLength.
Definition ex_q (ow : bool) := mkreq env0 ex_sig ex_args ex_opts ow 41 [79; 98; 106] 3000.

Example ex_find : find_fn [ex_sig] (fs_name ex_sig) = Some ex_sig.
Proof. vm_compute. reflexivity. Qed.
Example ex_wire_req : wire_ok_req env0 SR MAXP (ex_q false).
Proof. vm_compute. reflexivity. Qed.
Example ex_wire_req_oneway : wire_ok_req env0 SR MAXP (ex_q true).
Proof. vm_compute. reflexivity. Qed.
Example ex_args_rt : args_roundtrip env0 ex_sig ex_args.
Proof. eexists. vm_compute. reflexivity. Qed.
Example ex_results_rt : results_roundtrip env0 ex_sig ex_args (results ex_ret ex_outs).
Proof. eexists. vm_compute. reflexivity. Qed.
Example ex_wire_rsp : wire_ok_rsp env0 SP MAXP (ok_reply env0 ex_sig (ex_q false) ex_ret ex_outs ex_rc ex_rs).
Proof. vm_compute. reflexivity. Qed.
Example ex_wire_rsp_err : wire_ok_rsp env0 SP MAXP (err_reply (ex_q false) 78 [111; 111; 112; 115]).
Proof. vm_compute. reflexivity. Qed.
Example ex_maps : maps_after ex_opts ex_rc ex_rs = [ex_rc; ex_rs].
Proof. reflexivity. Qed.

Example ex_transparent_ok :
  call env0 SR SP MAXP ex_impl_ok (filters_of inv_res ex_pc) (filters_of disp_res ex_ps) [ex_sig] ex_sig ex_args ex_opts false 41 [79; 98; 106] 3000
  = (COk ex_ret ex_outs [ex_rc; ex_rs], core_events ex_pc ex_ps ex_sig ex_args ex_opts true).
Proof.
  apply (transparent_ok env0 SR SP MAXP ex_impl_ok ex_pc ex_ps [ex_sig] ex_sig ex_args ex_opts 41 [79; 98; 106] 3000 ex_ret ex_outs ex_rc ex_rs).
  - exact ex_find. - exact ex_wire_req. - exact ex_args_rt. - reflexivity. - exact I. - exact ex_results_rt.
  - exact ex_wire_rsp.
Qed.
Example ex_transparent_err :
  call env0 SR SP MAXP ex_impl_err (filters_of inv_res ex_pc) (filters_of disp_res ex_ps) [ex_sig] ex_sig ex_args ex_opts false 41 [79; 98; 106] 3000
  = (CErr 78 [111; 111; 112; 115] false, core_events ex_pc ex_ps ex_sig ex_args ex_opts true).
Proof.
  apply (transparent_err env0 SR SP MAXP ex_impl_err ex_pc ex_ps [ex_sig] ex_sig ex_args ex_opts 41 [79; 98; 106] 3000 78 [111; 111; 112; 115]).
  - exact ex_find. - exact ex_wire_req. - exact ex_args_rt. - reflexivity. - discriminate. - exact ex_wire_rsp_err.
Qed.
(* an error with an empty message: the code arrives, the text is the framework's *)
Definition ex_impl_err0 : bytes -> list val -> smap -> smap -> impl_res := fun _ _ _ _ => IFail 78 [].
Example ex_wire_rsp_err0 : wire_ok_rsp env0 SP MAXP (err_reply (ex_q false) 78 []).
Proof. vm_compute. reflexivity. Qed.
Example ex_transparent_err_empty :
  fst (call env0 SR SP MAXP ex_impl_err0 (filters_of inv_res ex_pc) (filters_of disp_res ex_ps) [ex_sig] ex_sig ex_args ex_opts false 41 [79; 98; 106] 3000)
  = CErr 78 sys_msg true.
Proof.
  rewrite (transparent_err env0 SR SP MAXP ex_impl_err0 ex_pc ex_ps [ex_sig] ex_sig ex_args ex_opts 41 [79; 98; 106] 3000 78 []).
  - reflexivity. - exact ex_find. - exact ex_wire_req. - exact ex_args_rt. - reflexivity. - discriminate. - exact ex_wire_rsp_err0.
Qed.
(* a nil context map passed by the caller while the implementation sets a response context: no panic, the results arrive *)
Example ex_nil_context_map :
  fst (call env0 SR SP MAXP ex_impl_ok (filters_of inv_res ex_pc) (filters_of disp_res ex_ps) [ex_sig] ex_sig ex_args [None; Some []] false 41 [79; 98; 106] 3000)
  = COk ex_ret ex_outs [[]; ex_rs].
Proof. vm_compute. reflexivity. Qed.
Example ex_oneway :
  call env0 SR SP MAXP ex_impl_ok (filters_of inv_res ex_pc) (filters_of disp_res ex_ps) [ex_sig] ex_sig ex_args ex_opts true 41 [79; 98; 106] 3000
  = (CSent, core_events ex_pc ex_ps ex_sig ex_args ex_opts false).
Proof.
  apply (oneway env0 SR SP MAXP ex_impl_ok ex_pc ex_ps [ex_sig] ex_sig ex_args ex_opts 41 [79; 98; 106] 3000).
  - exact ex_find. - exact ex_wire_req_oneway. - exact ex_args_rt.
Qed.
(* ... and the same call evaluated directly: the in arguments reach the implementation, once, between the filters *)
Example ex_events :
  filter is_obs (snd (call env0 SR SP MAXP ex_impl_ok (filters_of inv_res ex_pc) (filters_of disp_res ex_ps) [ex_sig] ex_sig ex_args ex_opts false 41 [79; 98; 106] 3000))
  = [EF Client (FIn KMw 0); EF Client (FIn KMw 1); EF Server (FIn KPre 0);
     EImpl (fs_name ex_sig) [VInt 300; VStr [104; 105]; VInt (-1); ex_it 5; VBool true] [([107], [118])] [];
     EF Server (FIn KPost 0); EF Server (FIn KPost 1); EF Client (FOut KMw 1); EF Client (FOut KMw 0)].
Proof. vm_compute. reflexivity. Qed.

(* ---------- the closed value theorems (Rpc/EndToEndFull.v) applied to the same call of mixed (in and out parameters
   interleaved: the dispatcher passes over the encoded out arguments), fresh out variables ---------- *)
From TarsV Require Import Codec.RoundTrip Codec.RoundTripProofs Codec.RoundTripExamples Rpc.ValueWire Rpc.EndToEndFull.

(* the regenerated schemas satisfy the conditions of the struct-level codec theorems (tags ascending, defaults on
   scalars only, by-value struct nesting at most 8 (robust against added IDL structs)) *)
Example fx_env0_wf : wf_schema 8 env0.
Proof. exact env0_wf_schema. Qed.

Ltac typed_list := repeat (apply Forall2_cons; [cbn [fst fty]; apply (has_type_b_sound env0 8); vm_compute; reflexivity|]); apply Forall2_nil.
Ltac fine_packet := repeat split; try reflexivity; repeat constructor.

Example ex_sig_fine : sig_fine env0 8 4 ex_sig.
Proof.
  split; [split; [repeat constructor|reflexivity]|].
  split; [split; vm_compute; reflexivity|].
  split; apply Nat.leb_le; vm_compute; reflexivity.
Qed.
Example ex_args_typed : args_typed env0 (fs_args ex_sig) ex_args.
Proof. unfold args_typed. typed_list. Qed.
Example ex_outs_skippable : outs_small ex_sig ex_args.
Proof. unfold outs_small. vm_compute outs_of. repeat constructor; vm_compute; try reflexivity; try discriminate. Qed.
Example ex_outs_fresh : outs_fresh env0 ex_sig ex_args.
Proof.
  unfold outs_fresh. vm_compute out_fields. vm_compute outs_of.
  repeat (apply Forall2_cons; [cbn [fty]; first [match goal with |- zlike _ ?t _ => exact (ZL_base env0 t eq_refl) end | apply (zero_zlike env0 2 ex_item 3); [vm_compute; reflexivity|lia]]|]).
  apply Forall2_nil.
Qed.
Example ex_results_typed : results_typed env0 ex_sig (results ex_ret ex_outs).
Proof. unfold results_typed. vm_compute rsp_fields. typed_list. Qed.
Example ex_req_sendable : req_sendable env0 SR MAXP (ex_q false).
Proof. split; [fine_packet|apply N.leb_le; vm_compute; reflexivity]. Qed.
Example ex_rsp_sendable : rsp_sendable env0 SP MAXP (ok_reply env0 ex_sig (ex_q false) ex_ret ex_outs ex_rc ex_rs).
Proof. split; [fine_packet|apply N.leb_le; vm_compute; reflexivity]. Qed.

(* the packet-codec hypotheses of the concurrency theorem hold of the instance's packets *)
Example ex_req_codec_ok : req_codec_ok env0 SR MAXP (ex_q false).
Proof. exact (req_codec_ok_full env0 8 fx_env0_wf ltac:(lia) SR eq_refl MAXP eq_refl _ ex_req_sendable). Qed.
Example ex_rsp_codec_ok : rsp_codec_ok env0 SP MAXP (ok_reply env0 ex_sig (ex_q false) ex_ret ex_outs ex_rc ex_rs).
Proof. exact (rsp_codec_ok_full env0 8 fx_env0_wf ltac:(lia) SP eq_refl MAXP eq_refl _ ex_rsp_sendable). Qed.

Example ex_transparent_ok_closed :
  call env0 SR SP MAXP ex_impl_ok (filters_of inv_res ex_pc) (filters_of disp_res ex_ps) [ex_sig] ex_sig ex_args ex_opts false 41 [79; 98; 106] 3000
  = (COk ex_ret ex_outs [ex_rc; ex_rs],
     core_events_at ex_pc ex_ps ex_sig [VInt 300; VStr [104; 105]; VInt (-1); ex_it 5; VBool true] ex_opts true).
Proof.
  rewrite (transparent_ok_closed env0 8 fx_env0_wf ltac:(lia) SR SP eq_refl eq_refl MAXP ltac:(vm_compute; reflexivity) 4
             ex_impl_ok ex_pc ex_ps [ex_sig] ex_sig ex_args ex_opts 41 [79; 98; 106] 3000 ex_ret ex_outs ex_rc ex_rs).
  - vm_compute. reflexivity.
  - vm_compute. reflexivity.
  - exact ex_sig_fine.
  - exact ex_args_typed.
  - exact ex_outs_skippable.
  - split; [repeat constructor|exact eq_refl].
  - reflexivity.
  - exact ex_results_typed.
  - exact ex_req_sendable.
  - exact ex_rsp_sendable.
Qed.

(* an out variable that already holds a value: the Item passed for o3 has nums = [1; ...], the implementation sets an
   Item with nums = []. Signature with the out parameters last:
     int m2(int a, string b, Item d, out string o1, out vector<int> o2, out Item o3, out map<string,string> o4) *)
Definition fx_sig : fsig :=
  {| fs_name := [109; 50]; fs_ret := Some TI32;
     fs_args := [(TI32, false); (TStr, false); (ex_item, false); (TStr, true); (TVec TI32, true); (ex_item, true); (TMap TStr TStr, true)] |}.
Example fx_sig_fine : sig_fine env0 8 4 fx_sig.
Proof.
  split; [split; [repeat constructor|reflexivity]|].
  split; [split; vm_compute; reflexivity|].
  split; apply Nat.leb_le; vm_compute; reflexivity.
Qed.
Definition fx_args_prefilled : list val := [VInt 300; VStr [104; 105]; ex_it 5; VStr []; VList []; ex_it 5; VMap []].
Definition fx_set_item : val := VStruct [VInt 9; VStr [97; 98]; VList []; VInt 8].
Definition fx_outs_empty : list val := [VStr [111; 49]; VList [VInt 1; VInt 70000]; fx_set_item; VMap [(VStr [120], VStr [121; 122])]].
Definition fx_impl_empty : bytes -> list val -> smap -> smap -> impl_res := fun _ _ _ _ => IOk ex_ret fx_outs_empty ex_rc ex_rs.
Definition fx_qp := mkreq env0 fx_sig fx_args_prefilled ex_opts false 41 [79; 98; 106] 3000.
Example fx_prefilled_typed : args_typed env0 (fs_args fx_sig) fx_args_prefilled.
Proof. unfold args_typed. typed_list. Qed.
Example fx_prefilled_skippable : outs_small fx_sig fx_args_prefilled.
Proof. unfold outs_small. vm_compute outs_of. repeat constructor; vm_compute; try reflexivity; try discriminate. Qed.
Example fx_empty_typed : results_typed env0 fx_sig (results ex_ret fx_outs_empty).
Proof. unfold results_typed. vm_compute rsp_fields. typed_list. Qed.
Example fx_qp_sendable : req_sendable env0 SR MAXP fx_qp.
Proof. split; [fine_packet|apply N.leb_le; vm_compute; reflexivity]. Qed.
Example fx_rp_sendable : rsp_sendable env0 SP MAXP (ok_reply env0 fx_sig fx_qp ex_ret fx_outs_empty ex_rc ex_rs).
Proof. split; [fine_packet|apply N.leb_le; vm_compute; reflexivity]. Qed.
(* the caller reads exactly what the implementation set: the generated ResetDefault resets every member, so the
   nums = [1; -5000000000] of the pre-filled out variable are gone (known finding
   e2e/out/prefilled-out-variable/stale-optional-member; Codec/Pinned.v has the decoder without that reset) *)
Example fx_prefilled_result :
  fst (call env0 SR SP MAXP fx_impl_empty (filters_of inv_res ex_pc) (filters_of disp_res ex_ps) [fx_sig] fx_sig fx_args_prefilled ex_opts false 41 [79; 98; 106] 3000)
  = COk ex_ret fx_outs_empty [ex_rc; ex_rs].
Proof. vm_compute. reflexivity. Qed.

(* the full-strength value statement on this instance *)
Theorem prefilled_out_witness :
  find_fn [fx_sig] (fs_name fx_sig) = Some fx_sig /\ sig_fine env0 8 4 fx_sig /\ args_typed env0 (fs_args fx_sig) fx_args_prefilled /\
  outs_small fx_sig fx_args_prefilled /\ results_typed env0 fx_sig (results ex_ret fx_outs_empty) /\
  req_sendable env0 SR MAXP fx_qp /\ rsp_sendable env0 SP MAXP (ok_reply env0 fx_sig fx_qp ex_ret fx_outs_empty ex_rc ex_rs) /\
  fst (call env0 SR SP MAXP fx_impl_empty (filters_of inv_res ex_pc) (filters_of disp_res ex_ps) [fx_sig] fx_sig fx_args_prefilled ex_opts false 41 [79; 98; 106] 3000)
  = COk ex_ret fx_outs_empty [ex_rc; ex_rs].
Proof.
  exact (conj eq_refl (conj fx_sig_fine (conj fx_prefilled_typed (conj fx_prefilled_skippable (conj fx_empty_typed
          (conj fx_qp_sendable (conj fx_rp_sendable fx_prefilled_result))))))).
Qed.

(* ... and it is an instance of the theorem for arbitrary content of the out variables (EndToEndFull.transparent_ok_any_outs):
   every hypothesis holds of the pre-filled call, by computation *)
Example fx_no_arrays : no_array_params fx_sig.
Proof. split; [repeat constructor|exact eq_refl]. Qed.
Example fx_canonical : canonical_call env0 fx_sig fx_args_prefilled ex_ret fx_outs_empty.
Proof. split; vm_compute; reflexivity. Qed.
Example fx_prefilled_by_theorem :
  call env0 SR SP MAXP fx_impl_empty (filters_of inv_res ex_pc) (filters_of disp_res ex_ps) [fx_sig] fx_sig fx_args_prefilled ex_opts false 41 [79; 98; 106] 3000
  = (COk ex_ret fx_outs_empty [ex_rc; ex_rs], core_events ex_pc ex_ps fx_sig fx_args_prefilled ex_opts true).
Proof.
  apply (transparent_ok_any_outs env0 8 fx_env0_wf ltac:(lia) SR SP eq_refl eq_refl MAXP ltac:(vm_compute; reflexivity) 4
           fx_impl_empty ex_pc ex_ps [fx_sig] fx_sig fx_args_prefilled ex_opts 41 [79; 98; 106] 3000 ex_ret fx_outs_empty ex_rc ex_rs).
  - vm_compute. reflexivity.
  - exact fx_sig_fine.
  - exact fx_prefilled_typed.
  - exact fx_prefilled_skippable.
  - exact fx_no_arrays.
  - reflexivity.
  - exact I.
  - exact fx_empty_typed.
  - exact fx_canonical.
  - exact fx_qp_sendable.
  - exact fx_rp_sendable.
Qed.

(* ---------- why [canonical_call] is needed for exact values: an optional double member without a declared default
   that holds -0.0 compares equal to the default 0.0, is not written, and the implementation receives +0.0
   (void f(NumLast a) on the regenerated schema verifidl2.NumLast; everything else arrives exactly) ---------- *)
Definition nz_sig : fsig := {| fs_name := [110; 122]; fs_ret := None; fs_args := [(TStruct sid_verifidl2_NumLast, false)] |}.
Definition nz_args : list val := [VStruct [VStr [120]; VInt 7; VFlt 9223372036854775808; VFlt 0]].
Definition nz_impl : bytes -> list val -> smap -> smap -> impl_res := fun _ _ _ _ => IOk None [] [] [].
Example nz_typed : args_typed env0 (fs_args nz_sig) nz_args.
Proof. unfold args_typed. typed_list. Qed.
Example nz_minus_zero_arrives_as_plus_zero :
  filter is_obs (snd (call env0 SR SP MAXP nz_impl (filters_of inv_res no_filters) (filters_of disp_res no_filters) [nz_sig] nz_sig nz_args [] false 41 [79] 3000))
  = [EImpl (fs_name nz_sig) [VStruct [VStr [120]; VInt 7; VFlt 0; VFlt 0]] [] []]
  /\ ins_seen env0 nz_sig nz_args <> ins_of nz_sig nz_args.
Proof. split; [vm_compute; reflexivity|vm_compute; discriminate]. Qed.

(* ---------- why [outs_skippable] is needed: int deep(out Node o, int a) with the caller's o holding a Node nested n
   structs deep (2n-1 nesting levels on the wire: struct > list > struct > ...). The request carries o in front of a;
   the dispatcher has to pass over it and skipField refuses more than maxSkipDepth = 512 levels: 256 structs pass,
   257 make the call fail although the implementation never looks at o (same on the code: known finding
   e2e/spurious-error/prefilled-out-argument-deeper-than-skip-limit) ---------- *)
Fixpoint dp_chain (n : nat) (v : Z) : val :=
  match n with
  | O => VStruct [VInt v; VList []]
  | S m => VStruct [VInt v; VList [dp_chain m (v + 1)%Z]]
  end.
Definition dp_sig : fsig :=
  {| fs_name := [100; 101; 101; 112]; fs_ret := Some TI32; fs_args := [(TStruct sid_verife2e_Node, true); (TI32, false)] |}.
Definition dp_impl : bytes -> list val -> smap -> smap -> impl_res :=
  fun _ _ _ _ => IOk (Some (VInt 5)) [VStruct [VInt 1; VList []]] [] [].
Definition dp_call (structs : nat) : call_res :=
  fst (call env0 SR SP MAXP dp_impl (filters_of inv_res no_filters) (filters_of disp_res no_filters) [dp_sig] dp_sig
            [dp_chain (structs - 1) 1; VInt 7] [] false 41 [79] 3000).
(* The encoder nests one [++] per level, so evaluating the bytes of a chain costs the square of its depth once the
   evaluation is repeated without the virtual machine. [dp_wire] is the same byte string built with an accumulator;
   the two calls below are evaluated on it. *)
Fixpoint dp_wire (n : nat) (v : Z) (tag : N) (rest : bytes) : bytes :=
  head tSB tag ++ enc_var env0 0 false TI32 None (VInt v) ++
  match n with
  | O => head tSE 0 ++ rest
  | S m => head tLIST 1 ++ w_int32 1 0 ++ dp_wire m (v + 1) 0 (head tSE 0 ++ rest)
  end.
Lemma dp_chain_wire n : forall v tag req d rest,
  enc_var env0 tag req (TStruct sid_verife2e_Node) d (dp_chain n v) ++ rest = dp_wire n v tag rest.
Proof.
  induction n as [|n IH]; intros v tag req d rest; cbn [dp_chain dp_wire]; rewrite enc_var_struct;
    change (fields_of env0 sid_verife2e_Node) with schema_verife2e_Node;
    cbn [RoundTrip.enc_fields schema_verife2e_Node ftag freq fty fdef];
    rewrite enc_var_list; cbn [negb andb length Z.of_nat Pos.of_succ_nat enc_elems]; rewrite <- ?app_assoc.
  - reflexivity.
  - rewrite IH. reflexivity.
Qed.
Lemma dp_request_buffer n x :
  EndToEnd.enc_fields env0 (all_fields dp_sig) [dp_chain n 1; x] = dp_wire n 1 1 (enc_var env0 2 true TI32 None x ++ []).
Proof. apply dp_chain_wire. Qed.

Lemma dp_chain_small n : forall v, small (dp_chain n v).
Proof. induction n as [|n IH]; intros v; cbn [dp_chain small]; repeat split; auto. Qed.
Lemma dp_chain_depth n : forall v, vdepth (dp_chain n v) = 2 * N.of_nat n + 2.
Proof.
  induction n as [|n IH]; intros v; cbn [dp_chain]; rewrite vdepth_VStruct; cbn [vdepth_list]; rewrite vdepth_VList;
    cbn [vdepth_list vdepth]; [reflexivity|].
  rewrite IH. lia.
Qed.

(* 256 structs: nesting 512, just within the skip depth limit, so the dispatcher passes over o by the general theorem
   (Node is recursive: only the in parameter has to be of a finite type) *)
Example dp_256_structs_pass : dp_call 256 = COk (Some (VInt 5)) [VStruct [VInt 1; VList []]] [].
Proof.
  unfold dp_call.
  rewrite (transparent_ok_decoded env0 SR SP MAXP dp_impl no_filters no_filters [dp_sig] dp_sig [dp_chain (256 - 1) 1; VInt 7] [VInt 7] []
             41 [79] 3000 (Some (VInt 5)) [VStruct [VInt 1; VList []]] [] [] [VInt 5; VStruct [VInt 1; VList []]]).
  - reflexivity.
  - reflexivity.
  - apply (wire_ok_req_full env0 8 fx_env0_wf ltac:(lia) SR eq_refl MAXP eq_refl); unfold mkreq; rewrite dp_request_buffer.
    + fine_packet.
    + apply N.leb_le. vm_compute. reflexivity.
  - apply (args_decode_skipping env0 8 4 fx_env0_wf ltac:(lia) dp_sig).
    + repeat (apply Forall2_cons; [cbn [fst]; apply (has_type_b_sound env0 600); vm_compute; reflexivity|]). apply Forall2_nil.
    + constructor; [|constructor]. split; [apply dp_chain_small|]. rewrite dp_chain_depth. vm_compute. discriminate.
    + repeat constructor.
    + reflexivity.
    + apply Nat.leb_le. vm_compute. reflexivity.
  - reflexivity.
  - eexists. vm_compute. reflexivity.
  - vm_compute. reflexivity.
Qed.
(* 257 structs: the dispatcher's skipping reader gives up; evaluated *)
Example dp_257_structs_fail : dp_call 257 = CErr 1 sys_msg false.
Proof. unfold dp_call, call, mkreq. rewrite dp_request_buffer. vm_compute. reflexivity. Qed.
Example dp_257_typed : args_typed env0 (fs_args dp_sig) [dp_chain 256 1; VInt 7].
Proof. unfold args_typed. repeat (apply Forall2_cons; [cbn [fst]; apply (has_type_b_sound env0 600); vm_compute; reflexivity|]). apply Forall2_nil. Qed.

(* ---------- the error clause at code 0: an implementation that fails with a tars.Error whose code is 0 (the protocol's
   success marker) - the reply carries IRet = 0, so the caller of a void function sees SUCCESS, the caller of a function
   with results a decode error with code 1; code and message are lost (same on the code: known findings
   e2e/error-code-zero/...). For every other code the error theorems give code and message exactly. ---------- *)
Definition z_void : fsig := {| fs_name := [112; 105; 110; 103]; fs_ret := None; fs_args := [] |}.
Definition z_int : fsig := {| fs_name := [102; 73; 110; 116]; fs_ret := Some TI32; fs_args := [(TI32, false); (TI32, true)] |}.
Definition z_impl : bytes -> list val -> smap -> smap -> impl_res := fun _ _ _ _ => IFail 0 [98; 111; 111; 109].
Example z_code_zero_void_succeeds :
  fst (call env0 SR SP MAXP z_impl (filters_of inv_res no_filters) (filters_of disp_res no_filters) [z_void] z_void [] [] false 41 [79] 3000)
  = COk None [] [].
Proof. vm_compute. reflexivity. Qed.
Example z_code_zero_results_decode_error :
  fst (call env0 SR SP MAXP z_impl (filters_of inv_res no_filters) (filters_of disp_res no_filters) [z_int] z_int [VInt 5; VInt 0] [] false 41 [79] 3000)
  = CErr 1 sys_msg true.
Proof. vm_compute. reflexivity. Qed.

(* ---------- two concurrent callers on one connection (EndToEndFull.concurrent_calls): the requests of mixed (id 41) and
   m2 with a pre-filled out variable (id 42) are sent in the order 42, 41, the request stream arrives one byte at a time,
   the replies are written in the opposite order and arrive coalesced; each caller gets what its call returns alone ---------- *)
Definition cc_impl : bytes -> list val -> smap -> smap -> impl_res :=
  fun fn _ _ _ => if bytes_eqb fn (fs_name ex_sig) then IOk ex_ret ex_outs ex_rc ex_rs else IOk ex_ret fx_outs_empty ex_rc ex_rs.
Definition cc_iface : iface := [ex_sig; fx_sig].
Definition cc_q1 := ex_q false.
Definition cc_q2 := mkreq env0 fx_sig fx_args_prefilled ex_opts false 42 [79; 98; 106] 3000.
Definition cc_sent := [cc_q2; cc_q1].
Definition cc_chunks_q : list bytes := map (fun b => [b]) (concat (map (enc_req env0 SR) cc_sent)).
Definition cc_written : list rsppkt :=
  [ok_reply env0 ex_sig cc_q1 ex_ret ex_outs ex_rc ex_rs; ok_reply env0 fx_sig cc_q2 ex_ret fx_outs_empty ex_rc ex_rs].
Definition cc_chunks_p : list bytes := [concat (map (enc_rsp env0 SP) cc_written)].
Example cc_q2_sendable : req_sendable env0 SR MAXP cc_q2.
Proof. split; [fine_packet|apply N.leb_le; vm_compute; reflexivity]. Qed.
Example cc_r2_sendable : rsp_sendable env0 SP MAXP (ok_reply env0 fx_sig cc_q2 ex_ret fx_outs_empty ex_rc ex_rs).
Proof. split; [fine_packet|apply N.leb_le; vm_compute; reflexivity]. Qed.
Example cc_served_in_reverse :
  cc_written = rev (server_conn env0 SR MAXP cc_impl (filters_of disp_res ex_ps) cc_iface cc_chunks_q).
Proof. vm_compute. reflexivity. Qed.
Example cc_both_callers :
  conc_result env0 SP MAXP cc_chunks_p ex_sig ex_args ex_opts cc_q1 = COk ex_ret ex_outs [ex_rc; ex_rs] /\
  conc_result env0 SP MAXP cc_chunks_p fx_sig fx_args_prefilled ex_opts cc_q2 = COk ex_ret fx_outs_empty [ex_rc; ex_rs].
Proof.
  assert (H := concurrent_calls env0 8 fx_env0_wf ltac:(lia) SR SP eq_refl eq_refl MAXP ltac:(vm_compute; reflexivity) cc_impl
                 ex_pc ex_ps cc_iface [cc_q1; cc_q2] cc_sent cc_chunks_q cc_written cc_chunks_p
                 (Permutation.perm_swap _ _ _)).
  assert (Hnd : NoDup (map q_id [cc_q1; cc_q2])).
  { cbn. repeat constructor; cbn; intuition discriminate. }
  specialize (H Hnd).
  assert (Hs : Forall (req_sendable env0 SR MAXP) cc_sent) by (apply Forall_cons; [exact cc_q2_sendable|apply Forall_cons; [exact ex_req_sendable|apply Forall_nil]]).
  specialize (H Hs (eq_trans (concat_singletons (fun b => b) _) (map_id _))).
  assert (Hw : Permutation.Permutation cc_written (server_conn env0 SR MAXP cc_impl (filters_of disp_res ex_ps) cc_iface cc_chunks_q)).
  { rewrite cc_served_in_reverse. apply Permutation.Permutation_sym, Permutation.Permutation_rev. }
  assert (Hr : Forall (rsp_sendable env0 SP MAXP) cc_written) by (apply Forall_cons; [exact ex_rsp_sendable|apply Forall_cons; [exact cc_r2_sendable|apply Forall_nil]]).
  specialize (H Hw Hr).
  assert (Hc : concat cc_chunks_p = concat (map (enc_rsp env0 SP) cc_written)) by (unfold cc_chunks_p; cbn [concat]; apply app_nil_r).
  specialize (H Hc). unfold cc_q1, ex_q, cc_q2. split.
  - rewrite (H ex_sig ex_args ex_opts false 41%Z [79; 98; 106] 3000%Z (or_introl eq_refl)). vm_compute. reflexivity.
  - rewrite (H fx_sig fx_args_prefilled ex_opts false 42%Z [79; 98; 106] 3000%Z (or_intror (or_introl eq_refl))). vm_compute. reflexivity.
Qed.
