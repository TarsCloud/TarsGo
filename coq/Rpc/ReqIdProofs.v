(* The request id generator (Rpc/ReqId.v).  Distance between equal ids: [rem c x], the Adds still needed before the counter
   standing at c can return x, falls by at most one per Add and never by a Cas; so on the permissive machine of the counter
   alone ([adds]: any sequence of Cas/Add) two Adds returning the same value lie 2^31-2 positions apart ([adds_far]).
   Every interleaving of the thread machine erases to such a sequence ([step_erase], [reach]), which carries the bound over
   ([reach_far]).  Non-zero ids are an invariant of the thread machine ([nonzero]). *)
From Coq Require Import List ZArith Bool Lia ZifyBool ZifyNat.
From TarsV Require Import Base.Lts Rpc.ReqId.
Import ListNotations.
Open Scope Z_scope.

Lemma wrap32_range z : in_i32 (wrap32 z).
Proof.
  unfold in_i32, wrap32, two31, two32.
  pose proof (Z.mod_pos_bound (z + 2147483648) 4294967296 ltac:(lia)). lia.
Qed.

Lemma wrap32_small z : in_i32 z -> wrap32 z = z.
Proof.
  unfold in_i32, wrap32, two31, two32. intros H.
  rewrite Z.mod_small by lia. lia.
Qed.

Lemma add_lt c : in_i32 c -> c < two31 - 1 -> add c = c + 1.
Proof. intros H1 H2. unfold add. apply wrap32_small. unfold in_i32, two31 in *. lia. Qed.

Lemma add_max : add (two31 - 1) = - two31.
Proof. reflexivity. Qed.

Lemma add_range c : in_i32 (add c).
Proof. apply wrap32_range. Qed.

Lemma set_nth_length {A} (l : list A) n x : length (set_nth n x l) = length l.
Proof. revert n. induction l as [|y l IH]; intros [|n]; cbn; auto. Qed.

Lemma nth_error_set_nth_eq {A} (l : list A) n x y : nth_error l n = Some y -> nth_error (set_nth n x l) n = Some x.
Proof. revert n. induction l as [|z l IH]; intros [|n]; cbn; try discriminate; auto. Qed.

Lemma nth_error_set_nth_neq {A} (l : list A) n m x : n <> m -> nth_error (set_nth n x l) m = nth_error l m.
Proof. revert n m. induction l as [|z l IH]; intros [|n] [|m] H; cbn; auto; congruence. Qed.

Lemma nth_error_set_nth_inv {A} (l : list A) n x m y : nth_error (set_nth n x l) m = Some y ->
  (m = n /\ y = x) \/ (m <> n /\ nth_error l m = Some y).
Proof.
  revert n m. induction l as [|z l IH]; intros [|n] [|m] H; cbn in H; try discriminate; auto.
  - left. split; congruence.
  - destruct (IH _ _ H) as [[-> ->]|[Hne H']]; auto.
Qed.

Lemma nth_set_nth_eq {A} (l : list A) n x d : (n < length l)%nat -> nth n (set_nth n x l) d = x.
Proof. revert n. induction l as [|y l IH]; intros [|n] H; cbn in *; try lia; auto. apply IH. lia. Qed.

Lemma nth_set_nth_neq {A} (l : list A) n m x d : n <> m -> nth m (set_nth n x l) d = nth m l d.
Proof. revert n m. induction l as [|y l IH]; intros [|n] [|m] H; cbn in *; try congruence; auto. Qed.

Lemma set_nth_twice {A} (l : list A) n x y : set_nth n x (set_nth n y l) = set_nth n x l.
Proof. revert n. induction l as [|z l IH]; intros [|n]; cbn; congruence. Qed.

Section Proofs.
  Variable maxi : Z.
  Hypothesis Hmax : maxi = 2147483647.

  Lemma cas_spec c : (c = maxi /\ cas maxi c = 1) \/ (c <> maxi /\ cas maxi c = c).
  Proof. unfold cas. destruct (Z.eqb_spec c maxi); auto. Qed.

  Lemma cas_range c : in_i32 c -> in_i32 (cas maxi c).
  Proof. destruct (cas_spec c) as [[_ ->]|[_ ->]]; auto. intros _. unfold in_i32, two31. lia. Qed.

  Lemma rem_spec c x : (c < x /\ rem maxi c x = x - c) \/ (x <= c /\ 2 <= x /\ rem maxi c x = maxi - c + x - 1) \/
    (x <= c /\ x < 2 /\ rem maxi c x = two32 - (c - x)).
  Proof. unfold rem. destruct (Z.ltb_spec c x); [auto|]. destruct (Z.leb_spec 2 x); auto. Qed.

  (* a Cas never brings any value nearer *)
  Lemma rem_cas c x : rem maxi c x <= rem maxi (cas maxi c) x.
  Proof.
    destruct (cas_spec c) as [[-> ->]|[_ ->]]; [|lia].
    pose proof (rem_spec maxi x). pose proof (rem_spec 1 x). unfold two32 in *. lia.
  Qed.

  (* an Add brings any value nearer by at most one, and returns x only when x was one step away *)
  Lemma rem_add c x : in_i32 c -> rem maxi c x <= rem maxi (add c) x + 1 /\ (add c = x -> rem maxi c x <= 1).
  Proof.
    intros Hc. pose proof (rem_spec c x). pose proof (rem_spec (add c) x).
    destruct (Z.eq_dec c (two31 - 1)) as [->|Hne].
    - rewrite add_max in *. unfold two31, two32 in *. lia.
    - rewrite add_lt in * by (unfold in_i32, two31 in *; lia). unfold two32 in *. lia.
  Qed.

  Lemma rem_self x : two31 - 2 <= rem maxi x x.
  Proof. pose proof (rem_spec x x). unfold two31, two32 in *. lia. Qed.

  Lemma adds_cas c l : adds maxi c (OCas :: l) = adds maxi (cas maxi c) l.
  Proof. reflexivity. Qed.

  Lemma adds_add c l : adds maxi c (OAdd :: l) = add c :: adds maxi (add c) l.
  Proof. unfold adds. cbn [run_ops]. destruct (run_ops maxi (add c) l). reflexivity. Qed.

  Lemma run_ops_app c l1 l2 : run_ops maxi c (l1 ++ l2) =
    let '(c1, v1) := run_ops maxi c l1 in let '(c2, v2) := run_ops maxi c1 l2 in (c2, v1 ++ v2).
  Proof.
    revert c. induction l1 as [|o l1 IH]; intros c; cbn [app run_ops].
    - destruct (run_ops maxi c l2); reflexivity.
    - destruct o; [apply IH|]. rewrite IH. destruct (run_ops maxi (add c) l1) as [c1 v1].
      destruct (run_ops maxi c1 l2); reflexivity.
  Qed.

  (* the (i+1)-th Add returns x: at least [rem c x] Adds were needed *)
  Lemma adds_rem l : forall c i x, in_i32 c -> nth_error (adds maxi c l) i = Some x -> rem maxi c x <= Z.of_nat i + 1.
  Proof.
    induction l as [|[|] l IH]; intros c i x Hc E.
    - destruct i; discriminate.
    - rewrite adds_cas in E. pose proof (rem_cas c x). apply IH in E; [lia | apply cas_range, Hc].
    - rewrite adds_add in E. destruct (rem_add c x Hc) as [R1 R2]. destruct i as [|i]; cbn [nth_error] in E.
      + injection E as E. apply R2 in E. lia.
      + apply IH in E; [lia | apply add_range].
  Qed.

  (* two Adds returning the same value are at least 2^31-2 Adds apart: after the first the counter stands at x *)
  Lemma adds_far l : forall c i j x, nth_error (adds maxi c l) i = Some x -> nth_error (adds maxi c l) (i + S j) = Some x ->
    two31 - 2 <= Z.of_nat j + 1.
  Proof.
    induction l as [|[|] l IH]; intros c i j x E1 E2.
    - destruct i; discriminate.
    - rewrite adds_cas in *. eauto.
    - rewrite adds_add in *. destruct i as [|i]; cbn [nth_error Nat.add] in *; [|eauto].
      injection E1 as <-. pose proof (adds_rem _ _ _ _ (add_range c) E2). pose proof (rem_self (add c)). lia.
  Qed.

  Lemma run_app s l1 : forall l2, run maxi s (l1 ++ l2) = match run maxi s l1 with Some s' => run maxi s' l2 | None => None end.
  Proof. exact (Lts.run_app (step maxi) l1 s). Qed.

  (* [step] as a relation, for case analysis on a step that happened *)
  Inductive Step (s : st) : label -> st -> Prop :=
  | StCall t pc : nth_error (pcs s) t = Some pc ->
      Step s (LCall t) {| ctr := ctr s; pcs := set_nth t TAtCas (pcs s); hist := hist s; ids := ids s |}
  | StCas t : nth_error (pcs s) t = Some TAtCas ->
      Step s (LCas t) {| ctr := cas maxi (ctr s); pcs := set_nth t TAtAdd (pcs s); hist := hist s; ids := ids s |}
  | StAdd t : nth_error (pcs s) t = Some TAtAdd -> let v := add (ctr s) in
      Step s (LAdd t) {| ctr := v; pcs := set_nth t (if v =? 0 then TAtAdd else TDone v) (pcs s);
                         hist := v :: hist s; ids := if v =? 0 then ids s else v :: ids s |}.

  Lemma step_Step s l s' : step maxi s l = Some s' -> Step s l s'.
  Proof.
    destruct l as [t|t|t]; cbn [step]; destruct (nth_error (pcs s) t) as [[| | |v]|] eqn:E; intros [= <-]; econstructor; eauto.
  Qed.

  (* a label performs its operation on the counter; the thread machine refines the permissive one *)
  Lemma step_erase s l s' : step maxi s l = Some s' ->
    exists vs, run_ops maxi (ctr s) (erase l) = (ctr s', vs) /\ hist s' = rev vs ++ hist s.
  Proof.
    intros E. destruct (step_Step _ _ _ E); [exists []|exists []|exists [add (ctr s)]]; split; reflexivity.
  Qed.

  Definition reach (c0 : Z) (s : st) : Prop := exists ops, run_ops maxi c0 ops = (ctr s, rev (hist s)).

  Lemma step_reach c0 s l s' : reach c0 s -> step maxi s l = Some s' -> reach c0 s'.
  Proof.
    intros [ops R] E. destruct (step_erase _ _ _ E) as [vs [A B]]. exists (ops ++ erase l).
    rewrite run_ops_app, R, A, B, rev_app_distr, rev_involutive. reflexivity.
  Qed.

  (* [ReqId.run maxi] is [Lts.run (step maxi)] written out: Base/Lts.v applies as it stands *)
  Lemma run_reach c0 n ls s : run maxi (init c0 n) ls = Some s -> reach c0 s.
  Proof. apply (Lts.run_inv (step maxi) (reach c0) (step_reach c0)). exists []. reflexivity. Qed.

  (* the value the p-th Add returned *)
  Definition alloc (s : st) (p : nat) : option Z := nth_error (rev (hist s)) p.

  Lemma alloc_lt s p x : alloc s p = Some x -> (p < length (hist s))%nat.
  Proof. intros H. rewrite <- rev_length. apply nth_error_Some. unfold alloc in H. congruence. Qed.

  Lemma step_alloc s l s' p x : step maxi s l = Some s' -> alloc s p = Some x -> alloc s' p = Some x.
  Proof.
    intros E H. destruct (step_erase _ _ _ E) as [vs [_ B]]. unfold alloc. rewrite B, rev_app_distr, rev_involutive.
    rewrite nth_error_app1; [exact H | rewrite rev_length; eapply alloc_lt, H].
  Qed.

  Lemma alloc_new s s' v : hist s' = v :: hist s -> alloc s (length (hist s)) = None /\ alloc s' (length (hist s)) = Some v.
  Proof.
    intros H. unfold alloc. rewrite H. cbn [rev]. split; [apply nth_error_None; rewrite rev_length; auto|].
    rewrite nth_error_app2, rev_length, Nat.sub_diag by (rewrite rev_length; auto). reflexivity.
  Qed.

  Lemma reach_far c0 s p j x : reach c0 s -> alloc s p = Some x -> alloc s (p + S j) = Some x -> two31 - 2 <= Z.of_nat j + 1.
  Proof. intros [ops R]. unfold alloc. replace (rev (hist s)) with (adds maxi c0 ops) by (unfold adds; rewrite R; reflexivity). apply adds_far. Qed.

  (* two Adds that return the same value have at least 2^31-3 other Adds between them, in every interleaving *)
  Theorem id_distance c0 n ls s l1 x l2 l3 : run maxi (init c0 n) ls = Some s ->
    rev (hist s) = l1 ++ x :: l2 ++ x :: l3 -> two31 - 2 <= Z.of_nat (length l2) + 1.
  Proof.
    intros E H. apply (reach_far c0 s (length l1) (length l2) x (run_reach _ _ _ _ E)); unfold alloc; rewrite H, nth_error_app2 by lia.
    - rewrite Nat.sub_diag. reflexivity.
    - replace (length l1 + S (length l2) - length l1)%nat with (S (length l2)) by lia.
      cbn [nth_error]. rewrite nth_error_app2, Nat.sub_diag by lia. reflexivity.
  Qed.

  (* corollary: any stretch of fewer than 2^31-2 consecutive allocations hands out pairwise distinct values *)
  Theorem id_window_nodup c0 n ls s pre w post : run maxi (init c0 n) ls = Some s ->
    rev (hist s) = pre ++ w ++ post -> Z.of_nat (length w) < two31 - 1 -> NoDup w.
  Proof.
    intros E H Hw. revert pre H Hw. induction w as [|x w IH]; intros pre H Hw; [constructor|].
    constructor.
    - intros Hin. apply in_split in Hin. destruct Hin as [l2 [l3 ->]].
      assert (H' : rev (hist s) = pre ++ x :: l2 ++ x :: (l3 ++ post)).
      { rewrite H. cbn [app]. rewrite <- !app_assoc. reflexivity. }
      pose proof (id_distance _ _ _ _ _ _ _ _ E H') as D.
      cbn [length] in Hw. rewrite app_length in Hw. cbn [length] in Hw. lia.
    - apply (IH (pre ++ [x])).
      + rewrite <- app_assoc. exact H.
      + cbn [length] in Hw. lia.
  Qed.

  (* [rem] really is a lower bound: soundness of the concurrent-batch check *)
  Theorem mt_check_sound c0 n ls s x : in_i32 c0 -> run maxi (init c0 n) ls = Some s ->
    In x (hist s) -> rem maxi c0 x <= Z.of_nat (length (hist s)).
  Proof.
    intros Hc E Hin. destruct (run_reach _ _ _ _ E) as [ops R]. apply in_rev, In_nth_error in Hin. destruct Hin as [i Hi].
    pose proof (alloc_lt _ _ _ Hi). pose proof (adds_rem ops c0 i x Hc) as A. unfold adds in A. rewrite R in A. specialize (A Hi). lia.
  Qed.

  Lemma step_done s l s' t v : step maxi s l = Some s' -> nth_error (pcs s') t = Some (TDone v) ->
    (nth_error (pcs s) t = Some (TDone v) /\ l <> LAdd t) \/
    (l = LAdd t /\ v <> 0 /\ nth_error (pcs s) t = Some TAtAdd /\ hist s' = v :: hist s).
  Proof.
    intros E H. destruct (step_Step _ _ _ E) as [t0 pc Et|t0 Et|t0 Et v0]; cbn [pcs hist] in *;
      apply nth_error_set_nth_inv in H; destruct H as [[-> H]|[Hne H]].
    - discriminate.
    - left. split; [exact H | discriminate].
    - discriminate.
    - left. split; [exact H | discriminate].
    - destruct (Z.eqb_spec v0 0); [discriminate|]. injection H as ->. right. auto.
    - left. split; [exact H | congruence].
  Qed.

  Lemma step_pcs_length s l s' : step maxi s l = Some s' -> length (pcs s') = length (pcs s).
  Proof. intros E. destruct (step_Step _ _ _ E); apply set_nth_length. Qed.

  Definition nonzero (s : st) : Prop :=
    (forall v, In v (ids s) -> v <> 0) /\ (forall t v, nth_error (pcs s) t = Some (TDone v) -> v <> 0).

  Lemma step_nonzero s l s' : nonzero s -> step maxi s l = Some s' -> nonzero s'.
  Proof.
    intros [I1 I2] E. split.
    - destruct (step_Step _ _ _ E) as [t pc _|t _|t _ v]; cbn [ids]; auto. destruct (Z.eqb_spec v 0); [auto|]. intros v' [<-|H]; auto.
    - intros t v H. destruct (step_done _ _ _ _ _ E H) as [[A _]|(_ & A & _)]; eauto.
  Qed.

  (* every value genRequestID returns, in every interleaving, is non-zero *)
  Theorem id_nonzero c0 n ls s : run maxi (init c0 n) ls = Some s ->
    (forall v, In v (ids s) -> v <> 0) /\ (forall t v, nth_error (pcs s) t = Some (TDone v) -> v <> 0).
  Proof.
    apply (Lts.run_inv (step maxi) nonzero step_nonzero). split; [intros v []|].
    intros t v H. apply nth_error_In, repeat_spec in H. discriminate.
  Qed.

  Lemma gen1_nonzero c : in_i32 c -> fst (gen1 maxi c) <> 0.
  Proof.
    intros Hc. unfold gen1. destruct (add (cas maxi c) =? 0) eqn:E; cbn [fst].
    - apply Z.eqb_eq in E. rewrite E. vm_compute. discriminate.
    - apply Z.eqb_neq in E. exact E.
  Qed.

  Definition idle_or_done (pc : tpc) : Prop := pc = TIdle \/ exists v, pc = TDone v.

  Lemma step_call s t pc : nth_error (pcs s) t = Some pc -> idle_or_done pc ->
    step maxi s (LCall t) = Some {| ctr := ctr s; pcs := set_nth t TAtCas (pcs s); hist := hist s; ids := ids s |}.
  Proof. intros Et [->|[w ->]]; cbn [step]; rewrite Et; reflexivity. Qed.

  (* a whole call that no other thread interrupts and whose first Add does not return 0 *)
  Lemma call_run s t pc : nth_error (pcs s) t = Some pc -> idle_or_done pc -> let v := add (cas maxi (ctr s)) in v <> 0 ->
    run maxi s [LCall t; LCas t; LAdd t] =
    Some {| ctr := v; pcs := set_nth t (TDone v) (pcs s); hist := v :: hist s; ids := v :: ids s |}.
  Proof.
    intros Et Hpc v Hv. cbn [run]. rewrite (step_call _ _ _ Et Hpc). cbn [step pcs ctr hist ids].
    rewrite (nth_error_set_nth_eq _ _ _ _ Et). cbn [pcs ctr hist ids].
    erewrite nth_error_set_nth_eq by (eapply nth_error_set_nth_eq, Et). fold v.
    destruct (Z.eqb_spec v 0); [contradiction|]. rewrite !set_nth_twice. reflexivity.
  Qed.

  Lemma gen_plain c : 2 <= c < maxi -> add (cas maxi c) = c + 1.
  Proof. intros H. destruct (cas_spec c) as [[-> _]|[_ ->]]; [lia|]. apply add_lt; unfold in_i32, two31; lia. Qed.

  Lemma gen_wrap : add (cas maxi maxi) = 2.
  Proof. unfold cas. rewrite Z.eqb_refl. reflexivity. Qed.

  (* n such calls in a row, the counter staying below the threshold: it advances by n *)
  Lemma calls_run n : forall s t pc, nth_error (pcs s) t = Some pc -> idle_or_done pc -> 2 <= ctr s -> ctr s + Z.of_nat n <= maxi ->
    exists s' pc', run maxi s (concat (repeat [LCall t; LCas t; LAdd t] n)) = Some s' /\ ctr s' = ctr s + Z.of_nat n /\
                   nth_error (pcs s') t = Some pc' /\ idle_or_done pc'.
  Proof.
    induction n as [|n IH]; intros s t pc Et Hpc Hc Hn.
    - exists s, pc. repeat split; auto. lia.
    - cbn [repeat concat]. rewrite run_app, (call_run _ _ _ Et Hpc); rewrite gen_plain by lia; [|lia].
      edestruct (IH {| ctr := ctr s + 1; pcs := set_nth t (TDone (ctr s + 1)) (pcs s); hist := (ctr s + 1) :: hist s; ids := (ctr s + 1) :: ids s |} t)
        as (s' & pc' & R & C & P); cbn [ctr pcs]; [eapply nth_error_set_nth_eq, Et | right; eauto | lia | lia |].
      cbn [ctr] in C. exists s', pc'. rewrite R, C. split; [reflexivity|]. split; [lia | exact P].
  Qed.

  (* ... and one more from the threshold: the Cas resets the counter to 1, the Add returns 2 *)
  Lemma calls_wrap n s t pc : nth_error (pcs s) t = Some pc -> idle_or_done pc -> 2 <= ctr s -> ctr s + Z.of_nat n = maxi ->
    exists s', run maxi s (concat (repeat [LCall t; LCas t; LAdd t] n) ++ [LCall t; LCas t; LAdd t]) = Some s' /\
               nth_error (pcs s') t = Some (TDone 2).
  Proof.
    intros Et Hpc Hc Hn. destruct (calls_run n s t pc Et Hpc Hc) as (s1 & pc1 & R & C & P & I); [lia|].
    rewrite run_app, R, (call_run _ _ _ P I); rewrite C, Hn, gen_wrap; [|discriminate].
    eexists. split; [reflexivity|]. eapply nth_error_set_nth_eq, P.
  Qed.
End Proofs.

(* n consecutive Adds from c, staying below 2^31-1 *)
Fixpoint upto (c : Z) (n : nat) : list Z := match n with O => [] | S k => (c + 1) :: upto (c + 1) k end.

Lemma run_adds maxi n : forall c, in_i32 c -> c + Z.of_nat n < two31 ->
  run_ops maxi c (repeat OAdd n) = (c + Z.of_nat n, upto c n).
Proof.
  induction n as [|n IH]; intros c Hc Hn; cbn [repeat run_ops upto].
  - f_equal. lia.
  - rewrite add_lt by (unfold in_i32, two31 in *; lia).
    rewrite IH by (unfold in_i32, two31 in *; lia). f_equal. lia.
Qed.

Lemma upto_length c n : length (upto c n) = n.
Proof. revert c. induction n; intros c; cbn; auto. Qed.

(* from counter 1, 2^31-2 Adds hand out 2 .. maxInt32; the next call's Cas resets the counter and its Add hands out 2
   again, exactly 2^31-2 allocations after the first (the list is never computed: the proof is symbolic) *)
Definition tight_ops : list op := repeat OAdd (Z.to_nat 2147483646) ++ [OCas; OAdd].

Theorem id_distance_tight : exists l2, adds 2147483647 1 tight_ops = 2 :: l2 ++ [2] /\ Z.of_nat (length l2) + 1 = two31 - 2.
Proof.
  unfold tight_ops, adds. rewrite run_ops_app.
  rewrite run_adds by (unfold in_i32, two31; lia).
  replace (1 + Z.of_nat (Z.to_nat 2147483646)) with 2147483647 by lia.
  cbn [run_ops snd]. unfold cas. rewrite Z.eqb_refl.
  replace (add 1) with 2 by reflexivity.
  destruct (Z.to_nat 2147483646) as [|n] eqn:En; [lia|].
  cbn [upto]. exists (upto 2 n). split; [reflexivity|]. rewrite upto_length. unfold two31. lia.
Qed.

(* non-vacuity: a concrete interleaving of three threads around the wrap threshold *)
Example run_ex :
  option_map (fun s => (ctr s, rev (ids s)))
    (run 2147483647 (init 2147483646 3)
       [LCall 0; LCall 1; LCas 0; LCas 1; LAdd 0; LCall 2; LCas 2; LAdd 1; LAdd 2])
  = Some (3, [2147483647; 2; 3]).
Proof. vm_compute. reflexivity. Qed.

(* the race the Cas cannot prevent: both threads pass the Cas before the counter reaches the threshold,
   the counter then runs through the negative numbers (still non-zero, still distinct) *)
Example run_negative :
  option_map (fun s => (ctr s, rev (ids s)))
    (run 2147483647 (init 2147483645 3)
       [LCall 0; LCall 1; LCall 2; LCas 0; LCas 1; LCas 2; LAdd 0; LAdd 1; LAdd 2])
  = Some (-2147483648, [2147483646; 2147483647; -2147483648]).
Proof. vm_compute. reflexivity. Qed.

(* an Add that returns 0 is retried by the same thread; 0 is never handed out *)
Example run_zero :
  option_map (fun s => (ctr s, rev (ids s), rev (hist s)))
    (run 2147483647 (init (-2) 2) [LCall 0; LCall 1; LCas 0; LCas 1; LAdd 0; LAdd 1; LAdd 1])
  = Some (1, [-1; 1], [-1; 0; 1]).
Proof. vm_compute. reflexivity. Qed.

Example seq_ex : gen_seq 2147483647 (-2) 4 = ([-1; 1; 2; 3], 3).
Proof. vm_compute. reflexivity. Qed.
Example seq_ex_wrap : gen_seq 2147483647 2147483646 3 = ([2147483647; 2; 3], 3).
Proof. vm_compute. reflexivity. Qed.

(* the forward-only check accepts what the machine does and rejects a counter that was moved back *)
Example ctrs_fwd_ex : ctrs_fwd 2147483647 [5; 5; 9; 700; 701] = true /\ ctrs_fwd 2147483647 [2147483640; 2147483646; 2147483647; 1; 2; 7] = true.
Proof. vm_compute. split; reflexivity. Qed.
Example ctrs_fwd_wrap_negative : ctrs_fwd 2147483647 [2147483646; -2147483648; -2147483640] = true /\ ctrs_fwd 2147483647 [-3; 0; 1; 4] = true.
Proof. vm_compute. split; reflexivity. Qed.
Example ctrs_fwd_rejects_decrement : ctrs_fwd 2147483647 [5; 9; 8; 9] = false.
Proof. vm_compute. reflexivity. Qed.

(* soundness of the check for readings taken at Adds: a value the machine hands out after counter c0 within n Adds has
   [rem c0 x <= n] (mt_check_sound) — a value behind c0 would need about 2^32 Adds *)
Example rem_backwards : rem 2147483647 9 8 = 2147483647 - 9 + 8 - 1.
Proof. vm_compute. reflexivity. Qed.

Example id_in_window_ex : id_in_window 5 7 9 = true /\ id_in_window 2147483646 (-2147483647) (-2147483640) = true /\
  id_in_window 5 15000 9 = false /\ id_in_window 5 5 9 = false /\ id_in_window 5 0 9 = false.
Proof. vm_compute. repeat split; reflexivity. Qed.
