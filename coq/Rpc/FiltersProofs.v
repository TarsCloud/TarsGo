(* C01: pass-through filters see the call exactly once, in registration order, and do not
   change its outcome - for every combination of registered filters. *)
From Coq Require Import List Arith Lia FinFun.
From TarsV Require Import Rpc.Filters.
Import ListNotations.

Section Proofs.
  Variable Ev R E : Type.
  Notation comp := (comp Ev).
  Notation log := (list Ev).

  Lemma chain_pass (l : list (list Ev * list Ev)) (inner : comp R) (s : log) :
    chain (map (fun ab => pass_mw (fst ab) (snd ab)) l) inner s =
    let '(r, s1) := inner (s ++ concat (map fst l)) in (r, s1 ++ concat (rev (map snd l))).
  Proof.
    revert s. induction l as [|[a b] l IH]; intros s; cbn.
    - rewrite app_nil_r. destruct (inner s) as [r s1]. now rewrite app_nil_r.
    - unfold pass_mw at 1. rewrite IH. rewrite <- app_assoc.
      destruct (inner (s ++ a ++ concat (map fst l))) as [r s1].
      rewrite concat_app. cbn. rewrite app_nil_r. now rewrite app_assoc.
  Qed.

  Lemma run_each_pass (l : list (list Ev * E)) (s : log) :
    run_each (map (fun ax => pass_pp (fst ax) (snd ax)) l) s = s ++ concat (map fst l).
  Proof.
    revert s. induction l as [|[a x] l IH]; intros s; cbn.
    - now rewrite app_nil_r.
    - rewrite IH. now rewrite app_assoc.
  Qed.

  (* every combination of pass-through filters: the wrapped call runs exactly once, after what the selected
     filters do before it, and its result is returned unchanged *)
  Theorem run_pass (P : pfilters Ev E) (inner : comp R) (s : log) :
    run (filters_of R P) inner s =
    let '(r, s1) := inner (s ++ before P) in (r, s1 ++ after P).
  Proof.
    destruct P as [lg ms pr po]. unfold run, before, after; cbn.
    destruct lg as [[a b]|]; cbn.
    - reflexivity.
    - destruct ms as [|m ms].
      + cbn. rewrite run_each_pass. destruct (inner (s ++ concat (map fst pr))) as [r s1].
        now rewrite run_each_pass.
      + pose proof (chain_pass (m :: ms) inner s) as H. cbn [map] in H. cbn. cbn in H. exact H.
  Qed.

  (* an inner call that returns r and appends its own events c *)
  Corollary run_pass_result (P : pfilters Ev E) (r : R) (c : list Ev) (s : log) :
    run (filters_of R P) (fun s => (r, s ++ c)) s = (r, s ++ before P ++ c ++ after P).
  Proof. rewrite run_pass. now rewrite <- !app_assoc. Qed.
End Proofs.

Section Rec.
  Variable Ev : Type.
  Variable inj : fev -> Ev.
  Variable E : Type.
  Variable nil_err : E.

  Lemma concat_singletons {A B} (f : A -> B) (l : list A) : concat (map (fun x => [f x]) l) = map f l.
  Proof. induction l; cbn; congruence. Qed.

  (* in both proofs, case [S k]: a non-empty middleware list selects the chain branch of [before] / [after] (pre and post
     filters are shadowed); [remember] keeps [seq 0 (S k)] folded while the two matches on it are decided *)
  Theorem recording_before (c : fconf) : before (recording inj nil_err c) = expected_before inj c.
  Proof.
    unfold before, recording, expected_before; cbn. destruct (c_legacy c); [reflexivity|].
    destruct (c_mws c) as [|k] eqn:Hk.
    - cbn. rewrite map_map. cbn. apply concat_singletons.
    - remember (S k) as n. destruct (seq 0 n) eqn:Hs; [subst; discriminate|]. rewrite <- Hs.
      destruct (map _ (seq 0 n)) eqn:Hm; [rewrite Hs in Hm; discriminate|]. rewrite <- Hm.
      rewrite map_map. cbn. apply concat_singletons.
  Qed.

  Theorem recording_after (c : fconf) : after (recording inj nil_err c) = expected_after inj c.
  Proof.
    unfold after, recording, expected_after; cbn. destruct (c_legacy c); [reflexivity|].
    destruct (c_mws c) as [|k] eqn:Hk.
    - cbn. rewrite map_map. cbn. apply concat_singletons.
    - remember (S k) as n. destruct (seq 0 n) eqn:Hs; [subst; discriminate|]. rewrite <- Hs.
      destruct (map _ (seq 0 n)) eqn:Hm; [rewrite Hs in Hm; discriminate|]. rewrite <- Hm.
      rewrite map_map. cbn [snd]. rewrite <- map_rev. rewrite concat_singletons. reflexivity.
  Qed.

  (* exactly once: with an injective tagging, every filter that is selected occurs once on the way in *)
  Hypothesis inj_inj : forall a b, inj a = inj b -> a = b.

  Theorem recording_once_before (c : fconf) : NoDup (expected_before inj c).
  Proof.
    unfold expected_before. destruct (c_legacy c).
    - repeat constructor. intros [].
    - destruct (c_mws c); apply FinFun.Injective_map_NoDup; try apply seq_NoDup;
        intros a b H; apply inj_inj in H; congruence.
  Qed.
  Theorem recording_once_after (c : fconf) : NoDup (expected_after inj c).
  Proof.
    unfold expected_after. destruct (c_legacy c).
    - repeat constructor. intros [].
    - destruct (c_mws c).
      + apply FinFun.Injective_map_NoDup; try apply seq_NoDup. intros a b H; apply inj_inj in H; congruence.
      + apply FinFun.Injective_map_NoDup. { intros a b H; apply inj_inj in H; congruence. }
        apply NoDup_rev. apply seq_NoDup.
  Qed.
End Rec.
