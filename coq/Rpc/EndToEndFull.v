(* C01: the value clause without codec hypotheses.
   The struct-level codec round trip of C03 (Codec/RoundTripProofs.v, rt_all: mutual induction over vectors, bytes,
   maps, arrays, nested structs, for every fuel, with unknown fields in front of every member) is applied to the
   argument list seen as a struct schema with required members at tags 1..n (what the generator does with its dummy
   members):
     - the dispatcher's decoder, run over the proxy's encoding of all arguments, yields the in arguments (normalised):
       [args_decode_any], every signature - the encoded out arguments between the in arguments are unknown fields,
       well formed wire fields by Rpc/ValueWire.v, grouped in front of the in arguments by [outs_as_junk] below
       ([args_decode_full]: signatures whose out parameters come last need no skipping, hence no size condition);
     - the proxy's decoder, run over the dispatcher's encoding of return value and out arguments, yields them (normalised):
       [results_decode_any_outs] into variables of any content when no parameter is an array (Rpc/PriorIndep.v)
       ([results_decode_full]: into fresh variables, arrays allowed);
     - both packets survive packet codec, frame and receive loop (C03 on the regenerated packet schemas, C07).
   [norm] (Codec/RoundTrip.v) is the identity except that an optional scalar struct member equal (==) to its declared
   default comes back as the default (only -0.0 vs +0.0 differ). *)
From Coq Require Import List NArith ZArith Bool Arith Lia.
From TarsV Require Import Gen.Consts Base.Hex Codec.Wire Codec.Skip Codec.Prim Codec.GenCodec Codec.Corr
  Codec.RoundTrip Codec.RoundTripProofs Codec.EvolveProofs Codec.SkipProofs Frame.Framing Rpc.Filters Rpc.FiltersProofs Rpc.EndToEnd Rpc.EndToEndProofs Rpc.EndToEndConc Rpc.ValueWire Rpc.PriorIndep.
Import ListNotations.
Open Scope N_scope.

Lemma enc_fields_bridge e fds vs : EndToEnd.enc_fields e fds vs = RoundTrip.enc_fields e vs fds.
Proof.
  revert fds. induction vs as [|x vs IH]; intros [|fd fds]; cbn [EndToEnd.enc_fields RoundTrip.enc_fields]; try reflexivity.
  now rewrite IH.
Qed.

Fixpoint ins_first (l : list (ty * bool)) : bool :=
  match l with
  | [] => true
  | (_, false) :: r => ins_first r
  | (_, true) :: r => forallb snd r
  end.

Definition keep_in (p : field * bool) : bool := negb (snd p).
Definition keep_out (p : field * bool) : bool := snd p.

Lemma arg_fields_length : forall l i, length (arg_fields i l) = length l.
Proof. induction l as [|[t o] l IH]; intros i; cbn [arg_fields length]; [reflexivity|now rewrite IH]. Qed.

Lemma all_out_split : forall l i, forallb snd l = true ->
  filter keep_in (arg_fields i l) = [] /\ filter keep_out (arg_fields i l) = arg_fields i l.
Proof.
  induction l as [|[t o] l IH]; intros i H; [split; reflexivity|].
  cbn [forallb snd] in H. apply andb_true_iff in H. destruct H as [-> H].
  cbn [arg_fields filter keep_in keep_out snd negb]. destruct (IH (i + 1) H) as [-> ->]. split; reflexivity.
Qed.
Lemma all_out_pick {A} : forall (l : list (ty * bool)) (args : list A), forallb snd l = true -> length args = length l ->
  pick false (map snd l) args = [] /\ pick true (map snd l) args = args.
Proof.
  induction l as [|[t o] l IH]; intros [|x args] H Hl; try discriminate; [split; reflexivity|].
  cbn [forallb snd] in H. apply andb_true_iff in H. destruct H as [-> H].
  cbn [map snd pick Bool.eqb]. cbn [length] in Hl. destruct (IH args H ltac:(lia)) as [-> ->]. split; reflexivity.
Qed.

(* under [ins_first] the member list is the in members followed by the out members, and likewise the values *)
Lemma ins_first_fields : forall l i, ins_first l = true ->
  map fst (arg_fields i l) = map fst (filter keep_in (arg_fields i l)) ++ map fst (filter keep_out (arg_fields i l)).
Proof.
  induction l as [|[t o] l IH]; intros i H; [reflexivity|]. destruct o.
  - cbn [ins_first] in H. destruct (all_out_split l (i + 1) H) as [E1 E2].
    cbn [arg_fields filter keep_in keep_out snd negb]. rewrite E1, E2. reflexivity.
  - cbn [ins_first] in H. cbn [arg_fields filter keep_in keep_out snd negb map fst app]. now rewrite <- IH.
Qed.
Lemma ins_first_vals {A} : forall (l : list (ty * bool)) (args : list A), ins_first l = true -> length args = length l ->
  args = pick false (map snd l) args ++ pick true (map snd l) args.
Proof.
  induction l as [|[t o] l IH]; intros [|x args] H Hl; try discriminate; [reflexivity|]. destruct o.
  - cbn [ins_first] in H. cbn [length] in Hl. destruct (all_out_pick l args H ltac:(lia)) as [E1 E2].
    cbn [map snd pick Bool.eqb]. rewrite E1, E2. reflexivity.
  - cbn [ins_first] in H. cbn [length] in Hl. cbn [map snd pick Bool.eqb app]. now rewrite <- IH by (assumption || lia).
Qed.

Lemma pick_length {A} want : forall (l : list (ty * bool)) i (args : list A), length args = length l ->
  length (pick want (map snd l) args) = length (filter (fun p : field * bool => Bool.eqb (snd p) want) (arg_fields i l)).
Proof.
  induction l as [|[t o] l IH]; intros i [|x args] Hl; try discriminate; [reflexivity|].
  cbn [map snd pick arg_fields filter]. cbn [length] in Hl. destruct (Bool.eqb o want); cbn [length]; rewrite (IH (i + 1)) by lia; reflexivity.
Qed.
Lemma keep_in_eqb : forall l : list (field * bool), filter keep_in l = filter (fun p => Bool.eqb (snd p) false) l.
Proof. intros l. apply filter_ext. intros [fd []]; reflexivity. Qed.
Lemma keep_out_eqb : forall l : list (field * bool), filter keep_out l = filter (fun p => Bool.eqb (snd p) true) l.
Proof. intros l. apply filter_ext. intros [fd []]; reflexivity. Qed.

Definition args_typed (e : env) (l : list (ty * bool)) (args : list val) : Prop :=
  Forall2 (fun p x => has_type e (fst p) x) l args.

Lemma picked_typed e want : forall l i args, args_typed e l args ->
  Forall2 (fun fd x => has_type e (fty fd) x)
          (map fst (filter (fun p : field * bool => Bool.eqb (snd p) want) (arg_fields i l))) (pick want (map snd l) args).
Proof.
  induction l as [|[t o] l IH]; intros i args H; inversion H as [|? x ? args' Hx Hr]; subst; [constructor|].
  cbn [arg_fields filter map snd pick]. destruct (Bool.eqb o want); cbn [map fst]; [constructor; [exact Hx|]|]; now apply IH.
Qed.

Lemma picked_ascending (P : field * bool -> bool) : forall l i p, p < i -> i + N.of_nat (length l) <= 256 ->
  ascending p (map fst (filter P (arg_fields i l))).
Proof.
  induction l as [|[t o] l IH]; intros i p Hp Hb; [exact I|].
  cbn [arg_fields filter]. cbn [length] in Hb. destruct (P _); cbn [map fst ascending].
  - cbn [mkfield ftag]. split; [assumption|]. split; [lia|]. apply IH; lia.
  - apply IH; lia.
Qed.
Lemma ascending_schema p fds : ascending p fds -> schema_ascending fds.
Proof. destruct fds as [|fd r]; [trivial|]. cbn [ascending schema_ascending]. tauto. Qed.

Lemma picked_members (P : field * bool -> bool) (Q : field -> Prop) : forall l i,
  (forall j t, Q (mkfield j t)) -> Forall Q (map fst (filter P (arg_fields i l))).
Proof.
  induction l as [|[t o] l IH]; intros i H; [constructor|]. cbn [arg_fields filter]. destruct (P _); cbn [map fst]; [constructor; [apply H|]|]; now apply IH.
Qed.
Lemma picked_members_ty (P : field * bool -> bool) (Q : ty -> Prop) : forall l i,
  Forall (fun p => Q (fst p)) l -> Forall (fun fd => Q (fty fd)) (map fst (filter P (arg_fields i l))).
Proof.
  induction l as [|[t o] l IH]; intros i H; inversion H as [|? ? Ht Hr]; subst; [constructor|].
  cbn [arg_fields filter]. destruct (P _); cbn [map fst]; [constructor; [exact Ht|]|]; now apply IH.
Qed.

Lemma filter_true_all {A} (l : list A) : filter (fun _ => true) l = l.
Proof. induction l as [|x l IH]; cbn [filter]; [reflexivity|now rewrite IH]. Qed.

Lemma encx_length e : forall vs fds Js lo, junks_ok lo fds Js ->
  (length (RoundTrip.enc_fields e vs fds) <= length (encx_fields e vs fds Js))%nat.
Proof.
  induction vs as [|x vs IH]; intros fds Js lo HJ; [destruct fds; cbn; lia|].
  destruct fds as [|fd fds]; [cbn; lia|]. destruct Js as [|J Js]; [contradiction|].
  cbn [junks_ok] in HJ. destruct HJ as [_ HJ]. cbn [RoundTrip.enc_fields encx_fields].
  rewrite !app_length. specialize (IH fds Js _ HJ). lia.
Qed.

(* the recursion depth a member list needs, without a term for the number of members: member i is reached after i-1
   required members of at least one byte each *)
Lemma need_fields_bound2 e (g : ty -> nat) : forall fds vs,
  Forall2 (fun fd x => (need x <= g (fty fd) + 2 * length (enc_var e (ftag fd) (freq fd) (fty fd) (fdef fd) x))%nat /\
                       (1 <= length (enc_var e (ftag fd) (freq fd) (fty fd) (fdef fd) x))%nat) fds vs ->
  (need_list vs <= 2 + tmax g fds + 2 * length (RoundTrip.enc_fields e vs fds))%nat.
Proof.
  induction 1 as [|fd x fds vs [Hb H1] _ IH]; cbn [need_list RoundTrip.enc_fields length tmax fold_right]; [lia|].
  fold (tmax g fds). rewrite app_length. lia.
Qed.
Lemma required_nonempty e fds vs : Forall2 (fun fd x => has_type e (fty fd) x) fds vs -> Forall (fun fd => freq fd = true) fds ->
  Forall2 (fun fd x => (1 <= length (enc_var e (ftag fd) (freq fd) (fty fd) (fdef fd) x))%nat) fds vs.
Proof.
  induction 1 as [|fd x fds vs Hx _ IH]; intros Hr; [constructor|]. inversion Hr as [|? ? Hf Hr']; subst.
  constructor; [rewrite Hf; now apply enc_var_req_length|now apply IH].
Qed.
Lemma Forall2_conj {A B} (P Q : A -> B -> Prop) l1 l2 : Forall2 P l1 l2 -> Forall2 Q l1 l2 -> Forall2 (fun a b => P a b /\ Q a b) l1 l2.
Proof. induction 1; intros H2; inversion H2; subst; constructor; auto. Qed.

Section Full.
  Variable e : env.
  Variable k n : nat.
  Hypothesis Hwf : wf_schema k e.
  Hypothesis Hk : (k <= 64)%nat.

  (* conditions on a member list (argument list / result list): required members without defaults, types nested
     within k and of finite depth, and few and shallow enough for the decoder's fuel 4 * length + 64 *)
  Definition member_fine (fd : field) : Prop :=
    ty_nest k e (fty fd) = true /\ tfin n e (fty fd) = true /\ fdef fd = None.
  Definition fuel_static (fds : schema) : Prop := (tmax (tneed n e) fds + k + 5 <= 64)%nat.
  Definition all_required (fds : schema) : Prop := Forall (fun fd => freq fd = true) fds.

  (* [Js]: what stands in front of each member (encoded out arguments the decoder has to pass over) *)
  Lemma fields_rt_junk fds vs ps Js tail :
    Forall2 (fun fd x => has_type e (fty fd) x) fds vs -> Forall member_fine fds -> schema_ascending fds ->
    Forall2 (fun fd p => zlike e (fty fd) p) fds ps -> junks_ok None fds Js ->
    (forall fd, In fd fds -> follows (ftag fd) tail) -> all_required fds -> fuel_static fds ->
    dec_fields (4 * length (encx_fields e vs fds Js ++ tail) + 64) e fds ps (encx_fields e vs fds Js ++ tail)
    = DOk (norm_fields e vs fds) tail.
  Proof.
    intros Hty Hmem Hasc Hps HJ Hfo Hreq Hfuel.
    destruct (rt_all e k Hwf (4 * length (encx_fields e vs fds Js ++ tail) + 64)) as (_ & _ & _ & _ & HF).
    apply (HF fds vs ps Js None tail); clear HF.
    - exact Hty.
    - eapply Forall_impl; [|exact Hmem]. intros fd (H1 & _ & H3). split; [exact H1|]. intros H. now rewrite H3 in H.
    - exact Hasc.
    - clear - Hps Hmem. induction Hps as [|fd p fds ps Hp _ IH]; [constructor|].
      inversion Hmem as [|? ? (_ & _ & Hd) Hm]; subst. constructor; [|now apply IH].
      unfold prior_ok. now rewrite Hd.
    - exact HJ.
    - exact Hfo.
    - unfold fuel_ok.
      assert (Hb : Forall2 (fun fd x => (need x <= tneed n e (fty fd) + 2 * length (enc_var e (ftag fd) (freq fd) (fty fd) (fdef fd) x))%nat) fds vs).
      { apply fields_bound_aux; [exact Hty|]. intros fd Hin x tag req d Hx. apply need_bound; [|exact Hx].
        rewrite Forall_forall in Hmem. now destruct (Hmem fd Hin) as (_ & H & _). }
      pose proof (need_fields_bound2 e (tneed n e) fds vs (Forall2_conj _ _ _ _ Hb (required_nonempty e fds vs Hty Hreq))) as Hn.
      pose proof (encx_length e vs fds Js None HJ) as Hle.
      unfold fuel_static in Hfuel. rewrite app_length in *. lia.
  Qed.

  Lemma fields_rt fds vs ps tail :
    Forall2 (fun fd x => has_type e (fty fd) x) fds vs -> Forall member_fine fds -> schema_ascending fds ->
    Forall2 (fun fd p => zlike e (fty fd) p) fds ps ->
    (forall fd, In fd fds -> follows (ftag fd) tail) -> all_required fds -> fuel_static fds ->
    dec_fields (4 * length (RoundTrip.enc_fields e vs fds ++ tail) + 64) e fds ps (RoundTrip.enc_fields e vs fds ++ tail)
    = DOk (norm_fields e vs fds) tail.
  Proof.
    intros Hty. rewrite <- (encx_nil e vs fds (Forall2_len _ _ _ Hty)). intros. apply fields_rt_junk; try assumption.
    apply junks_nil.
  Qed.

  Definition ty_fine (t : ty) : Prop := ty_nest k e t = true /\ tfin n e t = true.

  Lemma picked_fine (P : field * bool -> bool) : forall l i,
    Forall (fun p => ty_fine (fst p)) l -> Forall member_fine (map fst (filter P (arg_fields i l))).
  Proof.
    induction l as [|[t o] l IH]; intros i H; inversion H as [|? ? [H1 H2] Hr]; subst; [constructor|].
    cbn [arg_fields filter]. destruct (P _); cbn [map fst]; [constructor; [repeat split; assumption|]|]; now apply IH.
  Qed.

  Lemma zeros_zlike fds : Forall member_fine fds -> Forall2 (fun fd p => zlike e (fty fd) p) fds (zeros e fds).
  Proof.
    induction 1 as [|fd fds (H1 & _ & _) _ IH]; cbn [zeros map]; constructor; [|exact IH].
    apply (zero_zlike e k); [now apply (ty_nest_nest e k)|exact Hk].
  Qed.

  Lemma ascending_after p a b x : ascending p (a ++ b) -> In x a -> ascending (ftag x) b.
  Proof.
    destruct b as [|y b]; [intros; exact I|]. intros H Hin. destruct (ascending_app_mid p a y b H) as (_ & H2 & H3).
    cbn [ascending]. repeat split; [exact (ascending_before y b x a p H Hin)|assumption|assumption].
  Qed.

  Lemma in_fields_eqb f : in_fields f = map fst (filter (fun p : field * bool => Bool.eqb (snd p) false) (arg_fields 1 (fs_args f))).
  Proof. unfold in_fields. apply (f_equal (map fst)). apply filter_ext. intros [fd []]; reflexivity. Qed.
  Lemma out_fields_eqb f : out_fields f = map fst (filter (fun p : field * bool => Bool.eqb (snd p) true) (arg_fields 1 (fs_args f))).
  Proof. unfold out_fields. apply (f_equal (map fst)). apply filter_ext. intros [fd []]; reflexivity. Qed.

  Definition sig_args_ok (f : fsig) : Prop :=
    Forall (fun p => ty_fine (fst p)) (fs_args f) /\ N.of_nat (length (fs_args f)) < 255.

  Theorem args_decode_full f args :
    ins_first (fs_args f) = true -> args_typed e (fs_args f) args -> sig_args_ok f -> fuel_static (in_fields f) ->
    args_decode e f args (norm_fields e (ins_of f args) (in_fields f)).
  Proof.
    intros Hif Hty [Hfine Hlen] Hfuel.
    assert (Hl : length args = length (fs_args f)) by (symmetry; now apply Forall2_len in Hty).
    set (tail := RoundTrip.enc_fields e (outs_of f args) (out_fields f)).
    exists tail. unfold dec_list.
    assert (Henc : EndToEnd.enc_fields e (all_fields f) args = RoundTrip.enc_fields e (ins_of f args) (in_fields f) ++ tail).
    { rewrite enc_fields_bridge. unfold all_fields, tail, in_fields, out_fields, ins_of, outs_of, dirs_of.
      rewrite (ins_first_fields (fs_args f) 1 Hif).
      rewrite (ins_first_vals (fs_args f) args Hif Hl) at 1.
      apply enc_fields_app. rewrite map_length. fold keep_in. rewrite keep_in_eqb. symmetry. now apply pick_length. }
    rewrite Henc. apply fields_rt.
    - rewrite in_fields_eqb. unfold ins_of, dirs_of. now apply picked_typed.
    - unfold in_fields. now apply picked_fine.
    - unfold in_fields. apply (ascending_schema 0). apply picked_ascending; lia.
    - apply zeros_zlike. unfold in_fields. now apply picked_fine.
    - (* what follows the in members: nothing, or the head of the first out member, whose tag is larger *)
      intros fd Hin. unfold tail. apply enc_fields_follows.
      + apply (ascending_after 0 (in_fields f)); [|exact Hin].
        unfold in_fields, out_fields. fold keep_in keep_out. rewrite <- (ins_first_fields (fs_args f) 1 Hif).
        rewrite <- (filter_true_all (arg_fields 1 (fs_args f))). apply picked_ascending; lia.
      + rewrite out_fields_eqb. unfold outs_of, dirs_of. now apply picked_typed.
    - unfold all_required, in_fields. apply picked_members. reflexivity.
    - exact Hfuel.
  Qed.

  Lemma env_tags : forall sid fd, In fd (fields_of e sid) -> ftag fd < 256.
  Proof. intros sid. apply schema_ascending_lt256, (wf_asc k e Hwf). Qed.

  (* an out argument the dispatcher can pass over: sizes and nesting within what the skipping reader handles *)
  Definition skippable (x : val) : Prop := small x /\ vdepth x <= maxd.
  Definition outs_skippable (f : fsig) (args : list val) : Prop := Forall skippable (outs_of f args).

  Definition junk_between (lo : option N) (hi : N) (J : list (N * wf)) : Prop := junk_ok lo hi J.

  Lemma junk_ok_snoc lo i J w : junk_ok lo i J -> above lo i -> i < 256 -> wf_ok w -> wdepth w <= maxd ->
    junk_ok lo (i + 1) (J ++ [(i, w)]).
  Proof.
    intros HJ Hlo Hi Hw Hd. unfold junk_ok in *. apply Forall_app. split.
    - eapply Forall_impl; [|exact HJ]. intros p (H1 & H2 & H3 & H4 & H5). repeat split; try assumption. lia.
    - constructor; [|constructor]. cbn [fst snd]. split; [exact Hi|]. split; [exact Hw|]. split; [exact Hd|]. split; [lia|].
      destruct lo; exact Hlo.
  Qed.

  (* walking the argument list with the pending (not yet passed over) encoded out arguments [J] *)
  Lemma outs_as_junk : forall l i args J lo,
    args_typed e l args -> Forall skippable (pick true (map snd l) args) ->
    i + N.of_nat (length l) <= 256 -> above lo i -> junk_ok lo i J ->
    exists Js Jt,
      ser_fields J ++ RoundTrip.enc_fields e args (map fst (arg_fields i l))
      = encx_fields e (pick false (map snd l) args) (map fst (filter keep_in (arg_fields i l))) Js ++ ser_fields Jt
      /\ junks_ok lo (map fst (filter keep_in (arg_fields i l))) Js
      /\ Forall (fun p => fst p < 256 /\ above lo (fst p)) Jt
      /\ (forall fd, In fd (map fst (filter keep_in (arg_fields i l))) -> Forall (fun p => ftag fd < fst p) Jt).
  Proof.
    induction l as [|[t o] l IH]; intros i args J lo Hty Hsk Hb Hlo HJ.
    - inversion Hty; subst. exists [], J. cbn [arg_fields map filter pick RoundTrip.enc_fields encx_fields junks_ok].
      rewrite app_nil_r. repeat split.
      + eapply Forall_impl; [|exact HJ]. intros p (H1 & _ & _ & _ & H5). split; assumption.
      + intros fd [].
    - inversion Hty as [|? x ? xs Hx Hr]; subst. cbn [fst] in Hx. cbn [length] in Hb. destruct o.
      + (* out argument: becomes pending junk *)
        cbn [map snd pick Bool.eqb] in Hsk. inversion Hsk as [|? ? [Hsm Hd] Hsk']; subst.
        destruct (value_is_field e env_tags t x i true None Hx Hsm) as [[Hf _]|(w & Ew & Okw & Dw)]; [discriminate|].
        destruct (IH (i + 1) xs (J ++ [(i, w)]) lo Hr Hsk' ltac:(lia)) as (Js & Jt & E & HJs & HJt & Hfd).
        { destruct lo; cbn [above] in *; lia. }
        { apply junk_ok_snoc; try assumption; lia. }
        exists Js, Jt. cbn [arg_fields map fst filter keep_in snd negb pick Bool.eqb RoundTrip.enc_fields mkfield ftag freq fty fdef].
        rewrite Ew. split; [|repeat split; assumption].
        rewrite <- E, ser_fields_app. cbn [ser_fields]. rewrite app_nil_r, <- !app_assoc. reflexivity.
      + (* in argument: the pending junk precedes it *)
        cbn [map snd pick Bool.eqb] in Hsk.
        destruct (IH (i + 1) xs [] (Some i) Hr Hsk ltac:(lia)) as (Js & Jt & E & HJs & HJt & Hfd).
        { cbn [above]. lia. }
        { constructor. }
        cbn [ser_fields app] in E.
        exists (J :: Js), Jt. cbn [arg_fields map fst filter keep_in snd negb pick Bool.eqb RoundTrip.enc_fields encx_fields mkfield ftag freq fty fdef].
        split; [|split; [|split]].
        * rewrite E, <- !app_assoc. reflexivity.
        * cbn [junks_ok ftag]. split; [exact HJ|exact HJs].
        * eapply Forall_impl; [|exact HJt]. intros p [H1 H2]. split; [assumption|]. destruct lo; cbn [above] in *; [lia|trivial].
        * intros fd [<-|Hin]; [|now apply Hfd]. cbn [ftag]. eapply Forall_impl; [|exact HJt]. intros p [_ H2]. exact H2.
  Qed.

  (* only the in parameters are decoded: the types of the out parameters need not be finite *)
  Theorem args_decode_skipping f args :
    args_typed e (fs_args f) args -> outs_skippable f args -> Forall member_fine (in_fields f) ->
    N.of_nat (length (fs_args f)) < 255 -> fuel_static (in_fields f) ->
    args_decode e f args (norm_fields e (ins_of f args) (in_fields f)).
  Proof.
    intros Hty Hsk Hmem Hlen Hfuel.
    destruct (outs_as_junk (fs_args f) 1 args [] None Hty Hsk ltac:(lia) I ltac:(constructor)) as (Js & Jt & E & HJs & HJt & Hfd).
    cbn [ser_fields app] in E.
    exists (ser_fields Jt). unfold dec_list. rewrite enc_fields_bridge. unfold all_fields. rewrite E.
    unfold ins_of, dirs_of. fold (in_fields f). change (map fst (filter keep_in (arg_fields 1 (fs_args f)))) with (in_fields f) in *.
    apply fields_rt_junk.
    - rewrite in_fields_eqb. now apply picked_typed.
    - exact Hmem.
    - unfold in_fields. apply (ascending_schema 0). apply picked_ascending; lia.
    - now apply zeros_zlike.
    - exact HJs.
    - intros fd Hin. rewrite <- (app_nil_r (ser_fields Jt)). apply follows_fields; [|apply follows_nil].
      specialize (Hfd fd Hin). rewrite Forall_forall in HJt, Hfd. intros p Hp. split; [apply (HJt p Hp)|apply (Hfd p Hp)].
    - unfold all_required, in_fields. apply picked_members. reflexivity.
    - exact Hfuel.
  Qed.

  Theorem args_decode_any f args :
    args_typed e (fs_args f) args -> outs_skippable f args -> sig_args_ok f -> fuel_static (in_fields f) ->
    args_decode e f args (norm_fields e (ins_of f args) (in_fields f)).
  Proof.
    intros Hty Hsk [Hfine Hlen] Hfuel. apply args_decode_skipping; try assumption. unfold in_fields. now apply picked_fine.
  Qed.

  (* for finite (non-recursive) types the nesting depth of a value is bounded by its type (ValueWire.vdepth_bound) and the
     static size condition keeps that bound below the skip depth limit regenerated from the code: only the sizes remain *)
  Definition outs_small (f : fsig) (args : list val) : Prop := Forall small (outs_of f args).
  Lemma maxd_ge_64 : 64 <= maxd.
  Proof. vm_compute. discriminate. Qed.

  Lemma outs_skippable_static f args :
    args_typed e (fs_args f) args -> sig_args_ok f -> fuel_static (rsp_fields f) -> outs_small f args -> outs_skippable f args.
  Proof.
    intros Hty [Hfine _] Hfuel Hsm. unfold outs_skippable, outs_small in *.
    assert (Ht : Forall2 (fun fd x => has_type e (fty fd) x) (out_fields f) (outs_of f args)).
    { rewrite out_fields_eqb. unfold outs_of, dirs_of. now apply picked_typed. }
    assert (Hm : Forall member_fine (out_fields f)) by (unfold out_fields; now apply picked_fine).
    assert (Hb : forall fd, In fd (out_fields f) -> (tneed n e (fty fd) <= 59)%nat).
    { intros fd Hin. unfold fuel_static, rsp_fields in Hfuel.
      pose proof (tmax_ge (tneed n e) (ret_fields f ++ out_fields f) fd ltac:(apply in_or_app; now right)). lia. }
    clear Hfuel Hfine Hty. revert Hsm Hm Hb. induction Ht as [|fd x fds vs Hx _ IH]; intros Hsm Hm Hb; [constructor|].
    inversion Hsm; inversion Hm as [|? ? (_ & Hfin & _) Hm']; subst. constructor.
    - split; [assumption|]. pose proof (vdepth_bound e n (fty fd) x Hfin Hx). pose proof (Hb fd (or_introl eq_refl)).
      pose proof maxd_ge_64. lia.
    - apply IH; try assumption. intros fd' Hin. apply Hb. now right.
  Qed.

  Definition ret_ok (f : fsig) : Prop := match fs_ret f with Some t => ty_fine t | None => True end.
  Definition results_typed (f : fsig) (vs : list val) : Prop := Forall2 (fun fd x => has_type e (fty fd) x) (rsp_fields f) vs.
  (* the caller's out variables hold Go zero values (freshly declared variables) *)
  Definition outs_fresh (f : fsig) (args : list val) : Prop :=
    Forall2 (fun fd p => zlike e (fty fd) p) (out_fields f) (outs_of f args).

  Lemma ret_fields_fine f : ret_ok f -> Forall member_fine (ret_fields f).
  Proof. unfold ret_ok, ret_fields. destruct (fs_ret f); intros H; constructor; [|constructor]. destruct H. repeat split; assumption. Qed.

  (* core: any targets for the out parameters that look like fresh variables *)
  Lemma results_decode_priors f ps vs :
    results_typed f vs -> sig_args_ok f -> ret_ok f -> Forall2 (fun fd p => zlike e (fty fd) p) (out_fields f) ps ->
    fuel_static (rsp_fields f) ->
    dec_list e (rsp_fields f) (zeros e (ret_fields f) ++ ps) (EndToEnd.enc_fields e (rsp_fields f) vs)
    = DOk (norm_fields e vs (rsp_fields f)) [].
  Proof.
    intros Hty [Hfine Hlen] Hret Hfresh Hfuel. unfold dec_list. rewrite enc_fields_bridge.
    assert (Hmem : Forall member_fine (rsp_fields f)).
    { unfold rsp_fields. apply Forall_app. split; [now apply ret_fields_fine|]. unfold out_fields. now apply picked_fine. }
    pose proof (fields_rt (rsp_fields f) vs (zeros e (ret_fields f) ++ ps) [] Hty Hmem) as H.
    rewrite app_nil_r in H. apply H; clear H.
    - unfold rsp_fields, ret_fields, out_fields. destruct (fs_ret f); cbn [app].
      + cbn [schema_ascending mkfield ftag]. split; [lia|]. apply picked_ascending; lia.
      + apply (ascending_schema 0). apply picked_ascending; lia.
    - unfold rsp_fields. apply Forall2_app; [|exact Hfresh]. apply zeros_zlike. now apply ret_fields_fine.
    - intros; apply follows_nil.
    - unfold all_required, rsp_fields. apply Forall_app. split.
      + unfold ret_fields. destruct (fs_ret f); repeat constructor.
      + unfold out_fields. apply picked_members. reflexivity.
    - exact Hfuel.
  Qed.

  Theorem results_decode_full f args vs :
    results_typed f vs -> sig_args_ok f -> ret_ok f -> outs_fresh f args -> fuel_static (rsp_fields f) ->
    results_decode e f args vs (norm_fields e vs (rsp_fields f)).
  Proof. intros Hty Hs Hret Hfresh Hfuel. exists []. now apply results_decode_priors. Qed.

  (* ANY content of the caller's out variables: a required non-array member decodes independently of its target
     (Rpc/PriorIndep.v), so decoding into the caller's variables is decoding into fresh ones *)
  Definition no_array_params (f : fsig) : Prop :=
    Forall (fun p => not_array (fst p) = true) (fs_args f) /\ match fs_ret f with Some t => not_array t = true | None => True end.

  Lemma rsp_fields_plain f : no_array_params f -> Forall plain_required (rsp_fields f).
  Proof.
    intros [Ha Hr]. unfold rsp_fields. apply Forall_app. split.
    - unfold ret_fields. destruct (fs_ret f); constructor; [split; [reflexivity|exact Hr]|constructor].
    - unfold out_fields. generalize 1. revert Ha. generalize (fs_args f). induction l as [|[t o] l IH]; intros Ha i; [constructor|].
      inversion Ha as [|? ? Ht Hl]; subst. cbn [arg_fields filter snd]. destruct o; cbn [map fst]; [constructor; [split; [reflexivity|exact Ht]|]|]; now apply IH.
  Qed.

  Theorem results_decode_any_outs f args vs :
    results_typed f vs -> sig_args_ok f -> ret_ok f -> no_array_params f -> fuel_static (rsp_fields f) ->
    results_decode e f args vs (norm_fields e vs (rsp_fields f)).
  Proof.
    intros Hty Hs Hret Hna Hfuel. exists []. unfold dec_list.
    rewrite (dec_fields_prior_indep e _ (rsp_fields f) (zeros e (ret_fields f) ++ outs_of f args)
               (zeros e (ret_fields f) ++ zeros e (out_fields f)) _ (rsp_fields_plain f Hna)).
    apply results_decode_priors; try assumption.
    apply zeros_zlike. destruct Hs as [Hfine _]. unfold out_fields. now apply picked_fine.
  Qed.
End Full.

Section FullCall.
  Variable e : env.
  Variable k n : nat.

  (* static conditions on a signature: out parameters after in parameters, at most 254 parameters, every type
     nested within k and of finite depth, parameter lists short and shallow enough for the decoders' fuel *)
  Definition sig_fine (f : fsig) : Prop :=
    sig_args_ok e k n f /\ ret_ok e k n f /\ fuel_static e k n (in_fields f) /\ fuel_static e k n (rsp_fields f).
  Definition sig_ok (f : fsig) : Prop := ins_first (fs_args f) = true /\ sig_fine f.   (* outs after ins: no skipping involved *)

  (* what the implementation receives / what the caller gets: the values, normalised *)
  Definition ins_seen (f : fsig) (args : list val) : list val := norm_fields e (ins_of f args) (in_fields f).
  Definition results_seen (f : fsig) (ret : option val) (outs : list val) : list val :=
    norm_fields e (results ret outs) (rsp_fields f).
End FullCall.

From TarsV Require Import Gen.Schemas Frame.FramingProofs.

Definition str_fine (s : bytes) : Prop := N.of_nat (length s) < 4294967296.
Definition smap_fine (m : smap) : Prop :=
  N.of_nat (length m) < 2147483648 /\ Forall (fun kv => str_fine (fst kv) /\ str_fine (snd kv)) m.
(* field ranges of the Go struct types: int16 version, int8 packet type, int32 ids, byte vector within an int32 count *)
Definition req_fine (q : reqpkt) : Prop :=
  fits 16 (q_ver q) = true /\ fits 8 (q_ptype q) = true /\ fits 32 (q_mtype q) = true /\ fits 32 (q_id q) = true /\
  str_fine (q_servant q) /\ str_fine (q_func q) /\ N.of_nat (length (q_buf q)) < 2147483648 /\
  fits 32 (q_timeout q) = true /\ smap_fine (q_ctx q) /\ smap_fine (q_status q).
Definition rsp_fine (p : rsppkt) : Prop :=
  fits 16 (p_ver p) = true /\ fits 8 (p_ptype p) = true /\ fits 32 (p_id p) = true /\ fits 32 (p_mtype p) = true /\
  fits 32 (p_ret p) = true /\ N.of_nat (length (p_buf p)) < 2147483648 /\ smap_fine (p_status p) /\
  str_fine (p_desc p) /\ smap_fine (p_ctx p).

Lemma smap_of_vmap m : smap_of (map (fun kv : bytes * bytes => (VStr (fst kv), VStr (snd kv))) m) = Some m.
Proof. induction m as [|[a b] m IH]; cbn [map smap_of fst snd]; [reflexivity|]. now rewrite IH. Qed.
Lemma val_req_req_val q : val_req (req_val q) = Some q.
Proof. destruct q. unfold req_val, val_req, vmap. cbn -[smap_of map]. now rewrite !smap_of_vmap. Qed.
Lemma val_rsp_rsp_val p : val_rsp (rsp_val p) = Some p.
Proof. destruct p. unfold rsp_val, val_rsp, vmap. cbn -[smap_of map]. now rewrite !smap_of_vmap. Qed.

Lemma smap_typed e m : smap_fine m -> has_type e (TMap TStr TStr) (vmap m).
Proof.
  intros [Hl Hall]. unfold vmap. apply HT_map; [now rewrite map_length|].
  apply Forall_map. eapply Forall_impl; [|exact Hall]. intros [a b] [Ha Hb]. cbn [fst snd] in *.
  split; apply HT_scalar; try reflexivity; assumption.
Qed.
Lemma norm_smap e req d m : norm e (TMap TStr TStr) req d (vmap m) = vmap m.
Proof.
  unfold vmap. rewrite norm_map. f_equal. induction m as [|[a b] m IH]; cbn [map norm_entries fst snd]; [reflexivity|].
  now rewrite IH.
Qed.

Lemma deliver_fits max body : 4 + N.of_nat (length body) <= max -> max < 4294967296 -> deliver max body = Some body.
Proof.
  intros H1 H2. unfold deliver.
  assert (Hr : recv_loop max [] [frame body] = ([frame body], Some [])).
  { apply C07_reassembly; [|reflexivity]. constructor; [|constructor].
    change (frame body) with (mk_packet body). apply valid_mk_packet; lia. }
  rewrite Hr. reflexivity.
Qed.

Section Packets.
  Variable e : env.
  Variable k : nat.
  Hypothesis Hwf : wf_schema k e.
  (* 40: roundtrip_struct_static asks for tneed 3 e (TStruct sid) + k <= 64; on the regenerated packet schemas tneed 3 is
     20 (request) and 19 (response), evaluated in req_codec / rsp_codec - a schema change moves the bound. 3 levels: struct, map, string *)
  Hypothesis Hk : (k <= 40)%nat.
  Variable sid_req sid_rsp : nat.
  Hypothesis Hreq : fields_of e sid_req = schema_requestf_RequestPacket.
  Hypothesis Hrsp : fields_of e sid_rsp = schema_requestf_ResponsePacket.
  Variable max_pkt : N.
  Hypothesis Hmax : max_pkt < 4294967296.

  Lemma req_codec q : req_fine q -> decode e sid_req (encode e sid_req (req_val q)) = DOk (req_val q) [].
  Proof.
    intros (H1 & H2 & H3 & H4 & H5 & H6 & H7 & H8 & H9 & H10).
    assert (Hty : has_type e (TStruct sid_req) (req_val q)).
    { unfold req_val. apply HT_struct. rewrite Hreq. unfold schema_requestf_RequestPacket.
      repeat (apply Forall2_cons; [cbn [fty]; first [apply HT_scalar; [reflexivity|assumption] | now apply smap_typed | now apply HT_bytes]|]).
      apply Forall2_nil. }
    unfold req_val in *. rewrite (roundtrip_struct_static e k 3 sid_req _ Hwf ltac:(lia)); try assumption.
    - f_equal. unfold norm_struct. rewrite norm_str, Hreq. unfold schema_requestf_RequestPacket.
      cbn [norm_fields fty freq fdef]. rewrite !norm_smap. reflexivity.
    - cbn [tfin]. rewrite Hreq. reflexivity.
    - cbn [tneed]. rewrite Hreq. cbn. lia.
  Qed.

  Theorem wire_ok_req_full q : req_fine q -> 4 + N.of_nat (length (encode e sid_req (req_val q))) <= max_pkt ->
    wire_ok_req e sid_req max_pkt q.
  Proof.
    intros Hq Hfit. unfold wire_ok_req, wire_req. rewrite (deliver_fits max_pkt _ Hfit Hmax), (req_codec q Hq).
    apply val_req_req_val.
  Qed.

  Lemma norm_opt_str s : norm e TStr false None (VStr s) = VStr s.
  Proof. destruct s; reflexivity. Qed.

  Lemma rsp_codec p : rsp_fine p -> decode e sid_rsp (encode e sid_rsp (rsp_val p)) = DOk (rsp_val p) [].
  Proof.
    intros (H1 & H2 & H3 & H4 & H5 & H6 & H7 & H8 & H9).
    assert (Hty : has_type e (TStruct sid_rsp) (rsp_val p)).
    { unfold rsp_val. apply HT_struct. rewrite Hrsp. unfold schema_requestf_ResponsePacket.
      repeat (apply Forall2_cons; [cbn [fty]; first [apply HT_scalar; [reflexivity|assumption] | now apply smap_typed | now apply HT_bytes]|]).
      apply Forall2_nil. }
    unfold rsp_val in *. rewrite (roundtrip_struct_static e k 3 sid_rsp _ Hwf ltac:(lia)); try assumption.
    - f_equal. unfold norm_struct. rewrite norm_str, Hrsp. unfold schema_requestf_ResponsePacket.
      cbn [norm_fields fty freq fdef]. rewrite !norm_smap, norm_opt_str. reflexivity.
    - cbn [tfin]. rewrite Hrsp. reflexivity.
    - cbn [tneed]. rewrite Hrsp. cbn. lia.
  Qed.

  Theorem wire_ok_rsp_full p : rsp_fine p -> 4 + N.of_nat (length (encode e sid_rsp (rsp_val p))) <= max_pkt ->
    wire_ok_rsp e sid_rsp max_pkt p.
  Proof.
    intros Hp Hfit. unfold wire_ok_rsp, wire_rsp. rewrite (deliver_fits max_pkt _ Hfit Hmax), (rsp_codec p Hp).
    apply val_rsp_rsp_val.
  Qed.

  (* a packet whose fields are in range and whose frame fits maxPackageLength *)
  Definition req_sendable (q : reqpkt) : Prop := req_fine q /\ 4 + N.of_nat (length (encode e sid_req (req_val q))) <= max_pkt.
  Definition rsp_sendable (p : rsppkt) : Prop := rsp_fine p /\ 4 + N.of_nat (length (encode e sid_rsp (rsp_val p))) <= max_pkt.

  Variable n : nat.
  Variable impl : bytes -> list val -> smap -> smap -> impl_res.
  Lemma k_le_64 : (k <= 64)%nat. Proof. lia. Qed.
  Lemma args_decode_closed f args : sig_fine e k n f -> args_typed e (fs_args f) args -> outs_small f args ->
    args_decode e f args (ins_seen e f args).
  Proof.
    intros (Ha & _ & Hfi & Hfr) Hty Hsm. apply (args_decode_any e k n Hwf k_le_64); try assumption.
    exact (outs_skippable_static e k n k_le_64 f args Hty Ha Hfr Hsm).
  Qed.

  Theorem transparent_ok_closed (Pc Ps : pfilters ev unit) i f args o id sv t ret outs rc rs :
    let q := mkreq e f args o false id sv t in
    find_fn i (fs_name f) = Some f -> sig_fine e k n f ->
    args_typed e (fs_args f) args -> outs_small f args -> no_array_params f ->
    impl (fs_name f) (ins_seen e f args) (ctx_of o) (status_of o) = IOk ret outs rc rs ->
    results_typed e f (results ret outs) ->
    req_sendable q -> rsp_sendable (ok_reply e f q ret outs rc rs) ->
    call e sid_req sid_rsp max_pkt impl (filters_of inv_res Pc) (filters_of disp_res Ps) i f args o false id sv t =
    (COk (ret_of f (results_seen e f ret outs)) (outs_from f (results_seen e f ret outs)) (maps_after o rc rs),
     core_events_at Pc Ps f (ins_seen e f args) o true).
  Proof.
    cbn zeta. intros Hf Hsig Hty Hsm Hna Himpl Hrty [Hq Hqf] [Hp Hpf].
    apply (transparent_ok_decoded e sid_req sid_rsp max_pkt impl Pc Ps i f args (ins_seen e f args) o id sv t ret outs rc rs
             (results_seen e f ret outs)); try assumption.
    - now apply wire_ok_req_full.
    - now apply args_decode_closed.
    - destruct Hsig as (Ha & Hret & _ & Hfr). now apply (results_decode_any_outs e k n Hwf k_le_64).
    - now apply wire_ok_rsp_full.
  Qed.

  (* exact values, any content of the caller's out variables: for values the codec does not normalise
     ([ins_seen] = the in arguments, [results_seen] = the results; always so unless an optional scalar struct member
     equals its default without being identical to it, i.e. -0.0 against +0.0) *)
  Definition canonical_call (f : fsig) (args : list val) (ret : option val) (outs : list val) : Prop :=
    ins_seen e f args = ins_of f args /\ results_seen e f ret outs = results ret outs.

  Theorem transparent_ok_any_outs (Pc Ps : pfilters ev unit) i f args o id sv t ret outs rc rs :
    let q := mkreq e f args o false id sv t in
    find_fn i (fs_name f) = Some f -> sig_fine e k n f ->
    args_typed e (fs_args f) args -> outs_small f args -> no_array_params f ->
    impl (fs_name f) (ins_of f args) (ctx_of o) (status_of o) = IOk ret outs rc rs -> ret_shape f ret ->
    results_typed e f (results ret outs) -> canonical_call f args ret outs ->
    req_sendable q -> rsp_sendable (ok_reply e f q ret outs rc rs) ->
    call e sid_req sid_rsp max_pkt impl (filters_of inv_res Pc) (filters_of disp_res Ps) i f args o false id sv t =
    (COk ret outs (maps_after o rc rs), core_events Pc Ps f args o true).
  Proof.
    cbn zeta. intros Hf Hsig Hty Hsk Hna Himpl Hshape Hrty [Hci Hcr] Hq Hp.
    rewrite (transparent_ok_closed Pc Ps i f args o id sv t ret outs rc rs); try assumption.
    - unfold core_events. rewrite Hci, Hcr. destruct (results_shape f ret outs Hshape) as [-> ->]. reflexivity.
    - now rewrite Hci.
  Qed.

  Theorem transparent_err_closed (Pc Ps : pfilters ev unit) i f args o id sv t c m :
    let q := mkreq e f args o false id sv t in
    find_fn i (fs_name f) = Some f -> sig_fine e k n f -> args_typed e (fs_args f) args -> outs_small f args ->
    impl (fs_name f) (ins_seen e f args) (ctx_of o) (status_of o) = IFail c m -> c <> 0%Z ->
    req_sendable q -> rsp_sendable (err_reply q c m) ->
    call e sid_req sid_rsp max_pkt impl (filters_of inv_res Pc) (filters_of disp_res Ps) i f args o false id sv t =
    (err_seen c m, core_events_at Pc Ps f (ins_seen e f args) o true).
  Proof.
    cbn zeta. intros Hf Hsig Hty Hsm Himpl Hc [Hq Hqf] [Hp Hpf].
    apply (transparent_err_decoded e sid_req sid_rsp max_pkt impl Pc Ps i f args (ins_seen e f args)); try assumption.
    - now apply wire_ok_req_full.
    - now apply args_decode_closed.
    - now apply wire_ok_rsp_full.
  Qed.

  Theorem oneway_closed (Pc Ps : pfilters ev unit) i f args o id sv t :
    let q := mkreq e f args o true id sv t in
    find_fn i (fs_name f) = Some f -> sig_fine e k n f -> args_typed e (fs_args f) args -> outs_small f args -> req_sendable q ->
    call e sid_req sid_rsp max_pkt impl (filters_of inv_res Pc) (filters_of disp_res Ps) i f args o true id sv t =
    (CSent, core_events_at Pc Ps f (ins_seen e f args) o false).
  Proof.
    cbn zeta. intros Hf Hsig Hty Hsm [Hq Hqf].
    apply (oneway_decoded e sid_req sid_rsp max_pkt impl Pc Ps i f args (ins_seen e f args)); try assumption.
    - now apply wire_ok_req_full.
    - now apply args_decode_closed.
  Qed.

  (* concurrent callers: the packet-codec hypotheses of EndToEndConc.concurrent follow from sendability *)
  Lemma req_codec_ok_full q : req_sendable q -> EndToEndConc.req_codec_ok e sid_req max_pkt q.
  Proof.
    intros [Hq Hfit]. split.
    - unfold dec_req, enc_req. change (skipn 4 (frame (encode e sid_req (req_val q)))) with (encode e sid_req (req_val q)).
      rewrite (req_codec q Hq). apply val_req_req_val.
    - unfold enc_req. change (frame (encode e sid_req (req_val q))) with (mk_packet (encode e sid_req (req_val q))).
      apply valid_mk_packet; lia.
  Qed.
  Lemma rsp_codec_ok_full p : rsp_sendable p -> EndToEndConc.rsp_codec_ok e sid_rsp max_pkt p.
  Proof.
    intros [Hp Hfit]. split.
    - unfold dec_rsp, enc_rsp. change (skipn 4 (frame (encode e sid_rsp (rsp_val p)))) with (encode e sid_rsp (rsp_val p)).
      rewrite (rsp_codec p Hp). apply val_rsp_rsp_val.
    - unfold enc_rsp. change (frame (encode e sid_rsp (rsp_val p))) with (mk_packet (encode e sid_rsp (rsp_val p))).
      apply valid_mk_packet; lia.
  Qed.

  Theorem concurrent_closed (Ps : pfilters ev unit) i (qs sent : list reqpkt) (chunks_q : list bytes)
          (written : list rsppkt) (chunks_p : list bytes) :
    Permutation.Permutation sent qs -> NoDup (map q_id qs) ->
    Forall req_sendable sent ->
    concat chunks_q = concat (map (enc_req e sid_req) sent) ->
    Permutation.Permutation written (server_conn e sid_req max_pkt impl (filters_of disp_res Ps) i chunks_q) ->
    Forall rsp_sendable written ->
    concat chunks_p = concat (map (enc_rsp e sid_rsp) written) ->
    forall q, In q qs -> client_conn e sid_rsp max_pkt chunks_p (q_id q) = srv_reply e impl i q.
  Proof.
    intros Hperm Hnd Hs Hcq Hw Hwr Hcp.
    apply (EndToEndConc.concurrent e sid_req sid_rsp max_pkt impl Ps i qs sent chunks_q written chunks_p); try assumption.
    - eapply Forall_impl; [|exact Hs]. exact req_codec_ok_full.
    - eapply Forall_impl; [|exact Hwr]. exact rsp_codec_ok_full.
  Qed.

  (* concurrent callers, at the level of CALL RESULTS: what a caller of the generated proxy gets when its request
     travels together with any other requests of the proxy (any order, any segmentation, replies in any order) is what
     the same call returns alone *)
  Definition conc_result (chunks_p : list bytes) (f : fsig) (args : list val) (o : opts) (q : reqpkt) : call_res :=
    proxy_finish e f args o
      (if is_oneway q then VOneWay
       else match client_conn e sid_rsp max_pkt chunks_p (q_id q) with Some p => map_reply p | None => VLost end).

  Theorem concurrent_calls (Pc Ps : pfilters ev unit) i (qs sent : list reqpkt) (chunks_q : list bytes)
          (written : list rsppkt) (chunks_p : list bytes) :
    Permutation.Permutation sent qs -> NoDup (map q_id qs) ->
    Forall req_sendable sent ->
    concat chunks_q = concat (map (enc_req e sid_req) sent) ->
    Permutation.Permutation written (server_conn e sid_req max_pkt impl (filters_of disp_res Ps) i chunks_q) ->
    Forall rsp_sendable written ->
    concat chunks_p = concat (map (enc_rsp e sid_rsp) written) ->
    forall f args o ow id sv t, In (mkreq e f args o ow id sv t) qs ->
      conc_result chunks_p f args o (mkreq e f args o ow id sv t) =
      fst (call e sid_req sid_rsp max_pkt impl (filters_of inv_res Pc) (filters_of disp_res Ps) i f args o ow id sv t).
  Proof.
    intros Hperm Hnd Hs Hcq Hw Hwr Hcp f args o ow id sv t Hin.
    set (q := mkreq e f args o ow id sv t) in *.
    pose proof (concurrent_closed Ps i qs sent chunks_q written chunks_p Hperm Hnd Hs Hcq Hw Hwr Hcp q Hin) as Hc.
    assert (Hqs : In q sent) by (eapply Permutation.Permutation_in; [apply Permutation.Permutation_sym, Hperm|exact Hin]).
    assert (Hq : req_sendable q) by (rewrite Forall_forall in Hs; now apply Hs).
    rewrite call_pass. cbn [fst]. unfold conc_result. f_equal. fold q.
    unfold inv_result. rewrite (wire_ok_req_full q (proj1 Hq) (proj2 Hq)).
    destruct (is_oneway q); [reflexivity|]. rewrite Hc.
    destruct (srv_reply e impl i q) as [p|] eqn:Hr; [|reflexivity].
    assert (Hp : rsp_sendable p).
    { rewrite Forall_forall in Hwr. apply Hwr. eapply Permutation.Permutation_in; [apply Permutation.Permutation_sym, Hw|].
      rewrite (EndToEndConc.server_conn_sent e sid_req max_pkt impl Ps i sent chunks_q); [|eapply Forall_impl; [|exact Hs]; exact req_codec_ok_full|exact Hcq].
      apply in_flat_map. exists q. split; [exact Hqs|]. rewrite Hr. now left. }
    rewrite (wire_ok_rsp_full p (proj1 Hp) (proj2 Hp)).
    rewrite (EndToEndConc.reply_id e impl i q p Hr), Z.eqb_refl. reflexivity.
  Qed.
End Packets.
