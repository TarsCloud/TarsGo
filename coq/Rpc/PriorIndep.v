(* C01: what a required member decodes to does not depend on what the target variable held before
   (the repaired generator/codec: ResetDefault assigns every member, empty byte vectors are assigned, C04_reuse_member).
   A required member is either found - then scalars, strings, vectors, byte vectors and maps are assigned and structs
   are reset before they are read - or the decoder fails. Fixed-size arrays are the exception (elements beyond the
   count on the wire keep their content); the IDL has array types for struct members only, never for parameters. *)
From Coq Require Import List NArith ZArith Bool Arith Lia.
From TarsV Require Import Gen.Consts Base.Hex Codec.Wire Codec.Skip Codec.Prim Codec.GenCodec Codec.Corr
  Codec.GenProofs Codec.RoundTrip Codec.RoundTripProofs Codec.PrefixGenProofs.
Import ListNotations.
Open Scope N_scope.

Lemma seek_req_found : forall f tag bs r, skip_to_no_check f tag true bs <> NotFound r.
Proof.
  induction f as [|f IH]; intros tag bs r; cbn [skip_to_no_check]; [discriminate|].
  destruct (read_head2 bs) as [[[[ty tg] r0] two]|]; [|discriminate].
  destruct ((ty =? tSE) || (tag <? tg)); [discriminate|]. destruct (tg =? tag); [discriminate|].
  destruct (skip_field f 0 ty r0) as [[| |] r']; try discriminate. apply IH.
Qed.
Lemma skip_to_req_found f ty tag bs r : skip_to f ty tag true bs <> NotFound r.
Proof.
  unfold skip_to. destruct (skip_to_no_check f tag true bs) eqn:E; try discriminate.
  - destruct (_ =? _); discriminate.
  - exfalso. exact (seek_req_found _ _ _ _ E).
Qed.

Definition not_array (t : ty) : bool := match t with TArr _ _ => false | _ => true end.

(* a required scalar: the reader never reports "absent", the only case in which the target's value is returned *)
Lemma dec_var_scalar_prior_indep f e tag t p1 p2 bs : scalar_ty t = true ->
  dec_var (S f) e tag true t p1 bs = dec_var (S f) e tag true t p2 bs.
Proof.
  intros Hs. rewrite !dec_var_scalar by assumption. destruct t; try discriminate; unfold_scalar;
    (destruct (skip_to_no_check f tag true bs) eqn:E; try reflexivity;
     [match goal with |- context [match ?b with Some _ => _ | None => _ end] => destruct b as [[? ?]|] end; reflexivity
     |exfalso; exact (seek_req_found _ _ _ _ E)]).
Qed.

Theorem dec_var_req_prior_indep fuel e tag t p1 p2 bs : not_array t = true ->
  dec_var fuel e tag true t p1 bs = dec_var fuel e tag true t p2 bs.
Proof.
  intros Ht. destruct fuel as [|f]; [reflexivity|].
  destruct (scalar_ty t) eqn:Hs; [now apply dec_var_scalar_prior_indep|]. destruct t; try discriminate.
  - rewrite !dec_var_vec. destruct (skip_to_no_check f tag true bs) eqn:E; try reflexivity.
    exfalso; exact (seek_req_found _ _ _ _ E).
  - rewrite !dec_var_map. destruct (skip_to f tMAP tag true bs) eqn:E; try reflexivity.
    exfalso; exact (skip_to_req_found _ _ _ _ _ E).
  - apply GenProofs.dec_var_struct_prior_indep.
Qed.

(* a list of required non-array members: the decoded values do not depend on the prior content of the targets *)
Definition plain_required (fd : field) : Prop := freq fd = true /\ not_array (fty fd) = true.

Theorem dec_fields_prior_indep e : forall fuel fds ps1 ps2 bs, Forall plain_required fds ->
  dec_fields fuel e fds ps1 bs = dec_fields fuel e fds ps2 bs.
Proof.
  induction fuel as [|f IH]; intros fds ps1 ps2 bs H; [reflexivity|].
  rewrite !dec_fields_S. destruct fds as [|fd fds]; [reflexivity|]. inversion H as [|? ? [Hr Ha] Hrest]; subst.
  cbv zeta. rewrite Hr.
  rewrite (dec_var_req_prior_indep f e (ftag fd) (fty fd)
             (match ps1 with p :: _ => p | [] => zero_of f e (fty fd) end)
             (match ps2 with p :: _ => p | [] => zero_of f e (fty fd) end) bs Ha).
  destruct (dec_var f e (ftag fd) true (fty fd) _ bs); try reflexivity.
  now rewrite (IH fds (tl ps1) (tl ps2) rest Hrest).
Qed.
