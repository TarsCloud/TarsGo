From Coq Require Import List NArith ZArith Bool Arith Lia ZifyBool ZifyNat ZifyN.
From TarsV Require Import Gen.Consts Base.Hex Codec.GenCodec Rpc.Invoke Rpc.InvokeProofs Rpc.InvokeTime.
Import ListNotations.
Open Scope N_scope.

Lemma ms_of_spec t : ms_of t * ns_per_ms <= t /\ t < (ms_of t + 1) * ns_per_ms.
Proof.
  unfold ms_of, ns_per_ms. pose proof (N.div_mod t 1000000 ltac:(discriminate)) as E.
  pose proof (N.mod_lt t 1000000 ltac:(discriminate)). lia.
Qed.

(* the code's [sub] against the real waiting time: they differ by less than a millisecond, either way *)
Lemma sub_ms_bounds st : t_arr st <= t_sel st ->
  sub_ms st * ns_per_ms < waited st + ns_per_ms /\ waited st < (sub_ms st + 1) * ns_per_ms.
Proof.
  intros H. unfold sub_ms, recv_stamp, waited.
  pose proof (ms_of_spec (t_arr st)) as [A1 A2]. pose proof (ms_of_spec (t_sel st)) as [B1 B2].
  assert (ms_of (t_arr st) <= ms_of (t_sel st)).
  { unfold ms_of. apply N.div_le_mono; [discriminate|exact H]. }
  unfold ns_per_ms in *. lia.
Qed.

(* the schedule that a request's timestamps stand for, run for any answer [p] of Invoke: the handler picks Invoke's
   answer if Invoke has returned when it wakes, the timeout answer otherwise *)
Lemma timed_labels_run cfg r p st :
  exists s, hrun_labels r p hinit (timed_labels cfg st) = Some s /\ s_late s = late cfg st /\
            s_written s = Some (if oneway r then []
                                else [if ret_t st <=? wake_t cfg st then (if late cfg st then late_reply r else p)
                                      else handle_timeout_reply r]).
Proof.
  apply run_ends. unfold timed_labels, oneway.
  assert (Hf : ret_t st <=? fire_t cfg st = true -> ret_t st <=? wake_t cfg st = true) by (unfold wake_t; lia).
  destruct (ret_t st <=? wake_t cfg st).
  - destruct (late cfg st), (ret_t st <=? fire_t cfg st); cbn;
      (split; [reflexivity|]; destruct (q_ptype r =? c_TARSONEWAY)%Z; reflexivity).
  - destruct (ret_t st <=? fire_t cfg st); [discriminate (Hf eq_refl)|]. rewrite andb_false_r.
    destruct (late cfg st), (ret_t st <=? write_t cfg st); cbn;
      (split; [reflexivity|]; unfold timeout_replies, oneway; destruct (q_ptype r =? c_TARSONEWAY)%Z; reflexivity).
Qed.

Section TimedProofs.
  Variable dispatch : request -> hrun.

  (* Invoke's own answer on the code's clock readings *)
  Definition own_answer (r : request) (st : stamps) : origin * reply :=
    (fst (fst (fst (invoke dispatch r (sub_ms st)))), inv_reply dispatch r (sub_ms st)).

  (* the one reply of a two-way request *)
  Definition timed_answer (cfg : config) (r : request) (st : stamps) : origin * reply :=
    if c_ht cfg =? 0 then own_answer r st
    else if ret_t st <=? wake_t cfg st then (if late cfg st then (FromQueueTimeout, late_reply r) else own_answer r st)
    else (FromHandleTimeout, handle_timeout_reply r).

  (* the handler reads the packet type after it has picked: when Invoke has not returned by then, the handler picked
     the timeout answer, which is empty for a one-way request already *)
  Lemma timed_step_eq cfg r st : timed_step dispatch cfg r st =
    (if oneway r then [] else [timed_answer cfg r st],
     if (c_ht cfg =? 0) || negb (late cfg st) then snd (fst (invoke dispatch r (sub_ms st))) else O).
  Proof.
    unfold timed_step, timed_answer, own_answer, inv_reply, timed_invoke.
    destruct (invoke dispatch r (sub_ms st)) as [[[o p] n] d]. cbn [fst snd].
    destruct (c_ht cfg =? 0); [reflexivity|]. cbn [orb]. f_equal; [|destruct (late cfg st); reflexivity].
    unfold timeout_replies, oneway. destruct (ret_t st <=? wake_t cfg st) eqn:W.
    - replace (ret_t st <=? write_t cfg st) with true by (unfold write_t; lia).
      destruct (q_ptype r =? c_TARSONEWAY)%Z; reflexivity.
    - destruct (ret_t st <=? write_t cfg st); [|change (0 =? c_TARSONEWAY)%Z with false];
        destruct (q_ptype r =? c_TARSONEWAY)%Z; reflexivity.
  Qed.

  Lemma in_timed_step cfg r st op : In op (fst (timed_step dispatch cfg r st)) -> op = timed_answer cfg r st.
  Proof. rewrite timed_step_eq. destruct (oneway r); [intros []|intros [<-|[]]; reflexivity]. Qed.

  (* exactly one reply for a two-way request, none for a one-way request: all timestamps *)
  Theorem timed_count cfg r st :
    length (fst (timed_step dispatch cfg r st)) = if oneway r then 0%nat else 1%nat.
  Proof. rewrite timed_step_eq. destruct (oneway r); reflexivity. Qed.

  Theorem timed_identity cfg r st o p : In (o, p) (fst (timed_step dispatch cfg r st)) -> echoes r p.
  Proof.
    intros H. apply in_timed_step in H. change p with (snd (o, p)). rewrite H. unfold timed_answer, own_answer.
    destruct (c_ht cfg =? 0); [apply inv_reply_ident|].
    destruct (ret_t st <=? wake_t cfg st); [destruct (late cfg st); [repeat split|apply inv_reply_ident]|repeat split].
  Qed.

  (* the timestamps stand for a schedule of the handle-timeout race, and that schedule writes what timed_step says *)
  Theorem timed_is_schedule cfg r st : 0 < c_ht cfg ->
    exists s, hrun_labels r (inv_reply dispatch r (sub_ms st)) hinit (timed_labels cfg st) = Some s /\
              s_late s = late cfg st /\
              s_written s = Some (map snd (fst (timed_step dispatch cfg r st))).
  Proof.
    intros Hht. destruct (timed_labels_run cfg r (inv_reply dispatch r (sub_ms st)) st) as (s & H & L & W).
    exists s. split; [exact H|]. split; [exact L|]. rewrite W, timed_step_eq. unfold timed_answer, own_answer.
    replace (c_ht cfg =? 0) with false by lia.
    destruct (oneway r); [reflexivity|]. destruct (ret_t st <=? wake_t cfg st); [destruct (late cfg st)|]; reflexivity.
  Qed.

  Lemma own_queue_timeout r st : fst (own_answer r st) = FromQueueTimeout -> queue_expired r (sub_ms st) = true.
  Proof.
    unfold own_answer. rewrite invoke_eq. destruct (queue_expired r (sub_ms st)); [reflexivity|].
    destruct (is_ping r); discriminate.
  Qed.

  (* a queue-timeout answer is Invoke's own, on the code's own [sub], or that of an Invoke entered after the handle deadline *)
  Lemma timed_queue_timeout_cases cfg r st p : In (FromQueueTimeout, p) (fst (timed_step dispatch cfg r st)) ->
    queue_expired r (sub_ms st) = true \/ late cfg st = true.
  Proof.
    intros H. apply in_timed_step, (f_equal fst) in H. cbn [fst] in H. symmetry in H. unfold timed_answer in H.
    destruct (c_ht cfg =? 0); [left; now apply own_queue_timeout|].
    destruct (ret_t st <=? wake_t cfg st); [|discriminate].
    destruct (late cfg st); [right; reflexivity|left; now apply own_queue_timeout].
  Qed.

  (* all arrival / handler-start / decision times: a queue-timeout answer means that the request carried a timeout and
     waited longer than that timeout less one millisecond (the clocks are read in whole milliseconds) - or, with a
     handle timeout, that the whole handle timeout passed between the handler's start and Invoke's decision *)
  Theorem timed_queue_timeout_only_if_waited cfg r st p : stamps_ok st ->
    In (FromQueueTimeout, p) (fst (timed_step dispatch cfg r st)) ->
    ((0 < q_timeout r)%Z /\ (Z.of_N (waited st) > (q_timeout r - 1) * 1000000)%Z) \/
    (0 < c_ht cfg /\ c_ht cfg * ns_per_ms <= t_sel st - t_hdl st).
  Proof.
    intros [Ha Hh] Hin. destruct (timed_queue_timeout_cases cfg r st p Hin) as [Q|L].
    - left. unfold queue_expired in Q. pose proof (sub_ms_bounds st ltac:(lia)) as [B1 _]. unfold ns_per_ms in B1. lia.
    - right. unfold late, fire_t in L. lia.
  Qed.

  (* what an observer with a clock can check: if the request was sent at [send] (so received not earlier) and its
     reply was read at [seen] (so decided not later), a queue-timeout answer must fit into that window *)
  Theorem qt_window_sound cfg r st p send seen : stamps_ok st -> send <= t_arr st -> t_sel st <= seen ->
    In (FromQueueTimeout, p) (fst (timed_step dispatch cfg r st)) ->
    qt_window_ok (q_timeout r) (c_ht cfg) send seen = true.
  Proof.
    intros [Ha Hh] Hs He Hin.
    assert (M1 : send / 1000000 <= t_arr st / 1000000) by (apply N.div_le_mono; [discriminate|exact Hs]).
    assert (M2 : t_sel st / 1000000 <= seen / 1000000) by (apply N.div_le_mono; [discriminate|exact He]).
    unfold qt_window_ok. apply orb_true_iff. destruct (timed_queue_timeout_cases cfg r st p Hin) as [Q|L].
    - left. unfold queue_expired, sub_ms, recv_stamp, ms_of, ns_per_ms in Q. lia.
    - right. unfold late, fire_t, ns_per_ms in L. lia.
  Qed.

  (* conversely: a request that carried a timeout and really waited that long is never executed, whatever the rest *)
  Theorem timed_waited_then_not_executed cfg r st : stamps_ok st -> (0 < q_timeout r)%Z ->
    (Z.of_N (waited st) >= q_timeout r * 1000000)%Z ->
    snd (timed_step dispatch cfg r st) = 0%nat /\
    forall o p, In (o, p) (fst (timed_step dispatch cfg r st)) -> o = FromQueueTimeout \/ o = FromHandleTimeout.
  Proof.
    intros [Ha Hh] HT Hw.
    assert (Q : queue_expired r (sub_ms st) = true).
    { unfold queue_expired. pose proof (sub_ms_bounds st ltac:(lia)) as [_ B2]. unfold ns_per_ms in B2. lia. }
    split.
    - rewrite timed_step_eq, invoke_eq, Q. destruct (_ || _); reflexivity.
    - intros o p H. apply in_timed_step, (f_equal fst) in H. cbn [fst] in H. subst o.
      unfold timed_answer, own_answer. rewrite invoke_eq, Q.
      destruct (c_ht cfg =? 0); [|destruct (ret_t st <=? wake_t cfg st); [destruct (late cfg st)|]]; auto.
  Qed.

  (* without a handle timeout the timed model is the function model on the code's own [sub] *)
  Theorem timed_no_handle_timeout cfg r st : c_ht cfg = 0 ->
    timed_step dispatch cfg r st =
    (if oneway r then [] else [own_answer r st], snd (fst (invoke dispatch r (sub_ms st)))).
  Proof. intros H. rewrite timed_step_eq. unfold timed_answer. rewrite H. reflexivity. Qed.

  (* the handle deadline counts from the handler's start, not from the receipt: however long the request was queued,
     an Invoke that is entered and returns before t_hdl + HandleTimeout answers with its own result *)
  Theorem timed_queueing_does_not_eat_handle_timeout cfg r st : 0 < c_ht cfg ->
    t_sel st + d_run st < t_hdl st + c_ht cfg * ns_per_ms -> oneway r = false ->
    fst (timed_step dispatch cfg r st) = [own_answer r st] /\
    snd (timed_step dispatch cfg r st) = snd (fst (invoke dispatch r (sub_ms st))).
  Proof.
    intros Hht Hlt W. rewrite timed_step_eq, W. unfold timed_answer.
    replace (c_ht cfg =? 0) with false by lia.
    replace (late cfg st) with false by (unfold late, fire_t; lia).
    replace (ret_t st <=? wake_t cfg st) with true by (unfold wake_t, ret_t, fire_t in *; lia).
    split; reflexivity.
  Qed.
End TimedProofs.

(* the full-strength reading "a queue-timeout answer only if the request waited at least its whole timeout" is false
   of the model (and of the code): both clocks are truncated to milliseconds, a request with ITimeout = 1 that arrives
   1 ns before a millisecond boundary and is decided on the boundary is refused after 1 ns *)
Definition queue_timeout_exact_statement : Prop :=
  forall dispatch cfg r st p, stamps_ok st -> c_ht cfg = 0 ->
    In (FromQueueTimeout, p) (fst (timed_step dispatch cfg r st)) ->
    (Z.of_N (waited st) >= q_timeout r * 1000000)%Z.
Definition trunc_witness_req : request :=
  {| q_ver := 1; q_ptype := 0; q_mtype := 0; q_id := 1; q_servant := []; q_func := raw "act"%hex;
     q_buf := []; q_timeout := 1; q_ctx := []; q_status := [] |}.
Definition trunc_witness_stamps : stamps :=
  {| t_arr := 999999; t_hdl := 999999; t_sel := 1000000; d_run := 0; d_wake := 0; d_write := 0 |}.
Theorem queue_timeout_exact_refuted : ~ queue_timeout_exact_statement.
Proof.
  intros H.
  specialize (H (fun _ => {| h_res := HDone [] [] []; h_dur := 0 |}) {| c_pool := 0; c_ht := 0; c_udp := false |}
                trunc_witness_req trunc_witness_stamps (late_reply trunc_witness_req)).
  assert (X : (Z.of_N (waited trunc_witness_stamps) >= q_timeout trunc_witness_req * 1000000)%Z).
  { apply H; [vm_compute; split; discriminate|reflexivity|vm_compute; left; reflexivity]. }
  vm_compute in X. apply X. reflexivity.
Qed.

(* seeded change C10-m11 in the model: with the receive time taken from the one-second clock a request that did not
   wait at all (t_sel = t_arr) is refused whenever the millisecond part of the clock exceeds its timeout *)
Example stale_clock_refuses_unqueued :
  let st := {| t_arr := 5700000000; t_hdl := 5700000000; t_sel := 5700000000; d_run := 0; d_wake := 0; d_write := 0 |} in
  waited st = 0 /\ queue_expired ex_req (sub_ms st) = false /\ queue_expired ex_req (stale_sub_ms st) = true.
Proof. vm_compute. repeat split. Qed.

Lemma nth_error_set_nth_same {A} i (x : A) l : (i < length l)%nat -> nth_error (set_nth i x l) i = Some x.
Proof. revert l. induction i as [|i IH]; intros [|h t] H; cbn in *; try lia; [reflexivity|apply IH; lia]. Qed.
Lemma nth_error_set_nth_other {A} i j (x : A) l : i <> j -> nth_error (set_nth i x l) j = nth_error l j.
Proof.
  revert j l. induction i as [|i IH]; intros [|j] [|h t] H; cbn; try reflexivity; try congruence.
  apply IH. congruence.
Qed.
Lemma set_nth_length {A} i (x : A) l : length (set_nth i x l) = length l.
Proof. revert l. induction i as [|i IH]; intros [|h t]; cbn; auto. Qed.

(* every request's handler sees exactly its own steps: the projection of an interleaved run of the connection onto
   request i is a run of request i's own transition system, from and to component i *)
Theorem crun_projection rs ls : forall cs cs', crun rs cs ls = Some cs' ->
  forall i r p s, nth_error rs i = Some (r, p) -> nth_error cs i = Some s ->
  exists s', nth_error cs' i = Some s' /\ hrun_labels r p s (proj i ls) = Some s'.
Proof.
  induction ls as [|[j l] ls IH]; intros cs cs' H i r p s Hr Hs; cbn [crun] in H.
  - inversion H; subst. exists s. split; [exact Hs|reflexivity].
  - destruct (cstep rs cs (j, l)) as [cs1|] eqn:E; [|discriminate].
    unfold cstep in E. cbn [fst snd] in E.
    destruct (nth_error rs j) as [[rj pj]|] eqn:Erj; [|discriminate].
    destruct (nth_error cs j) as [sj|] eqn:Esj; [|discriminate].
    destruct (hstep rj pj sj l) as [sj'|] eqn:Eh; [|discriminate]. cbn in E. inversion E; subst cs1; clear E.
    unfold proj. cbn [filter fst]. destruct (Nat.eqb j i) eqn:Eji.
    + apply Nat.eqb_eq in Eji. subst j. rewrite Hr in Erj. inversion Erj; subst rj pj. rewrite Hs in Esj. inversion Esj; subst sj.
      cbn [map snd hrun_labels]. rewrite Eh.
      apply (IH _ _ H i r p sj' Hr). apply nth_error_set_nth_same. apply nth_error_Some. congruence.
    + apply Nat.eqb_neq in Eji. apply (IH _ _ H i r p s Hr).
      rewrite nth_error_set_nth_other by exact Eji. exact Hs.
Qed.

Lemma cinit_nth rs i rp : nth_error rs i = Some rp -> nth_error (cinit rs) i = Some hinit.
Proof. intros H. unfold cinit. rewrite nth_error_map, H. reflexivity. Qed.

(* consequence: in every interleaving of a connection's handlers, whatever request i has written is what the
   single-request theorems allow - nothing for a one-way request, exactly one reply with its own identity otherwise *)
Theorem connection_interleaved rs ls cs : crun rs (cinit rs) ls = Some cs ->
  forall i r p s, nth_error rs i = Some (r, p) -> nth_error cs i = Some s ->
  (p_id p = q_id r /\ p_ver p = q_ver r /\ p_ptype p = q_ptype r) ->
  forall w, s_written s = Some w ->
    if oneway r then w = []
    else exists x, w = [x] /\ p_id x = q_id r /\ p_ver x = q_ver r /\ p_ptype x = q_ptype r.
Proof.
  intros H i r p s Hr Hs Hid w Hw.
  destruct (crun_projection rs ls _ _ H i r p hinit Hr (cinit_nth rs i _ Hr)) as (s' & Hs' & Hrun).
  rewrite Hs in Hs'. inversion Hs'; subst s'.
  destruct (oneway r) eqn:W.
  - exact (schedules_oneway r p _ s Hrun W w Hw).
  - destruct (schedules_twoway r p Hid _ s Hrun W w Hw) as (x & -> & _ & Hx). exists x. split; [reflexivity|exact Hx].
Qed.

(* with ONE Current per connection (seeded change C10-m12) the same is false: a one-way request is answered when the
   handler of another, two-way request of the connection returns in between *)
Definition shared_current_statement : Prop :=
  forall rs ls ss, srun rs {| sh_cell := 0; sh_hs := cinit rs |} ls = Some ss ->
  forall i r p s, nth_error rs i = Some (r, p) -> nth_error (sh_hs ss) i = Some s -> oneway r = true ->
  forall w, s_written s = Some w -> w = [].
Definition shared_witness_rs : list (request * reply) :=
  [(ex_oneway, base_reply ex_oneway); (ex_req, base_reply ex_req)].
Theorem shared_current_refuted : ~ shared_current_statement.
Proof.
  intros H.
  pose (ls := [(0%nat, LStart); (0%nat, LReturn); (0%nat, LWake); (1%nat, LStart); (1%nat, LReturn); (0%nat, LWrite)]).
  specialize (H shared_witness_rs ls).
  assert (X : match srun shared_witness_rs {| sh_cell := 0; sh_hs := cinit shared_witness_rs |} ls with
              | Some ss => match nth_error (sh_hs ss) 0 with
                           | Some s => s_written s = Some [base_reply ex_oneway]
                           | None => False
                           end
              | None => False
              end) by (vm_compute; reflexivity).
  destruct (srun _ _ ls) as [ss|]; [|destruct X]. specialize (H ss eq_refl 0%nat ex_oneway (base_reply ex_oneway)).
  destruct (nth_error (sh_hs ss) 0) as [s|]; [|destruct X].
  discriminate (H s eq_refl eq_refl eq_refl _ X).
Qed.

Definition ex_stamps (arr hdl sel run wake write : N) : stamps :=
  {| t_arr := arr; t_hdl := hdl; t_sel := sel; d_run := run; d_wake := wake; d_write := write |}.
(* ex_req carries ITimeout = 100 ms; ex_cfg has a handle timeout of 250 ms *)
Example ex_timed_queue_timeout :
  let waited_101 := ex_stamps 7000400000 7101400000 7101400000 30000 0 0 in
  let waited_99  := ex_stamps 7000400000 7099400000 7099400000 30000 0 0 in
  stamps_ok waited_101 /\ map fst (fst (timed_step ex_dispatch ex_cfg ex_req waited_101)) = [FromQueueTimeout] /\
  snd (timed_step ex_dispatch ex_cfg ex_req waited_101) = 0%nat /\
  stamps_ok waited_99 /\ map fst (fst (timed_step ex_dispatch ex_cfg ex_req waited_99)) = [FromHandler] /\
  snd (timed_step ex_dispatch ex_cfg ex_req waited_99) = 1%nat.
Proof. vm_compute. repeat split; discriminate. Qed.
(* the race in timestamps: Invoke returns 1 ns before / 1 ns after the deadline; a handler that wakes late still
   finds Invoke's result; an Invoke held back beyond the deadline *)
Example ex_timed_race :
  map fst (fst (timed_step ex_dispatch ex_cfg ex_req (ex_stamps 0 0 1000 249998999 0 0))) = [FromHandler] /\
  map fst (fst (timed_step ex_dispatch ex_cfg ex_req (ex_stamps 0 0 1000 249999001 0 0))) = [FromHandleTimeout] /\
  map fst (fst (timed_step ex_dispatch ex_cfg ex_req (ex_stamps 0 0 1000 249999001 5000 0))) = [FromHandler] /\
  timed_step ex_dispatch ex_cfg ex_req (ex_stamps 0 0 260000000 1000 0 0) = ([(FromHandleTimeout, handle_timeout_reply ex_req)], 0%nat) /\
  timed_step ex_dispatch ex_cfg ex_req (ex_stamps 0 0 260000000 1000 20000000 0) = ([(FromQueueTimeout, late_reply ex_req)], 0%nat).
Proof. vm_compute. repeat split. Qed.
(* queued for a second, then a fast handler: the handle timeout (250 ms) has not been used up by the queueing *)
Example ex_timed_long_queue :
  let st := ex_stamps 0 1000000000 1000001000 30000 0 0 in
  stamps_ok st /\ map fst (fst (timed_step ex_dispatch ex_cfg ex_ping st)) = [FromPing].
Proof. vm_compute. repeat split; discriminate. Qed.
(* an interleaved run of a connection with a one-way and a two-way request *)
Example ex_connection_run :
  option_map (map s_written)
    (crun shared_witness_rs (cinit shared_witness_rs)
       [(0%nat, LStart); (1%nat, LStart); (0%nat, LReturn); (0%nat, LWake); (1%nat, LReturn); (0%nat, LWrite); (1%nat, LWake); (1%nat, LWrite)]) =
  Some [Some []; Some [base_reply ex_req]].
Proof. vm_compute. reflexivity. Qed.
