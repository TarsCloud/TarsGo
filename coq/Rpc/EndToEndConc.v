(* C01: concurrent callers sharing one connection - per-call independence.
   Uses the framing theorem of C07 (any segmentation of the byte stream delivers exactly the packets sent). *)
From Coq Require Import List NArith ZArith Bool Arith Lia Permutation.
From TarsV Require Import Gen.Consts Base.Hex Codec.Wire Codec.Skip Codec.Prim Codec.GenCodec
  Frame.Framing Frame.FramingProofs Rpc.Filters Rpc.FiltersProofs Rpc.EndToEnd Rpc.EndToEndProofs.
Import ListNotations.
Open Scope N_scope.

Section Conc.
  Variable e : env.
  Variable sid_req sid_rsp : nat.
  Variable max_pkt : N.
  Variable impl : bytes -> list val -> smap -> smap -> impl_res.

  Notation enc_req := (enc_req e sid_req).
  Notation dec_req := (dec_req e sid_req).
  Notation enc_rsp := (enc_rsp e sid_rsp).
  Notation dec_rsp := (dec_rsp e sid_rsp).
  Notation srv_reply := (srv_reply e impl).

  (* the packet codec round-trips this packet and its frame fits maxPackageLength *)
  Definition req_codec_ok (q : reqpkt) : Prop := dec_req (enc_req q) = Some q /\ valid max_pkt (enc_req q).
  Definition rsp_codec_ok (p : rsppkt) : Prop := dec_rsp (enc_rsp p) = Some p /\ valid max_pkt (enc_rsp p).

  Lemma reply_id i q p : srv_reply i q = Some p -> p_id p = q_id q.
  Proof.
    unfold EndToEndProofs.srv_reply. destruct (is_oneway q); [discriminate|]. intros H. injection H as <-.
    unfold EndToEnd.dispatch. destruct (find_fn i (q_func q)); [|reflexivity].
    destruct (dec_list _ _ _ _); try reflexivity.
    destruct (impl _ _ _ _); reflexivity.
  Qed.

  Lemma flat_map_dec_req l : Forall req_codec_ok l ->
    forall (g : reqpkt -> list rsppkt),
    flat_map (fun pk => match dec_req pk with Some q => g q | None => [] end) (map enc_req l) = flat_map g l.
  Proof.
    intros H g. induction H as [|q l [Hq _] _ IH]; cbn [flat_map map]; [reflexivity|]. now rewrite Hq, IH.
  Qed.
  Lemma flat_map_dec_rsp l : Forall rsp_codec_ok l ->
    flat_map (fun pk => olist (dec_rsp pk)) (map enc_rsp l) = l.
  Proof.
    intros H. induction H as [|p l [Hp _] _ IH]; cbn [flat_map map]; [reflexivity|]. rewrite Hp, IH. reflexivity.
  Qed.

  Lemma server_conn_sent Ps i sent chunks :
    Forall req_codec_ok sent -> concat chunks = concat (map enc_req sent) ->
    server_conn e sid_req max_pkt impl (filters_of disp_res Ps) i chunks = flat_map (fun q => olist (srv_reply i q)) sent.
  Proof.
    intros Hok Hc. unfold server_conn.
    rewrite (C07_reassembly max_pkt (map enc_req sent) chunks).
    - cbn [fst]. rewrite (flat_map_dec_req sent Hok). apply flat_map_ext. intros q.
      now rewrite server_handle_pass.
    - apply Forall_map. eapply Forall_impl; [|exact Hok]. intros q [_ H]. exact H.
    - exact Hc.
  Qed.

  Lemma client_conn_written written chunks id :
    Forall rsp_codec_ok written -> concat chunks = concat (map enc_rsp written) ->
    client_conn e sid_rsp max_pkt chunks id = find (fun p => (p_id p =? id)%Z) written.
  Proof.
    intros Hok Hc. unfold client_conn.
    rewrite (C07_reassembly max_pkt (map enc_rsp written) chunks).
    - cbn [fst]. now rewrite flat_map_dec_rsp.
    - apply Forall_map. eapply Forall_impl; [|exact Hok]. intros p [_ H]. exact H.
    - exact Hc.
  Qed.

  (* find in a list whose keys are pairwise distinct depends only on membership *)
  Lemma find_unique {A} (key : A -> Z) (l : list A) (id : Z) :
    NoDup (map key l) ->
    forall a, In a l -> key a = id -> find (fun x => (key x =? id)%Z) l = Some a.
  Proof.
    induction l as [|x l IH]; intros Hnd a Hin Hk; [contradiction|].
    cbn in Hnd. inversion Hnd as [|? ? Hx Hnd']; subst. cbn.
    destruct Hin as [->|Hin].
    - now rewrite Z.eqb_refl.
    - destruct (key x =? key a)%Z eqn:E.
      + apply Z.eqb_eq in E. exfalso. apply Hx. rewrite E. now apply in_map.
      + now apply IH.
  Qed.
  Lemma find_none {A} (key : A -> Z) (l : list A) (id : Z) :
    (forall a, In a l -> key a <> id) -> find (fun x => (key x =? id)%Z) l = None.
  Proof.
    induction l as [|x l IH]; intros H; [reflexivity|]. cbn.
    destruct (key x =? id)%Z eqn:E.
    - apply Z.eqb_eq in E. exfalso. apply (H x); [now left|exact E].
    - apply IH. intros a Ha. apply H. now right.
  Qed.

  Lemma replies_from_requests i (l : list reqpkt) :
    forall p, In p (flat_map (fun q => olist (srv_reply i q)) l) -> exists q, In q l /\ srv_reply i q = Some p.
  Proof.
    intros p Hin. apply in_flat_map in Hin. destruct Hin as [q [Hq Hp]].
    exists q. split; [exact Hq|]. destruct (srv_reply i q) as [p'|]; cbn in Hp; [|contradiction].
    destruct Hp as [->|[]]. reflexivity.
  Qed.

  Lemma replies_nodup i (l : list reqpkt) : NoDup (map q_id l) ->
    NoDup (map p_id (flat_map (fun q => olist (srv_reply i q)) l)).
  Proof.
    induction l as [|q l IH]; intros Hnd; cbn; [constructor|].
    cbn in Hnd. inversion Hnd as [|? ? Hq Hnd']; subst.
    destruct (srv_reply i q) as [p|] eqn:Hr; cbn; [|now apply IH].
    constructor; [|now apply IH].
    intros Hin. apply in_map_iff in Hin. destruct Hin as [p' [Hid Hin]].
    apply replies_from_requests in Hin. destruct Hin as [q' [Hq' Hr']].
    apply Hq. apply reply_id in Hr. apply reply_id in Hr'. rewrite <- Hr, <- Hid, Hr'. now apply in_map.
  Qed.

  Theorem concurrent (Ps : pfilters ev unit) i (qs sent : list reqpkt) (chunks_q : list bytes)
          (written : list rsppkt) (chunks_p : list bytes) :
    Permutation sent qs -> NoDup (map q_id qs) ->
    Forall req_codec_ok sent ->
    concat chunks_q = concat (map enc_req sent) ->
    Permutation written (server_conn e sid_req max_pkt impl (filters_of disp_res Ps) i chunks_q) ->
    Forall rsp_codec_ok written ->
    concat chunks_p = concat (map enc_rsp written) ->
    forall q, In q qs -> client_conn e sid_rsp max_pkt chunks_p (q_id q) = srv_reply i q.
  Proof.
    intros Hperm Hnd Hok Hcq Hw Hokw Hcp q Hq.
    rewrite (client_conn_written written chunks_p (q_id q) Hokw Hcp).
    rewrite (server_conn_sent Ps i sent chunks_q Hok Hcq) in Hw.
    set (L := flat_map (fun q => olist (srv_reply i q)) sent) in *.
    assert (Hnds : NoDup (map q_id sent)).
    { eapply Permutation_NoDup; [apply Permutation_map, Permutation_sym, Hperm | exact Hnd]. }
    assert (HndL : NoDup (map p_id L)) by (apply replies_nodup; exact Hnds).
    assert (HndW : NoDup (map p_id written)).
    { eapply Permutation_NoDup; [apply Permutation_map, Permutation_sym, Hw | exact HndL]. }
    assert (Hqs : In q sent) by (eapply Permutation_in; [apply Permutation_sym, Hperm | exact Hq]).
    destruct (srv_reply i q) as [p|] eqn:Hr.
    - apply (find_unique p_id written (q_id q) HndW p).
      + eapply Permutation_in; [apply Permutation_sym, Hw|]. unfold L. apply in_flat_map. exists q. split; [exact Hqs|].
        rewrite Hr. now left.
      + now apply reply_id in Hr.
    - apply find_none. intros p Hp Hid.
      assert (HpL : In p L) by (eapply Permutation_in; [exact Hw | exact Hp]).
      apply replies_from_requests in HpL. destruct HpL as [q' [Hq' Hr']].
      pose proof (reply_id _ _ _ Hr') as Hid'. rewrite Hid in Hid'.
      (* q and q' have the same id, hence are the same element of sent *)
      pose proof (find_unique q_id sent (q_id q) Hnds q Hqs eq_refl) as F.
      rewrite (find_unique q_id sent (q_id q) Hnds q' Hq' (eq_sym Hid')) in F. injection F as ->.
      rewrite Hr in Hr'. discriminate.
  Qed.
End Conc.
