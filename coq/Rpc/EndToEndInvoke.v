(* C01: the server side of the C01 model IS the C10 model of Protocol.Invoke / TarsServer.invoke.
   Rpc/EndToEnd.v has its own [server_handle] (filters around the generated Dispatch, error -> IRet / SResultDesc,
   packet type echoed, nothing written for a one-way request); Rpc/Invoke.v (C10) models Protocol.Invoke with the
   dispatcher as a parameter, and its response construction is tied to the source of Protocol.Invoke by the
   translator (Props/C10.v, C10_source_...). Here: for every request that is not a ping, with no handle timeout
   configured and no queueing delay, what C10's [server_step] writes when its dispatcher parameter is C01's
   (pass-through filters around the generated Dispatch and the implementation) is exactly C01's reply - same packet,
   same zero-or-one count, one dispatcher call. *)
From Coq Require Import List NArith ZArith Bool Arith Lia.
From TarsV Require Import Gen.Consts Base.Hex Codec.Wire Codec.Skip Codec.Prim Codec.GenCodec Frame.Framing
  Rpc.Filters Rpc.FiltersProofs Rpc.EndToEnd Rpc.EndToEndProofs.
Require TarsV.Rpc.Invoke.
Import ListNotations.
Open Scope N_scope.

Module I := TarsV.Rpc.Invoke.

Definition wmap (m : smap) : I.smap := map (fun kv => (VStr (fst kv), VStr (snd kv))) m.
Definition to10 (q : reqpkt) : I.request :=
  {| I.q_ver := q_ver q; I.q_ptype := q_ptype q; I.q_mtype := q_mtype q; I.q_id := q_id q; I.q_servant := q_servant q;
     I.q_func := q_func q; I.q_buf := q_buf q; I.q_timeout := q_timeout q; I.q_ctx := wmap (q_ctx q); I.q_status := wmap (q_status q) |}.
Definition rsp10 (p : rsppkt) : I.reply :=
  {| I.p_ver := p_ver p; I.p_ptype := p_ptype p; I.p_id := p_id p; I.p_mtype := p_mtype p; I.p_ret := p_ret p;
     I.p_buf := p_buf p; I.p_status := wmap (p_status p); I.p_desc := p_desc p; I.p_ctx := wmap (p_ctx p) |}.

Section Tie.
  Variable e : env.
  Variable impl : bytes -> list val -> smap -> smap -> impl_res.
  Variable i : iface.

  (* C01's dispatcher + implementation as the parameter of the C10 model, for the request [q]: the filled response or
     the error (a tars.Error{c,m}; a plain error is (1, m)) *)
  Definition dispatch10 (q : reqpkt) : I.request -> I.hrun := fun _ =>
    {| I.h_res := match fst (dispatch e impl i q) with
                  | DispOk p => I.HDone (p_buf p) (wmap (p_status p)) (wmap (p_ctx p))
                  | DispErr c m _ => I.HFail (I.TarsErr c m)
                  end;
       I.h_dur := 0 |}.

  Lemma never_expired_unqueued r : I.queue_expired r 0 = false.
  Proof. unfold I.queue_expired. destruct (0 <? I.q_timeout r)%Z eqn:A; [|reflexivity]. cbn [andb]. apply Z.leb_gt. apply Z.ltb_lt in A. lia. Qed.

  Lemma dispatch_ok_shape q p : fst (dispatch e impl i q) = DispOk p ->
    p_ver p = q_ver q /\ p_id p = q_id q /\ p_mtype p = 0%Z /\ p_ret p = 0%Z /\ p_desc p = [].
  Proof.
    unfold dispatch. destruct (find_fn i (q_func q)); [|discriminate].
    destruct (dec_list _ _ _ _); try discriminate. destruct (impl _ _ _ _); [|discriminate].
    cbn [fst]. intros H. injection H as <-. repeat split.
  Qed.

  Theorem server_is_invoke (cfg : I.config) (q : reqpkt) :
    I.c_ht cfg = 0 -> bytes_eqb (q_func q) I.ping_name = false ->
    I.server_step (dispatch10 q) cfg (to10 q) 0 =
    (map (fun p => (I.FromHandler, rsp10 p)) (olist (srv_reply e impl i q)), 1%nat).
  Proof.
    intros Hht Hping. unfold I.server_step, I.invoke. rewrite never_expired_unqueued.
    cbn [I.q_func to10]. rewrite Hping. unfold dispatch10. cbn [I.h_res I.h_dur].
    unfold srv_reply, is_oneway, I.oneway. cbn [I.q_ptype to10].
    (* two regenerated constants (Gen/Consts.v), one per model, with the same value on this tree: a generator that emitted
       them differently would break the proof here *)
    change c_TARSONEWAY with c_c01_TARSONEWAY.
    destruct (fst (dispatch e impl i q)) as [p|c m sys] eqn:Hd.
    - destruct (dispatch_ok_shape q p Hd) as (H1 & H2 & H3 & H4 & H5).
      destruct (q_ptype q =? c_c01_TARSONEWAY)%Z; [reflexivity|].
      rewrite Hht. cbn [N.ltb N.compare andb olist map]. f_equal. f_equal. f_equal.
      unfold I.with_body, I.base_reply, rsp10, reply_of. cbn.
      now rewrite H1, H2, H3, H4, H5.
    - destruct (q_ptype q =? c_c01_TARSONEWAY)%Z; [reflexivity|].
      rewrite Hht. cbn [N.ltb N.compare andb olist map]. reflexivity.
  Qed.
End Tie.
