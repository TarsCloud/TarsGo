(* C01: what the generated encoder writes for a typed value is a well-formed wire field (Codec/Skip.v
   wire trees), of nesting depth at most the value's. Consequence (used in Rpc/EndToEndFull.v): the dispatcher's
   decoder passes over the encoded out arguments that sit between the in arguments, by C04's skip_exact. *)
From Coq Require Import List NArith ZArith Bool Arith Lia.
From Coq Require Import ZifyN ZifyNat ZifyBool.
From TarsV Require Import Gen.Consts Base.Hex Codec.Wire Codec.WireProofs Codec.Skip Codec.SkipProofs Codec.Prim Codec.PrimProofs
  Codec.GenCodec Codec.Corr Codec.RoundTrip Codec.RoundTripProofs Codec.WireSpec Codec.WireSpecProofs.
Import ListNotations.
Open Scope N_scope.

(* inner [fix] for the guard checker; rewrite with vdepth_VList / vdepth_VMap / vdepth_VStruct, never unfold [vdepth] *)
Fixpoint vdepth (v : val) : N :=
  match v with
  | VList xs => 1 + (fix mx l := match l with [] => 0 | y :: r => N.max (vdepth y) (mx r) end) xs
  | VMap kvs => 1 + (fix mx l := match l with [] => 0 | (k, x) :: r => N.max (N.max (vdepth k) (vdepth x)) (mx r) end) kvs
  | VStruct vs => 1 + (fix mx l := match l with [] => 0 | y :: r => N.max (vdepth y) (mx r) end) vs
  | _ => 0
  end.
Fixpoint vdepth_list (l : list val) : N := match l with [] => 0 | y :: r => N.max (vdepth y) (vdepth_list r) end.
Fixpoint vdepth_entries (l : list (val * val)) : N :=
  match l with [] => 0 | (k, x) :: r => N.max (N.max (vdepth k) (vdepth x)) (vdepth_entries r) end.
Lemma vdepth_list_go l : (fix mx l := match l with [] => 0 | y :: r => N.max (vdepth y) (mx r) end) l = vdepth_list l.
Proof. induction l as [|y r IH]; cbn [vdepth_list]; [reflexivity|now rewrite IH]. Qed.
Lemma vdepth_entries_go l :
  (fix mx l := match l with [] => 0 | (k, x) :: r => N.max (N.max (vdepth k) (vdepth x)) (mx r) end) l = vdepth_entries l.
Proof. induction l as [|[k x] r IH]; cbn [vdepth_entries]; [reflexivity|now rewrite IH]. Qed.
Lemma vdepth_VList xs : vdepth (VList xs) = 1 + vdepth_list xs.
Proof. cbn [vdepth]. now rewrite vdepth_list_go. Qed.
Lemma vdepth_VMap kvs : vdepth (VMap kvs) = 1 + vdepth_entries kvs.
Proof. cbn [vdepth]. now rewrite vdepth_entries_go. Qed.
Lemma vdepth_VStruct vs : vdepth (VStruct vs) = 1 + vdepth_list vs.
Proof. cbn [vdepth]. now rewrite vdepth_list_go. Qed.

(* sizes the skipping reader handles: strings below 2^31 bytes, containers below 2^30 elements *)
Fixpoint small (v : val) : Prop :=
  match v with
  | VStr s => N.of_nat (length s) < 2147483648
  | VList xs => N.of_nat (length xs) < 1073741824 /\ (fix all l := match l with [] => True | y :: r => small y /\ all r end) xs
  | VMap kvs => N.of_nat (length kvs) < 1073741824 /\
                (fix all l := match l with [] => True | (k, x) :: r => small k /\ small x /\ all r end) kvs
  | VStruct vs => (fix all l := match l with [] => True | y :: r => small y /\ all r end) vs
  | _ => True
  end.
Lemma small_list_go l : (fix all l := match l with [] => True | y :: r => small y /\ all r end) l <-> Forall small l.
Proof. induction l as [|y r IH]; [split; [constructor|trivial]|]. rewrite IH. split; [intros [A B]; now constructor|intros H; inversion H; tauto]. Qed.
Lemma small_entries_go l :
  (fix all l := match l with [] => True | (k, x) :: r => small k /\ small x /\ all r end) l <-> Forall (fun p => small (fst p) /\ small (snd p)) l.
Proof.
  induction l as [|[k x] r IH]; [split; [constructor|trivial]|]. rewrite IH. cbn [fst snd].
  split; [intros (A & B & C); now constructor|intros H; inversion H; cbn [fst snd] in *; tauto].
Qed.

Section VW.
  Variable e : env.
  Hypothesis Htags : forall sid fd, In fd (fields_of e sid) -> ftag fd < 256.

  Definition as_field (tag : N) (bs : list N) (dmax : N) : Prop :=
    exists w, bs = ser_field (tag, w) /\ wf_ok w /\ wdepth w <= dmax.

  Lemma mxd_cons t w fs : mxd ((t, w) :: fs) = N.max (wdepth w) (mxd fs).
  Proof. reflexivity. Qed.

  (* The wire tree of a value is [wire_of] (Codec/WireSpec.v), and the encoder writes its serialisation
     (WireSpecProofs.enc_var_wire). What is left: it is well formed when the sizes are [small], and no deeper than the value. *)
  Lemma wire_elems_wf x xs : Forall (fun y => small y -> wf_ok (wire_of e x y)) xs -> Forall small xs ->
    fields_ok (wire_elems e x xs).
  Proof.
    induction 1 as [|y r Hy _ IH]; intros Hs; [constructor|]. inversion Hs; subst. cbn [wire_elems].
    constructor; [split; [cbn [fst]; lia|cbn [snd]; now apply Hy]|now apply IH].
  Qed.
  Lemma wire_entries_wf kt vt kvs :
    Forall (fun p => (small (fst p) -> wf_ok (wire_of e kt (fst p))) /\ (small (snd p) -> wf_ok (wire_of e vt (snd p)))) kvs ->
    Forall (fun p => small (fst p) /\ small (snd p)) kvs ->
    Forall (fun p => fst (fst p) < 256 /\ fst (snd p) < 256 /\ wf_ok (snd (fst p)) /\ wf_ok (snd (snd p))) (wire_entries e kt vt kvs).
  Proof.
    induction 1 as [|[k x] r [Hk Hx] _ IH]; intros Hs; [constructor|]. inversion Hs as [|? ? [Sk Sx] Hr]; subst. cbn [fst snd] in *.
    cbn [wire_entries]. constructor; [cbn [fst snd]; repeat split; try lia; [now apply Hk|now apply Hx]|now apply IH].
  Qed.
  Lemma wire_fields_wf fds vs : Forall2 (fun fd y => small y -> wf_ok (wire_of e (fty fd) y)) fds vs -> Forall small vs ->
    Forall (fun fd => ftag fd < 256) fds -> fields_ok (wire_fields e vs fds).
  Proof.
    induction 1 as [|fd y fds vs Hy _ IH]; intros Hs Ht; [constructor|]. inversion Hs; inversion Ht; subst. cbn [wire_fields].
    destruct (left_out (fty fd) (freq fd) (fdef fd) y); [now apply IH|]. constructor; [split; cbn [fst snd]; [assumption|now apply Hy]|now apply IH].
  Qed.
  (* a vector and a fixed-size array have the same wire tree *)
  Lemma wire_list_wf x xs : Forall (fun y => small y -> wf_ok (wire_of e x y)) xs -> small (VList xs) ->
    wf_ok (WList (wire_elems e x xs)).
  Proof.
    intros IH [Hlen Hsm]. apply small_list_go in Hsm. cbn [wf_ok]. split; [rewrite wire_elems_length; lia|].
    apply wf_ok_fields. now apply wire_elems_wf.
  Qed.

  Lemma wire_small_ok : forall t v, has_type e t v -> small v -> wf_ok (wire_of e t v).
  Proof.
    apply (has_type_nested e (fun t v => small v -> wf_ok (wire_of e t v))).
    - intros t v Hs Hty Hsm. destruct v; cbn [wire_of]; try (destruct t; contradiction).
      + apply wint_ok. now destruct b.
      + apply wint_ok. now apply (sc_typed_fits64 t).
      + destruct t; cbn [sc_typed] in Hty; try contradiction; exact Hty.
      + unfold wstr. cbn [small] in Hsm. destruct (N.of_nat (length s) <=? 255) eqn:E; cbn [wf_ok]; lia.
    - intros s Hl _. cbn [wire_of wf_ok]. lia.
    - intros x xs _ _ _ IH Hsm. rewrite wire_of_vec. now apply wire_list_wf.
    - intros n x xs _ _ _ _ IH Hsm. rewrite wire_of_arr. now apply wire_list_wf.
    - intros kt vt kvs _ _ IH [Hlen Hsm]. apply small_entries_go in Hsm. rewrite wire_of_map. cbn [wf_ok].
      split; [rewrite wire_entries_length; lia|]. apply entries_ok_build. now apply wire_entries_wf.
    - intros sid vs _ IH Hsm. cbn [small] in Hsm. apply small_list_go in Hsm. rewrite wire_of_struct. cbn [wf_ok].
      apply wf_ok_fields. apply wire_fields_wf; [assumption|assumption|]. apply Forall_forall. intros fd Hin. now apply (Htags sid).
  Qed.

  Lemma wire_elems_depth x xs : Forall (fun y => wdepth (wire_of e x y) <= vdepth y) xs -> mxd (wire_elems e x xs) <= vdepth_list xs.
  Proof. induction 1; cbn [wire_elems vdepth_list]; [cbn; lia|rewrite mxd_cons; lia]. Qed.
  Lemma wire_entries_depth kt vt kvs :
    Forall (fun p => wdepth (wire_of e kt (fst p)) <= vdepth (fst p) /\ wdepth (wire_of e vt (snd p)) <= vdepth (snd p)) kvs ->
    mxd (flat (wire_entries e kt vt kvs)) <= vdepth_entries kvs.
  Proof.
    induction 1 as [|[k x] r [Hk Hx] _ IH]; [cbn; lia|]. cbn [fst snd] in *. cbn [wire_entries vdepth_entries].
    change (flat ((?a, ?b) :: ?ps)) with (a :: b :: flat ps). rewrite !mxd_cons. lia.
  Qed.
  Lemma wire_fields_depth fds vs : Forall2 (fun fd y => wdepth (wire_of e (fty fd) y) <= vdepth y) fds vs ->
    mxd (wire_fields e vs fds) <= vdepth_list vs.
  Proof.
    induction 1 as [|fd y fds vs Hy _ IH]; [cbn; lia|]. cbn [wire_fields vdepth_list].
    destruct (left_out (fty fd) (freq fd) (fdef fd) y); [lia|rewrite mxd_cons; lia].
  Qed.

  Lemma wire_depth : forall t v, has_type e t v -> wdepth (wire_of e t v) <= vdepth v.
  Proof.
    apply (has_type_nested e (fun t v => wdepth (wire_of e t v) <= vdepth v)).
    - intros t v Hs Hty. rewrite scalar_wire_flat by assumption. lia.
    - intros s _. cbn [wire_of wdepth]. lia.
    - intros x xs _ _ _ IH. rewrite wire_of_vec, vdepth_VList. cbn [wdepth]. fold (mxd (wire_elems e x xs)).
      pose proof (wire_elems_depth x xs IH). lia.
    - intros n x xs _ _ _ _ IH. rewrite wire_of_arr, vdepth_VList. cbn [wdepth]. fold (mxd (wire_elems e x xs)).
      pose proof (wire_elems_depth x xs IH). lia.
    - intros kt vt kvs _ _ IH. rewrite wire_of_map, vdepth_VMap. cbn [wdepth]. rewrite mxd_flat.
      pose proof (wire_entries_depth kt vt kvs IH). lia.
    - intros sid vs _ IH. rewrite wire_of_struct, vdepth_VStruct. cbn [wdepth]. fold (mxd (wire_fields e vs (fields_of e sid))).
      pose proof (wire_fields_depth _ vs IH). lia.
  Qed.

  Lemma len_count m : m < 2147483648 -> w_int32 (Z.of_nat (N.to_nat m)) 0 = w_len m.
  Proof. intros H. rewrite <- (w_int32_len m H). f_equal. lia. Qed.

  (* what the generated encoder writes for a typed value of admissible size: nothing (optional only), or one well-formed
     wire field no deeper than the value *)
  Theorem value_is_field t v tag req d : has_type e t v -> small v ->
    (req = false /\ enc_var e tag req t d v = []) \/ as_field tag (enc_var e tag req t d v) (vdepth v).
  Proof.
    intros Hty Hsm. rewrite (enc_var_wire e t v Hty tag req d). destruct (left_out t req d v) eqn:El.
    - left. split; [|reflexivity]. destruct req; [now rewrite left_out_req in El|reflexivity].
    - right. exists (wire_of e t v). repeat split; [now apply wire_small_ok|now apply wire_depth].
  Qed.
End VW.

Lemma vdepth_list_le B xs : Forall (fun y => vdepth y <= B) xs -> vdepth_list xs <= B.
Proof. induction 1 as [|y r Hy _ IH]; cbn [vdepth_list]; lia. Qed.
Lemma vdepth_members g fds vs : Forall2 (fun fd y => vdepth y <= N.of_nat (g (fty fd))) fds vs ->
  vdepth_list vs <= N.of_nat (tmax g fds).
Proof. induction 1 as [|fd y fds vs Hy _ IH]; cbn [vdepth_list tmax fold_right]; [lia|]. fold (tmax g fds). lia. Qed.

Theorem vdepth_bound e : forall n t v, tfin n e t = true -> has_type e t v -> vdepth v <= N.of_nat (tneed n e t).
Proof.
  induction n as [|n IH]; intros t v Hfin Hty; [discriminate|].
  inversion Hty as [t' v' Hsc Hst | s Hl | x xs Hx Hl Hall | len x xs Hlen Hpos Hl Hall | kt vt kvs Hl Hall | sid vs Hall]; subst;
    cbn [tfin] in Hfin.
  - destruct t; try discriminate; destruct v; cbn [sc_typed] in Hst; try contradiction; cbn [vdepth]; lia.
  - cbn [vdepth]. lia.
  - rewrite vdepth_VList. cbn [tneed].
    pose proof (vdepth_list_le _ xs (Forall_impl _ (fun y => IH x y Hfin) Hall)). lia.
  - rewrite vdepth_VList. cbn [tneed].
    pose proof (vdepth_list_le _ xs (Forall_impl _ (fun y => IH x y Hfin) Hall)). lia.
  - rewrite vdepth_VMap. cbn [tneed]. apply andb_true_iff in Hfin. destruct Hfin as [Hf1 Hf2].
    assert (vdepth_entries kvs <= N.of_nat (Nat.max (tneed n e kt) (tneed n e vt))).
    { clear - IH Hall Hf1 Hf2. induction Hall as [|[a b] r [Ha Hb] _ IHr]; cbn [vdepth_entries fst snd] in *; [lia|].
      pose proof (IH kt a Hf1 Ha). pose proof (IH vt b Hf2 Hb). lia. }
    lia.
  - rewrite vdepth_VStruct. cbn [tneed]. rewrite forallb_forall in Hfin. apply Forall_forall in Hfin.
    assert (H : Forall2 (fun fd y => vdepth y <= N.of_nat (tneed n e (fty fd))) (fields_of e sid) vs).
    { clear Hty. induction Hall as [|fd y fds vs Hy _ IHr]; constructor; inversion Hfin; subst; [now apply IH|now apply IHr]. }
    pose proof (vdepth_members (tneed n e) _ vs H). lia.
Qed.
