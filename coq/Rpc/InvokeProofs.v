From Coq Require Import List NArith ZArith Bool Arith Lia ZifyBool ZifyNat ZifyN Permutation.
From TarsV Require Import Gen.Consts Base.Hex Base.Lts Codec.Wire Codec.Skip Codec.Prim Codec.PrimProofs Codec.GenCodec Codec.GenProofs Gen.Schemas
  Codec.RoundTrip Codec.RoundTripProofs Codec.RoundTripExamples Frame.Framing Frame.FramingProofs Rpc.Invoke.
Import ListNotations.
Open Scope N_scope.

(* the protocol's constants as the tree defines them (regenerated into Gen/Consts.v on every run): a changed value
   re-opens this proof *)
Theorem protocol_constants :
  c_TARSVERSION = 1%Z /\ c_TUPVERSION = 3%Z /\ c_JSONVERSION = 5%Z /\ c_TARSNORMAL = 0%Z /\ c_TARSONEWAY = 1%Z /\
  c_TARSSERVERSUCCESS = 0%Z /\ c_TARSSERVERQUEUETIMEOUT = (-6)%Z.
Proof. repeat split; reflexivity. Qed.

Lemma no_deadline_at_zero ht : (0 <? ht) && (ht <=? 0) = false.
Proof. destruct ht; reflexivity. Qed.

Section Proofs.
  Variable dispatch : request -> hrun.

  Definition is_ping (r : request) : bool := bytes_eqb (q_func r) ping_name.
  (* the request reaches the dispatcher *)
  Definition dispatched (r : request) (queued : N) : bool := negb (queue_expired r queued) && negb (is_ping r).
  (* the handler outlives the configured handle timeout *)
  Definition overruns (cfg : config) (r : request) (queued : N) : bool :=
    dispatched r queued && (0 <? c_ht cfg) && (c_ht cfg <=? h_dur (dispatch r)).

  Definition echoes (r : request) (p : reply) : Prop := p_id p = q_id r /\ p_ver p = q_ver r /\ p_ptype p = q_ptype r.

  (* Invoke's answer once the request has reached the dispatcher *)
  Definition handler_reply (r : request) : reply :=
    match h_res (dispatch r) with
    | HDone buf st cx => with_body (base_reply r) buf st cx
    | HFail e => with_ret (base_reply r) (err_code e) (err_msg e)
    end.

  Lemma invoke_eq r queued : invoke dispatch r queued =
    if queue_expired r queued then (FromQueueTimeout, late_reply r, O, 0)
    else if is_ping r then (FromPing, base_reply r, O, 0)
    else (FromHandler, handler_reply r, 1%nat, h_dur (dispatch r)).
  Proof. unfold invoke, is_ping, handler_reply. cbv zeta. destruct (h_res (dispatch r)); reflexivity. Qed.

  (* the one reply of a two-way request and where it comes from, by the classes the theorems below speak of *)
  Definition answer (cfg : config) (r : request) (queued : N) : origin * reply :=
    if overruns cfg r queued then (FromHandleTimeout, handle_timeout_reply r)
    else if dispatched r queued then (FromHandler, handler_reply r)
    else if queue_expired r queued then (FromQueueTimeout, late_reply r)
    else (FromPing, base_reply r).

  (* a request that does not reach the dispatcher runs for no time, so no handle timeout can pass *)
  Theorem server_step_eq cfg r queued : server_step dispatch cfg r queued =
    (if oneway r then [] else [answer cfg r queued], if dispatched r queued then 1%nat else 0%nat).
  Proof.
    unfold server_step, answer, overruns, dispatched. rewrite invoke_eq.
    destruct (queue_expired r queued); [|destruct (is_ping r)]; cbn [negb andb]; rewrite ?no_deadline_at_zero;
      destruct (oneway r); try reflexivity.
    destruct (_ && _); reflexivity.
  Qed.

  Lemma in_server_step cfg r queued op : In op (fst (server_step dispatch cfg r queued)) -> op = answer cfg r queued.
  Proof. rewrite server_step_eq. destruct (oneway r); [intros []|intros [<-|[]]; reflexivity]. Qed.

  Lemma answer_unreached cfg r queued : dispatched r queued = false ->
    answer cfg r queued = if queue_expired r queued then (FromQueueTimeout, late_reply r) else (FromPing, base_reply r).
  Proof. intros D. unfold answer, overruns. rewrite D. reflexivity. Qed.
  Lemma answer_handler cfg r queued : dispatched r queued = true -> overruns cfg r queued = false ->
    answer cfg r queued = (FromHandler, handler_reply r).
  Proof. intros D O. unfold answer. rewrite O, D. reflexivity. Qed.
  Lemma overruns_dispatched cfg r queued : overruns cfg r queued = true -> dispatched r queued = true.
  Proof. unfold overruns. destruct (dispatched r queued); [reflexivity|discriminate]. Qed.

  Lemma answer_echoes cfg r queued : echoes r (snd (answer cfg r queued)).
  Proof.
    unfold answer, handler_reply. destruct (overruns cfg r queued); [repeat split|].
    destruct (dispatched r queued); [destruct (h_res (dispatch r)); repeat split|].
    destruct (queue_expired r queued); repeat split.
  Qed.

  Lemma invoke_identity r queued o p n d : invoke dispatch r queued = (o, p, n, d) -> echoes r p.
  Proof.
    rewrite invoke_eq. unfold handler_reply.
    destruct (queue_expired r queued); [|destruct (is_ping r); [|destruct (h_res (dispatch r))]];
      intros H; injection H as _ <- _ _; repeat split.
  Qed.

  (* exactly one reply for a two-way request, none for a one-way request: every configuration, every queueing
     time, every behaviour of the implementation *)
  Theorem count_exact cfg r queued :
    length (fst (server_step dispatch cfg r queued)) = if oneway r then 0%nat else 1%nat.
  Proof. rewrite server_step_eq. destruct (oneway r); reflexivity. Qed.

  Theorem identity cfg r queued o p : In (o, p) (fst (server_step dispatch cfg r queued)) ->
    p_id p = q_id r /\ p_ver p = q_ver r /\ p_ptype p = q_ptype r.
  Proof. intros H. apply in_server_step in H as E. change p with (snd (o, p)). rewrite E. apply answer_echoes. Qed.

  (* the dispatcher (hence the implementation) is entered at most once; exactly once iff the request reaches it *)
  Theorem calls_exact cfg r queued :
    snd (server_step dispatch cfg r queued) = if dispatched r queued then 1%nat else 0%nat.
  Proof. rewrite server_step_eq. reflexivity. Qed.

  (* a ping is answered with success, with an empty body, without entering the dispatcher - in every configuration *)
  Theorem ping cfg r queued : is_ping r = true -> queue_expired r queued = false ->
    snd (server_step dispatch cfg r queued) = 0%nat /\
    (oneway r = false -> fst (server_step dispatch cfg r queued) = [(FromPing, base_reply r)]) /\
    p_ret (base_reply r) = c_TARSSERVERSUCCESS /\ p_buf (base_reply r) = [].
  Proof.
    intros P Q. assert (D : dispatched r queued = false) by (unfold dispatched; rewrite P; apply andb_false_r).
    rewrite server_step_eq, (answer_unreached cfg r queued D), D, Q.
    split; [reflexivity|]. split; [intros ->; reflexivity|split; reflexivity].
  Qed.

  (* a request whose own timeout elapsed while it was queued is answered with the queue-timeout code and is not executed *)
  Theorem queue_timeout cfg r queued : (0 < q_timeout r)%Z -> (q_timeout r <= Z.of_N queued)%Z ->
    snd (server_step dispatch cfg r queued) = 0%nat /\
    (oneway r = false ->
     exists p, fst (server_step dispatch cfg r queued) = [(FromQueueTimeout, p)] /\
               p_ret p = c_TARSSERVERQUEUETIMEOUT /\ p_ret p <> 0%Z /\ p_buf p = [] /\
               p_id p = q_id r /\ p_ver p = q_ver r /\ p_ptype p = q_ptype r).
  Proof.
    intros H0 H1. assert (Q : queue_expired r queued = true) by (unfold queue_expired; lia).
    assert (D : dispatched r queued = false) by (unfold dispatched; rewrite Q; reflexivity).
    rewrite server_step_eq, (answer_unreached cfg r queued D), D, Q.
    split; [reflexivity|]. intros ->. eexists. split; [reflexivity|]. cbn. repeat split; try reflexivity. discriminate.
  Qed.

  (* conversely a request whose timeout is off (<= 0) or has not elapsed is never answered with a queue timeout *)
  Theorem no_spurious_queue_timeout cfg r queued o p : ((q_timeout r <= 0)%Z \/ (Z.of_N queued < q_timeout r)%Z) ->
    In (o, p) (fst (server_step dispatch cfg r queued)) -> o <> FromQueueTimeout.
  Proof.
    intros H Hin. assert (Q : queue_expired r queued = false) by (unfold queue_expired; lia).
    apply in_server_step in Hin as E. change o with (fst (o, p)). rewrite E. unfold answer. rewrite Q.
    destruct (overruns cfg r queued), (dispatched r queued); discriminate.
  Qed.

  (* an implementation error becomes the reply's return code and message: the error's own code for a *tars.Error,
     1 for any other error; the call has been executed exactly once *)
  Theorem error_mapping cfg r queued e : dispatched r queued = true -> h_res (dispatch r) = HFail e ->
    overruns cfg r queued = false -> oneway r = false ->
    fst (server_step dispatch cfg r queued) = [(FromHandler, with_ret (base_reply r) (err_code e) (err_msg e))] /\
    snd (server_step dispatch cfg r queued) = 1%nat.
  Proof.
    intros D He Ho W. rewrite server_step_eq, W, D, (answer_handler cfg r queued D Ho). unfold handler_reply. rewrite He.
    split; reflexivity.
  Qed.
  Lemma err_code_tars c m : err_code (TarsErr c m) = c /\ err_msg (TarsErr c m) = m. Proof. split; reflexivity. Qed.
  Lemma err_code_plain m : err_code (PlainErr m) = 1%Z /\ err_code (PlainErr m) <> 0%Z /\ err_msg (PlainErr m) = m.
  Proof. repeat split. discriminate. Qed.

  (* a successful call: return code 0 and exactly what the dispatcher produced *)
  Theorem success cfg r queued buf st cx : dispatched r queued = true -> h_res (dispatch r) = HDone buf st cx ->
    overruns cfg r queued = false -> oneway r = false ->
    fst (server_step dispatch cfg r queued) = [(FromHandler, with_body (base_reply r) buf st cx)] /\
    p_ret (with_body (base_reply r) buf st cx) = c_TARSSERVERSUCCESS /\
    snd (server_step dispatch cfg r queued) = 1%nat.
  Proof.
    intros D He Ho W. rewrite server_step_eq, W, D, (answer_handler cfg r queued D Ho). unfold handler_reply. rewrite He.
    repeat split.
  Qed.

  (* an over-long handler under a configured handle timeout: one timeout error with the request's identity;
     the call still runs (once) *)
  Theorem handle_timeout cfg r queued : overruns cfg r queued = true -> oneway r = false ->
    fst (server_step dispatch cfg r queued) = [(FromHandleTimeout, handle_timeout_reply r)] /\
    p_ret (handle_timeout_reply r) <> 0%Z /\
    p_id (handle_timeout_reply r) = q_id r /\ p_ver (handle_timeout_reply r) = q_ver r /\
    p_ptype (handle_timeout_reply r) = q_ptype r /\
    snd (server_step dispatch cfg r queued) = 1%nat.
  Proof.
    intros Ho W. rewrite server_step_eq, W, (overruns_dispatched cfg r queued Ho). unfold answer. rewrite Ho.
    repeat split. discriminate.
  Qed.

  (* without a handle timeout, or when Invoke ends before it, the origin is never the handle timeout *)
  Theorem no_spurious_handle_timeout cfg r queued o p : overruns cfg r queued = false ->
    In (o, p) (fst (server_step dispatch cfg r queued)) -> o <> FromHandleTimeout.
  Proof.
    intros Ho Hin. apply in_server_step in Hin as E. change o with (fst (o, p)). rewrite E. unfold answer. rewrite Ho.
    destruct (dispatched r queued), (queue_expired r queued); discriminate.
  Qed.

  (* worker pool size and transport do not enter the result: the same request gets the same answer *)
  Theorem configuration_independent pool1 pool2 udp1 udp2 ht r queued :
    server_step dispatch {| c_pool := pool1; c_ht := ht; c_udp := udp1 |} r queued =
    server_step dispatch {| c_pool := pool2; c_ht := ht; c_udp := udp2 |} r queued.
  Proof. reflexivity. Qed.

  Theorem packet_count cfg pkg r queued : parse_request pkg = Some r ->
    length (fst (serve_packet dispatch cfg pkg queued)) = if oneway r then 0%nat else 1%nat.
  Proof. intros H. unfold serve_packet. rewrite H. apply count_exact. Qed.

  Theorem packet_identity cfg pkg r queued o p : parse_request pkg = Some r ->
    In (o, p) (fst (serve_packet dispatch cfg pkg queued)) -> echoes r p.
  Proof. intros H. unfold serve_packet. rewrite H. apply identity. Qed.

  Definition twoway_count (reqs : list (list N * N)) : nat :=
    length (filter (fun pq => match parse_request (fst pq) with Some r => negb (oneway r) | None => false end) reqs).

  Lemma session_length cfg reqs : length (session dispatch cfg reqs) = twoway_count reqs.
  Proof.
    unfold session, twoway_count. induction reqs as [|[pkg q] reqs IH]; [reflexivity|].
    cbn [flat_map filter fst snd]. rewrite app_length, IH. unfold serve_packet.
    destruct (parse_request pkg) as [r|]; [|reflexivity].
    rewrite count_exact. destruct (oneway r); reflexivity.
  Qed.

  Lemma interleave_perm {A} (ls : list (list A)) out : interleave ls out -> Permutation out (concat ls).
  Proof.
    induction 1 as [ls H|pre x l post out _ IH].
    - induction H as [|l ls -> _ IH]; [constructor|exact IH].
    - rewrite concat_app in *. cbn [concat] in *. cbn [app].
      etransitivity; [apply perm_skip; exact IH|]. apply Permutation_middle.
  Qed.

  (* whatever the interleaving of the handlers' writes, what arrives is - as a multiset - the union of the
     per-request replies, and there are as many replies as there are two-way requests *)
  Theorem pipelining cfg reqs out :
    interleave (map (fun pq => fst (serve_packet dispatch cfg (fst pq) (snd pq))) reqs) out ->
    Permutation out (session dispatch cfg reqs) /\ length out = twoway_count reqs.
  Proof.
    intros H. apply interleave_perm in H. unfold session. rewrite flat_map_concat_map.
    split; [exact H|]. rewrite (Permutation_length H), <- flat_map_concat_map. apply session_length.
  Qed.

  (* every reply in a pipelined session answers one of its requests, with that request's identity *)
  Theorem session_identity cfg reqs o p : In (o, p) (session dispatch cfg reqs) ->
    exists pkg q r, In (pkg, q) reqs /\ parse_request pkg = Some r /\ echoes r p.
  Proof.
    unfold session. rewrite in_flat_map. intros ([pkg q] & Hin & H). cbn [fst snd] in H.
    unfold serve_packet in H. destruct (parse_request pkg) as [r|] eqn:E; [|destruct H].
    exists pkg, q, r. split; [exact Hin|]. split; [exact E|]. eapply identity; exact H.
  Qed.

  (* TCP: the replies do not depend on how the request stream was cut into reads (C07) *)
  Theorem tcp_segmentation max cfg pkgs chunks queued : Forall (valid max) pkgs -> concat chunks = concat pkgs ->
    tcp_session dispatch max cfg chunks queued = session dispatch cfg (combine pkgs queued).
  Proof. intros Hv Hc. unfold tcp_session. rewrite (C07_reassembly max pkgs chunks Hv Hc). reflexivity. Qed.
End Proofs.

(* To show where a concrete schedule ends, evaluate the run under the [match]: with the end state as an explicit
   witness the kernel compares two symbolic states in normal form, whose size doubles with every step. *)
Lemma run_ends {A} (o : option A) (P : A -> Prop) :
  match o with Some s => P s | None => False end -> exists s, o = Some s /\ P s.
Proof. destruct o as [s|]; [exists s; auto|intros []]. Qed.

Lemma hrun_is r p ls : forall s, hrun_labels r p s ls = Lts.run (hstep r p) s ls.
Proof. apply Lts.run_unique; reflexivity. Qed.

Section Schedules.
  Variable r : request.
  Variable p : reply.   (* what Invoke computes for r when it is entered before the deadline *)
  Hypothesis p_ident : echoes r p.

  (* invariant of every reachable state. What is picked is settled when the handler wakes: with Invoke's answer only
     after Invoke has returned (and [s_late] was settled when it started), with the timeout answer only after the
     deadline. What is written is what was picked, or nothing for a one-way request: the packet type is read from the
     Current only when Invoke has returned, but before that only the timeout answer can have been picked, and for a
     one-way request that is empty already. *)
  Definition hinv (s : hstate) : Prop :=
    (s_late s = true -> s_fired s = true /\ s_started s = true) /\
    (s_returned s = true -> s_started s = true) /\
    (forall l, s_picked s = Some l ->
       (s_returned s = true /\ l = [if s_late s then late_reply r else p]) \/ (l = timeout_replies r /\ s_fired s = true)) /\
    (forall w, s_written s = Some w -> exists l, s_picked s = Some l /\ w = if oneway r then [] else l).

  Lemma hinv_init : hinv hinit.
  Proof. repeat split; intros; discriminate. Qed.

  Lemma hinv_step s l s' : hinv s -> hstep r p s l = Some s' -> hinv s'.
  Proof.
    intros (I0 & I1 & I2 & I3) H. destruct l; cbn [hstep] in H.
    - (* Start *)
      destruct (s_started s) eqn:E; [discriminate|]. injection H as <-. unfold hinv; cbn.
      split; [auto|]. split; [auto|]. split; [|exact I3].
      intros l Hl. destruct (I2 l Hl) as [[R _]|X]; [|right; exact X]. specialize (I1 R). congruence.
    - (* Return *)
      destruct (s_started s && negb (s_returned s)) eqn:E; [|discriminate]. injection H as <-. unfold hinv; cbn.
      split; [intros F; destruct (I0 F); auto|]. split; [auto|]. split; [|exact I3].
      intros l Hl. destruct (I2 l Hl) as [[R _]|X]; [|right; exact X].
      rewrite R, andb_false_r in E. discriminate.
    - (* Fire *)
      destruct (s_fired s); [discriminate|]. injection H as <-. unfold hinv; cbn.
      split; [intros F; destruct (I0 F); auto|]. split; [exact I1|]. split; [|exact I3].
      intros l Hl. destruct (I2 l Hl) as [X|[X _]]; auto.
    - (* Wake *)
      destruct (s_picked s) eqn:E; [discriminate|]. destruct (s_returned s || s_fired s) eqn:E2; [|discriminate].
      injection H as <-. unfold hinv; cbn.
      split; [exact I0|]. split; [exact I1|]. split.
      + intros l Hl. injection Hl as <-. destruct (s_returned s); [left|right]; auto.
      + intros w Hw. destruct (I3 w Hw) as (l & Hl & _). discriminate.
    - (* Write *)
      destruct (s_picked s) as [x|] eqn:E; [|discriminate]. destruct (s_written s); [discriminate|].
      injection H as <-. unfold hinv; cbn.
      split; [exact I0|]. split; [exact I1|]. split; [exact I2|].
      intros w Hw. injection Hw as <-. exists x. split; [reflexivity|].
      destruct (s_returned s) eqn:R; [reflexivity|].
      destruct (I2 x eq_refl) as [[R' _]|[-> _]]; [congruence|].
      unfold timeout_replies. destruct (oneway r); reflexivity.
  Qed.

  Lemma hinv_reachable ls s : hrun_labels r p hinit ls = Some s -> hinv s.
  Proof. rewrite hrun_is. exact (Lts.run_inv _ hinv hinv_step ls hinit s hinv_init). Qed.

  (* every schedule: whatever has been written for a two-way request is exactly one reply - the result of Invoke
     (only if Invoke had returned), the queue-timeout answer of an Invoke that was entered after the deadline, or the
     timeout error (only if the deadline had passed) - and it carries the request's id, version and packet type *)
  Theorem schedules_twoway ls s : hrun_labels r p hinit ls = Some s -> oneway r = false ->
    forall w, s_written s = Some w ->
      exists x, w = [x] /\
                ((x = p /\ s_returned s = true /\ s_late s = false) \/
                 (x = late_reply r /\ s_returned s = true /\ s_fired s = true) \/
                 (x = handle_timeout_reply r /\ s_fired s = true)) /\
                p_id x = q_id r /\ p_ver x = q_ver r /\ p_ptype x = q_ptype r.
  Proof.
    intros H W w Hw. destruct (hinv_reachable ls s H) as (I0 & _ & I2 & I3).
    destruct (I3 w Hw) as (l & Hl & ->). rewrite W. destruct (I2 l Hl) as [[R ->]|[-> F]].
    - destruct (s_late s) eqn:L; eexists; (split; [reflexivity|]).
      + split; [right; left; destruct (I0 eq_refl); auto|repeat split].
      + split; [left; auto|exact p_ident].
    - unfold timeout_replies. rewrite W. eexists. split; [reflexivity|]. split; [right; right; auto|repeat split].
  Qed.

  (* every schedule: a one-way request is never answered *)
  Theorem schedules_oneway ls s : hrun_labels r p hinit ls = Some s -> oneway r = true ->
    forall w, s_written s = Some w -> w = [].
  Proof.
    intros H W w Hw. destruct (hinv_reachable ls s H) as (_ & _ & _ & I3).
    destruct (I3 w Hw) as (l & _ & ->). rewrite W. reflexivity.
  Qed.

  (* every schedule: at most one reply, ever *)
  Theorem schedules_at_most_one ls s : hrun_labels r p hinit ls = Some s ->
    forall w, s_written s = Some w -> (length w <= 1)%nat.
  Proof.
    intros H w Hw. destruct (hinv_reachable ls s H) as (_ & _ & I2 & I3).
    destruct (I3 w Hw) as (l & Hl & ->). destruct (oneway r) eqn:W; [cbn; lia|].
    destruct (I2 l Hl) as [[_ ->]|[-> _]]; [reflexivity|]. unfold timeout_replies. rewrite W. reflexivity.
  Qed.

  (* the dispatcher is not entered by an Invoke that starts after the deadline; that happens only if the deadline
     passed before Invoke was entered *)
  Theorem schedules_late ls s : hrun_labels r p hinit ls = Some s -> s_late s = true -> s_fired s = true /\ s_started s = true.
  Proof. intros H. exact (proj1 (hinv_reachable ls s H)). Qed.

  Lemma hstep_written_stable s l s' w : hstep r p s l = Some s' -> s_written s = Some w -> s_written s' = Some w.
  Proof.
    intros H Hw. destruct l; cbn [hstep] in H.
    - destruct (s_started s); [discriminate|]. injection H as <-. exact Hw.
    - destruct (_ && _); [|discriminate]. injection H as <-. exact Hw.
    - destruct (s_fired s); [discriminate|]. injection H as <-. exact Hw.
    - destruct (s_picked s); [discriminate|]. destruct (_ || _); [|discriminate]. injection H as <-. exact Hw.
    - destruct (s_picked s); [|discriminate]. rewrite Hw in H. discriminate.
  Qed.
  (* the written list never changes once set: the handler writes once *)
  Theorem schedules_write_once ls : forall s s' w, hrun_labels r p s ls = Some s' -> s_written s = Some w -> s_written s' = Some w.
  Proof.
    intros s s' w H Hw. rewrite hrun_is in H.
    exact (Lts.run_inv _ (fun s => s_written s = Some w) (fun a l b Ha Hs => hstep_written_stable a l b w Hs Ha) ls s s' Hw H).
  Qed.

  (* progress: from every state, reachable or not, the handler can still finish - nothing the other parties do or fail
     to do blocks it (the deadline can always pass) *)
  Theorem schedules_progress s : exists more s', hrun_labels r p s more = Some s' /\ s_written s' <> None.
  Proof.
    destruct (s_written s) as [w|] eqn:Ew.
    - exists [], s. split; [reflexivity|]. congruence.
    - destruct (s_picked s) as [x|] eqn:Ep.
      + exists [LWrite]. cbn [hrun_labels hstep]. rewrite Ep, Ew. eexists. split; [reflexivity|]. discriminate.
      + destruct (s_fired s) eqn:Ef.
        * exists [LWake; LWrite]. cbn [hrun_labels hstep]. rewrite Ep, Ef, orb_true_r. cbn [s_picked s_written]. rewrite Ew.
          eexists. split; [reflexivity|]. discriminate.
        * exists [LFire; LWake; LWrite]. cbn [hrun_labels hstep]. rewrite Ef. cbn [s_picked s_fired s_returned s_written].
          rewrite Ep, orb_true_r. cbn [s_picked s_written]. rewrite Ew. eexists. split; [reflexivity|]. discriminate.
  Qed.
End Schedules.

Definition req_typed (r : request) : Prop :=
  fits 16 (q_ver r) = true /\ fits 8 (q_ptype r) = true /\ fits 32 (q_id r) = true.
Definition reply_typed (p : reply) : Prop :=
  fits 16 (p_ver p) = true /\ fits 8 (p_ptype p) = true /\ fits 32 (p_id p) = true /\
  fits 32 (p_mtype p) = true /\ fits 32 (p_ret p) = true.

(* both shapes begin with version and packet type; then the id at tag 3 (ResponsePacket) or tag 4 (RequestPacket) *)
Lemma reply_body_head p : exists tail, reply_body p =
  w_int16 (p_ver p) 1 ++ w_int8 (p_ptype p) 2 ++
  (if is_tup p then w_int32 (p_mtype p) 3 ++ w_int32 (p_id p) 4 ++ tail
   else w_int32 (p_id p) 3 ++ w_int32 (p_mtype p) 4 ++ w_int32 (p_ret p) 5 ++ tail).
Proof. unfold reply_body. destruct (is_tup p); eexists; reflexivity. Qed.

(* reads the integer members at the front of the goal's byte string back: each reader consumes what its writer produced *)
Ltac read_ints := rewrite ?roundtrip_int16, ?roundtrip_int8, ?roundtrip_int32 by (reflexivity || assumption).

(* the reply's bytes begin with the request's version, packet type and id, readable member by member - in both
   shapes (ResponsePacket; RequestPacket for TUP) *)
Theorem wire_identity p : reply_typed p -> wire_ident (reply_bytes p) = Some (p_ver p, p_ptype p, p_id p).
Proof.
  intros (Hv & Hp & Hi & Hm & Hr). unfold wire_ident. change (skipn 4 (reply_bytes p)) with (reply_body p).
  destruct (reply_body_head p) as (tail & ->). unfold is_tup. read_ints.
  destruct (p_ver p =? c_TUPVERSION)%Z; read_ints; reflexivity.
Qed.

(* a reply in the ResponsePacket shape carries its return code *)
Theorem wire_ret_rsp p : reply_typed p -> is_tup p = false -> wire_ret (reply_bytes p) = Some (p_ret p).
Proof.
  intros (Hv & Hp & Hi & Hm & Hr) T. unfold wire_ret. change (skipn 4 (reply_bytes p)) with (reply_body p).
  destruct (reply_body_head p) as (tail & ->). rewrite T. unfold is_tup in T. read_ints. rewrite T. read_ints. reflexivity.
Qed.

(* a TUP-versioned reply has no return code on the wire, whatever the code was *)
Theorem wire_ret_tup p : reply_typed p -> is_tup p = true -> wire_ret (reply_bytes p) = None.
Proof.
  intros (Hv & _) T. unfold wire_ret. change (skipn 4 (reply_bytes p)) with (reply_body p).
  destruct (reply_body_head p) as (tail & ->). read_ints. unfold is_tup in T. rewrite T. reflexivity.
Qed.

(* the reply is a well-formed frame: its 4-byte header is its length *)
Theorem wire_frame p : 4 + N.of_nat (length (reply_body p)) < 4294967296 ->
  hdr (reply_bytes p) = Some (N.of_nat (length (reply_bytes p))).
Proof.
  intros H. unfold reply_bytes. cbv zeta.
  change (Invoke.be32 (4 + N.of_nat (length (reply_body p)))) with (FramingProofs.be32 (4 + N.of_nat (length (reply_body p)))).
  rewrite hdr_be32 by exact H. f_equal. rewrite app_length. cbn [length FramingProofs.be32]. lia.
Qed.

(* complete decoding of replies without payload: C03's struct round trip on the two packet schemas *)
Lemma rsp_decode p : reply_typed p -> is_tup p = false -> p_buf p = [] -> p_status p = [] -> p_ctx p = [] ->
  N.of_nat (length (p_desc p)) < 4294967296 ->
  decode env0 sid_requestf_ResponsePacket (reply_body p) = DOk (rsp_val p) [].
Proof.
  intros (Hv & Hp & Hi & Hm & Hr) T Hb Hs Hc Hd. unfold reply_body. rewrite T. unfold rsp_val. rewrite Hb, Hs, Hc.
  rewrite (roundtrip_struct_static env0 8 3 _ _ env0_wf_schema ltac:(lia)).
  - (* the message is the one optional member: an empty one is omitted and comes back as the empty default *)
    unfold norm_struct. rewrite norm_str. destruct (p_desc p); reflexivity.
  - reflexivity.
  - vm_compute. lia.
  - apply HT_struct.
    repeat (apply Forall2_cons; [first [apply HT_scalar; [reflexivity|assumption] | apply HT_bytes; reflexivity
                                       | apply HT_map; [reflexivity|constructor]]|]).
    apply Forall2_nil.
Qed.

Lemma tup_decode p : reply_typed p -> is_tup p = true -> p_buf p = [] -> p_status p = [] -> p_ctx p = [] ->
  decode env0 sid_requestf_RequestPacket (reply_body p) = DOk (tup_val p) [].
Proof.
  intros (Hv & Hp & Hi & Hm & Hr) T Hb Hs Hc. unfold reply_body. rewrite T. unfold tup_val. rewrite Hb, Hs, Hc.
  rewrite (roundtrip_struct_static env0 8 3 _ _ env0_wf_schema ltac:(lia)).
  - reflexivity.
  - reflexivity.
  - vm_compute. lia.
  - apply HT_struct.
    repeat (apply Forall2_cons; [first [apply HT_scalar; [reflexivity|assumption] | apply HT_scalar; reflexivity
                                       | apply HT_bytes; reflexivity | apply HT_map; [reflexivity|constructor]]|]).
    apply Forall2_nil.
Qed.

Lemma first_i16_body p : reply_typed p -> first_i16 (reply_body p) = Some (p_ver p).
Proof. intros (Hv & _). unfold first_i16. destruct (reply_body_head p) as (tail & ->). read_ints. reflexivity. Qed.

(* every reply without payload - errors of the implementation, of the dispatcher, queue and handle timeouts, pings -
   decodes from its bytes to itself (ResponsePacket shape: code and message included), or to itself without code and
   message (RequestPacket shape of a TUP-versioned reply) *)
Theorem bodyless_reply_decodes p : reply_typed p -> p_buf p = [] -> p_status p = [] -> p_ctx p = [] ->
  4 + N.of_nat (length (reply_body p)) < 4294967296 -> N.of_nat (length (p_desc p)) < 4294967296 ->
  decode_reply (reply_bytes p) = Some (is_tup p, if is_tup p then with_ret p 0 [] else p).
Proof.
  intros Ht Hb Hs Hc Hl Hd. unfold decode_reply. rewrite (wire_frame p Hl), N.eqb_refl. change (skipn 4 (reply_bytes p)) with (reply_body p).
  rewrite (first_i16_body p Ht).
  destruct (is_tup p) eqn:T.
  - unfold is_tup in T. rewrite T. rewrite (tup_decode p Ht T Hb Hs Hc). destruct p; reflexivity.
  - unfold is_tup in T. rewrite T. rewrite (rsp_decode p Ht T Hb Hs Hc Hd). destruct p; reflexivity.
Qed.

Section Served.
  Variable dispatch : request -> hrun.
  (* codes are Go int32 values *)
  Definition codes_typed (r : request) : Prop :=
    forall c m, h_res (dispatch r) = HFail (TarsErr c m) -> fits 32 c = true.

  Lemma answer_typed cfg r queued : req_typed r -> codes_typed r -> reply_typed (snd (answer dispatch cfg r queued)).
  Proof.
    intros (Hv & Hp & Hi) Hc. unfold answer, handler_reply. destruct (overruns dispatch cfg r queued); [repeat split; assumption|].
    destruct (dispatched r queued); [|destruct (queue_expired r queued); repeat split; assumption].
    destruct (h_res (dispatch r)) as [buf st cx|[c m|m|]] eqn:He; repeat split; try assumption. exact (Hc c m He).
  Qed.

  Lemma served_typed cfg r queued o p : req_typed r -> codes_typed r ->
    In (o, p) (fst (server_step dispatch cfg r queued)) -> reply_typed p.
  Proof.
    intros Hr Hc Hin. apply in_server_step in Hin as E. change p with (snd (o, p)). rewrite E. now apply answer_typed.
  Qed.

  (* end to end at the byte level: whatever is written for a request begins with that request's version, packet
     type and id *)
  Theorem served_wire_identity cfg r queued o p : req_typed r -> codes_typed r ->
    In (o, p) (fst (server_step dispatch cfg r queued)) ->
    wire_ident (reply_bytes p) = Some (q_ver r, q_ptype r, q_id r).
  Proof.
    intros Hr Hc Hin. rewrite wire_identity by (eapply served_typed; eassumption).
    destruct (identity dispatch cfg r queued o p Hin) as (-> & -> & ->). reflexivity.
  Qed.

  (* the error code reaches the caller's bytes for TARS- and JSON-versioned requests (any version but TUP) *)
  Theorem served_wire_error cfg r queued e : req_typed r -> codes_typed r -> (q_ver r =? c_TUPVERSION)%Z = false ->
    dispatched r queued = true -> h_res (dispatch r) = HFail e -> overruns dispatch cfg r queued = false -> oneway r = false ->
    exists p, map snd (fst (server_step dispatch cfg r queued)) = [p] /\ wire_ret (reply_bytes p) = Some (err_code e).
  Proof.
    intros Hr Hc Hv D He Ho W. destruct (error_mapping dispatch cfg r queued e D He Ho W) as [E _].
    eexists. rewrite E. split; [reflexivity|].
    rewrite wire_ret_rsp; [reflexivity| |exact Hv].
    eapply served_typed; [exact Hr|exact Hc|]. rewrite E. left. reflexivity.
  Qed.

  (* the error's code and message, decoded from the reply's bytes (every version but TUP); for TUP the bytes decode to a
     reply without code and message *)
  Theorem served_error_on_wire cfg r queued e : req_typed r -> codes_typed r ->
    dispatched r queued = true -> h_res (dispatch r) = HFail e -> overruns dispatch cfg r queued = false -> oneway r = false ->
    N.of_nat (length (err_msg e)) < 4294967296 ->
    4 + N.of_nat (length (reply_body (with_ret (base_reply r) (err_code e) (err_msg e)))) < 4294967296 ->
    exists p, map snd (fst (server_step dispatch cfg r queued)) = [p] /\ p_ret p = err_code e /\ p_desc p = err_msg e /\
              decode_reply (reply_bytes p) = Some (is_tup p, if is_tup p then with_ret p 0 [] else p).
  Proof.
    intros Hr Hc D He Ho W Hm Hl. destruct (error_mapping dispatch cfg r queued e D He Ho W) as [E _].
    eexists. rewrite E. split; [reflexivity|]. split; [reflexivity|]. split; [reflexivity|].
    apply bodyless_reply_decodes; try reflexivity; try assumption.
    eapply served_typed; [exact Hr|exact Hc|]. rewrite E. left. reflexivity.
  Qed.
End Served.

(* the full-strength wire statement of the error clause is false of the model (hence of the code): a TUP caller
   cannot see the code *)
Definition error_code_on_wire_statement : Prop :=
  forall p, reply_typed p -> wire_ret (reply_bytes p) = Some (p_ret p).
Definition tup_error_witness : reply :=
  {| p_ver := c_TUPVERSION; p_ptype := 0; p_id := 7; p_mtype := 0; p_ret := 78; p_buf := []; p_status := [];
     p_desc := raw "boom"%hex; p_ctx := [] |}.
Theorem error_code_on_wire_refuted :
  exists p, reply_typed p /\ p_ret p <> 0%Z /\ wire_ret (reply_bytes p) = None /\
            decode_reply (reply_bytes p) = Some (true, with_ret p 0 []).
Proof. exists tup_error_witness. vm_compute. repeat split; congruence. Qed.

Section ServedSchedules.
  Variable dispatch : request -> hrun.
  Definition inv_reply (r : request) (queued : N) : reply := snd (fst (fst (invoke dispatch r queued))).

  Lemma inv_reply_ident r queued : echoes r (inv_reply r queued).
  Proof.
    unfold inv_reply. destruct (invoke dispatch r queued) as [[[o p] n] d] eqn:E. cbn. eapply invoke_identity; exact E.
  Qed.

  Theorem served_schedules_twoway r queued ls s :
    hrun_labels r (inv_reply r queued) hinit ls = Some s -> oneway r = false ->
    forall w, s_written s = Some w ->
      exists x, w = [x] /\
                ((x = inv_reply r queued /\ s_returned s = true /\ s_late s = false) \/
                 (x = late_reply r /\ s_returned s = true /\ s_fired s = true) \/
                 (x = handle_timeout_reply r /\ s_fired s = true)) /\
                p_id x = q_id r /\ p_ver x = q_ver r /\ p_ptype x = q_ptype r.
  Proof. intros H W. exact (schedules_twoway r (inv_reply r queued) (inv_reply_ident r queued) ls s H W). Qed.

  Lemma answer_is_invoke cfg r queued : overruns dispatch cfg r queued = false ->
    snd (answer dispatch cfg r queued) = inv_reply r queued.
  Proof.
    intros O. unfold answer, inv_reply, dispatched. rewrite O, invoke_eq.
    destruct (queue_expired r queued), (is_ping r); reflexivity.
  Qed.

  (* the function server_step is the outcome of one of the schedules: Invoke first when it is the faster one,
     the deadline first otherwise *)
  Theorem function_is_a_schedule cfg r queued :
    exists ls s, hrun_labels r (inv_reply r queued) hinit ls = Some s /\ s_late s = false /\
                 s_written s = Some (map snd (fst (server_step dispatch cfg r queued))).
  Proof.
    rewrite server_step_eq. cbn [fst].
    destruct (oneway r) eqn:W; [|destruct (overruns dispatch cfg r queued) eqn:O].
    - exists [LStart; LReturn; LWake; LWrite]. apply run_ends. generalize (inv_reply r queued). intros p.
      cbn. unfold oneway in W. rewrite W. auto.
    - exists [LStart; LFire; LWake; LWrite; LReturn]. apply run_ends. generalize (inv_reply r queued). intros p.
      unfold answer. rewrite O. cbn. unfold timeout_replies. rewrite W. auto.
    - exists [LStart; LReturn; LWake; LWrite]. apply run_ends. cbn [map]. rewrite (answer_is_invoke cfg r queued O).
      generalize (inv_reply r queued). intros p. cbn. unfold oneway in W. rewrite W. auto.
  Qed.
End ServedSchedules.

(* concrete instances: no implication above is vacuous *)
Definition ex_req : request :=
  {| q_ver := c_TARSVERSION; q_ptype := c_TARSNORMAL; q_mtype := 0; q_id := (-2147483648)%Z;
     q_servant := raw "VerifApp.C10Server.TcpObj"%hex; q_func := raw "act"%hex; q_buf := [16; 1; 44];
     q_timeout := 100; q_ctx := [(VStr (raw "k"%hex), VStr (raw "v"%hex))]; q_status := [] |}.
Definition ex_pkg : list N :=
  let b := encode env0 sid_requestf_RequestPacket (val_of_req ex_req) in Invoke.be32 (4 + N.of_nat (length b)) ++ b.
Definition ex_dispatch (r : request) : hrun := {| h_res := HFail (TarsErr 78 (raw "boom"%hex)); h_dur := 30 |}.
Definition ex_cfg : config := {| c_pool := 1; c_ht := 250; c_udp := false |}.

Example ex_parses : parse_request ex_pkg = Some ex_req.
Proof. vm_compute. reflexivity. Qed.
Example ex_typed : req_typed ex_req /\ codes_typed ex_dispatch ex_req.
Proof. split; [vm_compute; auto|]. intros c m H. inversion H. reflexivity. Qed.
Example ex_valid : valid 10485760 ex_pkg.
Proof. vm_compute. repeat split; try reflexivity; try lia; discriminate. Qed.
(* an error reply, end to end: bytes in, bytes out, decoded again *)
Example ex_error_reply :
  map (fun op => decode_reply (reply_bytes (snd op))) (fst (serve_packet ex_dispatch ex_cfg ex_pkg 0)) =
  [Some (false, with_ret (base_reply ex_req) 78 (raw "boom"%hex))] /\ snd (serve_packet ex_dispatch ex_cfg ex_pkg 0) = 1%nat.
Proof. vm_compute. split; reflexivity. Qed.
(* the same request queued for longer than its own timeout: queue-timeout code, not executed *)
Example ex_queue_timeout :
  map (fun op => (fst op, p_ret (snd op))) (fst (serve_packet ex_dispatch ex_cfg ex_pkg 100)) =
  [(FromQueueTimeout, c_TARSSERVERQUEUETIMEOUT)] /\ snd (serve_packet ex_dispatch ex_cfg ex_pkg 100) = 0%nat /\
  map fst (fst (serve_packet ex_dispatch ex_cfg ex_pkg 99)) = [FromHandler].
Proof. vm_compute. repeat split; reflexivity. Qed.
(* the handler overruns the handle timeout: exactly at the limit counts as overrun in the model *)
Example ex_handle_timeout :
  map fst (fst (serve_packet (fun _ => {| h_res := HDone [] [] []; h_dur := 250 |}) ex_cfg ex_pkg 0)) = [FromHandleTimeout] /\
  map fst (fst (serve_packet (fun _ => {| h_res := HDone [] [] []; h_dur := 249 |}) ex_cfg ex_pkg 0)) = [FromHandler].
Proof. vm_compute. split; reflexivity. Qed.
Example ex_overruns : overruns (fun _ => {| h_res := HDone [] [] []; h_dur := 250 |}) ex_cfg ex_req 0 = true /\
                      overruns ex_dispatch ex_cfg ex_req 0 = false /\ dispatched ex_req 0 = true /\ oneway ex_req = false.
Proof. vm_compute. repeat split. Qed.
Definition ex_ping : request :=
  {| q_ver := c_JSONVERSION; q_ptype := c_TARSNORMAL; q_mtype := 0; q_id := 9; q_servant := []; q_func := ping_name;
     q_buf := []; q_timeout := 3000; q_ctx := []; q_status := [] |}.
Example ex_ping_hyps : is_ping ex_ping = true /\ queue_expired ex_ping 2999 = false /\ queue_expired ex_ping 3000 = true /\
                       is_ping ex_req = false.
Proof. vm_compute. repeat split. Qed.
Example ex_queue_hyps : (0 < q_timeout ex_req)%Z /\ (q_timeout ex_req <= Z.of_N 100)%Z.
Proof. vm_compute. split; [reflexivity|discriminate]. Qed.
(* two handlers' replies reaching the socket in the other order *)
Example ex_interleave : interleave [[1; 2]; [3]] [3; 1; 2].
Proof.
  apply (il_cons [[1; 2]] 3 [] []). apply (il_cons [] 1 [2] [[]]). apply (il_cons [] 2 [] [[]]).
  apply il_nil. repeat constructor.
Qed.
(* the two schedules of a real race end differently, both within the theorem *)
Example ex_race :
  option_map s_written (hrun_labels ex_req (base_reply ex_req) hinit [LStart; LFire; LReturn; LWake; LWrite]) = Some (Some [base_reply ex_req]) /\
  option_map s_written (hrun_labels ex_req (base_reply ex_req) hinit [LStart; LFire; LWake; LReturn; LWrite]) = Some (Some [handle_timeout_reply ex_req]) /\
  (* the goroutine running Invoke is held back beyond the deadline: queue-timeout answer or timeout error *)
  option_map s_written (hrun_labels ex_req (base_reply ex_req) hinit [LFire; LStart; LReturn; LWake; LWrite]) = Some (Some [late_reply ex_req]) /\
  option_map s_written (hrun_labels ex_req (base_reply ex_req) hinit [LFire; LWake; LWrite; LStart; LReturn]) = Some (Some [handle_timeout_reply ex_req]).
Proof. vm_compute. repeat split; reflexivity. Qed.
(* the same schedules for a one-way request: nothing is written, also when the handler wakes before Invoke has started *)
Definition ex_oneway : request :=
  {| q_ver := 1; q_ptype := c_TARSONEWAY; q_mtype := 0; q_id := 5; q_servant := []; q_func := raw "act"%hex;
     q_buf := []; q_timeout := 0; q_ctx := []; q_status := [] |}.
Example ex_oneway_schedules :
  option_map s_written (hrun_labels ex_oneway (base_reply ex_oneway) hinit [LFire; LWake; LWrite]) = Some (Some []) /\
  option_map s_written (hrun_labels ex_oneway (base_reply ex_oneway) hinit [LStart; LFire; LWake; LWrite; LReturn]) = Some (Some []) /\
  option_map s_written (hrun_labels ex_oneway (base_reply ex_oneway) hinit [LStart; LReturn; LWake; LWrite]) = Some (Some []).
Proof. vm_compute. repeat split; reflexivity. Qed.
Example ex_bodyless_hyps :
  let p := with_ret (base_reply ex_req) 78 (raw "boom"%hex) in
  reply_typed p /\ p_buf p = [] /\ p_status p = [] /\ p_ctx p = [] /\
  4 + N.of_nat (length (reply_body p)) < 4294967296 /\ N.of_nat (length (p_desc p)) < 4294967296.
Proof. vm_compute. repeat split. Qed.

(* a whole connection under a handle timeout: every request has its own handler, its own goroutine running
   Invoke and its own deadline; each of them runs under any schedule, and the handlers' writes reach the socket in any
   interleaving *)
Section ConnectionSchedules.
  Variable dispatch : request -> hrun.

  (* one handler: the request, its queueing time, the schedule, the state it ends in, what it has written *)
  Definition handler_run : Type := (request * N * list hlabel * hstate * list reply)%type.
  Definition run_ok (t : handler_run) : Prop :=
    let '(r, q, ls, s, w) := t in
    hrun_labels r (inv_reply dispatch r q) hinit ls = Some s /\ s_written s = Some w.
  Definition run_request (t : handler_run) : request := let '(r, _, _, _, _) := t in r.
  Definition run_written (t : handler_run) : list reply := let '(_, _, _, _, w) := t in w.

  Lemma run_written_length t : run_ok t -> length (run_written t) = if oneway (run_request t) then 0%nat else 1%nat.
  Proof.
    destruct t as [[[[r q] ls] s] w]. cbn. intros [H Hw]. destruct (oneway r) eqn:W.
    - rewrite (schedules_oneway r _ ls s H W w Hw). reflexivity.
    - destruct (served_schedules_twoway dispatch r q ls s H W w Hw) as (x & -> & _). reflexivity.
  Qed.

  Theorem connection_schedules (ts : list handler_run) (out : list reply) :
    Forall run_ok ts -> interleave (map run_written ts) out ->
    length out = length (filter (fun t => negb (oneway (run_request t))) ts) /\
    forall x, In x out -> exists t, In t ts /\ oneway (run_request t) = false /\
                                    p_id x = q_id (run_request t) /\ p_ver x = q_ver (run_request t) /\
                                    p_ptype x = q_ptype (run_request t).
  Proof.
    intros Hok Hil. apply interleave_perm in Hil. split.
    - rewrite (Permutation_length Hil). clear Hil. induction Hok as [|t ts Ht _ IH]; [reflexivity|].
      cbn [map concat filter]. rewrite app_length, IH, (run_written_length t Ht).
      destruct (oneway (run_request t)); reflexivity.
    - intros x Hx. apply (Permutation_in _ Hil) in Hx. apply in_concat in Hx. destruct Hx as (w & Hw & Hxw).
      apply in_map_iff in Hw. destruct Hw as (t & <- & Ht). exists t. split; [exact Ht|].
      rewrite Forall_forall in Hok. specialize (Hok t Ht).
      destruct t as [[[[r q] ls] s] w]. cbn in *. destruct Hok as [H Hw]. destruct (oneway r) eqn:W.
      + rewrite (schedules_oneway r _ ls s H W w Hw) in Hxw. destruct Hxw.
      + destruct (served_schedules_twoway dispatch r q ls s H W w Hw) as (y & -> & _ & Hid).
        destruct Hxw as [<-|[]]. split; [reflexivity|exact Hid].
  Qed.
End ConnectionSchedules.
