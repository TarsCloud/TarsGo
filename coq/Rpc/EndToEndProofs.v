(* C01: transparency of a call through generated proxy and dispatcher. *)
From Coq Require Import List NArith ZArith Bool Arith Lia.
From TarsV Require Import Gen.Consts Base.Hex Codec.Wire Codec.Skip Codec.Prim Codec.GenCodec
  Frame.Framing Frame.FramingProofs Rpc.Filters Rpc.FiltersProofs Rpc.EndToEnd.
Import ListNotations.
Open Scope N_scope.

Section Proofs.
  Variable e : env.
  Variable sid_req sid_rsp : nat.
  Variable max_pkt : N.
  Variable impl : bytes -> list val -> smap -> smap -> impl_res.

  Notation dispatch := (dispatch e impl).
  Notation server_handle := (server_handle e impl).
  Notation do_invoke := (do_invoke e sid_req sid_rsp max_pkt impl).
  Notation call := (call e sid_req sid_rsp max_pkt impl).
  Notation wire_req := (wire_req e sid_req max_pkt).
  Notation wire_rsp := (wire_rsp e sid_rsp max_pkt).
  Notation mkreq := (mkreq e).
  Notation proxy_finish := (proxy_finish e).

  Definition is_oneway (q : reqpkt) : bool := (q_ptype q =? c_c01_TARSONEWAY)%Z.

  (* the server as a function of the request packet alone *)
  Definition reply_of (q : reqpkt) (r : disp_res) : rsppkt :=
    match r with
    | DispOk p => {| p_ver := p_ver p; p_ptype := q_ptype q; p_id := p_id p; p_mtype := p_mtype p; p_ret := p_ret p;
                     p_buf := p_buf p; p_status := p_status p; p_desc := p_desc p; p_ctx := p_ctx p |}
    | DispErr c m _ => {| p_ver := q_ver q; p_ptype := q_ptype q; p_id := q_id q; p_mtype := 0; p_ret := c;
                          p_buf := []; p_status := []; p_desc := m; p_ctx := [] |}
    end.
  Definition srv_reply (i : iface) (q : reqpkt) : option rsppkt :=
    if is_oneway q then None else Some (reply_of q (fst (dispatch i q))).
  Definition srv_events (Ps : pfilters ev unit) (i : iface) (q : reqpkt) : list ev :=
    before Ps ++ (EDispatch :: snd (dispatch i q)) ++ after Ps ++ (if is_oneway q then [] else [EReply]).

  Lemma server_handle_pass Ps i q s :
    server_handle (filters_of disp_res Ps) i q s = (srv_reply i q, s ++ srv_events Ps i q).
  Proof.
    unfold EndToEnd.server_handle, srv_reply, srv_events, is_oneway.
    destruct (dispatch i q) as [r evs] eqn:Hd.
    rewrite (run_pass ev disp_res unit Ps).
    cbn [fst snd]. destruct (q_ptype q =? c_c01_TARSONEWAY)%Z.
    - f_equal. rewrite app_nil_r. rewrite <- !app_assoc. reflexivity.
    - f_equal. rewrite <- !app_assoc. reflexivity.
  Qed.

  (* doInvoke as a function of the request packet alone *)
  Definition inv_result (i : iface) (q : reqpkt) : inv_res :=
    match wire_req q with
    | None => VLost
    | Some q' =>
        if is_oneway q then VOneWay
        else match srv_reply i q' with
             | None => VLost
             | Some p => match wire_rsp p with
                         | Some p' => if (p_id p' =? q_id q)%Z then map_reply p' else VLost
                         | None => VLost
                         end
             end
    end.
  Definition inv_events (Ps : pfilters ev unit) (i : iface) (q : reqpkt) : list ev :=
    EInvoke :: match wire_req q with None => [] | Some q' => srv_events Ps i q' end.

  Lemma do_invoke_pass Ps i q s :
    do_invoke (filters_of disp_res Ps) i q s = (inv_result i q, s ++ inv_events Ps i q).
  Proof.
    unfold EndToEnd.do_invoke, inv_result, inv_events.
    destruct (wire_req q) as [q'|].
    - rewrite server_handle_pass. unfold is_oneway.
      replace ((s ++ [EInvoke]) ++ srv_events Ps i q') with (s ++ EInvoke :: srv_events Ps i q')
        by (now rewrite <- app_assoc).
      destruct (q_ptype q =? c_c01_TARSONEWAY)%Z; [reflexivity|].
      destruct (srv_reply i q') as [p|]; [|reflexivity].
      destruct (wire_rsp p) as [p'|]; [|reflexivity].
      destruct (p_id p' =? q_id q)%Z; reflexivity.
    - reflexivity.
  Qed.

  Theorem call_pass (Pc Ps : pfilters ev unit) i f args o ow id sv t :
    call (filters_of inv_res Pc) (filters_of disp_res Ps) i f args o ow id sv t =
    (proxy_finish f args o (inv_result i (mkreq f args o ow id sv t)),
     before Pc ++ inv_events Ps i (mkreq f args o ow id sv t) ++ after Pc).
  Proof.
    unfold EndToEnd.call.
    rewrite (run_pass ev inv_res unit Pc). rewrite do_invoke_pass. cbn [app]. now rewrite <- app_assoc.
  Qed.

  Definition no_filters : pfilters ev unit := {| p_legacy := None; p_mws := []; p_pres := []; p_posts := [] |}.

  (* filters do not change the outcome; they see the call once each, in registration order, around the unfiltered events *)
  Theorem filters_transparent (Pc Ps : pfilters ev unit) i f args o ow id sv t :
    fst (call (filters_of inv_res Pc) (filters_of disp_res Ps) i f args o ow id sv t) =
    fst (call (filters_of inv_res no_filters) (filters_of disp_res no_filters) i f args o ow id sv t).
  Proof. now rewrite !call_pass. Qed.

  Theorem filters_log (Pc Ps : pfilters ev unit) i f args o ow id sv t :
    let q := mkreq f args o ow id sv t in
    snd (call (filters_of inv_res Pc) (filters_of disp_res Ps) i f args o ow id sv t) =
    before Pc ++ [EInvoke] ++
      match wire_req q with
      | None => []
      | Some q' => before Ps ++ (EDispatch :: snd (dispatch i q')) ++ after Ps ++ (if is_oneway q' then [] else [EReply])
      end ++ after Pc.
  Proof. cbn zeta. rewrite call_pass. cbn [snd]. unfold inv_events, srv_events. reflexivity. Qed.

  (* value level: per-call hypotheses on the codec (named; see Props/C01.v) *)
  (* the request / response packet survives packet codec, framing and the receive loop *)
  Definition wire_ok_req (q : reqpkt) : Prop := wire_req q = Some q.
  Definition wire_ok_rsp (p : rsppkt) : Prop := wire_rsp p = Some p.
  (* the dispatcher's decoder, run over the proxy's encoding of all arguments, yields [ins']; the round trip: [ins'] are the in arguments *)
  Definition args_decode (f : fsig) (args ins' : list val) : Prop :=
    exists rest, dec_list e (in_fields f) (zeros e (in_fields f)) (enc_fields e (all_fields f) args) = DOk ins' rest.
  Definition args_roundtrip (f : fsig) (args : list val) : Prop := args_decode f args (ins_of f args).
  (* codec round trip of the results: the proxy's decoder (into the caller's variables), run over the dispatcher's
     encoding of return value and out arguments, yields them *)
  Definition results_decode (f : fsig) (args : list val) (vs vs' : list val) : Prop :=
    exists rest, dec_list e (rsp_fields f) (zeros e (ret_fields f) ++ outs_of f args) (enc_fields e (rsp_fields f) vs) = DOk vs' rest.
  Definition results_roundtrip (f : fsig) (args : list val) (vs : list val) : Prop := results_decode f args vs vs.

  Definition ret_shape (f : fsig) (ret : option val) : Prop :=
    match fs_ret f, ret with Some _, Some _ | None, None => True | _, _ => False end.
  Definition results (ret : option val) (outs : list val) : list val :=
    match ret with Some r => r :: outs | None => outs end.

  (* the caller's maps after the call: each non-nil map holds exactly the response map; a nil map stays nil *)
  Definition maps_after (o : opts) (rc rs : smap) : list smap :=
    match o with
    | [c] => [copy_into c rc]
    | [c; st] => [copy_into c rc; copy_into st rs]
    | _ => []
    end.

  Definition ok_reply (f : fsig) (q : reqpkt) (ret : option val) (outs : list val) (rc rs : smap) : rsppkt :=
    {| p_ver := q_ver q; p_ptype := q_ptype q; p_id := q_id q; p_mtype := 0; p_ret := 0;
       p_buf := enc_fields e (rsp_fields f) (results ret outs); p_status := rs; p_desc := []; p_ctx := rc |}.
  Definition err_reply (q : reqpkt) (c : Z) (m : bytes) : rsppkt :=
    {| p_ver := q_ver q; p_ptype := q_ptype q; p_id := q_id q; p_mtype := 0; p_ret := c;
       p_buf := []; p_status := []; p_desc := m; p_ctx := [] |}.

  Definition core_events_at (Pc Ps : pfilters ev unit) (f : fsig) (ins' : list val) (o : opts) (reply : bool) : list ev :=
    before Pc ++ [EInvoke] ++ before Ps ++ [EDispatch; EImpl (fs_name f) ins' (ctx_of o) (status_of o)]
      ++ after Ps ++ (if reply then [EReply] else []) ++ after Pc.
  Definition core_events (Pc Ps : pfilters ev unit) (f : fsig) (args : list val) (o : opts) (reply : bool) : list ev :=
    core_events_at Pc Ps f (ins_of f args) o reply.

  Lemma dispatch_decoded i f args ins' o ow id sv t :
    find_fn i (fs_name f) = Some f -> args_decode f args ins' ->
    dispatch i (mkreq f args o ow id sv t) =
    (let q := mkreq f args o ow id sv t in
     match impl (fs_name f) ins' (ctx_of o) (status_of o) with
     | IOk ret outs rc rs =>
         DispOk {| p_ver := q_ver q; p_ptype := 0; p_id := q_id q; p_mtype := 0; p_ret := 0;
                   p_buf := enc_fields e (rsp_fields f) (results ret outs); p_status := rs; p_desc := []; p_ctx := rc |}
     | IFail c m => DispErr c m false
     end, [EImpl (fs_name f) ins' (ctx_of o) (status_of o)]).
  Proof.
    intros Hf [rest Hrt]. unfold EndToEnd.dispatch. cbn [q_func EndToEnd.mkreq q_buf q_ctx q_status].
    rewrite Hf, Hrt. destruct (impl _ _ _ _) as [ret outs rc rs|c m]; [|reflexivity].
    destruct ret; reflexivity.
  Qed.
  Lemma dispatch_reaches_impl i f args o ow id sv t :
    find_fn i (fs_name f) = Some f -> args_roundtrip f args ->
    dispatch i (mkreq f args o ow id sv t) =
    (let q := mkreq f args o ow id sv t in
     match impl (fs_name f) (ins_of f args) (ctx_of o) (status_of o) with
     | IOk ret outs rc rs =>
         DispOk {| p_ver := q_ver q; p_ptype := 0; p_id := q_id q; p_mtype := 0; p_ret := 0;
                   p_buf := enc_fields e (rsp_fields f) (results ret outs); p_status := rs; p_desc := []; p_ctx := rc |}
     | IFail c m => DispErr c m false
     end, [EImpl (fs_name f) (ins_of f args) (ctx_of o) (status_of o)]).
  Proof. apply dispatch_decoded. Qed.

  Lemma oneway_flag f args o ow id sv t : is_oneway (mkreq f args o ow id sv t) = ow.
  Proof. unfold is_oneway. cbn. destruct ow; reflexivity. Qed.

  (* what the proxy hands back from the decoded result list *)
  Definition ret_of (f : fsig) (vs : list val) : option val := match fs_ret f with Some _ => Some (hd (VInt 0) vs) | None => None end.
  Definition outs_from (f : fsig) (vs : list val) : list val := match fs_ret f with Some _ => tl vs | None => vs end.

  Lemma results_shape f ret outs : ret_shape f ret ->
    ret_of f (results ret outs) = ret /\ outs_from f (results ret outs) = outs.
  Proof. unfold ret_shape, ret_of, outs_from, results. destruct (fs_ret f), ret; intros H; try contradiction; split; reflexivity. Qed.

  (* a call whose request survives the wire and whose in arguments the dispatcher decodes to [ins']: the implementation
     is called once with them, and unless the call is one-way its answer goes back as one reply *)
  Lemma call_decoded (Pc Ps : pfilters ev unit) i f args ins' o ow id sv t :
    let q := mkreq f args o ow id sv t in
    find_fn i (fs_name f) = Some f -> wire_ok_req q -> args_decode f args ins' ->
    call (filters_of inv_res Pc) (filters_of disp_res Ps) i f args o ow id sv t =
    (proxy_finish f args o
       (if ow then VOneWay else
        match wire_rsp (match impl (fs_name f) ins' (ctx_of o) (status_of o) with
                        | IOk ret outs rc rs => ok_reply f q ret outs rc rs
                        | IFail c m => err_reply q c m
                        end) with
        | Some p' => if (p_id p' =? id)%Z then map_reply p' else VLost
        | None => VLost
        end),
     core_events_at Pc Ps f ins' o (negb ow)).
  Proof.
    cbn zeta. intros Hf Hwq Hargs. rewrite call_pass. unfold inv_result, inv_events, srv_reply, srv_events.
    rewrite Hwq, oneway_flag, (dispatch_decoded i f args ins' o ow id sv t Hf Hargs). unfold core_events_at.
    destruct ow; cbn [negb fst snd]; apply (f_equal2 pair).
    - reflexivity.
    - cbn [app]. rewrite <- !app_assoc. cbn [app]. rewrite <- ?app_assoc. reflexivity.
    - destruct (impl _ _ _ _); reflexivity.
    - cbn [app]. rewrite <- !app_assoc. cbn [app]. rewrite <- ?app_assoc. reflexivity.
  Qed.

  (* general form: whatever the two decoders yield ([ins'] at the dispatcher, [vs'] at the proxy) *)
  Theorem transparent_ok_decoded (Pc Ps : pfilters ev unit) i f args ins' o id sv t ret outs rc rs vs' :
    let q := mkreq f args o false id sv t in
    find_fn i (fs_name f) = Some f ->
    wire_ok_req q -> args_decode f args ins' ->
    impl (fs_name f) ins' (ctx_of o) (status_of o) = IOk ret outs rc rs ->
    results_decode f args (results ret outs) vs' ->
    wire_ok_rsp (ok_reply f q ret outs rc rs) ->
    call (filters_of inv_res Pc) (filters_of disp_res Ps) i f args o false id sv t =
    (COk (ret_of f vs') (outs_from f vs') (maps_after o rc rs), core_events_at Pc Ps f ins' o true).
  Proof.
    cbn zeta. intros Hf Hwq Hargs Himpl [rest Hres] Hwp. unfold wire_ok_rsp in Hwp.
    rewrite (call_decoded Pc Ps i f args ins' o false id sv t Hf Hwq Hargs), Himpl, Hwp. cbn [p_id ok_reply q_id EndToEnd.mkreq].
    rewrite Z.eqb_refl. apply (f_equal2 pair); [|reflexivity]. unfold EndToEnd.proxy_finish, map_reply. cbn [p_ret p_buf p_ctx p_status ok_reply Z.eqb]. rewrite Hres.
    destruct o as [|c [|st [|x o']]]; reflexivity.
  Qed.

  Theorem transparent_ok (Pc Ps : pfilters ev unit) i f args o id sv t ret outs rc rs :
    let q := mkreq f args o false id sv t in
    find_fn i (fs_name f) = Some f ->
    wire_ok_req q -> args_roundtrip f args ->
    impl (fs_name f) (ins_of f args) (ctx_of o) (status_of o) = IOk ret outs rc rs ->
    ret_shape f ret -> results_roundtrip f args (results ret outs) ->
    wire_ok_rsp (ok_reply f q ret outs rc rs) ->
    call (filters_of inv_res Pc) (filters_of disp_res Ps) i f args o false id sv t =
    (COk ret outs (maps_after o rc rs), core_events Pc Ps f args o true).
  Proof.
    cbn zeta. intros Hf Hwq Hargs Himpl Hshape Hres Hwp.
    rewrite (transparent_ok_decoded Pc Ps i f args (ins_of f args) o id sv t ret outs rc rs (results ret outs)); try assumption.
    destruct (results_shape f ret outs Hshape) as [-> ->]. reflexivity.
  Qed.

  (* what the caller reads from the error: the message, or a framework-made text when the message is empty *)
  Definition err_seen (c : Z) (m : bytes) : call_res :=
    match m with [] => CErr c sys_msg true | _ => CErr c m false end.

  (* general forms of the failure and one-way clauses *)
  Theorem transparent_err_decoded (Pc Ps : pfilters ev unit) i f args ins' o id sv t c m :
    let q := mkreq f args o false id sv t in
    find_fn i (fs_name f) = Some f ->
    wire_ok_req q -> args_decode f args ins' ->
    impl (fs_name f) ins' (ctx_of o) (status_of o) = IFail c m ->
    c <> 0%Z ->
    wire_ok_rsp (err_reply q c m) ->
    call (filters_of inv_res Pc) (filters_of disp_res Ps) i f args o false id sv t =
    (err_seen c m, core_events_at Pc Ps f ins' o true).
  Proof.
    cbn zeta. intros Hf Hwq Hargs Himpl Hc Hwp. unfold wire_ok_rsp in Hwp.
    rewrite (call_decoded Pc Ps i f args ins' o false id sv t Hf Hwq Hargs), Himpl, Hwp. cbn [p_id err_reply q_id EndToEnd.mkreq].
    rewrite Z.eqb_refl. apply (f_equal2 pair); [|reflexivity]. unfold map_reply, err_seen. cbn [p_ret p_desc err_reply EndToEnd.proxy_finish].
    apply Z.eqb_neq in Hc. rewrite Hc.
    destruct m; destruct (c =? 1)%Z eqn:H1; try (apply Z.eqb_eq in H1; subst c); reflexivity.
  Qed.

  Theorem transparent_err (Pc Ps : pfilters ev unit) i f args o id sv t c m :
    let q := mkreq f args o false id sv t in
    find_fn i (fs_name f) = Some f ->
    wire_ok_req q -> args_roundtrip f args ->
    impl (fs_name f) (ins_of f args) (ctx_of o) (status_of o) = IFail c m ->
    c <> 0%Z ->
    wire_ok_rsp (err_reply q c m) ->
    call (filters_of inv_res Pc) (filters_of disp_res Ps) i f args o false id sv t =
    (err_seen c m, core_events Pc Ps f args o true).
  Proof. cbn zeta. intros. now apply transparent_err_decoded. Qed.

  Theorem oneway_decoded (Pc Ps : pfilters ev unit) i f args ins' o id sv t :
    let q := mkreq f args o true id sv t in
    find_fn i (fs_name f) = Some f ->
    wire_ok_req q -> args_decode f args ins' ->
    call (filters_of inv_res Pc) (filters_of disp_res Ps) i f args o true id sv t =
    (CSent, core_events_at Pc Ps f ins' o false).
  Proof. apply call_decoded. Qed.

  (* whatever the implementation does, it is called once with the caller's inputs, nothing is replied *)
  Theorem oneway (Pc Ps : pfilters ev unit) i f args o id sv t :
    let q := mkreq f args o true id sv t in
    find_fn i (fs_name f) = Some f ->
    wire_ok_req q -> args_roundtrip f args ->
    call (filters_of inv_res Pc) (filters_of disp_res Ps) i f args o true id sv t =
    (CSent, core_events Pc Ps f args o false).
  Proof. cbn zeta. intros. now apply oneway_decoded. Qed.
End Proofs.
