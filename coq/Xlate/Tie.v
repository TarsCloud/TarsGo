(* All equivalence proofs between the translated Go functions (Gen/Translated.v) and the hand-written models.
   Each Props/Cxx.v requires only its own file; this one is the whole layer (make Xlate/Tie.vo). *)
From TarsV Require Xlate.TarsRequestEquiv Xlate.CodecEquiv Xlate.ParseEquiv Xlate.BSWLEquiv Xlate.CheckActiveEquiv
  Xlate.ReaderEquiv Xlate.ReaderSliceEquiv Xlate.ReqIdEquiv Xlate.SelectEquiv Xlate.ConHashEquiv Xlate.FloatEquiv Xlate.TimeWheelEquiv Xlate.SWRREquiv Xlate.RecvEquiv
  Xlate.InvokeEquiv Xlate.ReplyEquiv Xlate.TupEquiv Xlate.TupDecodeEquiv Xlate.RecvEventsEquiv Xlate.TarsInvokeEquiv Xlate.AdapterRecvEquiv
  Xlate.ChWeightEquiv.

Print Assumptions TarsRequestEquiv.tr_TarsRequest_equiv.
Print Assumptions CodecEquiv.tr_WriteHead_equiv.
Print Assumptions CodecEquiv.tr_WriteInt64_equiv.
Print Assumptions CodecEquiv.tr_WriteUint32_equiv.
Print Assumptions CodecEquiv.tr_WriteString_equiv.
Print Assumptions ParseEquiv.tr_Parse_build_equiv.
Print Assumptions ParseEquiv.tr_Endpoint2tars_equiv.
Print Assumptions ParseEquiv.tr_Tars2endpoint_build_equiv.
Print Assumptions BSWLEquiv.tr_BSWL_range_equiv.
Print Assumptions BSWLEquiv.tr_BSWL_scale_equiv.
Print Assumptions CheckActiveEquiv.tr_checkActive_equiv.
Print Assumptions ReaderEquiv.tr_readHead_equiv.
Print Assumptions ReaderEquiv.tr_unreadHead_equiv.
Print Assumptions ReaderEquiv.skip_sim.
Print Assumptions ReaderEquiv.skip_p_clean.
Print Assumptions ReaderEquiv.tr_SkipToNoCheck_equiv.
Print Assumptions ReaderEquiv.seek_p_clean.
Print Assumptions ReaderEquiv.tr_ReadInt64_equiv.
Print Assumptions ReaderEquiv.tr_ReadUint32_equiv.
Print Assumptions ReaderEquiv.tr_ReadBool_equiv.
Print Assumptions ReaderEquiv.tr_ReadString_equiv.
Print Assumptions ReaderSliceEquiv.tr_ReadSliceUint8_equiv.
Print Assumptions ReaderSliceEquiv.tr_ReadBytes_equiv.
Print Assumptions ReaderEquiv.seek_p_fuel.
Print Assumptions ReaderEquiv.tr_SkipToNoCheck_total.
Print Assumptions ReaderEquiv.tr_ReadInt_total.
Print Assumptions ReaderEquiv.tr_ReadString_total.
Print Assumptions ReqIdEquiv.tr_genRequestID_equiv.
Print Assumptions ReqIdEquiv.tr_genRequestID_loop_step.
Print Assumptions ReaderEquiv.tr_SkipTo_equiv.
Print Assumptions SelectEquiv.tr_rr_Select_equiv.
Print Assumptions SelectEquiv.tr_mh_Select_equiv.
Print Assumptions SelectEquiv.tr_rnd_Select_equiv.
Print Assumptions ConHashEquiv.tr_ch_FindInt32_equiv.
Print Assumptions GoSemFacts.go_search_least.
Print Assumptions FloatEquiv.tr_WriteFloat64_equiv.
Print Assumptions FloatEquiv.tr_ReadFloat_total.
Print Assumptions TimeWheelEquiv.tr_tw_After_pos_equiv.
Print Assumptions SWRREquiv.tr_BSWL_rounds_equiv.
Print Assumptions SWRREquiv.tr_BSWL_rounds_model.
Print Assumptions SWRREquiv.tr_BSWL_rounds_positive.
Print Assumptions RecvEquiv.srv_recv_is_recv_loop.
Print Assumptions RecvEquiv.cli_recv_is_recv_loop.
Print Assumptions InvokeEquiv.invoke_queue_timeout_equiv.
Print Assumptions InvokeEquiv.invoke_base_equiv.
Print Assumptions InvokeEquiv.invoke_error_equiv.
Print Assumptions InvokeEquiv.invoke_timeout_equiv.
Print Assumptions InvokeEquiv.invoke_identity_of_source.
Print Assumptions ReplyEquiv.tr_doInvoke_reply_equiv.
Print Assumptions ReplyEquiv.tr_doInvoke_reply_kind.
Print Assumptions TupEquiv.tr_tup_Encode_head_equiv.
Print Assumptions TupEquiv.tr_tup_Encode_entry_equiv.
Print Assumptions TupEquiv.go_tup_encode_equiv.
Print Assumptions TupDecodeEquiv.tr_tup_Decode_equiv.
Print Assumptions TupDecodeEquiv.tr_tup_Decode_fresh.
Print Assumptions RecvEventsEquiv.srv_events_is_model.
Print Assumptions RecvEventsEquiv.cli_events_is_model.
Print Assumptions TarsInvokeEquiv.tr_TarsInvoke_req_equiv.
Print Assumptions TarsInvokeEquiv.tr_TarsInvoke_timeout_equiv.
Print Assumptions TarsInvokeEquiv.tarsinvoke_request_id.
Print Assumptions AdapterRecvEquiv.tr_adapter_Recv_equiv.
Print Assumptions AdapterRecvEquiv.adapter_Recv_timer.
