(* The float writers and readers of codec.go (Gen/Translated.v: tr_WriteFloat32/64, tr_ReadFloat32/64; float values are
   their IEEE bit patterns, math.Float32bits / Float64bits / ...frombits are the identity on them, float64(f32) is the
   target language's go_f32_to_f64) against the C02 model: w_f32, w_f64, r_f32, r_f64 with the FLOAT -> double
   widening [widen32]. *)
From Coq Require Import List NArith ZArith Bool Lia ZifyBool ZifyNat ZifyN.
From TarsV Require Import Gen.Consts Codec.Wire Codec.Skip Codec.Prim Xlate.GoSem Xlate.GoSemFacts Gen.Translated
  Xlate.CodecEquiv Xlate.ReaderEquiv.
Import ListNotations.
Open Scope Z_scope.
Notation mk := Build_go_reader.

(* the widening of the target language is the model's *)
Lemma f32_to_f64_widen32 (v : N) : go_f32_to_f64 (Z.of_N v) = Z.of_N (widen32 v).
Proof. unfold go_f32_to_f64, widen32. rewrite N2Z.id. reflexivity. Qed.

Theorem tr_WriteFloat32_equiv : forall bits tag out, 0 <= bits < 4294967296 -> 0 <= tag < 256 ->
  tr_WriteFloat32 bits tag out = Return (out ++ w_f32 (Z.to_N bits) (Z.to_N tag), false).
Proof.
  intros bits tag out Hb Ht. unfold tr_WriteFloat32, w_f32, k_codec_FLOAT.
  rewrite tr_WriteHead_equiv by lia. cbn [go_call bindc Bool.eqb negb].
  rewrite <- app_assoc. change (go_emit_u32 bits) with (go_put_be 4 bits). rewrite put_be_be by lia. reflexivity.
Qed.
Theorem tr_WriteFloat64_equiv : forall bits tag out, 0 <= bits < 18446744073709551616 -> 0 <= tag < 256 ->
  tr_WriteFloat64 bits tag out = Return (out ++ w_f64 (Z.to_N bits) (Z.to_N tag), false).
Proof.
  intros bits tag out Hb Ht. unfold tr_WriteFloat64, w_f64, k_codec_DOUBLE.
  rewrite tr_WriteHead_equiv by lia. cbn [go_call bindc Bool.eqb negb].
  rewrite <- app_assoc. change (go_emit_u64 bits) with (go_put_be 8 bits). rewrite put_be_be by lia. reflexivity.
Qed.

(* the readers return the bit pattern as a Z *)
Lemma with_seek_p_map {A B} (g : A -> B) f tag req bs body :
  map_r g (with_seek_p f tag req bs body) =
  with_seek_p f tag req bs (fun ty r => match body ty r with Some (a, r') => Some (g a, r') | None => None end).
Proof.
  unfold with_seek_p. destruct (seek_p f tag req bs) as [ty r| | |]; try reflexivity. destruct (body ty r) as [[a r']|]; reflexivity.
Qed.

(* an arm of the type switch that reads n bytes at position q *)
Local Ltac read_bits n w ref q Hb :=
  be_arm n w ref q 0 Hb; [rewrite ?f32_to_f64_widen32; exists (q + Z.of_nat n); arrived | do 2 eexists; reflexivity].

Theorem tr_ReadFloat32_equiv : forall f F (tag : N) req ref p data, (f + 3 <= F)%nat -> ok (mk ref p 0) ->
  seek_p f tag req (go_drop ref p) <> SeekFuel ->
  read_sim (tr_ReadFloat32 F data (Z.of_N tag) req (mk ref p 0)) ref data
           (map_r Z.of_N (with_seek_p f tag req (go_drop ref p) read_f32_body)).
Proof.
  intros f F tag req ref p data HF Hok H. pose proof Hok as (_ & _ & Hb). rewrite with_seek_p_map.
  apply read_frame; try assumption; try reflexivity.
  intros q ty Hq. cbn [bindc Bool.eqb negb]. rewrite ?of_N_eqb_pos. unfold read_f32_body. codes.
  destruct (ty =? 12)%N; [exists q; arrived|].
  destruct (ty =? 4)%N; [read_bits 4%nat 32 ref q Hb | cbn [bindc]; do 2 eexists; reflexivity].
Qed.
Theorem tr_ReadFloat64_equiv : forall f F (tag : N) req ref p data, (f + 3 <= F)%nat -> ok (mk ref p 0) ->
  seek_p f tag req (go_drop ref p) <> SeekFuel ->
  read_sim (tr_ReadFloat64 F data (Z.of_N tag) req (mk ref p 0)) ref data
           (map_r Z.of_N (with_seek_p f tag req (go_drop ref p) read_f64_body)).
Proof.
  intros f F tag req ref p data HF Hok H. pose proof Hok as (_ & _ & Hb). rewrite with_seek_p_map.
  apply read_frame; try assumption; try reflexivity.
  intros q ty Hq. cbn [bindc Bool.eqb negb]. rewrite ?of_N_eqb_pos. unfold read_f64_body. codes.
  destruct (ty =? 12)%N; [exists q; arrived|].
  destruct (ty =? 4)%N; [read_bits 4%nat 32 ref q Hb|].
  destruct (ty =? 5)%N; [read_bits 8%nat 64 ref q Hb | cbn [bindc]; do 2 eexists; reflexivity].
Qed.

(* with the models as they stand and their own fuel *)
Theorem tr_ReadFloat_total : forall F (tag : N) req ref p data, ok (mk ref p 0) ->
  let bs := go_drop ref p in (fuel_for bs + 3 <= F)%nat ->
  read_sim (tr_ReadFloat32 F data (Z.of_N tag) req (mk ref p 0)) ref data (map_r Z.of_N (r_f32 (fuel_for bs) tag req bs)) /\
  read_sim (tr_ReadFloat64 F data (Z.of_N tag) req (mk ref p 0)) ref data (map_r Z.of_N (r_f64 (fuel_for bs) tag req bs)).
Proof.
  intros F tag req ref p data Hok bs HF.
  pose proof (seek_p_fuel (fuel_for bs) tag req bs ltac:(unfold fuel_for; lia)) as NF.
  unfold r_f32, r_f64. rewrite !with_seek_p_clean by exact NF.
  split; [apply tr_ReadFloat32_equiv|apply tr_ReadFloat64_equiv]; assumption.
Qed.

Example tr_ReadFloat64_ex :   (* 1.0f at tag 0 read as a double: 0x3FF0000000000000 *)
  tr_ReadFloat64 10 7 0 true (mk [4; 63; 128; 0; 0]%N 0 0) = Return (mk [4; 63; 128; 0; 0]%N 5 0, 4607182418800017408, false).
Proof. vm_compute. reflexivity. Qed.
