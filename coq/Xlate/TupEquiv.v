(* tup.UniAttribute.Encode from the CURRENT Go source of tars/protocol/tup/tup.go (Gen/Translated.v):
     tr_tup_Encode_head    WriteHead(codec.MAP, 0); WriteInt32(int32(len(u.data)), 0)  with the early returns on an error
     tr_tup_Encode_entry   the five writes of the loop body for one entry (k, v)
   (their callees are the translated codec.Buffer methods, Xlate/CodecEquiv.v, and tr_WriteBytes) write exactly the bytes
   of the C05T model Codec/Tup.v: [tup_encode] = head tMAP 0 ++ count ++ flat_map enc_entry m.
   Not translated: the iteration `for k, v := range u.data` itself - the order of a Go map with string keys is not
   determined; [go_tup_encode] below runs the translated body over the entries in the order given from outside, as the
   model does (attrs in iteration order). *)
From Coq Require Import List NArith ZArith Bool Lia ZifyBool ZifyNat ZifyN.
From TarsV Require Import Gen.Consts Codec.Wire Codec.Skip Codec.Prim Codec.Tup Xlate.GoSem Xlate.GoSemFacts Gen.Translated
  Xlate.CodecEquiv Xlate.ReaderEquiv.
Import ListNotations.
Open Scope Z_scope.

Lemma wrap32_range z : -2147483648 <= Skip.wrap32 z <= 2147483647.
Proof. rewrite <- wrapS32_wrap32. pose proof (wrapS_range 32 z ltac:(lia)) as H. change (2 ^ (32 - 1)) with 2147483648 in H. lia. Qed.

Lemma tup_codes : Z.to_N k_codec_MAP = tMAP /\ Z.to_N k_codec_SimpleList = tSIMPLE /\ Z.to_N k_codec_BYTE = tBYTE.
Proof. repeat split; reflexivity. Qed.

Theorem tr_WriteBytes_equiv : forall data out, tr_WriteBytes data out = Return (out ++ data, false).
Proof. reflexivity. Qed.

(* the map head and the count: for every count (len of a Go map is below 2^63; the conversion to int32 wraps) *)
Theorem tr_tup_Encode_head_equiv : forall count out,
  tr_tup_Encode_head count out = Next (out ++ head tMAP 0 ++ w_int32 (Skip.wrap32 count) 0, false).
Proof.
  intros count out. unfold tr_tup_Encode_head.
  rewrite tr_WriteHead_equiv by (unfold k_codec_MAP; lia). cbn [go_call bindc Bool.eqb negb].
  rewrite wrapS32_wrap32. rewrite tr_WriteInt32_equiv by (pose proof (wrap32_range count); lia).
  cbn [go_call bindc]. destruct tup_codes as (-> & _). rewrite <- app_assoc. reflexivity.
Qed.

(* one entry: the model's enc_entry, for every key and buffer *)
Theorem tr_tup_Encode_entry_equiv : forall err0 k v out,
  tr_tup_Encode_entry err0 k v out = Next (out ++ enc_entry (k, v), false).
Proof.
  intros e0 k v out. unfold tr_tup_Encode_entry, enc_entry. cbn [fst snd].
  rewrite tr_WriteString_equiv by lia. cbn [go_call bindc Bool.eqb negb].
  rewrite tr_WriteHead_equiv by (unfold k_codec_SimpleList; lia). cbn [go_call bindc Bool.eqb negb].
  rewrite tr_WriteHead_equiv by (unfold k_codec_BYTE; lia). cbn [go_call bindc Bool.eqb negb].
  rewrite wrapS32_wrap32. rewrite tr_WriteInt32_equiv by (pose proof (wrap32_range (go_len v)); lia).
  cbn [go_call bindc Bool.eqb negb]. rewrite tr_WriteBytes_equiv. cbn [go_call bindc].
  destruct tup_codes as (_ & -> & ->). unfold go_len. repeat rewrite <- app_assoc. reflexivity.
Qed.

(* Encode over the entries in a given order *)
Fixpoint go_tup_entries (m : attrs) (out : list N) : ctl (list N * bool) (list N * bool) :=
  match m with
  | [] => Next (out, false)
  | (k, v) :: m' => bindc (tr_tup_Encode_entry false k v out)
                      (fun st => if snd st then Return st else go_tup_entries m' (fst st))
  end.
Definition go_tup_encode (m : attrs) (out : list N) : ctl (list N * bool) (list N * bool) :=
  bindc (tr_tup_Encode_head (Z.of_nat (length m)) out) (fun st => if snd st then Return st else go_tup_entries m (fst st)).

Lemma go_tup_entries_equiv : forall m out, go_tup_entries m out = Next (out ++ flat_map enc_entry m, false).
Proof.
  induction m as [| [k v] m IH]; intros out; cbn [go_tup_entries flat_map].
  - rewrite app_nil_r. reflexivity.
  - rewrite tr_tup_Encode_entry_equiv. cbn [bindc fst snd]. rewrite IH, <- app_assoc. reflexivity.
Qed.

Theorem go_tup_encode_equiv : forall m out, go_tup_encode m out = Next (out ++ tup_encode m, false).
Proof.
  intros m out. unfold go_tup_encode, tup_encode. rewrite tr_tup_Encode_head_equiv. cbn [bindc fst snd].
  rewrite go_tup_entries_equiv. repeat rewrite <- app_assoc. reflexivity.
Qed.
