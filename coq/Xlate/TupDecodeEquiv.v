(* tup.UniAttribute.Decode from the CURRENT Go source of tars/protocol/tup/tup.go (Gen/Translated.v: tr_tup_Decode - the
   whole function: the reader parameter is the state, u.data a map with string keys kept as the list of its insertions,
   the callees are the translated codec.Reader methods of Xlate/ReaderEquiv.v and ReaderSliceEquiv.v) computes the C05T
   model Codec/Tup.v [tup_decode] on EVERY input: same status, the same entries inserted in the same order (also those
   before an error), the reader left where the model leaves it. *)
From Coq Require Import List NArith ZArith Bool Lia ZifyBool ZifyNat ZifyN.
From TarsV Require Import Gen.Consts Codec.Wire Codec.Skip Codec.Prim Codec.SkipProofs Codec.GenCodec Codec.Tup Codec.TupProofs
  Xlate.GoSem Xlate.GoSemFacts Gen.Translated Xlate.ReaderEquiv Xlate.ReaderSliceEquiv.
Import ListNotations.
Open Scope Z_scope.

Lemma ok_at ref p q : ok (mk ref p 0) -> 0 <= q <= go_len ref + 4294967296 -> ok (mk ref q 0).
Proof. intros (Hp & Hl & Hb) Hq. unfold ok in *. cbn [rd_pos rd_ref] in *. repeat split; try assumption; lia. Qed.

Lemma drop_shorter (ref : list N) p : 0 <= p -> (length (go_drop ref p) <= length ref)%nat.
Proof.
  intros Hp. destruct (Z_le_gt_dec p (go_len ref)).
  - pose proof (go_drop_len ref p ltac:(lia)) as L. unfold go_len in L. lia.
  - rewrite go_drop_nil by lia. cbn. lia.
Qed.
Lemma fuel_le ref p F : 0 <= p -> (fuel_for ref + 3 <= F)%nat -> (fuel_for (go_drop ref p) + 3 <= F)%nat.
Proof. intros Hp HF. pose proof (drop_shorter ref p Hp). unfold fuel_for in *. lia. Qed.

(* SkipTo with the position bound kept *)
Lemma tr_SkipTo_sim : forall F (ty tag : N) req ref p, ok (mk ref p 0) -> (ty < 256)%N ->
  (fuel_for (go_drop ref p) + 3 <= F)%nat ->
  match skip_to (fuel_for (go_drop ref p)) ty tag req (go_drop ref p) with
  | Found _ rest => exists p', tr_SkipTo F (Z.of_N ty) (Z.of_N tag) req (mk ref p 0) = Return (mk ref p' 0, true, false) /\
                               go_drop ref p' = rest /\ 0 <= p' <= go_len ref
  | NotFound rest => exists p', tr_SkipTo F (Z.of_N ty) (Z.of_N tag) req (mk ref p 0) = Return (mk ref p' 0, false, false) /\
                                go_drop ref p' = rest /\ 0 <= p' <= go_len ref + 4294967296
  | SeekErr => exists p', tr_SkipTo F (Z.of_N ty) (Z.of_N tag) req (mk ref p 0) = Return (mk ref p' 0, false, true)
  | SeekFuel => True
  end.
Proof.
  intros F ty tag req ref p Hok Hty HF.
  pose proof (tr_SkipToNoCheck_total F tag req ref p Hok HF) as SK. unfold tr_SkipTo, skip_to.
  destruct (skip_to_no_check (fuel_for (go_drop ref p)) tag req (go_drop ref p)) as [t rest|rest| |]; cbn [seek_sim] in SK; try exact I.
  - destruct SK as (q & -> & Er & Hq & Ht). cbn [go_call bindc Bool.eqb negb].
    destruct (t =? ty)%N eqn:E.
    + decide_conds. cbn [negb bindc]. exists q. repeat split; [exact Er|lia|lia].
    + decide_conds. cbn [negb bindc]. exists q. reflexivity.
  - destruct SK as (q & t & -> & Er & Hq). cbn [go_call bindc Bool.eqb negb]. exists q.
    split; [destruct (Z.of_N ty =? t); cbn [negb bindc]; reflexivity|]. repeat split; [exact Er|lia|lia].
  - destruct SK as (q & t & -> & Hq). cbn [go_call bindc Bool.eqb negb]. exists q. reflexivity.
Qed.

Lemma decode_codes : k_codec_MAP = Z.of_N tMAP /\ k_codec_SimpleList = Z.of_N tSIMPLE /\ k_codec_BYTE = Z.of_N tBYTE.
Proof. repeat split; reflexivity. Qed.

Definition lst : Type := (go_reader * list (list N * list N) * bool * Z * bool)%type.   (* rd, u.data, have, ty, err *)
Definition lres : Type := (go_reader * bool * list (list N * list N))%type.               (* rd, err, u.data *)

(* one iteration against the model's dec_entry (all lookups required) *)
Definition entry_spec (ref : list N) (body : Z -> lst -> ctl lst lres) : Prop :=
  forall i p u h t e, ok (mk ref p 0) -> 0 <= p <= go_len ref ->
    match dec_entry true true (go_drop ref p) with
    | EIns k v r => exists p' h' t', body i (mk ref p 0, u, h, t, e) = Next (mk ref p' 0, u ++ [(k, v)], h', t', false) /\
                                     go_drop ref p' = r /\ 0 <= p' <= go_len ref
    | ESkip _ _ => False
    | EErr _ => exists rd', body i (mk ref p 0, u, h, t, e) = Return (rd', true, u)
    | EFuel => False
    end.

Lemma loop_sim ref body : entry_spec ref body -> forall f n p i u h t,
  ok (mk ref p 0) -> 0 <= p <= go_len ref -> (length (go_drop ref p) < f)%nat ->
  let o := dec_loop true true f n (go_drop ref p) in
  match t_stat o with
  | TSOk => exists p' h' t', go_count_from (Z.to_nat n) i body (mk ref p 0, u, h, t, false) = Next (mk ref p' 0, u ++ t_ins o, h', t', false) /\
                             go_drop ref p' = t_rest o /\ 0 <= p' <= go_len ref
  | TSErr => exists rd', go_count_from (Z.to_nat n) i body (mk ref p 0, u, h, t, false) = Return (rd', true, u ++ t_ins o)
  | TSFuel => False
  end.
Proof.
  intros SP. induction f as [|f IH]; intros n p i u h t Hok Hp Hf; [lia|]. cbn [dec_loop].
  destruct (n <=? 0) eqn:En.
  { replace (Z.to_nat n) with O by lia. cbn [go_count_from t_stat t_ins t_rest]. exists p, h, t. rewrite app_nil_r. repeat split; lia. }
  replace (Z.to_nat n) with (S (Z.to_nat (n - 1))) by lia. cbn [go_count_from].
  pose proof (SP i p u h t false Hok Hp) as E. pose proof (dec_entry_spec true true (go_drop ref p)) as G.
  destruct (dec_entry true true (go_drop ref p)) as [k v r|k r|a|]; try contradiction.
  - destruct E as (p' & h' & t' & -> & Er & Hp'). cbn [bindc]. subst r.
    specialize (IH (n - 1) p' (i + 1) (u ++ [(k, v)]) h' t' (ok_at ref p p' Hok ltac:(lia)) Hp' ltac:(lia)). cbv zeta in IH.
    cbn [t_stat t_ins t_rest]. destruct (t_stat (dec_loop true true f (n - 1) (go_drop ref p'))).
    + destruct IH as (q & h2 & t2 & -> & Eq & Hq). exists q, h2, t2. rewrite <- app_assoc. repeat split; [exact Eq|lia|lia].
    + destruct IH as (rd' & ->). exists rd'. rewrite <- app_assoc. reflexivity.
    + exact IH.
  - destruct E as (rd' & ->). cbn [bindc t_stat t_ins]. exists rd'. rewrite app_nil_r. reflexivity.
Qed.

Theorem tr_tup_Decode_equiv : forall F ref p u, ok (mk ref p 0) -> 0 <= p <= go_len ref -> (fuel_for ref + 5 <= F)%nat ->
  let o := tup_decode (go_drop ref p) in
  match t_stat o with
  | TSOk => exists p', tr_tup_Decode F (mk ref p 0) u = Return (mk ref p' 0, false, u ++ t_ins o) /\
                       go_drop ref p' = t_rest o /\ 0 <= p' <= go_len ref
  | TSErr => exists rd', tr_tup_Decode F (mk ref p 0) u = Return (rd', true, u ++ t_ins o)
  | TSFuel => False
  end.
Proof.
  intros F ref p u Hok Hp HF. destruct decode_codes as (cM & cS & cB).
  destruct F as [|[|F]]; [unfold fuel_for in HF; lia | unfold fuel_for in HF; lia |].
  assert (OK : forall q, 0 <= q <= go_len ref -> ok (mk ref q 0)) by (intros q Hq; apply (ok_at ref p); [exact Hok|lia]).
  assert (FU : forall q, 0 <= q -> (fuel_for (go_drop ref q) + 3 <= S (S F))%nat) by (intros q Hq; apply fuel_le; lia).
  unfold tr_tup_Decode.
  match goal with |- context [go_count 0 _ ?b _] => set (body := b) end.
  assert (SP : entry_spec ref body).
  { (* the run of the body is kept in a hypothesis, so that the case analysis of the model leaves it alone *)
    intros i q w h t e Hokq Hq. remember (body i (mk ref q 0, w, h, t, e)) as out eqn:Hout. subst body. cbv beta iota in Hout. unfold dec_entry.
    pose proof (tr_ReadString_total (S (S F)) 0%N true ref q [] Hokq (FU q (proj1 Hq))) as RS. cbv zeta in RS.
    change (Z.of_N 0) with 0 in RS.
    pose proof (r_string_spec 0 true (go_drop ref q)) as RG.
    destruct (r_string (fuel_for (go_drop ref q)) 0 true (go_drop ref q)) as [k r|r| |]; cbn [read_sim] in RS; try contradiction.
    2: { destruct RG as [_ RG]; discriminate. }
    2: { destruct RS as (q1 & v1 & RS). rewrite RS in Hout. cbn [go_call bindc Bool.eqb negb] in Hout. eexists. exact Hout. }
    destruct RS as (q1 & RS & Er & Hq1). rewrite RS in Hout. cbn [go_call bindc Bool.eqb negb] in Hout. subst r.
    unfold dec_value.
    pose proof (tr_SkipToNoCheck_total (S (S F)) 1%N true ref q1 (OK q1 Hq1) (FU q1 (proj1 Hq1))) as SK.
    change (Z.of_N 1) with 1 in SK.
    pose proof (seek_fuel (fuel_for (go_drop ref q1)) 1 true (go_drop ref q1) (fuel_for_ok _)) as SG.
    destruct (skip_to_no_check (fuel_for (go_drop ref q1)) 1 true (go_drop ref q1)) as [ty r1|r1| |]; cbn [seek_sim seek_good] in SK, SG; try contradiction.
    2: { destruct SG as [_ SG]; discriminate. }
    2: { destruct SK as (q2 & t2 & SK & _). rewrite SK in Hout. cbn [go_call bindc Bool.eqb negb] in Hout. eexists. exact Hout. }
    destruct SK as (q2 & SK & Er1 & Hq2 & Hty). rewrite SK in Hout. cbn [go_call bindc Bool.eqb negb] in Hout. subst r1.
    (* the test of the wire type, whichever way round the source writes it *)
    rewrite cS in Hout. destruct (ty =? tSIMPLE)%N eqn:Ety.
    2: { match type of Hout with context [if ?c then _ else _] => replace c with false in Hout by lia end.
         cbn [bindc Bool.eqb negb] in Hout. eexists. exact Hout. }
    match type of Hout with context [if ?c then _ else _] => replace c with true in Hout by lia end.
    pose proof (tr_SkipTo_sim (S (S F)) tBYTE 0 true ref q2 (OK q2 Hq2) ltac:(reflexivity) (FU q2 (proj1 Hq2))) as SB.
    change (Z.of_N 0) with 0 in SB. rewrite <- cB in SB.
    pose proof (skip_to_fuel (fuel_for (go_drop ref q2)) tBYTE 0 true (go_drop ref q2) (fuel_for_ok _)) as SG2.
    destruct (skip_to (fuel_for (go_drop ref q2)) tBYTE 0 true (go_drop ref q2)) as [ty3 r3|r3| |]; cbn [seek_good] in SG2; try contradiction.
    2: { destruct SG2 as [_ SG2]; discriminate. }
    2: { destruct SB as (q3 & SB). rewrite SB in Hout. cbn [go_call bindc Bool.eqb negb] in Hout. eexists. exact Hout. }
    destruct SB as (q3 & SB & Er3 & Hq3). rewrite SB in Hout. cbn [go_call bindc Bool.eqb negb] in Hout. subst r3.
    pose proof (tr_ReadInt32_count F ref q3 0 0 (OK q3 Hq3)) as RC.
    destruct (read_count (go_drop ref q3)) as [z r4|r4].
    2: { destruct RC as (q4 & z4 & RC & _). rewrite RC in Hout. cbn [go_call bindc Bool.eqb negb] in Hout. eexists. exact Hout. }
    destruct RC as (q4 & RC & Er4 & Hq4 & Hz). rewrite RC in Hout. cbn [go_call bindc Bool.eqb negb] in Hout. subst r4.
    pose proof (tr_ReadBytes_equiv ref q4 0 [] z true ltac:(lia)) as RB. rewrite read_slice_bytes in RB.
    destruct (read_bytes z (go_drop ref q4)) as [[v r5]|] eqn:Eb.
    2: { rewrite RB in Hout. cbn [go_call bindc Bool.eqb negb] in Hout. eexists. exact Hout. }
    destruct RB as (RB & Er5). rewrite RB in Hout. cbn [go_call bindc Bool.eqb negb] in Hout. unfold go_smap_put in Hout.
    apply read_bytes_split in Eb. destruct Eb as (Es & Hlen).
    exists (q4 + z), true, (Z.of_N ty). repeat split; [exact Hout|exact Er5|lia|].
    pose proof (go_drop_len ref q4 ltac:(lia)) as L. rewrite Es in L. unfold go_len in L. rewrite app_length in L. unfold go_len. lia. }
  pose proof (tr_SkipTo_sim (S (S F)) tMAP 0 true ref p Hok ltac:(reflexivity) (FU p (proj1 Hp))) as SM.
  change (Z.of_N 0) with 0 in SM. rewrite <- cM in SM.
  pose proof (skip_to_fuel (fuel_for (go_drop ref p)) tMAP 0 true (go_drop ref p) (fuel_for_ok _)) as SGm.
  unfold tup_decode, tup_decode_gen. cbv zeta.
  destruct (skip_to (fuel_for (go_drop ref p)) tMAP 0 true (go_drop ref p)) as [ty1 r1|r1| |]; cbn [seek_good] in SGm;
    [| destruct SGm; discriminate | | contradiction].
  2: { destruct SM as (q1 & ->). cbn [go_call bindc Bool.eqb negb t_err t_stat t_ins]. exists (mk ref q1 0). rewrite app_nil_r. reflexivity. }
  destruct SM as (q1 & -> & Er1 & Hq1). cbn [go_call bindc Bool.eqb negb]. subst r1.
  pose proof (tr_ReadInt32_count F ref q1 0 0 (OK q1 Hq1)) as RC.
  destruct (read_count (go_drop ref q1)) as [n r2|r2].
  2: { destruct RC as (q2 & z2 & -> & _). cbn [go_call bindc Bool.eqb negb t_err t_stat t_ins]. eexists. rewrite app_nil_r. reflexivity. }
  destruct RC as (q2 & -> & Er2 & Hq2 & Hn). cbn [go_call bindc Bool.eqb negb]. subst r2.
  unfold go_count. rewrite Z.sub_0_r.
  pose proof (loop_sim ref body SP (S (length (go_drop ref q2))) n q2 0 u false 0 (OK q2 ltac:(lia)) ltac:(lia) ltac:(lia)) as LP.
  cbv zeta in LP. unfold lst, lres in LP. revert LP.
  destruct (t_stat (dec_loop true true (S (length (go_drop ref q2))) n (go_drop ref q2))); intros LP.
  - destruct LP as (q3 & h3 & t3 & -> & Er3 & Hq3). cbn [bindc]. exists q3. repeat split; [exact Er3|lia|lia].
  - destruct LP as (rd' & ->). cbn [bindc]. exists rd'. reflexivity.
  - exact LP.
Qed.

(* a reader over the whole input (codec.NewReader(bs)): every byte string a Go slice can hold *)
Theorem tr_tup_Decode_fresh : forall F bs u, bytes_ok bs -> go_len bs <= LEN_MAX -> (fuel_for bs + 5 <= F)%nat ->
  let o := tup_decode bs in
  match t_stat o with
  | TSOk => exists p', tr_tup_Decode F (mk bs 0 0) u = Return (mk bs p' 0, false, u ++ t_ins o) /\
                       go_drop bs p' = t_rest o /\ 0 <= p' <= go_len bs
  | TSErr => exists rd', tr_tup_Decode F (mk bs 0 0) u = Return (rd', true, u ++ t_ins o)
  | TSFuel => False
  end.
Proof.
  intros F bs u Hb Hl HF.
  assert (Hok : ok (mk bs 0 0)). { unfold ok. cbn [rd_pos rd_ref]. unfold go_len in *. repeat split; try assumption; lia. }
  pose proof (tr_tup_Decode_equiv F bs 0 u Hok ltac:(unfold go_len; lia) HF) as H. rewrite go_drop_0 in H by lia. exact H.
Qed.

(* instances, evaluated: two entries are decoded in order; a truncated input is an error that keeps the first entry *)
Example tr_tup_Decode_ex :
  tr_tup_Decode 80 (mk (tup_encode [([107]%N, [1; 2]%N); ([108; 109]%N, []%N)]) 0 0) [] =
  Return (mk (tup_encode [([107]%N, [1; 2]%N); ([108; 109]%N, []%N)]) 19 0, false, [([107]%N, [1; 2]%N); ([108; 109]%N, []%N)]).
Proof. vm_compute. reflexivity. Qed.
Example tr_tup_Decode_ex_truncated :
  match tr_tup_Decode 80 (mk (firstn 15 (tup_encode [([107]%N, [1; 2]%N); ([108; 109]%N, []%N)])) 0 0) [] with
  | Return (_, err, ins) => err = true /\ ins = [([107]%N, [1; 2]%N)]
  | _ => False
  end.
Proof. vm_compute. split; reflexivity. Qed.
