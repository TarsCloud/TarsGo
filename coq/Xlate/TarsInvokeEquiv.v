(* ServantProxy.TarsInvoke from the CURRENT Go source of tars/servant.go (Gen/Translated.v):
     tr_TarsInvoke_req       the composite literal  req := requestf.RequestPacket{ .. }  (which value each member gets)
     tr_TarsInvoke_timeout   from  timeout := time.Duration(s.timeout) * time.Millisecond  to the end of
                             if dl, ok := ctx.Deadline(); ok { .. } else { .. context.WithTimeout(ctx, timeout) .. }
   compared with the request of the C01 model (Rpc/EndToEnd.v [mkreq]), with "the request id is genRequestID's result and
   nothing else" (C08) and with the effective timeout of C09 (design/C09.md: the context's deadline if there is one, else the
   per-call timeout of current.SetClientTimeout, else the proxy's timeout; a timer is armed exactly when the caller brought no
   deadline).
   Inputs (oracles): s.genRequestID() (its steps are Xlate/ReqIdEquiv.v), tools.ByteToInt8(buf) (a cast), what
   current.GetClientTimeout(ctx) returns, whether ctx has a deadline and time.Until(dl).
   Hand-modelled: the dyeing / trace entries put into the status map and IMessageType before the literal (they reach
   the literal as the variables status / msgType), Message / hash settings, filters and doInvoke, the report calls. *)
From Coq Require Import List NArith ZArith Bool Lia.
From TarsV Require Import Gen.Consts Rpc.EndToEnd Xlate.GoSem Xlate.GoSemFacts Gen.Translated.
Import ListNotations.
Open Scope Z_scope.

Notation RP := go_requestf_RequestPacket.

(* ---------- the request ---------- *)
Definition req_is (g : RP) (q : reqpkt) : Prop :=
  go_requestf_RequestPacket_IVersion g = q_ver q /\ go_requestf_RequestPacket_CPacketType g = q_ptype q /\
  go_requestf_RequestPacket_IMessageType g = q_mtype q /\ go_requestf_RequestPacket_IRequestId g = q_id q /\
  go_requestf_RequestPacket_SServantName g = q_servant q /\ go_requestf_RequestPacket_SFuncName g = q_func q /\
  go_requestf_RequestPacket_ITimeout g = q_timeout q /\
  go_requestf_RequestPacket_Context g = q_ctx q /\ go_requestf_RequestPacket_Status g = q_status q.

(* every member but the body (a cast of the argument bytes) is the model's; cType is the call kind the generated proxy passes *)
Theorem tr_TarsInvoke_req_equiv : forall e f args o (oneway : bool) id servant timeout sbuf,
  -2147483648 <= timeout <= 2147483647 ->
  exists g, tr_TarsInvoke_req (if oneway then c_c01_TARSONEWAY else c_c01_TARSNORMAL) (fs_name f) (status_of o) (ctx_of o) 0
              servant timeout c_c01_TARSVERSION id sbuf = Next g /\
            req_is g (mkreq e f args o oneway id servant timeout) /\ go_requestf_RequestPacket_SBuffer g = sbuf.
Proof.
  intros e f args o oneway id servant timeout sbuf Ht. eexists. split; [reflexivity|]. unfold req_is, mkreq. cbn.
  rewrite wrapS32_id by lia. destruct oneway; repeat split; reflexivity.
Qed.

(* ---------- the effective timeout ---------- *)
Definition per_call (ct : bool * Z * bool) : option Z := let '(ok, to, isT) := ct in if ok && isT then Some to else None.
(* nanoseconds the call may take, as passed on to the filters / doInvoke *)
Definition eff_timeout (proxy_ms : Z) (pc : option Z) (deadline_left : option Z) : Z :=
  match deadline_left with
  | Some d => d
  | None => match pc with Some t => t * 1000000 | None => proxy_ms * 1000000 end
  end.
(* milliseconds told to the server in ITimeout *)
Definition eff_itimeout (proxy_ms : Z) (pc : option Z) (deadline_left : option Z) : Z :=
  match deadline_left with
  | Some d => wrapS 32 (Z.quot d 1000000)
  | None => match pc with Some t => wrapS 32 t | None => wrapS 32 proxy_ms end
  end.
Definition with_itimeout (g : RP) (t : Z) : RP :=
  {| go_requestf_RequestPacket_IVersion := go_requestf_RequestPacket_IVersion g; go_requestf_RequestPacket_CPacketType := go_requestf_RequestPacket_CPacketType g;
     go_requestf_RequestPacket_IMessageType := go_requestf_RequestPacket_IMessageType g; go_requestf_RequestPacket_IRequestId := go_requestf_RequestPacket_IRequestId g;
     go_requestf_RequestPacket_SServantName := go_requestf_RequestPacket_SServantName g; go_requestf_RequestPacket_SFuncName := go_requestf_RequestPacket_SFuncName g;
     go_requestf_RequestPacket_SBuffer := go_requestf_RequestPacket_SBuffer g; go_requestf_RequestPacket_ITimeout := t;
     go_requestf_RequestPacket_Context := go_requestf_RequestPacket_Context g; go_requestf_RequestPacket_Status := go_requestf_RequestPacket_Status g |}.

Definition int31 (z : Z) : Prop := -2147483648 <= z <= 2147483647.
Definition int63 (z : Z) : Prop := -9223372036854775808 <= z <= 9223372036854775807.

(* the statements compute the effective timeout, tell it to the server, and arm a timer with exactly that duration when -
   and only when - the caller's context has no deadline; no other member of the request changes *)
Theorem tr_TarsInvoke_timeout_equiv : forall req proxy_ms (has_dl : bool) until ct out,
  int31 proxy_ms -> int31 (snd (fst ct)) -> int63 until ->
  go_requestf_RequestPacket_ITimeout req = wrapS 32 proxy_ms ->
  let dl := if has_dl then Some until else None in
  let t := eff_timeout proxy_ms (per_call ct) dl in
  tr_TarsInvoke_timeout req proxy_ms has_dl until ct out =
  Next (out ++ (if has_dl then [] else [t]), t, with_itimeout req (eff_itimeout proxy_ms (per_call ct) dl)).
Proof.
  intros req proxy_ms has_dl until [[ok to] isT] out Hp Ht Hu Hreq. unfold int31, int63 in *. cbn [fst snd] in Ht. cbv zeta.
  unfold tr_TarsInvoke_timeout, per_call, eff_timeout, eff_itimeout, with_itimeout, k_time_Millisecond, go_arm.
  change (negb (1000000 =? 0)) with true. destruct req as [a b c d e0 f g h i j]. cbn in Hreq. subst h.
  (* the durations the statements compute stay inside int64: said once, before the cases *)
  cbv zeta iota. rewrite !wrapS64_id by lia.
  destruct ok, isT, has_dl; cbn [andb bindc negb]; rewrite ?app_nil_r; reflexivity.
Qed.

(* ---------- the two together: the request that leaves TarsInvoke ---------- *)
Definition go_tarsinvoke (cType : Z) (fn : list N) (status ctx : list (list N * list N)) (mtype : Z) (name : list N) (proxy_ms version id : Z)
           (sbuf : list Z) (has_dl : bool) (until : Z) (ct : bool * Z * bool) : ctl (list Z * Z * RP) (list Z * bool) :=
  match tr_TarsInvoke_req cType fn status ctx mtype name proxy_ms version id sbuf with
  | Next req => tr_TarsInvoke_timeout req proxy_ms has_dl until ct []
  | _ => Panic
  end.

(* C08: on every path the id on the wire is genRequestID's result - not the timeout, not anything else *)
Theorem tarsinvoke_request_id : forall cType fn status ctx mtype name proxy_ms version id sbuf has_dl until ct,
  int31 proxy_ms -> int31 (snd (fst ct)) -> int63 until ->
  exists armed t req, go_tarsinvoke cType fn status ctx mtype name proxy_ms version id sbuf has_dl until ct = Next (armed, t, req) /\
    go_requestf_RequestPacket_IRequestId req = id /\
    go_requestf_RequestPacket_ITimeout req = eff_itimeout proxy_ms (per_call ct) (if has_dl then Some until else None) /\
    t = eff_timeout proxy_ms (per_call ct) (if has_dl then Some until else None) /\
    armed = (if has_dl then [] else [t]).
Proof.
  intros cType fn status ctx mtype name proxy_ms version id sbuf has_dl until ct Hp Ht Hu.
  unfold go_tarsinvoke, tr_TarsInvoke_req.
  rewrite tr_TarsInvoke_timeout_equiv by (try assumption; reflexivity). cbn [app].
  do 3 eexists. split; [reflexivity|]. repeat split; reflexivity.
Qed.

(* instances: proxy timeout 3000 ms, per-call timeout 50 ms, caller deadline 20 ms away *)
Example tarsinvoke_ex_percall :
  go_tarsinvoke 0 [102]%N [] [] 0 [115]%N 3000 1 77 [] false 0 (true, 50, true) =
  Next ([50000000], 50000000, with_itimeout (Build_go_requestf_RequestPacket 1 0 0 77 [115]%N [102]%N [] 0 [] []) 50).
Proof. vm_compute. reflexivity. Qed.
Example tarsinvoke_ex_deadline :
  go_tarsinvoke 0 [102]%N [] [] 0 [115]%N 3000 1 77 [] true 20000000 (true, 50, true) =
  Next ([], 20000000, with_itimeout (Build_go_requestf_RequestPacket 1 0 0 77 [115]%N [102]%N [] 0 [] []) 20).
Proof. vm_compute. reflexivity. Qed.
