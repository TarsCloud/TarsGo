(* Facts about the target language of the translator (Xlate/GoSem.v) used by the equivalence proofs. *)
From Coq Require Import List NArith ZArith Bool Lia ZifyBool ZifyNat ZifyN.
From TarsV Require Import Xlate.GoSem.
(* every proof about translated code also depends on the translator's self-test: the translations of the sample
   functions (harness/xlatesample) evaluate to what the compiled Go functions returned, on every run *)
From TarsV Require Gen.TranslatedSelfTest.
Import ListNotations.
Open Scope Z_scope.

Lemma wrapU_id w z : 0 <= z < 2 ^ w -> wrapU w z = z.
Proof. intros H. unfold wrapU. apply Z.mod_small. exact H. Qed.

Lemma wrapS_id w z : 0 < w -> - 2 ^ (w - 1) <= z < 2 ^ (w - 1) -> wrapS w z = z.
Proof.
  intros Hw H. unfold wrapS.
  assert (E : 2 ^ w = 2 * 2 ^ (w - 1)) by (rewrite <- Z.pow_succ_r by lia; f_equal; lia).
  rewrite Z.mod_small by lia. lia.
Qed.

Lemma wrapS_range w z : 0 < w -> - 2 ^ (w - 1) <= wrapS w z < 2 ^ (w - 1).
Proof.
  intros Hw. unfold wrapS.
  assert (E : 2 ^ w = 2 * 2 ^ (w - 1)) by (rewrite <- Z.pow_succ_r by lia; f_equal; lia).
  assert (P : 0 < 2 ^ (w - 1)) by (apply Z.pow_pos_nonneg; lia).
  pose proof (Z.mod_pos_bound (z + 2 ^ (w - 1)) (2 ^ w) ltac:(lia)). lia.
Qed.

Lemma wrapU_range w z : 0 <= w -> 0 <= wrapU w z < 2 ^ w.
Proof. intros Hw. unfold wrapU. apply Z.mod_pos_bound. apply Z.pow_pos_nonneg; lia. Qed.

(* big-endian emission, least significant byte last *)
Lemma go_put_be_snoc n : forall v, go_put_be (S n) v = go_put_be n (v / 256) ++ [Z.to_N (v mod 256)].
Proof.
  induction n as [|n IH]; intros v.
  - cbn [go_put_be app]. rewrite Z.pow_0_r, Z.div_1_r. reflexivity.
  - change (go_put_be (S (S n)) v) with (Z.to_N ((v / 256 ^ Z.of_nat (S n)) mod 256) :: go_put_be (S n) v).
    rewrite IH.
    change (go_put_be (S n) (v / 256)) with (Z.to_N ((v / 256 / 256 ^ Z.of_nat n) mod 256) :: go_put_be n (v / 256)).
    cbn [app]. f_equal. f_equal. f_equal.
    rewrite Z.div_div by lia. f_equal. rewrite Nat2Z.inj_succ, Z.pow_succ_r by lia. reflexivity.
Qed.

Lemma go_len_app {A} (a b : list A) : go_len (a ++ b) = go_len a + go_len b.
Proof. unfold go_len. rewrite app_length. lia. Qed.

(* the same with the bounds as numerals *)
Lemma wrapS8_id z : -128 <= z <= 127 -> wrapS 8 z = z.
Proof. intros H. apply wrapS_id; lia. Qed.
Lemma wrapS16_id z : -32768 <= z <= 32767 -> wrapS 16 z = z.
Proof. intros H. apply wrapS_id; lia. Qed.
Lemma wrapS32_id z : -2147483648 <= z <= 2147483647 -> wrapS 32 z = z.
Proof. intros H. apply wrapS_id; lia. Qed.
Lemma wrapS64_id z : -9223372036854775808 <= z <= 9223372036854775807 -> wrapS 64 z = z.
Proof. intros H. apply wrapS_id; lia. Qed.

(* bit-level facts about bytes are proved by evaluating them over the whole range *)
Definition zrange (n : nat) : list Z := map Z.of_nat (seq 0 n).
Lemma zrange_in n z : 0 <= z < Z.of_nat n -> In z (zrange n).
Proof.
  intros H. unfold zrange. replace z with (Z.of_nat (Z.to_nat z)) by lia.
  apply in_map. apply in_seq. lia.
Qed.

(* a test of the translated code on a value that came from an N is the same test in N: a type switch of the
   translated code and the model's own switch then branch on the same conditions *)
Lemma of_N_eqb_0 a : (Z.of_N a =? 0) = (a =? 0)%N.
Proof. destruct a; reflexivity. Qed.
Lemma of_N_eqb_pos a p : (Z.of_N a =? Z.pos p) = (a =? N.pos p)%N.
Proof. destruct a; reflexivity. Qed.

(* indexing and slicing are the standard list functions *)
Lemma go_drop_skipn {A} (l : list A) : forall n, 0 <= n -> go_drop l n = skipn (Z.to_nat n) l.
Proof.
  induction l as [|a l IH]; intros n Hn; cbn [go_drop]; [destruct (Z.to_nat n); reflexivity|].
  destruct (n <=? 0) eqn:E.
  - replace n with 0 by lia. reflexivity.
  - rewrite IH by lia. replace (Z.to_nat n) with (S (Z.to_nat (n - 1))) by lia. reflexivity.
Qed.
Lemma go_take_firstn {A} (l : list A) : forall n, go_take l n = firstn (Z.to_nat n) l.
Proof.
  induction l as [|a l IH]; intros n; cbn [go_take]; [destruct (Z.to_nat n); reflexivity|].
  destruct (n <=? 0) eqn:E.
  - replace (Z.to_nat n) with O by lia. reflexivity.
  - rewrite IH. replace (Z.to_nat n) with (S (Z.to_nat (n - 1))) by lia. reflexivity.
Qed.
Lemma go_slice_std {A} (l : list A) lo hi : 0 <= lo ->
  go_slice l lo hi = firstn (Z.to_nat (hi - lo)) (skipn (Z.to_nat lo) l).
Proof. intros H. unfold go_slice. rewrite go_take_firstn, go_drop_skipn by lia. reflexivity. Qed.
Lemma go_nth_std {A} (l : list A) d : forall i, 0 <= i -> go_nth l i d = nth (Z.to_nat i) l d.
Proof.
  induction l as [|a l IH]; intros i Hi; cbn [go_nth]; [destruct (Z.to_nat i); reflexivity|].
  destruct (i <=? 0) eqn:E.
  - replace i with 0 by lia. reflexivity.
  - rewrite IH by lia. replace (Z.to_nat i) with (S (Z.to_nat (i - 1))) by lia. reflexivity.
Qed.

(* the translator writes a && b, a || b as [if a then b else false], [if a then true else b] (so that evaluation skips
   the right operand as Go does); for proofs these are andb / orb *)
Ltac fold_bool := repeat match goal with
  | |- context [if ?a then ?b else false] => change (if a then b else false) with (andb a b)
  | |- context [if ?a then true else ?b] => change (if a then true else b) with (orb a b)
  end.

(* case analysis on every condition in the goal; used to prove equivalences by the meaning of the conditions (lia)
   rather than by their shape, so that a rewrite of the Go code which keeps its meaning keeps the proof *)
Ltac split_ifs := repeat match goal with
  | |- context [if ?c then _ else _] => let E := fresh "E" in destruct c eqn:E
  end.

(* decide every condition in the goal that linear arithmetic decides from the hypotheses - whatever its shape, the order
   of its conjuncts or the direction of its comparisons; used after a case split on the MEANING of a condition
   (assert (C : P \/ ~ P) by lia; destruct C; decide_conds), so that the proof does not mention the generated term *)
Ltac decide_conds := fold_bool; repeat match goal with
  | |- context [if ?c then _ else _] => first [ replace c with true by lia | replace c with false by lia ]
  end.

(* a counted loop depends on its body only through the body's values (used to replace the generated body term by a
   description of what it does, proved pointwise - not by matching its text) *)
Lemma go_count_from_ext {S R} (f g : Z -> S -> ctl S R) : (forall i s, f i s = g i s) ->
  forall k i s, go_count_from k i f s = go_count_from k i g s.
Proof.
  intros E. induction k as [|k IH]; intros i s; [reflexivity|]. cbn [go_count_from]. rewrite E.
  destruct (g i s); cbn [bindc]; [apply IH|reflexivity|reflexivity].
Qed.

(* for a predicate that is defined on [0, n) and monotone there (once true, true from there on), the binary search
   returns the least index where it holds, n if there is none *)
Definition search_pre (n : Z) (f : Z -> option bool) (p : Z -> bool) : Prop :=
  (forall x, 0 <= x < n -> f x = Some (p x)) /\ (forall x y, 0 <= x <= y -> y < n -> p x = true -> p y = true).

Lemma go_bsearch_least fuel : forall i j n f p, search_pre n f p -> 0 <= i <= j -> j <= n ->
  j - i < Z.of_nat fuel ->
  (forall x, 0 <= x < i -> p x = false) -> (j < n -> p j = true) ->
  exists r, go_bsearch fuel i j f = Some r /\ i <= r <= j /\ (forall x, 0 <= x < r -> p x = false) /\ (r < n -> p r = true).
Proof.
  induction fuel as [|k IH]; intros i j n f p Pre Hij Hjn Hf Lo Hi; [lia|]. cbn [go_bsearch].
  destruct (i <? j) eqn:C.
  - set (h := (i + j) / 2).
    assert (Hh : i <= h < j) by (unfold h; split; [apply Z.div_le_lower_bound|apply Z.div_lt_upper_bound]; lia).
    pose proof Pre as [Tot Mono]. rewrite (Tot h) by lia. destruct (p h) eqn:Ph.
    + destruct (IH i h n f p Pre ltac:(lia) ltac:(lia) ltac:(lia) Lo (fun _ => Ph)) as (r & E & R1 & R). exists r. split; [exact E|]. split; [lia|exact R].
    + assert (Lo' : forall x, 0 <= x < h + 1 -> p x = false).
      { intros x Hx. destruct (p x) eqn:Px; [|reflexivity]. destruct (Z.le_gt_cases i x).
        - rewrite (Mono x h ltac:(lia) ltac:(lia) Px) in Ph. discriminate.
        - rewrite Lo in Px by lia. discriminate. }
      destruct (IH (h + 1) j n f p Pre ltac:(lia) ltac:(lia) ltac:(lia) Lo' Hi) as (r & E & R1 & R). exists r. split; [exact E|]. split; [lia|exact R].
  - exists i. split; [reflexivity|]. split; [lia|]. split; [exact Lo|]. intros Hn. replace i with j by lia. apply Hi. lia.
Qed.

Lemma go_search_least n f p : 0 <= n -> search_pre n f p ->
  go_search_ok n f = true /\
  0 <= go_search n f <= n /\ (forall x, 0 <= x < go_search n f -> p x = false) /\ (go_search n f < n -> p (go_search n f) = true).
Proof.
  intros Hn Pre. unfold go_search_ok, go_search, go_search_opt.
  destruct (go_bsearch_least (S (Z.to_nat n)) 0 n n f p Pre ltac:(lia) ltac:(lia) ltac:(lia)) as (r & -> & R1 & R2 & R3); try lia.
  repeat split; try lia; assumption.
Qed.
