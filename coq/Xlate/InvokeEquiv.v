(* What the server puts into the response packet, from the CURRENT Go source of tars/tarsprotocol.go
   (Gen/Translated.v):
     tr_Invoke_rsp_init        rspPackage := requestf.ResponsePacket{}                       (Protocol.Invoke)
     tr_Invoke_identity        rspPackage.IVersion = ..; rspPackage.IRequestId = ..           (Protocol.Invoke)
     tr_Invoke_queue_timeout   the two assignments of the  case <-ctx.Done():  clause        (Protocol.Invoke)
     tr_Invoke_error           the assignments under  if err != nil  (IRet = 1, text of the error, code of a tars.Error)
     tr_Invoke_ptype           rspPackage.CPacketType = reqPackage.CPacketType                (Protocol.Invoke)
     tr_InvokeTimeout_rsp_init / tr_InvokeTimeout_fill     Protocol.InvokeTimeout from the one-way test to the last assignment
     tr_Error_Error            the Error method of tars.Error
   is compared with the C10 model Rpc/Invoke.v: base_reply / with_ret as used by [invoke], [handle_timeout_reply] and
   [timeout_replies].

   What is translated is every assignment to the response packet outside the generated dispatcher, and the one-way test of
   InvokeTimeout. What stays hand-modelled: which branch Protocol.Invoke takes (the select on ctx.Done(), the tars_ping test,
   the filter chain and Dispatch, err != nil) - [go_invoke_rsp] below composes the translated pieces in the order of the
   source along a path that is given from outside; the members Status / Context (maps with string keys) are carried along untouched; rsp2Byte is covered by the codec layer. *)
From Coq Require Import List NArith ZArith Bool Lia.
From TarsV Require Import Gen.Consts Base.Hex Rpc.Invoke Xlate.GoSem Xlate.GoSemFacts Gen.Translated.
Import ListNotations.
Open Scope Z_scope.

(* the request as the Go struct *)
Definition req_rec (r : request) : go_requestf_RequestPacket :=
  {| go_requestf_RequestPacket_IVersion := q_ver r;
     go_requestf_RequestPacket_CPacketType := q_ptype r;
     go_requestf_RequestPacket_IMessageType := q_mtype r;
     go_requestf_RequestPacket_IRequestId := q_id r;
     go_requestf_RequestPacket_SServantName := q_servant r;
     go_requestf_RequestPacket_SFuncName := q_func r;
     go_requestf_RequestPacket_SBuffer := [];
     go_requestf_RequestPacket_ITimeout := q_timeout r;
     go_requestf_RequestPacket_Context := []; go_requestf_RequestPacket_Status := [] |}.   (* the maps are not looked at by the translated statements *)

(* the Go response struct and the model's reply agree on every scalar member and on the result text; on the paths below
   the dispatcher has not run and both bodies are empty *)
Definition rsp_is (g : go_requestf_ResponsePacket) (p : reply) : Prop :=
  go_requestf_ResponsePacket_IVersion g = p_ver p /\
  go_requestf_ResponsePacket_CPacketType g = p_ptype p /\
  go_requestf_ResponsePacket_IRequestId g = p_id p /\
  go_requestf_ResponsePacket_IMessageType g = p_mtype p /\
  go_requestf_ResponsePacket_IRet g = p_ret p /\
  go_requestf_ResponsePacket_SResultDesc g = p_desc p /\
  go_requestf_ResponsePacket_SBuffer g = [] /\ p_buf p = []%list.

(* the path through Protocol.Invoke (chosen by code that is not translated) *)
Inductive ipath :=
| PQueueTimeout                                              (* case <-ctx.Done() *)
| PNoError                                                   (* tars_ping, or the chain returned nil: nothing more is set here *)
| PError (is_tars : bool) (text : list N) (code : Z).        (* err != nil: is err a tars.Error?, err.Error(), tarsErr.Code *)

(* the translated assignments in the order of the source *)
Definition go_invoke_rsp (q : go_requestf_RequestPacket) (pa : ipath) : ctl go_requestf_ResponsePacket (list N) :=
  bindc tr_Invoke_rsp_init (fun rsp =>
  bindc (tr_Invoke_identity q rsp) (fun rsp =>
  bindc (match pa with
         | PQueueTimeout => tr_Invoke_queue_timeout rsp
         | PNoError => Next rsp
         | PError t x c => tr_Invoke_error rsp t x c
         end) (fun rsp =>
  tr_Invoke_ptype q rsp))).

(* what the error value is to the source: a tars.Error{Code, Message} or another error with its text; the text of a
   tars.Error is what its translated Error method returns *)
Definition err_path (e : herr) (other_code : Z) : ipath :=
  match e with
  | TarsErr c m => PError true (match tr_Error_Error m with Return t => t | _ => [] end) c
  | PlainErr m => PError false m other_code
  | DispErr => PError false [] other_code
  end.

Lemma timeout_text_lit : timeout_text =
  [115;101;114;118;101;114;32;105;110;118;111;107;101;32;116;105;109;101;111;117;116]%N.
Proof. vm_compute. reflexivity. Qed.

(* The closed form of the translated assignments: the request's identity, a return code and a text; all else stays zero. *)
Definition path_ret (pa : ipath) : Z :=
  match pa with PQueueTimeout => c_TARSSERVERQUEUETIMEOUT | PNoError => 0 | PError t _ c => if t then c else 1 end.
Definition path_desc (pa : ipath) : list N :=
  match pa with PQueueTimeout => timeout_text | PNoError => [] | PError _ x _ => x end.

Definition rsp_of (q : go_requestf_RequestPacket) (ret : Z) (desc : list N) : go_requestf_ResponsePacket :=
  {| go_requestf_ResponsePacket_IVersion := go_requestf_RequestPacket_IVersion q;
     go_requestf_ResponsePacket_CPacketType := go_requestf_RequestPacket_CPacketType q;
     go_requestf_ResponsePacket_IRequestId := go_requestf_RequestPacket_IRequestId q;
     go_requestf_ResponsePacket_IMessageType := 0;
     go_requestf_ResponsePacket_IRet := ret;
     go_requestf_ResponsePacket_SBuffer := [];
     go_requestf_ResponsePacket_Status := [];
     go_requestf_ResponsePacket_SResultDesc := desc;
     go_requestf_ResponsePacket_Context := [] |}.

(* Every translated assignment rebuilds the whole record from the previous one, so the nested lets must be evaluated
   with sharing: [cbn] or unification would copy the record nine-fold per assignment. *)
Lemma go_invoke_rsp_eq q pa : go_invoke_rsp q pa = Next (rsp_of q (path_ret pa) (path_desc pa)).
Proof. destruct pa as [ | | [] x c]; vm_compute; reflexivity. Qed.

Lemma rsp_is_of r ret desc : rsp_is (rsp_of (req_rec r) ret desc) (with_ret (base_reply r) ret desc).
Proof. repeat split. Qed.

(* ---- the server's own timeout answer for a request that waited too long in the queue ---- *)
Theorem invoke_queue_timeout_equiv : forall r,
  exists g, go_invoke_rsp (req_rec r) PQueueTimeout = Next g /\
            rsp_is g (with_ret (base_reply r) c_TARSSERVERQUEUETIMEOUT timeout_text).
Proof. intros r. eexists. split; [apply go_invoke_rsp_eq | apply rsp_is_of]. Qed.

(* ---- no error (tars_ping; a call that returned nil before the dispatcher's own fields are looked at) ---- *)
Theorem invoke_base_equiv : forall r,
  exists g, go_invoke_rsp (req_rec r) PNoError = Next g /\ rsp_is g (base_reply r).
Proof. intros r. eexists. split; [apply go_invoke_rsp_eq | repeat split]. Qed.

(* ---- the call failed: return code 1 and the error's text, the code of a tars.Error in its place ---- *)
Theorem invoke_error_equiv : forall r e other_code,
  exists g, go_invoke_rsp (req_rec r) (err_path e other_code) = Next g /\
            rsp_is g (with_ret (base_reply r) (err_code e) (err_msg e)).
Proof. intros r e oc. eexists. split; [apply go_invoke_rsp_eq |]. destruct e; apply rsp_is_of. Qed.

(* ---- Protocol.InvokeTimeout: nothing for a one-way request, otherwise the echo with return code 1 ---- *)
Definition go_invoke_timeout (q : go_requestf_RequestPacket) : ctl go_requestf_ResponsePacket (list N) :=
  bindc tr_InvokeTimeout_rsp_init (fun rsp => tr_InvokeTimeout_fill rsp q).

Lemma go_invoke_timeout_eq q :
  go_invoke_timeout q =
  if go_requestf_RequestPacket_CPacketType q =? c_TARSONEWAY then Return [] else Next (rsp_of q 1 timeout_text).
Proof.
  unfold go_invoke_timeout, tr_InvokeTimeout_fill. change k_basef_TARSONEWAY with c_TARSONEWAY.
  destruct (_ =? _); vm_compute; reflexivity.
Qed.

Theorem invoke_timeout_equiv : forall r,
  match go_invoke_timeout (req_rec r) with
  | Return bytes => bytes = [] /\ timeout_replies r = []%list              (* return nil: nothing is written *)
  | Next g => exists p, timeout_replies r = [p] /\ p = handle_timeout_reply r /\ rsp_is g p
  | Panic => False
  end.
Proof.
  intros r. rewrite go_invoke_timeout_eq. unfold timeout_replies, oneway. cbn [req_rec go_requestf_RequestPacket_CPacketType].
  destruct (q_ptype r =? c_TARSONEWAY); [split; reflexivity |].
  eexists. split; [reflexivity |]. split; [reflexivity | apply rsp_is_of].
Qed.

(* the identity members of every answer built here are the request's *)
Theorem invoke_identity_of_source : forall r pa g, go_invoke_rsp (req_rec r) pa = Next g ->
  go_requestf_ResponsePacket_IRequestId g = q_id r /\
  go_requestf_ResponsePacket_IVersion g = q_ver r /\
  go_requestf_ResponsePacket_CPacketType g = q_ptype r.
Proof. intros r pa g H. rewrite go_invoke_rsp_eq in H. injection H as <-. repeat split. Qed.
