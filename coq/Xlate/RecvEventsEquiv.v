(* The receive loops per read EVENT, from the CURRENT Go source (Gen/Translated.v):
     tr_srv_recv_event   tcpHandler.recv, the statement  if err != nil { .. }  after conn.Read (the shutdown test with
                         `currBuffer == nil`, the idle test, isNoDataError -> continue, everything else -> return)
     tr_cli_recv_event   connection.recv, the same statement (isNoDataError -> continue, net.OpError / EOF / other -> close, return)
     tr_srv_recv_chunk / tr_cli_recv_chunk   what follows when the read brought data (Xlate/RecvEquiv.v)
   iterated over a list of events equal the event model Frame/RecvEvents.v: same packages in the same order, same buffered
   bytes, loop left exactly when the model leaves it, never a panic.
   Inputs per event (the environment): what conn.Read returned (buffer, n, err and the three tests on err), the value of
   server.isClosed read after the failed read, connSt.numInvoke, connSt.idleTime, cfg.IdleTimeout and the clock.
   Hand-modelled: the `for { }` statement itself ([run_events] with [srv_evstep] / [cli_evstep] below applies the translated statements
   in the order of the loop body), the deadline statements before conn.Read (they decide which event comes next, the
   event list is arbitrary), the deferred close, and that `currBuffer` is nil exactly when it is empty (unit option NilIsEmpty:
   it starts nil, grows by append of n > 0 bytes, and is set to nil when the cutting loop empties it). *)
From Coq Require Import List NArith ZArith Bool Lia.
From TarsV Require Import Base.Hex Frame.Framing Frame.RecvEvents Xlate.GoSem Xlate.GoSemFacts Gen.Translated Xlate.RecvEquiv.
Import ListNotations.
Open Scope Z_scope.

(* one read as the Go code sees it *)
Record gev := { g_read : list N * Z;                         (* buffer and n, meaningful when g_err = false *)
                g_err : bool; g_nodata : bool; g_eof : bool; g_operr : bool;   (* err != nil, isNoDataError(err), err == io.EOF, err is a *net.OpError *)
                g_closed : Z;                                (* atomic.LoadInt32(&t.server.isClosed) after the failed read *)
                g_num_invoke : Z; g_idle_time : Z; g_idle_timeout : Z; g_now : Z }.
Definition gev_ok (e : gev) : Prop := g_err e = false -> read_ok (g_read e).

Definition rev_of (e : gev) : rev :=
  if g_err e then (if g_nodata e then ETimeout else if g_eof e then EEof else EFail) else EData (chunk_of (g_read e)).
(* idle: no call in progress and idleTime + IdleTimeout/second < now, in Go's int64 arithmetic *)
Definition idle_of (e : gev) : bool :=
  (g_num_invoke e =? 0) && (wrapS 64 (g_idle_time e + wrapS 64 (Z.quot (g_idle_timeout e) 1000000000)) <? g_now e).
Definition sev_of (e : gev) : sev := {| s_ev := rev_of e; s_closing := g_closed e =? 1; s_idle := idle_of e |}.

Inductive rstat := Reading (cur : list N) | Left | Crashed.
Definition stat_of (o : option (list N)) : rstat := match o with Some c => Reading c | None => Left end.

Lemma len0_empty (l : list N) : (go_len l =? 0) = is_empty l.
Proof. destruct l; reflexivity. Qed.

(* ---------- the statement after a failed read ---------- *)
Theorem tr_srv_recv_event_equiv : forall cur e, g_err e = true ->
  tr_srv_recv_event cur true (g_closed e) (g_eof e) (g_nodata e) (g_now e) (g_idle_timeout e) (g_idle_time e) (g_num_invoke e) =
  if srv_leaves cur (sev_of e) then Return (inr tt) else Return (inl (inr cur)).
Proof.
  intros cur e He. unfold tr_srv_recv_event, srv_leaves, sev_of, rev_of, idle_of. cbn [s_ev s_closing s_idle Bool.eqb]. rewrite He.
  rewrite !len0_empty. change (negb (1000000000 =? 0)) with true.
  (* a non-empty buffer rules out both the closing and the idle exit *)
  destruct (is_empty cur).
  - destruct (g_closed e =? 1); [reflexivity|]. destruct (g_num_invoke e =? 0).
    + destruct (wrapS 64 (g_idle_time e + wrapS 64 (Z.quot (g_idle_timeout e) 1000000000)) <? g_now e); [reflexivity|].
      destruct (g_nodata e), (g_eof e); reflexivity.
    + destruct (g_nodata e), (g_eof e); reflexivity.
  - destruct (g_closed e =? 1), (g_nodata e), (g_eof e); reflexivity.
Qed.
Theorem tr_srv_recv_event_data : forall cur closed eof nodata now it itime ni,
  tr_srv_recv_event cur false closed eof nodata now it itime ni = Next cur.
Proof. reflexivity. Qed.

Theorem tr_cli_recv_event_equiv : forall cur eof operr nodata,
  tr_cli_recv_event cur true eof operr nodata = if nodata then Return (inl (inr cur)) else Return (inr tt).
Proof. intros cur eof operr nodata. unfold tr_cli_recv_event. cbn [Bool.eqb]. destruct nodata, operr, eof; reflexivity. Qed.
Theorem tr_cli_recv_event_data : forall cur eof operr nodata, tr_cli_recv_event cur false eof operr nodata = Next cur.
Proof. reflexivity. Qed.

(* a read timeout hands on exactly the bytes that were buffered (or, on the server, leaves the loop) *)
Corollary srv_timeout_keeps_buffer : forall cur e, g_err e = true -> g_nodata e = true ->
  tr_srv_recv_event cur true (g_closed e) (g_eof e) (g_nodata e) (g_now e) (g_idle_timeout e) (g_idle_time e) (g_num_invoke e) = Return (inl (inr cur)) \/
  (tr_srv_recv_event cur true (g_closed e) (g_eof e) (g_nodata e) (g_now e) (g_idle_timeout e) (g_idle_time e) (g_num_invoke e) = Return (inr tt) /\ cur = []).
Proof.
  intros cur e He Hn. rewrite tr_srv_recv_event_equiv by exact He.
  destruct (srv_leaves cur (sev_of e)) eqn:L; [right|left; reflexivity]. split; [reflexivity|].
  apply (srv_timeout_leaves_only_empty cur (sev_of e)); [|exact L]. unfold sev_of, rev_of. cbn [s_ev]. rewrite He, Hn. reflexivity.
Qed.
Corollary cli_timeout_keeps_buffer : forall cur eof operr, tr_cli_recv_event cur true eof operr true = Return (inl (inr cur)).
Proof. intros. apply tr_cli_recv_event_equiv. Qed.

(* ---------- the loops over a list of events ---------- *)
Definition ev_t := list N -> ctl (list N) ((list N + list N) + unit).
Fixpoint run_events (evstep : gev -> ev_t) (chunk : step_t) (max : N) (cur : list N) (evs : list gev) (out : list (list N))
  : list (list N) * rstat :=
  match evs with
  | [] => (out, Reading cur)
  | e :: es =>
      match evstep e cur with
      | Next cur1 =>                                           (* err == nil: append and cut *)
          match chunk (length cur1 + Z.to_nat (snd (g_read e)) + 2)%nat (fst (g_read e)) cur1 (snd (g_read e)) (parse_of max) out with
          | Next (out', cur') => run_events evstep chunk max cur' es out'
          | Return (out', _) => (out', Left)
          | Panic => (out, Crashed)
          end
      | Return (inl (inr cur1)) => run_events evstep chunk max cur1 es out      (* continue *)
      | Return (inl (inl _)) => (out, Crashed)                                  (* break: the statement has none *)
      | Return (inr _) => (out, Left)                                           (* return *)
      | Panic => (out, Crashed)
      end
  end.

Definition srv_evstep (e : gev) : ev_t := fun cur =>
  tr_srv_recv_event cur (g_err e) (g_closed e) (g_eof e) (g_nodata e) (g_now e) (g_idle_timeout e) (g_idle_time e) (g_num_invoke e).
Definition cli_evstep (e : gev) : ev_t := fun cur => tr_cli_recv_event cur (g_err e) (g_eof e) (g_operr e) (g_nodata e).

Theorem srv_events_is_model : forall max evs cur out, Forall gev_ok evs ->
  run_events srv_evstep tr_srv_recv_chunk max cur evs out =
  (out ++ fst (srv_events max cur (map sev_of evs)), stat_of (snd (srv_events max cur (map sev_of evs)))).
Proof.
  intros max. induction evs as [|e es IH]; intros cur out Hok; cbn [run_events map srv_events fst snd stat_of].
  - rewrite app_nil_r. reflexivity.
  - inversion Hok as [|? ? He Hes]; subst. unfold srv_evstep at 1.
    destruct (g_err e) eqn:Ee.
    + rewrite tr_srv_recv_event_equiv by exact Ee.
      assert (Hk : match s_ev (sev_of e) with EData _ => False | _ => True end).
      { unfold sev_of, rev_of. cbn [s_ev]. rewrite Ee. destruct (g_nodata e), (g_eof e); exact I. }
      destruct (s_ev (sev_of e)) eqn:Ek; try contradiction;
        (destruct (srv_leaves cur (sev_of e)); [cbn [fst snd stat_of]; rewrite app_nil_r; reflexivity|apply IH; exact Hes]).
    + rewrite tr_srv_recv_event_data. specialize (He Ee). unfold read_ok in He. destruct (g_read e) as [buffer n] eqn:Er. cbn [fst snd] in *.
      pose proof (tr_srv_recv_chunk_equiv max buffer cur n out (length cur + Z.to_nat n + 2)%nat He ltac:(lia)) as S.
      unfold chunk_sim in S. rewrite S.
      assert (Ek : s_ev (sev_of e) = EData (firstn (Z.to_nat n) buffer)).
      { unfold sev_of, rev_of. cbn [s_ev]. rewrite Ee, Er. reflexivity. }
      rewrite Ek. destruct (drain' max (cur ++ firstn (Z.to_nat n) buffer)) as [ps [cur'|]]; cbn [chunk_res fst snd stat_of]; [|reflexivity].
      rewrite (IH cur' (out ++ ps) Hes). destruct (srv_events max cur' (map sev_of es)) as [ps' r]. cbn [fst snd]. rewrite app_assoc. reflexivity.
Qed.

Theorem cli_events_is_model : forall max evs cur out, Forall gev_ok evs ->
  run_events cli_evstep tr_cli_recv_chunk max cur evs out =
  (out ++ fst (cli_events max cur (map rev_of evs)), stat_of (snd (cli_events max cur (map rev_of evs)))).
Proof.
  intros max. induction evs as [|e es IH]; intros cur out Hok; cbn [run_events map cli_events fst snd stat_of].
  - rewrite app_nil_r. reflexivity.
  - inversion Hok as [|? ? He Hes]; subst. unfold cli_evstep at 1.
    assert (Ek : rev_of e = if g_err e then (if g_nodata e then ETimeout else if g_eof e then EEof else EFail)
                            else EData (chunk_of (g_read e))) by reflexivity.
    destruct (g_err e) eqn:Ee.
    + rewrite tr_cli_recv_event_equiv. rewrite Ek. destruct (g_nodata e); [apply IH; exact Hes|].
      destruct (g_eof e); cbn [fst snd stat_of]; rewrite app_nil_r; reflexivity.
    + rewrite tr_cli_recv_event_data. rewrite Ek. specialize (He Ee). unfold read_ok in He. destruct (g_read e) as [buffer n] eqn:Er. cbn [fst snd] in *.
      pose proof (tr_cli_recv_chunk_equiv max buffer cur n out (length cur + Z.to_nat n + 2)%nat He ltac:(lia)) as S.
      unfold chunk_sim in S. rewrite S. change (chunk_of (buffer, n)) with (firstn (Z.to_nat n) buffer).
      destruct (drain' max (cur ++ firstn (Z.to_nat n) buffer)) as [ps [cur'|]]; cbn [chunk_res fst snd stat_of]; [|reflexivity].
      rewrite (IH cur' (out ++ ps) Hes). destruct (cli_events max cur' (map rev_of es)) as [ps' r]. cbn [fst snd]. rewrite app_assoc. reflexivity.
Qed.

(* instance: a package split by a timeout between its two halves, then shutdown with an empty buffer (server) *)
Definition ev_data (b : list N) (n : Z) : gev :=
  {| g_read := (b, n); g_err := false; g_nodata := false; g_eof := false; g_operr := false; g_closed := 0;
     g_num_invoke := 0; g_idle_time := 100; g_idle_timeout := 600000000000; g_now := 100 |}.
Definition ev_timeout (closed : Z) : gev :=
  {| g_read := ([], 0); g_err := true; g_nodata := true; g_eof := false; g_operr := false; g_closed := closed;
     g_num_invoke := 0; g_idle_time := 100; g_idle_timeout := 600000000000; g_now := 100 |}.
Example srv_events_ex :
  run_events srv_evstep tr_srv_recv_chunk 10485760 [] [ev_data [0; 0; 0; 6; 7]%N 5; ev_timeout 1; ev_data [8; 9; 9]%N 1; ev_timeout 1] []
  = ([[0; 0; 0; 6; 7; 8]%N], Left).
Proof. vm_compute. reflexivity. Qed.
